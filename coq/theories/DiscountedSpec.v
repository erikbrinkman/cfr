(** * DiscountedSpec: the cumulative regrets of the unsampled solve for a params tuple that
    discounts them by sign — [pf t] for positive entries, [nf t] for negative ones
    ([discount_cum_regret]).  This covers the presets [p_cfr_plus] ([pf = 1], [nf = 0]),
    [p_dcfr] and [p_dcfr_prune] ([pf t = t^1.5 / (t^1.5 + 1)], [nf t = 1/2] resp.
    [sqrt t / (sqrt t + 1)]).

    [sregret_at_S] : [cum_regret_{k+1}(I,a) = fdisc (k+1) (cum_regret_k(I,a) + r_k(I,a))].

    Everything is about the real-number instance [RNum]. *)
From Coq Require Import Reals List Lra Lia Bool Arith NArith.
From Cfr.theories Require Import Num RInst Tree GameWF Strat Eval Solve Valid
     SolveValidProofs RulesProofs CfrSpec LcfrSpec.
Import ListNotations.
Open Scope R_scope.

Local Notation params := (@params RNum).

Definition fdisc (p : params) (t : nat) (r : R) : R :=
  if Rlt_dec 0 r then r * @gen_discount RNum (N.of_nat t) (a_pos p)
  else if Rlt_dec r 0 then r * @gen_discount RNum (N.of_nat t) (a_neg p)
       else r.

Lemma fdisc_0 p t : fdisc p t 0 = 0.
Proof. unfold fdisc. destruct (Rlt_dec 0 0); [lra|]. destruct (Rlt_dec 0 0); [lra|reflexivity]. Qed.

Lemma nth_map_fdisc p t (l : list R) a : nth a (map (fdisc p t) l) 0 = fdisc p t (nth a l 0).
Proof.
  transitivity (nth a (map (fdisc p t) l) (fdisc p t 0)); [now rewrite fdisc_0|apply map_nth].
Qed.

Lemma sregret_at_S (g : @game RNum) (draw : @oracle RNum) (p : params) k pl i a :
  arities_pos g -> (i < ninfos g pl)%nat -> (a < arity g pl i)%nat ->
  dregret_at g draw p (S k) pl i a =
  fdisc p (S k) (dregret_at g draw p k pl i a + dinc g draw p k pl i a).
Proof.
  intros Hpos Hi Ha. unfold dregret_at at 1.
  destruct (dstate_at_S_cum g draw p Hpos k pl i Hi) as [E _].
  rewrite E, discount_cum_regret_spec, (nth_map_fdisc p (S k)). f_equal. now apply dmid_regret.
Qed.
