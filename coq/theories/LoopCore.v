(** * LoopCore: the iteration loop ([solve_loop] / [solve_single]) and early termination,
    for every number type.

    Property C09 is about the structure of the loop only: a thresholded run is the
    unthresholded run cut at the first iteration after which the test fires; a test that
    never fires never shortens a run; the budget is never exceeded.  So it is proved for an
    arbitrary [NN : Num] and an arbitrary test [stop : T NN -> bool] on the total bound
    [fmax NN b1 b2], with no assumption on the arithmetic.

    [LoopProofs.v] (at [RNum], no prefix) and [LoopGeneric.v] (every [Num], prefix [G]; at
    [FNum], prefix [F]) define the same notions under their own names; each is convertible
    to the one here (prefix [L]), and their theorems are the ones here, by [exact]. *)
From Coq Require Import List NArith Bool Arith Lia.
From Cfr.theories Require Import Num Tree Strat Eval Solve.
Import ListNotations.

(** bounded search: the least [k] in [t+1 .. t+rem] with [f k = true], or [t+rem] *)
Fixpoint Lfirst_fire (f : nat -> bool) (rem t : nat) : nat :=
  match rem with
  | O => t
  | S r => if f (S t) then S t else Lfirst_fire f r (S t)
  end.

Lemma Lfirst_fire_spec f rem t :
  let k := Lfirst_fire f rem t in
  (t <= k <= t + rem)%nat /\ ((1 <= rem)%nat -> (t < k)%nat) /\
  (forall j, (t < j < k)%nat -> f j = false) /\
  ((k < t + rem)%nat -> f k = true).
Proof.
  revert t; induction rem as [|r IH]; intros t; cbn [Lfirst_fire].
  - cbv zeta. split; [lia|]. split; [lia|]. split; [intros j Hj; lia|lia].
  - destruct (f (S t)) eqn:E; cbv zeta.
    + split; [lia|]. split; [lia|]. split; [intros j Hj; lia|intros _; exact E].
    + specialize (IH (S t)). cbv zeta in IH. destruct IH as (H1 & H2 & H3 & H4).
      split; [lia|]. split; [lia|]. split.
      * intros j Hj. destruct (Nat.eq_dec j (S t)) as [->|Hne]; [exact E|]. apply H3; lia.
      * intros Hk. apply H4; lia.
Qed.

Lemma Lfirst_fire_ext f f' rem t :
  (forall k, (t < k)%nat -> f k = f' k) -> Lfirst_fire f rem t = Lfirst_fire f' rem t.
Proof.
  revert t; induction rem as [|r IH]; intros t H; cbn [Lfirst_fire]; [reflexivity|].
  rewrite (H (S t)) by lia. destruct (f' (S t)); [reflexivity|]. apply IH. intros k Hk; apply H; lia.
Qed.

Lemma Lfirst_fire_shift f f' rem t :
  (forall k, (t < k)%nat -> f (S k) = f' k) ->
  Lfirst_fire f rem (S t) = S (Lfirst_fire f' rem t).
Proof.
  revert t; induction rem as [|r IH]; intros t H; cbn [Lfirst_fire]; [reflexivity|].
  rewrite (H (S t)) by lia. destruct (f' (S t)); [reflexivity|]. apply IH. intros k Hk; apply H; lia.
Qed.

Lemma Lfirst_fire_least f rem t j :
  (t < j <= t + rem)%nat -> f j = true ->
  (Lfirst_fire f rem t <= j)%nat /\ f (Lfirst_fire f rem t) = true.
Proof.
  revert t; induction rem as [|r IH]; intros t Hj Hf; cbn [Lfirst_fire]; [lia|].
  destruct (f (S t)) eqn:E; [split; [lia|exact E]|].
  apply IH; [|exact Hf]. destruct (Nat.eq_dec j (S t)) as [->|Hne]; [congruence|lia].
Qed.

Lemma Lfirst_fire_none f rem t :
  (forall j, (t < j <= t + rem)%nat -> f j = false) -> Lfirst_fire f rem t = (t + rem)%nat.
Proof.
  revert t; induction rem as [|r IH]; intros t H; cbn [Lfirst_fire]; [lia|].
  rewrite (H (S t)) by lia. rewrite IH; [lia|]. intros j Hj; apply H; lia.
Qed.

Section Core.
  Context {NN : Num}.
  Local Notation T := (T NN).

  Definition Lnever : T -> bool := fun _ => false.

  Definition Lregs_bound (regs : option (T * T)) : option T :=
    match regs with Some (b1, b2) => Some (fmax NN b1 b2) | None => None end.

  (** before the first iteration there is no bound, and the test does not fire *)
  Definition Lfires (stop : T -> bool) (ob : option T) : bool :=
    match ob with Some b => stop b | None => false end.

  Section Loop.
    Context (g : @game NN) (m : method) (draw : @oracle NN) (p : @params NN).

    Local Notation loop := (@solve_loop NN g m draw p).
    Local Notation iter := (@one_iter NN g m draw p).
    Local Notation pstate := (@pstate NN).

    Lemma Lloop_S (stop : T -> bool) r it (st : pstate) regs ran :
      loop stop (S r) it st regs ran =
      let '(st', (r1, r2)) := iter it st in
      if stop (fmax NN r1 r2) then (st', Some (r1, r2), it)
      else loop stop r (it + 1)%N st' (Some (r1, r2)) it.
    Proof. reflexivity. Qed.

    Lemma Lloop_ext (stop stop' : T -> bool) rem it (st : pstate) regs ran :
      (forall b, stop b = stop' b) ->
      loop stop rem it st regs ran = loop stop' rem it st regs ran.
    Proof.
      intros Hs. revert it st regs ran; induction rem as [|r IH]; intros it st regs ran; [reflexivity|].
      rewrite !Lloop_S. destruct (iter it st) as [st' [r1 r2]].
      rewrite Hs. destruct (stop' (fmax NN r1 r2)); [reflexivity|apply IH].
    Qed.

    (** The induction over the loop: [I j s] is an invariant of the state [s] in which
        iteration [j] starts, [Q j r1 r2] a property of the bounds iteration [j] returns. *)
    Lemma Lloop_inv (I : N -> pstate -> Prop) (Q : N -> T -> T -> Prop)
          (stop : T -> bool) rem it (st : pstate) regs ran st' regs' ran' :
      (forall j s s1 r1 r2, (it <= j < it + N.of_nat rem)%N -> I j s ->
                            iter j s = (s1, (r1, r2)) -> I (j + 1)%N s1 /\ Q j r1 r2) ->
      I it st ->
      loop stop rem it st regs ran = (st', regs', ran') ->
      (rem = 0%nat /\ st' = st /\ regs' = regs /\ ran' = ran) \/
      (exists b1 b2, regs' = Some (b1, b2) /\ (it <= ran' < it + N.of_nat rem)%N /\
                     I (ran' + 1)%N st' /\ Q ran' b1 b2 /\
                     ((ran' + 1 < it + N.of_nat rem)%N -> stop (fmax NN b1 b2) = true)).
    Proof.
      revert it st regs ran; induction rem as [|r IH]; intros it st regs ran Hstep HI H.
      - left. injection H as <- <- <-. auto.
      - right. rewrite Lloop_S in H. destruct (iter it st) as [s1 [r1 r2]] eqn:E.
        destruct (Hstep it st s1 r1 r2 ltac:(lia) HI E) as [HI1 HQ].
        destruct (stop (fmax NN r1 r2)) eqn:Es.
        + injection H as <- <- <-. exists r1, r2. repeat split; auto; lia.
        + apply IH in H; [|intros j s s2 c1 c2 Hj; apply Hstep; lia|exact HI1].
          destruct H as [(-> & -> & -> & ->)|(b1 & b2 & -> & Hr & HI' & HQ' & Hs)].
          * exists r1, r2. repeat split; auto; lia.
          * exists b1, b2. repeat split; auto; try lia. intros Hlt. apply Hs; lia.
    Qed.

    Lemma Lloop_never_ran k it (st : pstate) regs ran :
      snd (loop Lnever k it st regs ran) =
      match k with O => ran | S _ => (it + N.of_nat k - 1)%N end.
    Proof.
      destruct (loop Lnever k it st regs ran) as [[st' regs'] ran'] eqn:E.
      apply (Lloop_inv (fun _ _ => True) (fun _ _ _ => True)) in E; [|auto|exact Logic.I].
      destruct E as [(-> & _ & _ & ->)|(b1 & b2 & _ & Hr & _ & _ & Hs)]; [reflexivity|].
      cbn [snd]. destruct k; [lia|].
      destruct (N.lt_ge_cases (ran' + 1) (it + N.of_nat (S k))) as [Hlt|]; [discriminate (Hs Hlt)|lia].
    Qed.

    Definition Lbound_from (it : N) (st : pstate) (k : nat) : option T :=
      Lregs_bound (snd (fst (loop Lnever k it st None 0%N))).

    (** a thresholded run is the unthresholded run cut at the first
        iteration at which the test fires *)
    Lemma Lloop_stop_never (stop : T -> bool) rem it (st : pstate) regs ran :
      loop stop rem it st regs ran =
      loop Lnever (Lfirst_fire (fun k => Lfires stop (Lbound_from it st k)) rem 0) it st regs ran.
    Proof.
      revert it st regs ran; induction rem as [|r IH]; intros it st regs ran; [reflexivity|].
      cbn [Lfirst_fire].
      assert (Hb1 : Lbound_from it st 1 =
                    let '(_, (r1, r2)) := iter it st in Some (fmax NN r1 r2)).
      { unfold Lbound_from. rewrite Lloop_S. destruct (iter it st) as [st' [r1 r2]]. reflexivity. }
      rewrite Hb1, Lloop_S.
      destruct (iter it st) as [st' [r1 r2]] eqn:E. cbn [Lfires].
      destruct (stop (fmax NN r1 r2)) eqn:Es.
      - rewrite Lloop_S, E. reflexivity.
      - rewrite (Lfirst_fire_shift _ (fun k => Lfires stop (Lbound_from (it + 1)%N st' k))).
        + rewrite Lloop_S, E. apply IH.
        + (* the bound after [S k] iterations from [it] is the bound after [k]
             from [it + 1]: once an iteration has run, the initial [regs] and
             [ran] are forgotten *)
          intros k Hk. unfold Lbound_from. rewrite Lloop_S, E.
          destruct k; [lia|reflexivity].
    Qed.
  End Loop.

  Definition Lbound_at (g : @game NN) (m : method) (draw : @oracle NN) (p : @params NN)
             (t : nat) : option T :=
    Lregs_bound (snd (fst (@solve_single NN g m draw p t Lnever))).

  (** the first iteration in [1..N] after which the test fires on the unthresholded
      trajectory, or [N] *)
  Definition Ltstar (g : @game NN) (m : method) (draw : @oracle NN) (p : @params NN)
             (stop : T -> bool) (N : nat) : nat :=
    Lfirst_fire (fun t => Lfires stop (Lbound_at g m draw p t)) N 0.

  Section Single.
    Context (g : @game NN) (m : method) (draw : @oracle NN) (p : @params NN).

    Lemma Lsolve_single_loop budget (stop : T -> bool) :
      @solve_single NN g m draw p budget stop =
      let '(st, regs, ran) := @solve_loop NN g m draw p stop budget 1%N (init_state g) None 0%N in
      (final_strats st, regs, ran).
    Proof. reflexivity. Qed.

    Lemma Lbound_at_from t : Lbound_at g m draw p t = Lbound_from g m draw p 1%N (init_state g) t.
    Proof.
      unfold Lbound_at, Lbound_from. rewrite Lsolve_single_loop.
      destruct (solve_loop _ _ _ _ _ _ _ _ _ _) as [[st regs] ran]. reflexivity.
    Qed.

    Lemma Ltstar_spec (stop : T -> bool) N :
      let k := Ltstar g m draw p stop N in
      (k <= N)%nat /\ ((1 <= N)%nat -> (1 <= k)%nat) /\
      (forall j, (1 <= j < k)%nat -> Lfires stop (Lbound_at g m draw p j) = false) /\
      ((k < N)%nat -> Lfires stop (Lbound_at g m draw p k) = true).
    Proof.
      cbv zeta. unfold Ltstar.
      destruct (Lfirst_fire_spec (fun t => Lfires stop (Lbound_at g m draw p t)) N 0)
        as (H1 & H2 & H3 & H4).
      split; [lia|]. split; [intros HN; specialize (H2 HN); lia|]. split.
      - intros j Hj; apply H3; lia.
      - intros Hk; apply H4; lia.
    Qed.

    Lemma Ltstar_least (stop : T -> bool) N j :
      (1 <= j <= N)%nat -> Lfires stop (Lbound_at g m draw p j) = true ->
      (Ltstar g m draw p stop N <= j)%nat /\
      Lfires stop (Lbound_at g m draw p (Ltstar g m draw p stop N)) = true.
    Proof.
      intros Hj Hf. unfold Ltstar.
      apply (Lfirst_fire_least (fun t => Lfires stop (Lbound_at g m draw p t)) N 0 j); [lia|exact Hf].
    Qed.

    Lemma Ltstar_none (stop : T -> bool) N :
      (forall j, (1 <= j <= N)%nat -> Lfires stop (Lbound_at g m draw p j) = false) ->
      Ltstar g m draw p stop N = N.
    Proof.
      intros H. unfold Ltstar. rewrite Lfirst_fire_none; [lia|]. intros j Hj; apply H; lia.
    Qed.

    Lemma Ltstar_ext (stop stop' : T -> bool) N :
      (forall b, stop b = stop' b) -> Ltstar g m draw p stop N = Ltstar g m draw p stop' N.
    Proof.
      intros Hs. unfold Ltstar. apply Lfirst_fire_ext. intros k _.
      destruct (Lbound_at g m draw p k) as [b|]; [apply Hs|reflexivity].
    Qed.

    (** C09.1: a thresholded solve is the unthresholded solve with budget [Ltstar] *)
    Lemma Learly_stop_exact (stop : T -> bool) N :
      @solve_single NN g m draw p N stop =
      @solve_single NN g m draw p (Ltstar g m draw p stop N) Lnever.
    Proof.
      rewrite !Lsolve_single_loop, Lloop_stop_never. unfold Ltstar.
      rewrite (Lfirst_fire_ext _ (fun t => Lfires stop (Lbound_at g m draw p t))); [reflexivity|].
      intros k _. now rewrite Lbound_at_from.
    Qed.

    Lemma Lsolve_single_never_ran k : snd (@solve_single NN g m draw p k Lnever) = N.of_nat k.
    Proof.
      rewrite Lsolve_single_loop.
      pose proof (Lloop_never_ran g m draw p k 1%N (init_state g) None 0%N) as H.
      destruct (solve_loop _ _ _ _ _ _ _ _ _ _) as [[st regs] ran]. cbn [snd] in *.
      rewrite H. destruct k; lia.
    Qed.

    Lemma Learly_stop_ran (stop : T -> bool) N :
      snd (@solve_single NN g m draw p N stop) = N.of_nat (Ltstar g m draw p stop N).
    Proof. rewrite Learly_stop_exact. apply Lsolve_single_never_ran. Qed.

    Lemma Lsolve_single_inv (I : N -> @pstate NN -> Prop) (Q : N -> T -> T -> Prop)
          (stop : T -> bool) N strats regs ran :
      (forall j s s1 r1 r2, (1 <= j <= N.of_nat N)%N -> I j s ->
                            @one_iter NN g m draw p j s = (s1, (r1, r2)) ->
                            I (j + 1)%N s1 /\ Q j r1 r2) ->
      I 1%N (init_state g) ->
      @solve_single NN g m draw p N stop = (strats, regs, ran) ->
      (N = 0%nat /\ regs = None /\ ran = 0%N) \/
      (exists st b1 b2, strats = final_strats st /\ regs = Some (b1, b2) /\
                        (1 <= ran <= N.of_nat N)%N /\ I (ran + 1)%N st /\ Q ran b1 b2 /\
                        ((ran < N.of_nat N)%N -> stop (fmax NN b1 b2) = true)).
    Proof.
      intros Hstep HI. rewrite Lsolve_single_loop.
      destruct (solve_loop _ _ _ _ _ _ _ _ _ _) as [[st regs'] ran'] eqn:E.
      intros H; injection H as <- <- <-.
      apply (Lloop_inv g m draw p I Q) in E; [|intros j s s1 r1 r2 Hj; apply Hstep; lia|exact HI].
      destruct E as [(-> & _ & -> & ->)|(b1 & b2 & -> & Hr & HI' & HQ & Hs)]; [left; auto|right].
      exists st, b1, b2. repeat split; auto; try lia. intros Hlt. apply Hs; lia.
    Qed.

    (** C09.2 *)
    Lemma Lbudget_never_exceeded (stop : T -> bool) N strats regs ran :
      @solve_single NN g m draw p N stop = (strats, regs, ran) ->
      (ran <= N.of_nat N)%N /\
      ((1 <= N)%nat -> (1 <= ran)%N /\ exists b1 b2, regs = Some (b1, b2)) /\
      ((ran < N.of_nat N)%N ->
       exists b1 b2, regs = Some (b1, b2) /\ stop (fmax NN b1 b2) = true).
    Proof.
      intros H.
      apply (Lsolve_single_inv (fun _ _ => True) (fun _ _ _ => True)) in H; [|auto|exact Logic.I].
      destruct H as [(-> & -> & ->)|(st & b1 & b2 & _ & -> & Hr & _ & _ & Hs)].
      - split; [lia|]. split; intros; lia.
      - split; [lia|]. split.
        + intros _. split; [lia|]. exists b1, b2; reflexivity.
        + intros Hlt. exists b1, b2. split; [reflexivity|exact (Hs Hlt)].
    Qed.

    Lemma Lsolve_single_ext (stop stop' : T -> bool) N :
      (forall b, stop b = stop' b) ->
      @solve_single NN g m draw p N stop = @solve_single NN g m draw p N stop'.
    Proof.
      intros Hs. rewrite !Lsolve_single_loop.
      rewrite (Lloop_ext g m draw p stop stop' _ _ _ _ _ Hs). reflexivity.
    Qed.

    Lemma Lnever_fires_never_stops (stop : T -> bool) N :
      (forall j, (1 <= j <= N)%nat -> Lfires stop (Lbound_at g m draw p j) = false) ->
      @solve_single NN g m draw p N stop = @solve_single NN g m draw p N Lnever.
    Proof. intros H. rewrite Learly_stop_exact, Ltstar_none by exact H. reflexivity. Qed.
  End Single.
End Core.
