(** * PresentationProofs2: inserting / removing transparent nodes does not change what
    [from_root] builds (property C12, second part).

    A single-outcome chance node and a single-action decision node are transparent for
    [from_root]: the compact game does not contain them.  [Transparent fr t t'] says that
    [t'] is [t] with such nodes inserted at arbitrary positions (any number, anywhere,
    also above the root and below the leaves).  The map [fr pl name] describes the names
    of the inserted decision nodes of player [pl]: [fr pl name = Some a] means that
    [name] is an inserted name, whose (only) action is [a]; [fr pl name = None] for every
    infoset name that player [pl] uses in [t].  So inserted names are fresh for the
    player, and two inserted nodes sharing a name carry the same action.

    Result: [from_root t'] fails exactly when [from_root t] fails, with the same error;
    otherwise the two compact games have the same root, chance table and infoset
    tables, and the singles tables of [t] are those of [t'] without the inserted names.
    Hence the same evaluations and the same solves. *)
From Coq Require Import Reals List Bool NArith.
From Cfr.theories Require Import Num RInst Tree Eval Solve FromRootProofs PresentationProofs.
Import ListNotations.
Open Scope R_scope.

Local Notation gnodeR := (@gnode RNum).
Local Notation bstR := (@bst RNum).
Local Notation gameR := (@game RNum).

Lemma existsb_filter {A} (p q : A -> bool) (l : list A) :
  (forall x, p x = true -> q x = true) -> existsb p (filter q l) = existsb p l.
Proof.
  intros H. induction l as [|x l IH]; cbn [filter existsb]; [reflexivity|].
  destruct (q x) eqn:Eq; cbn [existsb]; [now rewrite IH|].
  destruct (p x) eqn:Ep; [|exact IH]. apply H in Ep. congruence.
Qed.

Definition lookup_single (info : N) (l : list (N * N)) : option N :=
  match find_index (fun e => N.eqb (fst e) info) l with
  | Some (_, (_, a')) => Some a'
  | None => None
  end.

Lemma lookup_single_cons info x l :
  lookup_single info (x :: l) =
  if N.eqb (fst x) info then Some (snd x) else lookup_single info l.
Proof.
  unfold lookup_single. cbn [find_index]. destruct (N.eqb (fst x) info).
  - destruct x; reflexivity.
  - destruct (find_index _ l) as [[i [n a]]|]; reflexivity.
Qed.

Lemma lookup_single_filter info (q : N * N -> bool) l :
  (forall x, N.eqb (fst x) info = true -> q x = true) ->
  lookup_single info (filter q l) = lookup_single info l.
Proof.
  intros H. induction l as [|x l IH]; cbn [filter]; [reflexivity|].
  rewrite (lookup_single_cons info x l). destruct (q x) eqn:Eq.
  - rewrite lookup_single_cons. now rewrite IH.
  - destruct (N.eqb (fst x) info) eqn:Ep; [|exact IH]. apply H in Ep. congruence.
Qed.

Lemma lookup_single_In info l a : lookup_single info l = Some a -> In (info, a) l.
Proof.
  induction l as [|x l IH]; [discriminate|]. rewrite lookup_single_cons.
  destruct (N.eqb (fst x) info) eqn:E.
  - intros [= <-]. apply N.eqb_eq in E. left. destruct x; cbn [fst snd] in *. now subst.
  - intros H. right. now apply IH.
Qed.

Lemma lookup_single_app_None info l x :
  lookup_single info l = None -> N.eqb (fst x) info = false ->
  lookup_single info (l ++ [x]) = None.
Proof.
  intros H Hx. induction l as [|y l IH]; cbn [app].
  - rewrite lookup_single_cons, Hx. reflexivity.
  - rewrite lookup_single_cons in *. destruct (N.eqb (fst y) info); [discriminate|now apply IH].
Qed.

Lemma enter_single_eq {NN : Num} pl info a (s : @bst NN) :
  enter_single pl info a s =
  if existsb (fun pi => N.eqb (pi_name pi) info) (b_infos s pl)
  then Err ActionsNotEqual
  else match lookup_single info (b_singles s pl) with
       | Some a' => if N.eqb a' a then Ok (tt, s) else Err ActionsNotEqual
       | None => Ok (tt, set_singles s pl (b_singles s pl ++ [(info, a)]))
       end.
Proof.
  unfold enter_single, lookup_single. destruct (existsb _ _); [reflexivity|].
  destruct (find_index _ _) as [[i [n a']]|]; reflexivity.
Qed.

Section Transp.
  Context (fr : bool -> N -> option N).

  Inductive Transparent : gnodeR -> gnodeR -> Prop :=
  | Tr_Term p : Transparent (@GTerm RNum p) (@GTerm RNum p)
  | Tr_Chance info outs outs' :
      TransparentC outs outs' -> Transparent (@GChance RNum info outs) (@GChance RNum info outs')
  | Tr_Player pl info acts acts' :
      fr pl info = None -> TransparentP acts acts' ->
      Transparent (@GPlayer RNum pl info acts) (@GPlayer RNum pl info acts')
  | Tr_InsChance info w t t' :
      0 < w -> Transparent t t' -> Transparent t (@GChance RNum info [(w, t')])
  | Tr_InsPlayer pl info a t t' :
      fr pl info = Some a -> Transparent t t' -> Transparent t (@GPlayer RNum pl info [(a, t')])
  with TransparentC : list (T RNum * gnodeR) -> list (T RNum * gnodeR) -> Prop :=
  | TrC_nil : TransparentC [] []
  | TrC_cons p t t' r r' :
      Transparent t t' -> TransparentC r r' -> TransparentC ((p, t) :: r) ((p, t') :: r')
  with TransparentP : list (N * gnodeR) -> list (N * gnodeR) -> Prop :=
  | TrP_nil : TransparentP [] []
  | TrP_cons a t t' r r' :
      Transparent t t' -> TransparentP r r' -> TransparentP ((a, t) :: r) ((a, t') :: r').

  Scheme Transparent_mind := Minimality for Transparent Sort Prop
    with TransparentC_mind := Minimality for TransparentC Sort Prop
    with TransparentP_mind := Minimality for TransparentP Sort Prop.
  Combined Scheme Transparent_mutind from Transparent_mind, TransparentC_mind, TransparentP_mind.

  Definition keep (pl : bool) (e : N * N) : bool :=
    match fr pl (fst e) with None => true | Some _ => false end.

  (** beside [l = filter (keep pl) l'], what lets an inserted name pass the checks of
      [enter_single]: its entry carries the action that [fr] gives, and no infoset has its name *)
  Definition SimSingles (pl : bool) (infos : list pinfo) (l l' : list (N * N)) : Prop :=
    l = filter (keep pl) l' /\
    Forall (fun e => forall a, fr pl (fst e) = Some a -> snd e = a) l' /\
    Forall (fun pi => fr pl (pi_name pi) = None) infos.

  Definition Sim (s s' : bstR) : Prop :=
    b_chance s' = b_chance s /\
    (forall pl, b_infos s' pl = b_infos s pl) /\
    (forall pl, SimSingles pl (b_infos s pl) (b_singles s pl) (b_singles s' pl)).

  Lemma Sim_empty : Sim b_empty b_empty.
  Proof.
    split; [reflexivity|]. split; [reflexivity|]. intros pl.
    destruct pl; (split; [reflexivity|split; constructor]).
  Qed.

  Lemma Sim_set_chance s s' l : Sim s s' -> Sim (set_chance s l) (set_chance s' l).
  Proof.
    intros (Hc & Hi & Hs). split; [reflexivity|].
    split; intros q; rewrite !b_infos_set_chance, ?b_singles_set_chance; [apply Hi|apply Hs].
  Qed.

  Lemma Sim_set_infos s s' pl l : Sim s s' ->
    Forall (fun pi => fr pl (pi_name pi) = None) l ->
    Sim (set_infos s pl l) (set_infos s' pl l).
  Proof.
    intros (Hc & Hi & Hs) Hf. split; [now rewrite !b_chance_set_infos|].
    split; intros q; rewrite ?b_singles_set_infos; destruct (bool_cases q pl) as [->| ->];
      rewrite ?b_infos_set_infos_same, ?b_infos_set_infos_other; try reflexivity;
      [apply Hi| |apply Hs].
    destruct (Hs pl) as (H1 & H2 & _). now repeat split.
  Qed.

  Lemma filter_app_one {A} (q : A -> bool) l x :
    filter q (l ++ [x]) = if q x then filter q l ++ [x] else filter q l.
  Proof. rewrite filter_app. cbn [filter]. destruct (q x); [reflexivity|apply app_nil_r]. Qed.

  Lemma Sim_add s s' pl info a : Sim s s' ->
    (forall a0, fr pl info = Some a0 -> a = a0) ->
    Sim (set_singles s pl (if keep pl (info, a) then b_singles s pl ++ [(info, a)]
                           else b_singles s pl))
        (set_singles s' pl (b_singles s' pl ++ [(info, a)])).
  Proof.
    intros (Hc & Hi & Hs) Hf. split; [now rewrite !b_chance_set_singles|].
    split; intros q; rewrite !b_infos_set_singles; [apply Hi|].
    destruct (bool_cases q pl) as [->| ->];
      rewrite ?b_singles_set_singles_same, ?b_singles_set_singles_other; [|apply Hs].
    destruct (Hs pl) as (H1 & H2 & H3). split; [now rewrite filter_app_one, <- H1|].
    split; [|exact H3]. apply Forall_app. split; [exact H2|]. now repeat constructor.
  Qed.

  Lemma keep_of_name pl info : fr pl info = None ->
    forall x : N * N, N.eqb (fst x) info = true -> keep pl x = true.
  Proof. intros Hf x Hx. apply N.eqb_eq in Hx. unfold keep. now rewrite Hx, Hf. Qed.

  Lemma Sim_existsb_single s s' pl info : Sim s s' -> fr pl info = None ->
    existsb (fun e => N.eqb (fst e) info) (b_singles s' pl) =
    existsb (fun e => N.eqb (fst e) info) (b_singles s pl).
  Proof.
    intros (_ & _ & Hs) Hf. destruct (Hs pl) as (H1 & _). rewrite H1.
    symmetry. apply existsb_filter. now apply keep_of_name.
  Qed.

  Lemma Sim_enter_single s s' pl info a : Sim s s' -> fr pl info = None ->
    rel_res Sim (enter_single pl info a s) (enter_single pl info a s').
  Proof.
    intros HS Hf. pose proof HS as (_ & Hi & Hs). destruct (Hs pl) as (H1 & _).
    rewrite !enter_single_eq, Hi, H1, (lookup_single_filter info (keep pl)) by now apply keep_of_name.
    destruct (existsb _ (b_infos s pl)); [reflexivity|]. rewrite <- H1.
    destruct (lookup_single info (b_singles s' pl)) as [a'|].
    - destruct (N.eqb a' a); [now apply rel_ok|reflexivity].
    - apply rel_ok. pose proof (Sim_add s s' pl info a HS) as H.
      unfold keep in H. cbn [fst] in H. rewrite Hf in H. apply H. congruence.
  Qed.

  Lemma Sim_enter_fresh s s' pl info a : Sim s s' -> fr pl info = Some a ->
    exists s0', enter_single pl info a s' = Ok (tt, s0') /\ Sim s s0'.
  Proof.
    intros HS Hf. pose proof HS as (_ & Hi & Hs). destruct (Hs pl) as (_ & H2 & H3).
    rewrite enter_single_eq, Hi.
    destruct (existsb _ (b_infos s pl)) eqn:E.
    { apply existsb_exists in E as (pi & Hin & Hn). apply N.eqb_eq in Hn.
      rewrite Forall_forall in H3. specialize (H3 pi Hin). congruence. }
    destruct (lookup_single info (b_singles s' pl)) as [a'|] eqn:El.
    - apply lookup_single_In in El. rewrite Forall_forall in H2.
      rewrite (H2 _ El a Hf : a' = a), N.eqb_refl. exists s'; auto.
    - eexists. split; [reflexivity|]. pose proof (Sim_add s s' pl info a HS) as H.
      unfold keep in H. cbn [fst] in H. rewrite Hf in H.
      replace (set_singles s pl (b_singles s pl)) with s in H by (destruct s, pl; reflexivity).
      apply H. congruence.
  Qed.

  Lemma Sim_found_info prev pl info actions s s' : Sim s s' -> fr pl info = None ->
    rel_res Sim (found_info prev pl info actions s) (found_info prev pl info actions s').
  Proof.
    intros HS Hf. unfold found_info. pose proof HS as (_ & Hi & Hs). rewrite Hi.
    destruct (find_index _ (b_infos s pl)) as [[ind pi]|].
    - destruct (negb (list_eqb N.eqb (pi_actions pi) actions)); [reflexivity|].
      destruct (negb (prev_eqb (pi_prev pi) (get_prev prev pl))); [reflexivity|].
      now apply rel_ok.
    - destruct (nodupb actions); [|reflexivity].
      apply rel_ok, Sim_set_infos; [exact HS|]. apply Forall_app. split; [apply (Hs pl)|].
      constructor; [exact Hf|constructor].
  Qed.

  Lemma Sim_finishC info pr ks s s' : Sim s s' ->
    rel_res Sim (@finishC RNum info pr ks s) (@finishC RNum info pr ks s').
  Proof.
    intros HS. unfold finishC. pose proof HS as (Hc & _ & _).
    destruct ks as [|k [|k2 ks]]; [reflexivity|now apply rel_ok|].
    rewrite Hc. destruct info as [k0|]; [|now apply rel_ok, Sim_set_chance].
    destruct (find_index (opt_key_eqb k0) (b_chance s)) as [[ind [o old]]|];
      [|now apply rel_ok, Sim_set_chance].
    destruct (list_eqb (eqb RNum) old (normalise pr)); [now apply rel_ok|reflexivity].
  Qed.

  Lemma transparent_all :
    (forall t t', Transparent t t' -> rel_init Sim t t') /\
    (forall outs outs', TransparentC outs outs' ->
       Forall2 (fun x y => fst y = fst x /\ rel_init Sim (snd x) (snd y)) outs outs') /\
    (forall acts acts', TransparentP acts acts' ->
       Forall2 (fun x y => fst y = fst x /\ rel_init Sim (snd x) (snd y)) acts acts').
  Proof.
    apply Transparent_mutind.
    - apply init_GTerm_rel.
    - intros info outs outs' _ IH prev s s' HS.
      apply (@init_GChance_rel RNum Sim (fun w => w)) with (2 := IH); [reflexivity| |exact HS].
      intros ks s1 s1' H1. rewrite map_id. now apply Sim_finishC.
    - intros pl info acts acts' Hf _ IH prev s s' HS.
      apply (init_GPlayer_rel Sim (fun a => a)) with (1 := IH).
      + intros a. now apply Sim_enter_single.
      + now apply Sim_existsb_single.
      + intros l. rewrite map_id. now apply Sim_found_info.
    - intros info w t t' Hw _ IH prev s s' HS.
      rewrite (@init_chance_one RNum); [now apply IH|now apply wok_pos].
    - intros pl info a t t' Hf _ IH prev s s' HS. rewrite init_single.
      destruct (Sim_enter_fresh s s' pl info a HS Hf) as (s0' & -> & H0). now apply IH.
    - constructor.
    - intros p t t' r r' _ IHt _ IHr. constructor; [split; [reflexivity|exact IHt]|exact IHr].
    - constructor.
    - intros a t t' r r' _ IHt _ IHr. constructor; [split; [reflexivity|exact IHt]|exact IHr].
  Qed.
End Transp.

Definition same_but_singles (fr : bool -> N -> option N) (g g' : gameR) : Prop :=
  g_root g' = g_root g /\ g_chance g' = g_chance g /\
  g_infos1 g' = g_infos1 g /\ g_infos2 g' = g_infos2 g /\
  g_singles1 g = filter (keep fr true) (g_singles1 g') /\
  g_singles2 g = filter (keep fr false) (g_singles2 g').

Theorem transparent_init fr t t' : Transparent fr t t' -> rel_init (Sim fr) t t'.
Proof. apply (proj1 (transparent_all fr)). Qed.

Theorem transparent_from_root fr t t' : Transparent fr t t' ->
  match @from_root RNum t with
  | Ok g => exists g', @from_root RNum t' = Ok g' /\ same_but_singles fr g g'
  | Err e => @from_root RNum t' = Err e
  end.
Proof.
  intros H. pose proof (transparent_init fr t t' H (None, None) b_empty b_empty (Sim_empty fr)) as HR.
  unfold from_root, rel_res in *.
  destruct (@init RNum t (None, None) b_empty) as [[root s]|e].
  - destruct HR as (s' & -> & (Hc & Hi & Hs)). eexists. split; [reflexivity|].
    pose proof (Hi true) as Hi1. pose proof (Hi false) as Hi2.
    destruct (Hs true) as (Hs1 & _). destruct (Hs false) as (Hs2 & _).
    cbn [b_infos b_singles] in *.
    unfold same_but_singles.
    cbn [g_root g_chance g_infos1 g_infos2 g_singles1 g_singles2].
    rewrite Hc. repeat split; assumption.
  - rewrite HR. reflexivity.
Qed.

Corollary transparent_from_root_ok fr t t' g : Transparent fr t t' ->
  @from_root RNum t = Ok g ->
  exists g', @from_root RNum t' = Ok g' /\ g_root g' = g_root g /\ g_chance g' = g_chance g /\
             g_infos1 g' = g_infos1 g /\ g_infos2 g' = g_infos2 g.
Proof.
  intros H Hg. pose proof (transparent_from_root fr t t' H) as HR. rewrite Hg in HR.
  destruct HR as (g' & Hg' & Hr & Hc & H1 & H2 & _). exists g'. repeat split; assumption.
Qed.

Corollary transparent_from_root_err fr t t' e : Transparent fr t t' ->
  @from_root RNum t = Err e -> @from_root RNum t' = Err e.
Proof.
  intros H Hg. pose proof (transparent_from_root fr t t' H) as HR. now rewrite Hg in HR.
Qed.

(** removal: the same two statements read from [t'] to [t] *)
Corollary transparent_from_root_ok_inv fr t t' g' : Transparent fr t t' ->
  @from_root RNum t' = Ok g' ->
  exists g, @from_root RNum t = Ok g /\ same_but_singles fr g g'.
Proof.
  intros H Hg'. pose proof (transparent_from_root fr t t' H) as HR.
  destruct (@from_root RNum t) as [g|e].
  - destruct HR as (g2 & Hg2 & HS). rewrite Hg' in Hg2. injection Hg2 as <-.
    exists g. split; [reflexivity|exact HS].
  - rewrite Hg' in HR. discriminate.
Qed.

Corollary transparent_from_root_err_inv fr t t' e : Transparent fr t t' ->
  @from_root RNum t' = Err e -> @from_root RNum t = Err e.
Proof.
  intros H Hg'. pose proof (transparent_from_root fr t t' H) as HR.
  destruct (@from_root RNum t) as [g|e0].
  - destruct HR as (g2 & Hg2 & _). rewrite Hg' in Hg2. discriminate.
  - rewrite Hg' in HR. injection HR as ->. reflexivity.
Qed.

Lemma same_but_singles_core fr g g' : same_but_singles fr g g' -> same_core g g'.
Proof. intros (Hr & Hc & H1 & H2 & _). now apply same_core_of_infos. Qed.

Corollary transparent_info fr t t' g : Transparent fr t t' -> @from_root RNum t = Ok g ->
  exists g', @from_root RNum t' = Ok g' /\
             forall prof, @info RNum g' prof = @info RNum g prof.
Proof.
  intros H Hg. pose proof (transparent_from_root fr t t' H) as HR. rewrite Hg in HR.
  destruct HR as (g' & Hg' & HS). exists g'. split; [exact Hg'|].
  apply info_core. now apply (same_but_singles_core fr).
Qed.

Corollary transparent_solve fr t t' g : Transparent fr t t' -> @from_root RNum t = Ok g ->
  exists g', @from_root RNum t' = Ok g' /\
             forall m draw p budget stop,
               @solve_single RNum g' m draw p budget stop = @solve_single RNum g m draw p budget stop.
Proof.
  intros H Hg. pose proof (transparent_from_root fr t t' H) as HR. rewrite Hg in HR.
  destruct HR as (g' & Hg' & HS). exists g'. split; [exact Hg'|].
  apply solve_single_core. now apply (same_but_singles_core fr).
Qed.

(** The same result without the auxiliary map [fr].
    [Inserted t t' L]: [t'] is [t] with transparent nodes inserted, and [L] lists the
    (player, infoset name, action) of the inserted decision nodes.  The side conditions
    of the theorem are exactly: the inserted names are not used by that player in [t],
    and two inserted nodes with the same name have the same action. *)
Fixpoint names (pl : bool) (t : gnodeR) : list N :=
  match t with
  | GTerm _ => []
  | GChance _ outs => flat_map (fun o => names pl (snd o)) outs
  | GPlayer pl' info acts =>
      (if Bool.eqb pl' pl then [info] else []) ++ flat_map (fun a => names pl (snd a)) acts
  end.

Inductive Inserted : gnodeR -> gnodeR -> list (bool * N * N) -> Prop :=
| In_Term p : Inserted (@GTerm RNum p) (@GTerm RNum p) []
| In_Chance info outs outs' L :
    InsertedC outs outs' L -> Inserted (@GChance RNum info outs) (@GChance RNum info outs') L
| In_Player pl info acts acts' L :
    InsertedP acts acts' L -> Inserted (@GPlayer RNum pl info acts) (@GPlayer RNum pl info acts') L
| In_InsChance info w t t' L :
    0 < w -> Inserted t t' L -> Inserted t (@GChance RNum info [(w, t')]) L
| In_InsPlayer pl info a t t' L :
    Inserted t t' L -> Inserted t (@GPlayer RNum pl info [(a, t')]) ((pl, info, a) :: L)
with InsertedC : list (T RNum * gnodeR) -> list (T RNum * gnodeR) -> list (bool * N * N) -> Prop :=
| InC_nil : InsertedC [] [] []
| InC_cons p t t' r r' L1 L2 :
    Inserted t t' L1 -> InsertedC r r' L2 -> InsertedC ((p, t) :: r) ((p, t') :: r') (L1 ++ L2)
with InsertedP : list (N * gnodeR) -> list (N * gnodeR) -> list (bool * N * N) -> Prop :=
| InP_nil : InsertedP [] [] []
| InP_cons a t t' r r' L1 L2 :
    Inserted t t' L1 -> InsertedP r r' L2 -> InsertedP ((a, t) :: r) ((a, t') :: r') (L1 ++ L2).

Scheme Inserted_mind := Minimality for Inserted Sort Prop
  with InsertedC_mind := Minimality for InsertedC Sort Prop
  with InsertedP_mind := Minimality for InsertedP Sort Prop.
Combined Scheme Inserted_mutind from Inserted_mind, InsertedC_mind, InsertedP_mind.

Definition fr_ok_names (fr : bool -> N -> option N) (ns : bool -> list N) : Prop :=
  forall pl, Forall (fun n => fr pl n = None) (ns pl).
Definition fr_ok_ins (fr : bool -> N -> option N) (L : list (bool * N * N)) : Prop :=
  Forall (fun '(pl, n, a) => fr pl n = Some a) L.

Lemma fr_ok_names_app fr ns1 ns2 :
  fr_ok_names fr (fun pl => ns1 pl ++ ns2 pl) -> fr_ok_names fr ns1 /\ fr_ok_names fr ns2.
Proof. intros H. split; intros pl; apply (Forall_app _ (ns1 pl) (ns2 pl)), H. Qed.

Lemma inserted_transparent_all :
  (forall t t' L, Inserted t t' L ->
     forall fr, fr_ok_names fr (fun pl => names pl t) -> fr_ok_ins fr L -> Transparent fr t t') /\
  (forall outs outs' L, InsertedC outs outs' L ->
     forall fr, fr_ok_names fr (fun pl => flat_map (fun o => names pl (snd o)) outs) ->
                fr_ok_ins fr L -> TransparentC fr outs outs') /\
  (forall acts acts' L, InsertedP acts acts' L ->
     forall fr, fr_ok_names fr (fun pl => flat_map (fun a => names pl (snd a)) acts) ->
                fr_ok_ins fr L -> TransparentP fr acts acts').
Proof.
  apply Inserted_mutind.
  - intros p fr _ _. constructor.
  - intros info outs outs' L _ IH fr Hn HL. constructor. now apply IH.
  - intros pl info acts acts' L _ IH fr Hn HL. apply fr_ok_names_app in Hn as [Hi Hn].
    constructor; [|now apply IH].
    specialize (Hi pl). cbv beta in Hi. rewrite Bool.eqb_reflx in Hi. now inversion Hi.
  - intros info w t t' L Hw _ IH fr Hn HL. constructor; [exact Hw|now apply IH].
  - intros pl info a t t' L _ IH fr Hn HL. inversion HL as [|x L' Hx HL']. subst.
    constructor; [exact Hx|now apply IH].
  - intros fr _ _. constructor.
  - intros p t t' r r' L1 L2 _ IHt _ IHr fr Hn HL.
    apply fr_ok_names_app in Hn as [Hn1 Hn2]. apply Forall_app in HL as [HL1 HL2].
    constructor; [now apply IHt|now apply IHr].
  - intros fr _ _. constructor.
  - intros a t t' r r' L1 L2 _ IHt _ IHr fr Hn HL.
    apply fr_ok_names_app in Hn as [Hn1 Hn2]. apply Forall_app in HL as [HL1 HL2].
    constructor; [now apply IHt|now apply IHr].
Qed.

Definition fr_of (L : list (bool * N * N)) (pl : bool) (n : N) : option N :=
  match find (fun x => Bool.eqb (fst (fst x)) pl && N.eqb (snd (fst x)) n) L with
  | Some x => Some (snd x)
  | None => None
  end.

Definition fresh_for (t : gnodeR) (L : list (bool * N * N)) : Prop :=
  forall pl n a, In (pl, n, a) L -> ~ In n (names pl t).
Definition functional (L : list (bool * N * N)) : Prop :=
  forall pl n a a', In (pl, n, a) L -> In (pl, n, a') L -> a = a'.

Lemma fr_of_find L pl n (x : bool * N * N) :
  find (fun x : bool * N * N => Bool.eqb (fst (fst x)) pl && N.eqb (snd (fst x)) n) L = Some x ->
  In (pl, n, snd x) L.
Proof.
  intros H. apply find_some in H as [Hin Hx]. apply andb_true_iff in Hx as [H1 H2].
  apply eqb_prop in H1. apply N.eqb_eq in H2. destruct x as [[pl' n'] a]. cbn [fst snd] in *.
  now subst.
Qed.

Theorem inserted_transparent t t' L : Inserted t t' L -> fresh_for t L -> functional L ->
  Transparent (fr_of L) t t'.
Proof.
  intros H Hfresh Hfun. apply (proj1 inserted_transparent_all t t' L H).
  - intros pl. apply Forall_forall. intros n Hin.
    unfold fr_of. destruct (find _ L) as [x|] eqn:E; [|reflexivity].
    apply fr_of_find in E. exfalso. exact (Hfresh pl n (snd x) E Hin).
  - apply Forall_forall. intros [[pl n] a] Hin. unfold fr_of. destruct (find _ L) as [x|] eqn:E.
    + apply fr_of_find in E. f_equal. exact (Hfun pl n (snd x) a E Hin).
    + exfalso. pose proof (find_none _ _ E _ Hin) as Hx. cbn [fst snd] in Hx.
      now rewrite Bool.eqb_reflx, N.eqb_refl in Hx.
Qed.

Theorem inserted_from_root t t' L : Inserted t t' L -> fresh_for t L -> functional L ->
  match @from_root RNum t with
  | Ok g => exists g', @from_root RNum t' = Ok g' /\
                       g_root g' = g_root g /\ g_chance g' = g_chance g /\
                       g_infos1 g' = g_infos1 g /\ g_infos2 g' = g_infos2 g /\
                       (forall prof, @info RNum g' prof = @info RNum g prof) /\
                       (forall m draw p budget stop,
                           @solve_single RNum g' m draw p budget stop =
                           @solve_single RNum g m draw p budget stop)
  | Err e => @from_root RNum t' = Err e
  end.
Proof.
  intros H Hfresh Hfun. pose proof (inserted_transparent t t' L H Hfresh Hfun) as HT.
  pose proof (transparent_from_root _ t t' HT) as HR.
  destruct (@from_root RNum t) as [g|e]; [|exact HR].
  destruct HR as (g' & Hg' & HS). exists g'. split; [exact Hg'|].
  pose proof (same_but_singles_core _ g g' HS) as Hcore.
  destruct HS as (Hr & Hc & H1 & H2 & _). repeat split; try assumption.
  - now apply info_core.
  - intros. now apply solve_single_core.
Qed.
