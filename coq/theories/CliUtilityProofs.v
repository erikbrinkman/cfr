(** * CliUtilityProofs: the [Output] on a game whose payoffs are shifted by a constant
    (the situation of a constant-sum Gambit file, property C15), from the payoff-shift
    theorem of [PayoffShiftBRProofs] (property C12). *)
From Coq Require Import Reals List Lra NArith.
From Cfr.theories Require Import Num RInst Tree GameWF Strat Eval Valid Cli CliProofs
     CliGambitProofs PayoffEvalProofs PayoffShiftBRProofs.
Import ListNotations.
Open Scope R_scope.

Local Notation gameR := (@game RNum).

Lemma game_map_payoffs_shift k (g : gameR) :
  CliGambitProofs.game_map_payoffs (fun x => x - k) g = shift (- k) g.
Proof. apply game_map_payoffs_ext. intros x. lra. Qed.

(** same decision, same profile, same regrets; the utilities move with the payoffs and
    with the constant that is added back *)
Theorem cli_choose_shift k (g : gameR) (s s' clip : R) prof :
  ChanceOK g -> WFgame g -> Valid g prof ->
  let o := @cli_choose RNum (CliGambitProofs.game_map_payoffs (fun x => x - k) g) s clip prof in
  let o' := @cli_choose RNum g s' clip prof in
  o_pruned o = o_pruned o' /\ o_prof o = o_prof o' /\
  o_reg1 o = o_reg1 o' /\ o_reg2 o = o_reg2 o' /\ o_regret o = o_regret o' /\
  o_util1 o = o_util1 o' - k + (s - s') /\ o_util2 o = o_util2 o' + k + (s - s').
Proof.
  intros HC HW HV.
  rewrite game_map_payoffs_shift.
  cbv zeta. unfold cli_choose.
  change (@truncate RNum (shift (- k) g) clip prof) with (@truncate RNum g clip prof).
  rewrite !info_shift_WF by (assumption || now apply truncate_by_valid).
  destruct (@info RNum g prof) as [u0 a0 b0], (@info RNum g (@truncate RNum g clip prof)) as [u1 a1 b1].
  unfold si_regret, si_utility.
  cbn [si_util si_reg1 si_reg2 o_pruned o_prof o_reg1 o_reg2 o_regret o_util1 o_util2
       add neg fmax ltb RNum].
  destruct (Rltb (Rmax a1 b1) (Rmax a0 b0)); cbn [si_util si_reg1 si_reg2];
    repeat split; lra.
Qed.
