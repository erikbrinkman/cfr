(** * ExternalMartingale: over a whole run of the external-sampled solver the sampled regret
    increments are a martingale-difference estimator of the true counterfactual regret
    increments.

    One iteration of the external method makes two passes: player one is active in the
    first (chance draws [d1], actions of player two [e1] drawn from player two's current
    strategies), then player one's infosets are advanced, then player two is active in the
    second pass (chance draws [d2], actions of player one [e2] drawn from player one's
    *new* strategies), then player two's infosets are advanced.  The weights of the draws
    therefore depend on the state: the expectation over a run threads the state
    ([expect_run_ext]).

    - [ext_step]: the model's own [one_iter g External] under the oracle [draw_iter] that
      answers with the four draw vectors of the iteration; [ext_step_eq] exhibits the state
      [ext_mid] between the two passes.
    - [ext_md_step]: conditional on the state at the start of an iteration, the sampled
      increment of the iteration and the true increment (at the strategies in force during
      the pass of the active player) have the same mean.
    - [ext_run_tower]: E[sum_t sampled_t] = E[sum_t true_t] over [n] iterations. *)
From Coq Require Import Reals List Lra Lia Bool Arith NArith.
From Cfr.theories Require Import ListAux RInst Tree GameWF Solve Valid SolveValidProofs Incr
     IterChar CfMass CfrRate ExtIncr ExternalProofs ExternalRate FinExp Unbiased
     ExternalUnbiased SampledMartingale SampledConcentration.
Import ListNotations.
Open Scope R_scope.

Local Notation nodeR := (@node RNum).
Local Notation gameR := (@game RNum).
Local Notation pstateR := (@pstate RNum).
Local Notation paramsR := (@params RNum).
Local Notation oracleR := (@oracle RNum).

Record edraws := mkED { ed_d1 : list nat; ed_e1 : list nat; ed_d2 : list nat; ed_e2 : list nat }.

(** the oracle of iteration [it]: the first pass consults chance with pass index
    [2 (it - 1)] and player two's infosets with [it - 1], the second pass chance with
    [2 (it - 1) + 1] and player one's infosets with [it] *)
Definition draw_iter (noff : nat) (it : N) (x : edraws) : oracleR :=
  fun kind id pass _ =>
    if kind then (if N.eqb pass (2 * (it - 1)) then nth id (ed_d1 x) O else nth id (ed_d2 x) O)
    else (if N.eqb pass (it - 1) then nth (id - noff) (ed_e1 x) O else nth id (ed_e2 x) O).

Definition at_state {A} (F : N -> pstateR -> A) (s : N * pstateR) : A := F (fst s) (snd s).

Section ExtRun.
  Context (g : gameR) (p : paramsR).
  Local Notation noff := (length (g_infos1 g)).
  Local Notation chance := (g_chance g).
  Local Notation root := (g_root g).
  Local Notation IA := (InvA (arities g true) (arities g false)).

  Definition ext_step (it : N) (st : pstateR) (x : edraws) : pstateR :=
    fst (@one_iter RNum g External (draw_iter noff it x) p it st).

  (** the state between the two passes: player one's pass, then [advance] of its infosets *)
  Definition ext_mid (it : N) (st : pstateR) (d1 e1 : list nat) : pstateR :=
    let st1 := snd (@erec RNum chance (draw2 true noff d1 e1) (2 * (it - 1))%N (it - 1)%N noff
                          true root st) in
    (fst (@advance_all RNum p it (it - 1)%N (fst st1) 0), snd st1).

  Lemma ext_step_eq it st x :
    (1 <= it)%N ->
    ext_step it st x =
    let st2 := ext_mid it st (ed_d1 x) (ed_e1 x) in
    let st3 := snd (@erec RNum chance (draw2 false noff (ed_d2 x) (ed_e2 x)) (2 * (it - 1) + 1)%N it
                          noff false root st2) in
    (fst st3, fst (@advance_all RNum p it it (snd st3) 0)).
  Proof.
    intros Hit. unfold ext_step, ext_mid. cbn [one_iter]. rewrite external_iter_eq. cbv zeta.
    cbn [fst].
    rewrite (one_draw_per_cell chance (draw_iter noff it x) (draw2 true noff (ed_d1 x) (ed_e1 x))
                               (2 * (it - 1))%N (it - 1)%N noff true root st).
    2:{ intros ci. unfold draw_iter, draw2. now rewrite N.eqb_refl. }
    2:{ intros pl i. unfold draw_iter, draw2. now rewrite N.eqb_refl. }
    set (st2 := (fst (advance_all _ _ _ _ _), snd (snd (erec _ _ _ _ _ true _ _)))).
    rewrite (one_draw_per_cell chance (draw_iter noff it x) (draw2 false noff (ed_d2 x) (ed_e2 x))
                               (2 * (it - 1) + 1)%N it noff false root st2).
    - reflexivity.
    - intros ci. unfold draw_iter, draw2.
      destruct (N.eqb_spec (2 * (it - 1) + 1) (2 * (it - 1))) as [E|_]; [lia|reflexivity].
    - intros pl i. unfold draw_iter, draw2.
      destruct (N.eqb_spec it (it - 1)) as [E|_]; [lia|]. now rewrite Nat.sub_0_r.
  Qed.

  Lemma ext_step_inv it st x : IA st -> IA (ext_step it st x).
  Proof. intros H. exact (one_iter_inv _ _ g External _ p it st H). Qed.

  Lemma ext_mid_inv it st d1 e1 : IA st -> IA (ext_mid it st d1 e1).
  Proof.
    intros H. unfold ext_mid. cbv zeta.
    pose proof (erec_inv _ _ chance (draw2 true noff d1 e1) (2 * (it - 1))%N (it - 1)%N noff true
                         root st H) as [H1 H2].
    split; cbn [fst snd]; [now apply advance_all_inv|assumption].
  Qed.

  Definition ext_pass_inc (me : bool) (i a : nat) (cpass ppass : N) (st : pstateR)
             (d e : list nat) : R :=
    reg_sum me i a (map tr (eincs chance (draw2 me noff d e) cpass ppass noff me (strat_view st) root)).

  Lemma ext_pass_inc_spec me i a cpass ppass st d e :
    (a < length (cum_regret (@ri_get RNum st me i)))%nat ->
    nth a (cum_regret (@ri_get RNum
       (snd (@erec RNum chance (draw2 me noff d e) cpass ppass noff me root st)) me i)) 0 =
    nth a (cum_regret (@ri_get RNum st me i)) 0 + ext_pass_inc me i a cpass ppass st d e.
  Proof.
    intros Ha. rewrite erec_incs. cbn [snd]. rewrite e_fold_tr.
    now rewrite fold_incr_regret_nth.
  Qed.

  (** the state whose strategies are in force during the pass of player [me] *)
  Definition ext_state_of (me : bool) (it : N) (st : pstateR) (x : edraws) : pstateR :=
    if me then st else ext_mid it st (ed_d1 x) (ed_e1 x).

  Definition ext_sampled_inc (me : bool) (i a : nat) (it : N) (st : pstateR) (x : edraws) : R :=
    if me then ext_pass_inc true i a (2 * (it - 1))%N (it - 1)%N st (ed_d1 x) (ed_e1 x)
    else ext_pass_inc false i a (2 * (it - 1) + 1)%N it (ext_mid it st (ed_d1 x) (ed_e1 x))
                      (ed_d2 x) (ed_e2 x).

  Definition ext_true_inc (me : bool) (i a : nat) (it : N) (st : pstateR) (x : edraws) : R :=
    cfr_inc chance (strat_view (ext_state_of me it st x)) me i a root 1 1 1.

  Definition prows (st : pstateR) (pl : bool) : list (list R) :=
    map (strat_view st pl) (seq 0 (length (g_infos g pl))).

  Lemma prows_length st pl : length (prows st pl) = length (g_infos g pl).
  Proof. unfold prows. now rewrite map_length, seq_length. Qed.

  Lemma prows_nth st pl j d :
    (j < length (g_infos g pl))%nat -> nth j (prows st pl) d = strat_view st pl j.
  Proof.
    intros Hj. unfold prows. rewrite (nth_map_lt _ _ _ O) by now rewrite seq_length.
    now rewrite seq_nth.
  Qed.

  Lemma ext_state_of_inv me it st x : IA st -> IA (ext_state_of me it st x).
  Proof. intros HI. destruct me; [exact HI|now apply ext_mid_inv]. Qed.

  Definition expect_iter (it : N) (st : pstateR) (f : edraws -> R) : R :=
    expect (prows st false) (fun e1 =>
      expect chance (fun d1 =>
        expect (prows (ext_mid it st d1 e1) true) (fun e2 =>
          expect chance (fun d2 => f (mkED d1 e1 d2 e2))))).

  Lemma Lin_expect_iter it st : Lin (expect_iter it st).
  Proof.
    unfold expect_iter.
    apply Lin_comp; [apply Lin_expect|intros e1]. apply Lin_comp; [apply Lin_expect|intros d1].
    apply Lin_comp; [apply Lin_expect|intros e2]. apply Lin_map, Lin_expect.
  Qed.

  Context (HWF : WFgame g) (HPR : PerfectRecall g) (HCO : ChanceOK g) (HNR : NoRepeat root).

  Lemma prows_sums st pl : IA st -> Forall (fun r => Rsum r = 1) (prows st pl).
  Proof.
    intros HI. unfold prows. apply Forall_forall. intros r Hr.
    apply in_map_iff in Hr as (j & <- & Hj). apply in_seq in Hj.
    apply Inv_strat_sum; [eapply Inv_of_InvA; eauto|].
    rewrite (IA_len g st pl HI). unfold NI. lia.
  Qed.

  Lemma prows_nonneg st pl : IA st -> Forall (Forall (fun x => 0 <= x)) (prows st pl).
  Proof.
    intros HI. unfold prows. apply Forall_forall. intros r Hr.
    apply in_map_iff in Hr as (j & <- & _).
    exact (proj1 (Inv_rows st (Inv_of_InvA _ _ _ HI) pl j)).
  Qed.

  (** the draws of one iteration that carry weight: every draw is an index into its row *)
  Local Notation iter_draws_in :=
    (fun (it : N) (st : pstateR) (x : edraws) =>
       draw_in (prows st false) (ed_e1 x) /\ draw_in chance (ed_d1 x) /\
       draw_in (prows (ext_mid it st (ed_d1 x) (ed_e1 x)) true) (ed_e2 x) /\
       draw_in chance (ed_d2 x)).

  Lemma Pos_expect_iter it st : IA st -> Pos (expect_iter it st) (iter_draws_in it st).
  Proof.
    intros HI. unfold expect_iter. pose proof (ChanceOK_nonneg g HCO) as Hc.
    apply (Pos_comp (Pos_expect _ (prows_nonneg st false HI))); intros e1 He1.
    apply (Pos_comp (Pos_expect _ Hc)); intros d1 Hd1.
    apply (Pos_comp (Pos_expect _ (prows_nonneg _ true (ext_mid_inv it st d1 e1 HI))));
      intros e2 He2.
    apply (Pos_map (Pos_expect _ Hc)); intros d2 Hd2. repeat split; assumption.
  Qed.

  Lemma expect_pass_const st pl c :
    IA st -> expect (prows st pl) (fun _ => expect chance (fun _ => c)) = c.
  Proof.
    intros HI. rewrite (E_ext (Lin_expect _) _ (fun _ => c)); [now apply expect_const, prows_sums|].
    intros e. apply expect_const, ChanceOK_sums, HCO.
  Qed.

  Lemma expect_iter_first it st (f : list nat -> list nat -> R) :
    IA st ->
    expect_iter it st (fun x => f (ed_d1 x) (ed_e1 x)) =
    expect (prows st false) (fun e1 => expect chance (fun d1 => f d1 e1)).
  Proof.
    intros HI. apply (E_ext (Lin_expect _)); intros e1. apply (E_ext (Lin_expect _)); intros d1.
    cbn [ed_d1 ed_e1]. apply expect_pass_const, ext_mid_inv, HI.
  Qed.

  Lemma expect_iter_const it st c : IA st -> expect_iter it st (fun _ => c) = c.
  Proof.
    intros HI. rewrite (expect_iter_first it st (fun _ _ => c) HI). now apply expect_pass_const.
  Qed.

  Lemma expect_pass me i a cpass ppass st :
    IA st ->
    expect (prows st (negb me))
           (fun e => expect chance (fun d => ext_pass_inc me i a cpass ppass st d e)) =
    cfr_inc chance (strat_view st) me i a root 1 1 1.
  Proof. intros HI. exact (external_unbiased_game g st me cpass ppass i a HWF HPR HCO HI HNR). Qed.

  Theorem ext_md_step me i a it st :
    IA st ->
    expect_iter it st (ext_sampled_inc me i a it st) = expect_iter it st (ext_true_inc me i a it st).
  Proof.
    intros HI. unfold ext_sampled_inc, ext_true_inc, ext_state_of. destruct me.
    - (* player one: first pass, strategies of [st] *)
      rewrite expect_iter_const by assumption.
      rewrite (expect_iter_first it st (fun d1 e1 => ext_pass_inc true i a _ _ st d1 e1))
        by assumption.
      now apply (expect_pass true).
    - (* player two: second pass, strategies of the state between the passes *)
      apply (E_ext (Lin_expect _)); intros e1. apply (E_ext (Lin_expect _)); intros d1.
      cbn [ed_d1 ed_e1 ed_d2 ed_e2]. pose proof (ext_mid_inv it st d1 e1 HI) as HI2.
      rewrite expect_pass_const by assumption. now apply (expect_pass false).
  Qed.

  Fixpoint expect_run_ext (n : nat) (it : N) (st : pstateR) (f : list edraws -> R) : R :=
    match n with
    | O => f []
    | S n' => expect_iter it st
                (fun x => expect_run_ext n' (it + 1) (ext_step it st x) (fun xs => f (x :: xs)))
    end.

  Lemma Lin_expect_run_ext n : forall it st, Lin (expect_run_ext n it st).
  Proof.
    induction n as [|n IH]; intros it st; [exact (Lin_eval [])|].
    apply (Lin_comp (Lin_expect_iter it st)
                    (fun x f => expect_run_ext n (it + 1) (ext_step it st x) (fun xs => f (x :: xs)))).
    intros x. apply Lin_map, IH.
  Qed.

  (** the run in the sense of [FinExp]: the state is the iteration number with the solver state *)
  Lemma ext_IsRun :
    IsRun (at_state expect_iter) (at_state iter_draws_in)
          (fun s x => ((fst s + 1)%N, ext_step (fst s) (snd s) x)) (fun s => IA (snd s))
          (fun n => at_state (expect_run_ext n)).
  Proof.
    split; try reflexivity.
    - intros [it st]. apply Lin_expect_iter.
    - intros n [it st]. apply Lin_expect_run_ext.
    - intros [it st]. apply Pos_expect_iter.
    - intros [it st] HI. now apply expect_iter_const.
    - intros [it st] x HI _. now apply ext_step_inv.
  Qed.

  Fixpoint ext_run_from (it : N) (st : pstateR) (xs : list edraws) : pstateR :=
    match xs with
    | [] => st
    | x :: xs' => ext_run_from (it + 1) (ext_step it st x) xs'
    end.

  Lemma ext_run_from_inv xs : forall it st, IA st -> IA (ext_run_from it st xs).
  Proof.
    induction xs as [|x xs IH]; intros it st H; cbn [ext_run_from]; [exact H|].
    apply IH. now apply ext_step_inv.
  Qed.

  Fixpoint ext_sampled_sum (me : bool) (i a : nat) (it : N) (st : pstateR) (xs : list edraws) : R :=
    match xs with
    | [] => 0
    | x :: xs' => ext_sampled_inc me i a it st x + ext_sampled_sum me i a (it + 1) (ext_step it st x) xs'
    end.

  Fixpoint ext_true_sum (me : bool) (i a : nat) (it : N) (st : pstateR) (xs : list edraws) : R :=
    match xs with
    | [] => 0
    | x :: xs' => ext_true_inc me i a it st x + ext_true_sum me i a (it + 1) (ext_step it st x) xs'
    end.

  Theorem ext_run_tower_from me i a n : forall it st,
    IA st ->
    expect_run_ext n it st (ext_sampled_sum me i a it st) =
    expect_run_ext n it st (ext_true_sum me i a it st).
  Proof.
    intros it st HI. pose proof (Lin_expect_run_ext n it st) as L.
    apply Rminus_diag_uniq. rewrite <- (E_minus L).
    refine (run_mean_zero ext_IsRun
              (at_state (fun it st x => ext_sampled_inc me i a it st x - ext_true_inc me i a it st x))
              _ (at_state (fun it st xs => ext_sampled_sum me i a it st xs - ext_true_sum me i a it st xs))
              _ n (it, st) HI).
    - intros s Hs. unfold at_state. rewrite (E_minus (Lin_expect_iter _ _)), ext_md_step by assumption.
      lra.
    - split; intros; unfold at_state; cbn [ext_sampled_sum ext_true_sum fst snd]; lra.
  Qed.

  Theorem ext_run_tower me i a n :
    expect_run_ext n 1 (@init_state RNum g) (ext_sampled_sum me i a 1 (@init_state RNum g)) =
    expect_run_ext n 1 (@init_state RNum g) (ext_true_sum me i a 1 (@init_state RNum g)).
  Proof. apply ext_run_tower_from. now apply init_InvA. Qed.
End ExtRun.

(** ** Non-vacuity: matching pennies, two iterations *)
Example mp_ext_run_tower (p : paramsR) me i a :
  expect_run_ext mp_game p 2 1 (@init_state RNum mp_game)
                 (ext_sampled_sum mp_game p me i a 1 (@init_state RNum mp_game)) =
  expect_run_ext mp_game p 2 1 (@init_state RNum mp_game)
                 (ext_true_sum mp_game p me i a 1 (@init_state RNum mp_game)).
Proof. exact (ext_run_tower mp_game p mp_WF mp_PR mp_ChanceOK mp_NoRepeat me i a 2). Qed.

(** ** The statements that [Properties/C04.v] uses *)
Check ext_step_eq :
  forall (g : gameR) (p : paramsR) it st x,
    (1 <= it)%N ->
    ext_step g p it st x =
    let st2 := ext_mid g p it st (ed_d1 x) (ed_e1 x) in
    let st3 := snd (@erec RNum (g_chance g) (draw2 false (length (g_infos1 g)) (ed_d2 x) (ed_e2 x))
                          (2 * (it - 1) + 1)%N it (length (g_infos1 g)) false (g_root g) st2) in
    (fst st3, fst (@advance_all RNum p it it (snd st3) 0)).
Check ext_md_step :
  forall (g : gameR) (p : paramsR),
    WFgame g -> PerfectRecall g -> ChanceOK g -> NoRepeat (g_root g) ->
    forall me i a it st,
      InvA (arities g true) (arities g false) st ->
      expect_iter g p it st (ext_sampled_inc g p me i a it st) =
      expect_iter g p it st (ext_true_inc g p me i a it st).
Check ext_run_tower_from :
  forall (g : gameR) (p : paramsR),
    WFgame g -> PerfectRecall g -> ChanceOK g -> NoRepeat (g_root g) ->
    forall me i a n it st,
      InvA (arities g true) (arities g false) st ->
      expect_run_ext g p n it st (ext_sampled_sum g p me i a it st) =
      expect_run_ext g p n it st (ext_true_sum g p me i a it st).
Check ext_run_tower :
  forall (g : gameR) (p : paramsR),
    WFgame g -> PerfectRecall g -> ChanceOK g -> NoRepeat (g_root g) ->
    forall me i a n,
      expect_run_ext g p n 1 (@init_state RNum g) (ext_sampled_sum g p me i a 1 (@init_state RNum g)) =
      expect_run_ext g p n 1 (@init_state RNum g) (ext_true_sum g p me i a 1 (@init_state RNum g)).
