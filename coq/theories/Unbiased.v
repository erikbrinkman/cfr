(** * Unbiased: the chance-sampled regret increments are unbiased.

    Fix the strategies [sg].  Draw one index per chance infoset, independently, with
    the weights of its chance row ([expect]: the finite expectation over all
    assignments [delta] of an index to every chance infoset).  If no chance infoset
    occurs twice on a root-to-leaf path ([NoRepeat]) then the expectation of the
    regret increment the chance-sampled pass makes at any (infoset, action) — with the
    oracle answering [delta] — is the increment [cfr_inc] of the unsampled pass
    ([sampled_unbiased]); likewise the expectation of the value returned by the sampled
    pass is the value of the unsampled one ([sampled_value_unbiased]).

    Proof: by [SampledRate.reg_sum_vincs_sampled] the pathwise increment is [cfr_inc]
    over the one-hot chance table of [delta]; [cfr_inc] is affine in every chance row
    separately when the infoset does not repeat on a path ([cfr_inc_affine]), so the
    rows can be replaced by one-hot rows one infoset at a time. *)
From Coq Require Import Reals List Lra Lia Bool Arith NArith.
From Cfr.theories Require Import Num RInst Tree GameWF Strat Eval Solve Valid
     SolveValidProofs ListAux Incr IterChar CfMass CfrRate SampledRate FinExp.
Import ListNotations.
Open Scope R_scope.

Local Notation nodeR := (@node RNum).
Local Notation gameR := (@game RNum).
Local Notation pstateR := (@pstate RNum).
Local Notation oracleR := (@oracle RNum).

Fixpoint wsum (r : list R) (g : nat -> R) : R :=
  match r with
  | [] => 0
  | x :: r' => x * g O + wsum r' (fun k => g (S k))
  end.

Lemma wsum_ext r (g h : nat -> R) :
  (forall k, (k < length r)%nat -> g k = h k) -> wsum r g = wsum r h.
Proof.
  revert g h; induction r as [|x r IH]; intros g h H; cbn [wsum]; [reflexivity|].
  rewrite (H O) by (cbn [length]; lia). f_equal. apply IH. intros k Hk. apply H. cbn [length]. lia.
Qed.

Lemma wsum_const r c : wsum r (fun _ => c) = Rsum r * c.
Proof. induction r as [|x r IH]; cbn [wsum Rsum]; [lra|]. rewrite IH. lra. Qed.

Lemma wsum_plus r (g h : nat -> R) : wsum r (fun k => g k + h k) = wsum r g + wsum r h.
Proof.
  revert g h; induction r as [|x r IH]; intros g h; cbn [wsum]; [lra|]. rewrite IH. lra.
Qed.

Lemma wsum_scal r c (g : nat -> R) : wsum r (fun k => c * g k) = c * wsum r g.
Proof. revert g; induction r as [|x r IH]; intros g; cbn [wsum]; [lra|]. rewrite IH. lra. Qed.

Lemma Lin_wsum r : Lin (wsum r).
Proof.
  split; [intros f h H; apply wsum_ext; auto|apply wsum_plus|intros c f; apply wsum_scal].
Qed.

Fixpoint expect (rows : list (list R)) (f : list nat -> R) : R :=
  match rows with
  | [] => f []
  | r :: rs => wsum r (fun k => expect rs (fun delta => f (k :: delta)))
  end.

Lemma expect_ext rows (f h : list nat -> R) :
  (forall delta, length delta = length rows -> f delta = h delta) -> expect rows f = expect rows h.
Proof.
  revert f h; induction rows as [|r rs IH]; intros f h H; cbn [expect].
  - now apply H.
  - apply wsum_ext. intros k _. apply IH. intros delta Hd. apply H. cbn [length]. lia.
Qed.

Lemma expect_const rows c : Forall (fun r => Rsum r = 1) rows -> expect rows (fun _ => c) = c.
Proof.
  induction 1 as [|r rs Hr H IH]; cbn [expect]; [reflexivity|].
  rewrite (wsum_ext r _ (fun _ => c)) by (intros; apply IH). rewrite wsum_const, Hr. lra.
Qed.

Definition draw_of (delta : list nat) : oracleR := fun _ ci _ _ => nth ci delta O.

Fixpoint coccurs (ci : nat) (n : nodeR) : bool :=
  match n with
  | Term _ => false
  | Chance ci' kids => Nat.eqb ci' ci || existsb (coccurs ci) kids
  | Player _ _ kids => existsb (coccurs ci) kids
  end.

Inductive NoRepeat : nodeR -> Prop :=
| NR_Term x : NoRepeat (@Term RNum x)
| NR_Chance ci kids :
    Forall (fun c => coccurs ci c = false) kids -> Forall NoRepeat kids ->
    NoRepeat (@Chance RNum ci kids)
| NR_Player pl i kids : Forall NoRepeat kids -> NoRepeat (@Player RNum pl i kids).

(** every chance node has as many children as its row has entries *)
Inductive CShaped (T : list (list R)) : nodeR -> Prop :=
| CS_Term x : CShaped T (@Term RNum x)
| CS_Chance ci kids :
    length kids = length (@row RNum T ci) -> Forall (CShaped T) kids ->
    CShaped T (@Chance RNum ci kids)
| CS_Player pl i kids : Forall (CShaped T) kids -> CShaped T (@Player RNum pl i kids).

Lemma CShaped_lens T T' n :
  (forall ci, length (@row RNum T' ci) = length (@row RNum T ci)) -> CShaped T n -> CShaped T' n.
Proof.
  intros HL. induction n as [x|ci kids IH|pl i kids IH] using node_ind'; intros HC;
    inversion HC as [|? ? EL HCk|? ? ? HCk]; subst; constructor;
    try exact (Forall_mp _ _ _ IH HCk).
  rewrite HL. exact EL.
Qed.

Lemma ValShaped_CShaped T sg n : ValShaped T sg n -> CShaped T n.
Proof.
  induction n as [x|ci kids IH|pl i kids IH] using node_ind'; intros HV;
    inversion HV as [|? ? EL HR HVk|? ? ? EL HR HVk]; subst; constructor;
    try exact (Forall_mp _ _ _ IH HVk).
  exact EL.
Qed.

Lemma cfr_inc_scale_pc T sg pl i a n x pc p1 p2 :
  cfr_inc T sg pl i a n (pc * x) p1 p2 = x * cfr_inc T sg pl i a n pc p1 p2.
Proof. rewrite cfr_inc_reach, (cfr_inc_reach T sg pl i a n pc). lra. Qed.

(** at a node of [pl'] the own reach does not enter *)
Lemma cfr_inc_scale_pl T sg (pl' me : bool) i a n x pc p1 p2 :
  (if pl' then cfr_inc T sg me i a n pc (p1 * x) p2 else cfr_inc T sg me i a n pc p1 (p2 * x)) =
  (if Bool.eqb pl' me then 1 else x) * cfr_inc T sg me i a n pc p1 p2.
Proof.
  rewrite (cfr_inc_reach T sg me i a n pc p1 p2).
  destruct pl', me; rewrite cfr_inc_reach; unfold oppw; cbn [Bool.eqb]; lra.
Qed.

(** hence, like [uval], it is a value loop over the children at every node, beside the
    regret of the node itself *)
Lemma uval_Chance T sg ci kids :
  uval T sg (@Chance RNum ci kids) = @val_player RNum (uval T sg) kids (@row RNum T ci) 0.
Proof. apply val_chance_player. Qed.

Lemma cfr_inc_Chance T sg pl i a ci kids pc p1 p2 :
  cfr_inc T sg pl i a (@Chance RNum ci kids) pc p1 p2 =
  @val_player RNum (fun c => cfr_inc T sg pl i a c pc p1 p2) kids (@row RNum T ci) 0.
Proof.
  cbn [cfr_inc]. generalize (@row RNum T ci) as ps.
  induction kids as [|c ks IH]; intros ps; destruct ps as [|p ps]; cbn [sum_chance val_player];
    try reflexivity.
  change (add RNum) with Rplus. change (mul RNum) with Rmult. change (zero RNum) with 0.
  rewrite val_player_acc, <- IH, cfr_inc_scale_pc. lra.
Qed.

Lemma cfr_inc_Player T sg me i a pl' i' kids pc p1 p2 :
  cfr_inc T sg me i a (@Player RNum pl' i' kids) pc p1 p2 =
  (if is_info pl' i' me i then cfw pl' pc p1 p2 * node_regret T sg kids (sg pl' i') a else 0)
  + @val_player RNum (fun c => cfr_inc T sg me i a c pc p1 p2) kids
                (map (fun x => if Bool.eqb pl' me then 1 else x) (sg pl' i')) 0.
Proof.
  cbn [cfr_inc]. f_equal. generalize (sg pl' i') as ss.
  induction kids as [|c ks IH]; intros ss; destruct ss as [|p ss];
    cbn [sum_player val_player map]; try reflexivity.
  change (add RNum) with Rplus. change (mul RNum) with Rmult. change (zero RNum) with 0.
  rewrite val_player_acc, <- IH, cfr_inc_scale_pl. lra.
Qed.

Lemma is_info_ne pl j me i : pl <> me -> is_info pl j me i = false.
Proof. intros Hne. unfold is_info. destruct pl, me; try congruence; reflexivity. Qed.

Lemma cfr_inc_Player_opp T sg pl' me i a i' kids pc p1 p2 :
  pl' <> me ->
  cfr_inc T sg me i a (@Player RNum pl' i' kids) pc p1 p2 =
  @val_player RNum (fun c => cfr_inc T sg me i a c pc p1 p2) kids (sg pl' i') 0.
Proof.
  intros Hne. rewrite cfr_inc_Player, is_info_ne, Rplus_0_l by assumption.
  rewrite (proj2 (Bool.eqb_false_iff pl' me) Hne). now rewrite map_id.
Qed.

Lemma coccurs_here ci kids : coccurs ci (@Chance RNum ci kids) = true.
Proof. cbn [coccurs]. now rewrite Nat.eqb_refl. Qed.

Lemma coccurs_Chance ci ci' kids c :
  In c kids -> coccurs ci c = true -> coccurs ci (@Chance RNum ci' kids) = true.
Proof. intros Hc H. cbn [coccurs]. apply orb_true_iff. right. apply existsb_exists. eauto. Qed.

Lemma coccurs_Player ci pl i kids c :
  In c kids -> coccurs ci c = true -> coccurs ci (@Player RNum pl i kids) = true.
Proof. intros Hc H. cbn [coccurs]. apply existsb_exists. eauto. Qed.

Lemma occurs_here pl i kids : occurs pl i (@Player RNum pl i kids) = true.
Proof. cbn [occurs]. apply orb_true_iff. left. now apply is_info_true. Qed.

Lemma occurs_Chance pl i ci kids c :
  In c kids -> occurs pl i c = true -> occurs pl i (@Chance RNum ci kids) = true.
Proof. intros Hc H. cbn [occurs]. apply existsb_exists. eauto. Qed.

Lemma occurs_Player pl i pl' i' kids c :
  In c kids -> occurs pl i c = true -> occurs pl i (@Player RNum pl' i' kids) = true.
Proof. intros Hc H. cbn [occurs]. apply orb_true_iff. right. apply existsb_exists. eauto. Qed.

(** ** [uval] and [cfr_inc] depend on the chance table and on the strategies through
    the rows met in the tree only *)
Section RowsExt.
  Context (T T' : list (list R)) (sg sg' : bool -> nat -> list R).

  Lemma uval_ext n :
    (forall ci, coccurs ci n = true -> @row RNum T' ci = @row RNum T ci) ->
    (forall pl i, occurs pl i n = true -> sg' pl i = sg pl i) ->
    uval T' sg' n = uval T sg n.
  Proof.
    induction n as [x|ci kids IH|pl i kids IH] using node_ind'; intros HT Hs; cbn [uval].
    - reflexivity.
    - rewrite (HT ci) by apply coccurs_here.
      apply val_chance_ext. rewrite Forall_forall in IH |- *. intros c Hc.
      apply IH; eauto using coccurs_Chance, occurs_Chance.
    - rewrite (Hs pl i) by apply occurs_here.
      apply val_player_ext. rewrite Forall_forall in IH |- *. intros c Hc.
      apply IH; eauto using coccurs_Player, occurs_Player.
  Qed.

  Lemma cfr_inc_ext pl i a n :
    (forall ci, coccurs ci n = true -> @row RNum T' ci = @row RNum T ci) ->
    (forall pl' i', occurs pl' i' n = true -> sg' pl' i' = sg pl' i') ->
    forall pc p1 p2, cfr_inc T' sg' pl i a n pc p1 p2 = cfr_inc T sg pl i a n pc p1 p2.
  Proof.
    induction n as [x|ci kids IH|pl' i' kids IH] using node_ind'; intros HT Hs pc p1 p2.
    - reflexivity.
    - rewrite !cfr_inc_Chance, (HT ci) by apply coccurs_here.
      apply val_player_ext. rewrite Forall_forall in IH |- *. intros c Hc.
      apply IH; eauto using coccurs_Chance, occurs_Chance.
    - rewrite !cfr_inc_Player, (Hs pl' i') by apply occurs_here.
      assert (HU : Forall (fun c => uval T' sg' c = uval T sg c) kids).
      { apply Forall_forall. intros c Hc.
        apply uval_ext; eauto using coccurs_Player, occurs_Player. }
      unfold node_regret.
      rewrite (act_val_ext _ _ kids _ a HU), (val_player_ext _ _ kids _ 0 HU). f_equal.
      apply val_player_ext. rewrite Forall_forall in IH |- *. intros c Hc.
      apply IH; eauto using coccurs_Player, occurs_Player.
  Qed.
End RowsExt.

(** The tables [(T, sg)] against the families [(Tk k, sgk k)], weights [r]: a node passes
    the weighted sum on from its children when its own row is the same in all tables
    ([_wsum]); when its row is [r], against the one-hot rows, it produces the weighted sum
    from children on which the tables agree ([_hots]). *)
Section LoopsWsum.
  Context (r : list R).

  Lemma val_player_wsum (V : nodeR -> R) (U : nat -> nodeR -> R) ss (sk : nat -> list R) ks :
    (forall k, sk k = ss) -> Forall (fun c => V c = wsum r (fun k => U k c)) ks ->
    @val_player RNum V ks ss 0 = wsum r (fun k => @val_player RNum (U k) ks (sk k) 0).
  Proof.
    intros Hs H.
    rewrite (wsum_ext r _ (fun k => @val_player RNum (U k) ks ss 0)) by (intros k _; now rewrite Hs).
    clear Hs. revert ss.
    induction H as [|c ks Hc H IH]; intros ss; destruct ss as [|p ss]; cbn [val_player];
      try (rewrite wsum_const; change (zero RNum) with 0; lra).
    change (add RNum) with Rplus. change (mul RNum) with Rmult. change (zero RNum) with 0.
    rewrite val_player_acc, IH, Hc.
    rewrite (wsum_ext r (fun k => @val_player RNum (U k) ks ss (0 + p * U k c))
                      (fun k => p * U k c + @val_player RNum (U k) ks ss 0))
      by (intros k _; rewrite val_player_acc; lra).
    rewrite wsum_plus, wsum_scal. lra.
  Qed.

  Lemma val_player_wsum_pick (f : nodeR -> R) ks :
    length ks = length r ->
    @val_player RNum f ks r 0 =
    wsum r (fun k => match nth_error ks k with Some c => f c | None => 0 end).
  Proof.
    revert ks; induction r as [|x r' IH]; intros ks E; destruct ks as [|c ks]; try discriminate;
      cbn [val_player wsum nth_error]; [reflexivity|].
    change (add RNum) with Rplus. change (mul RNum) with Rmult. change (zero RNum) with 0.
    rewrite val_player_acc, IH by (cbn [length] in E; lia). lra.
  Qed.

  Lemma val_player_hots (V : nodeR -> R) (Vk : nat -> nodeR -> R) (sk : nat -> list R) ks :
    length ks = length r -> (forall k, sk k = hot (length r) k) ->
    Forall (fun c => forall k, Vk k c = V c) ks ->
    @val_player RNum V ks r 0 = wsum r (fun k => @val_player RNum (Vk k) ks (sk k) 0).
  Proof.
    intros EL Hs H. rewrite val_player_wsum_pick by assumption. apply wsum_ext. intros k _.
    rewrite (val_player_ext (Vk k) V ks) by (revert H; apply Forall_impl; auto).
    now rewrite Hs, <- EL, val_player_hot, Rplus_0_l.
  Qed.

  Lemma act_val_wsum (V : nodeR -> R) (U : nat -> nodeR -> R) ks :
    Forall (fun c => V c = wsum r (fun k => U k c)) ks ->
    forall ss a, act_val V ks ss a = wsum r (fun k => act_val (U k) ks ss a).
  Proof.
    induction 1 as [|c ks Hc H IH]; intros ss a; destruct ss as [|p ss]; cbn [act_val];
      try (rewrite wsum_const; lra).
    destruct a as [|a]; [exact Hc|apply IH].
  Qed.

  Context (T : list (list R)) (sg : bool -> nat -> list R)
          (Tk : nat -> list (list R)) (sgk : nat -> bool -> nat -> list R) (pl : bool) (i a : nat).

  (** at every reach, the increment below [c] is the weighted sum of the increments over
      the tables [(Tk k, sgk k)] *)
  Definition AffAt (c : nodeR) : Prop :=
    forall pc p1 p2,
      cfr_inc T sg pl i a c pc p1 p2 = wsum r (fun k => cfr_inc (Tk k) (sgk k) pl i a c pc p1 p2).

  Lemma cfr_inc_Chance_wsum ci kids :
    (forall k, @row RNum (Tk k) ci = @row RNum T ci) -> Forall AffAt kids ->
    AffAt (@Chance RNum ci kids).
  Proof.
    intros Hs H pc p1 p2. rewrite cfr_inc_Chance.
    rewrite (wsum_ext r _ _ (fun k _ => cfr_inc_Chance (Tk k) (sgk k) pl i a ci kids pc p1 p2)).
    apply val_player_wsum; [assumption|]. revert H. apply Forall_impl. intros c Hc. apply Hc.
  Qed.

  Lemma cfr_inc_Player_wsum pl' i' kids :
    (forall k, sgk k pl' i' = sg pl' i') ->
    Forall (fun c => uval T sg c = wsum r (fun k => uval (Tk k) (sgk k) c)) kids ->
    Forall AffAt kids -> AffAt (@Player RNum pl' i' kids).
  Proof.
    intros Hs HU H pc p1 p2. rewrite cfr_inc_Player.
    rewrite (wsum_ext r _ _ (fun k _ => cfr_inc_Player (Tk k) (sgk k) pl i a pl' i' kids pc p1 p2)).
    rewrite wsum_plus. f_equal.
    - destruct (is_info pl' i' pl i); [|rewrite wsum_const; lra].
      rewrite wsum_scal. f_equal. unfold node_regret.
      rewrite (wsum_ext r _ (fun k => act_val (uval (Tk k) (sgk k)) kids (sg pl' i') a
                                       - @val_player RNum (uval (Tk k) (sgk k)) kids (sg pl' i') 0))
        by (intros k _; now rewrite Hs).
      rewrite (E_minus (Lin_wsum r)), <- (act_val_wsum (uval T sg) (fun k => uval (Tk k) (sgk k)) kids HU).
      now rewrite <- (val_player_wsum (uval T sg) (fun k => uval (Tk k) (sgk k)) _ (fun _ => sg pl' i')
                                      kids (fun _ => eq_refl) HU).
    - apply val_player_wsum; [intros k; now rewrite Hs|].
      revert H. apply Forall_impl. intros c Hc. apply Hc.
  Qed.
End LoopsWsum.

Section Affine.
  Context (sg : bool -> nat -> list R) (T : list (list R)) (Tk : nat -> list (list R))
          (ci : nat).
  Local Notation r := (@row RNum T ci).
  Context (Hsum : Rsum r = 1)
          (Hk : forall k, @row RNum (Tk k) ci = hot (length r) k)
          (Ho : forall k ci', ci' <> ci -> @row RNum (Tk k) ci' = @row RNum T ci').

  Lemma Tk_ext k n :
    coccurs ci n = false ->
    forall ci', coccurs ci' n = true -> @row RNum (Tk k) ci' = @row RNum T ci'.
  Proof.
    intros Hn ci' Hci'. apply Ho. intros ->. rewrite Hn in Hci'. discriminate.
  Qed.

  Theorem uval_affine n :
    NoRepeat n -> CShaped T n -> uval T sg n = wsum r (fun k => uval (Tk k) sg n).
  Proof.
    induction n as [x|ci' kids IH|pl i kids IH] using node_ind'; intros HN HC;
      inversion HN as [|? ? HNo HNk|? ? ? HNk]; subst;
      inversion HC as [|? ? EL HCk|? ? ? HCk]; subst.
    - cbn [uval]. rewrite wsum_const, Hsum. lra.
    - rewrite uval_Chance, (wsum_ext r _ _ (fun k _ => uval_Chance (Tk k) sg ci' kids)).
      destruct (Nat.eq_dec ci' ci) as [->|Hne].
      + apply val_player_hots; try assumption. refine (Forall_impl _ _ HNo). intros c Hc k.
        apply uval_ext; [|reflexivity]. apply Tk_ext. exact Hc.
      + apply val_player_wsum; [intros k; now apply Ho|]. exact (Forall_mp2 _ _ _ _ IH HNk HCk).
    - apply val_player_wsum; [reflexivity|]. exact (Forall_mp2 _ _ _ _ IH HNk HCk).
  Qed.

  Theorem cfr_inc_affine pl i a n :
    NoRepeat n -> CShaped T n -> AffAt r T sg Tk (fun _ => sg) pl i a n.
  Proof.
    induction n as [x|ci' kids IH|pl' i' kids IH] using node_ind'; intros HN HC;
      inversion HN as [|? ? HNo HNk|? ? ? HNk]; subst;
      inversion HC as [|? ? EL HCk|? ? ? HCk]; subst.
    - intros pc p1 p2. cbn [cfr_inc]. rewrite wsum_const. lra.
    - destruct (Nat.eq_dec ci' ci) as [->|Hne].
      + intros pc p1 p2. rewrite cfr_inc_Chance.
        rewrite (wsum_ext r _ _ (fun k _ => cfr_inc_Chance (Tk k) sg pl i a ci kids pc p1 p2)).
        apply val_player_hots; try assumption. refine (Forall_impl _ _ HNo). intros c Hc k.
        apply cfr_inc_ext; [|reflexivity]. apply Tk_ext. exact Hc.
      + apply cfr_inc_Chance_wsum; [intros k; now apply Ho|]. exact (Forall_mp2 _ _ _ _ IH HNk HCk).
    - apply cfr_inc_Player_wsum; [reflexivity| |].
      + refine (Forall_mp2 _ _ _ _ _ HNk HCk). apply Forall_forall. intros c _. apply uval_affine.
      + exact (Forall_mp2 _ _ _ _ IH HNk HCk).
  Qed.
End Affine.

Fixpoint hots (rows : list (list R)) (delta : list nat) : list (list R) :=
  match rows, delta with
  | r :: rs, k :: d => hot (length r) k :: hots rs d
  | _, _ => []
  end.

Lemma row_middle (pre : list (list R)) x rs : @row RNum (pre ++ x :: rs) (length pre) = x.
Proof. unfold row. apply nth_middle. Qed.

Lemma row_app_other (pre : list (list R)) x y rs ci :
  ci <> length pre -> @row RNum (pre ++ x :: rs) ci = @row RNum (pre ++ y :: rs) ci.
Proof.
  intros Hne. unfold row. destruct (Nat.lt_ge_cases ci (length pre)) as [Hlt|Hge].
  - now rewrite !app_nth1 by assumption.
  - rewrite !app_nth2 by assumption.
    destruct (ci - length pre)%nat as [|m] eqn:E; [lia|reflexivity].
Qed.

Lemma row_hots rows delta ci :
  length delta = length rows ->
  @row RNum (hots rows delta) ci = hot (length (@row RNum rows ci)) (nth ci delta O).
Proof.
  unfold row. revert delta ci; induction rows as [|r rs IH]; intros delta ci E;
    destruct delta as [|k d]; try discriminate; cbn [hots].
  - destruct ci; reflexivity.
  - destruct ci as [|ci]; cbn [nth]; [reflexivity|]. apply IH. cbn [length] in E. lia.
Qed.

Lemma row_map_seq (f : nat -> list R) m j :
  (forall j, (m <= j)%nat -> f j = []) -> @row RNum (map f (seq 0 m)) j = f j.
Proof.
  intros Hout. unfold row. destruct (Nat.lt_ge_cases j m) as [Hlt|Hge].
  - rewrite (nth_map_lt _ _ _ O) by now rewrite seq_length. now rewrite seq_nth.
  - rewrite nth_overflow by now rewrite map_length, seq_length. symmetry. now apply Hout.
Qed.

(** all rows replaced, for a quantity [G] of the table that is affine in every row on
    the tables of shape [P], a matter of the lengths of the rows *)
Lemma expect_hots (G : list (list R) -> R) (P : list (list R) -> Prop) :
  (forall T T', (forall ci, length (@row RNum T' ci) = length (@row RNum T ci)) -> P T -> P T') ->
  (forall T Tk ci,
      Rsum (@row RNum T ci) = 1 ->
      (forall k, @row RNum (Tk k) ci = hot (length (@row RNum T ci)) k) ->
      (forall k ci', ci' <> ci -> @row RNum (Tk k) ci' = @row RNum T ci') ->
      P T -> G T = wsum (@row RNum T ci) (fun k => G (Tk k))) ->
  forall rest pre, Forall (fun r => Rsum r = 1) rest -> P (pre ++ rest) ->
  expect rest (fun delta => G (pre ++ hots rest delta)) = G (pre ++ rest).
Proof.
  intros HP HG. induction rest as [|r rs IH]; intros pre HF HC; cbn [expect]; [reflexivity|].
  inversion HF as [|? ? Hr HF']; subst.
  assert (E : G (pre ++ r :: rs) = wsum r (fun k => G (pre ++ hot (length r) k :: rs))).
  { rewrite <- (row_middle pre r rs) at 2.
    apply (HG _ (fun k => pre ++ hot (length r) k :: rs)); try assumption.
    - now rewrite row_middle.
    - intros k. now rewrite !row_middle.
    - intros k ci' Hne. now apply row_app_other. }
  rewrite E. apply wsum_ext. intros k _.
  rewrite (expect_ext rs _ (fun delta => G ((pre ++ [hot (length r) k]) ++ hots rs delta)))
    by (intros delta _; cbn [hots]; now rewrite <- app_assoc).
  rewrite IH; [now rewrite <- app_assoc|assumption|].
  rewrite <- app_assoc. cbn [app]. apply (HP (pre ++ r :: rs)); [|assumption].
  intros ci. destruct (Nat.eq_dec ci (length pre)) as [->|Hne].
  - now rewrite !row_middle, hot_length.
  - now rewrite (row_app_other pre _ r).
Qed.

Section Unbiased.
  Context (chance : list (list R)) (sg : bool -> nat -> list R) (n : nodeR).
  Context (Hrows : Forall (fun r => Rsum r = 1) chance) (HN : NoRepeat n).

  Theorem expect_cfr_inc pl i a pc p1 p2 :
    CShaped chance n ->
    expect chance (fun delta => cfr_inc (hots chance delta) sg pl i a n pc p1 p2) =
    cfr_inc chance sg pl i a n pc p1 p2.
  Proof.
    apply (expect_hots (fun T => cfr_inc T sg pl i a n pc p1 p2) (fun T => CShaped T n))
      with (pre := []); [|intros T Tk ci Hs Hk Ho HC; now apply cfr_inc_affine|assumption].
    intros T T'. apply CShaped_lens.
  Qed.

  Theorem expect_uval :
    CShaped chance n ->
    expect chance (fun delta => uval (hots chance delta) sg n) = uval chance sg n.
  Proof.
    apply (expect_hots (fun T => uval T sg n) (fun T => CShaped T n))
      with (pre := []); [|intros T Tk ci Hs Hk Ho HC; now apply uval_affine|assumption].
    intros T T'. apply CShaped_lens.
  Qed.

  Theorem sampled_unbiased pass pl i a pc p1 p2 :
    ValShaped chance sg n ->
    expect chance
           (fun delta => reg_sum pl i a (@vincs RNum chance true (draw_of delta) pass sg n pc p1 p2)) =
    cfr_inc chance sg pl i a n pc p1 p2.
  Proof.
    intros HV. rewrite <- expect_cfr_inc by (eapply ValShaped_CShaped; eauto).
    apply expect_ext. intros delta Hd.
    rewrite reg_sum_vincs_sampled by assumption.
    apply cfr_inc_ext; [|reflexivity].
    intros ci _. rewrite row_samp, row_hots by assumption. reflexivity.
  Qed.

  Theorem sampled_value_unbiased pass :
    ValShaped chance sg n ->
    expect chance (fun delta => @vval RNum chance true (draw_of delta) pass sg n) = uval chance sg n.
  Proof.
    intros HV. rewrite <- expect_uval by (eapply ValShaped_CShaped; eauto).
    apply expect_ext. intros delta Hd.
    rewrite vval_sampled by assumption.
    apply uval_ext; [|reflexivity].
    intros ci _. rewrite row_samp, row_hots by assumption. reflexivity.
  Qed.
End Unbiased.

Lemma Lin_expect rows : Lin (expect rows).
Proof.
  induction rows as [|r rs IH]; [exact (Lin_eval [])|].
  exact (Lin_comp (Lin_wsum r) (fun k f => expect rs (fun delta => f (k :: delta)))
                  (fun k => Lin_map IH (cons k))).
Qed.

Lemma Pos_wsum r : Forall (fun x => 0 <= x) r -> Pos (wsum r) (fun k => (k < length r)%nat).
Proof.
  intros Hr. induction Hr as [|x r Hx Hr IH]; intros g h H; cbn [wsum]; [lra|].
  assert (H1 : wsum r (fun k => g (S k)) <= wsum r (fun k => h (S k))).
  { apply IH. intros k Hk. apply H. cbn [length]. lia. }
  pose proof (H O ltac:(cbn [length]; lia)) as H0. nra.
Qed.

Lemma Pos_expect rows :
  Forall (Forall (fun x => 0 <= x)) rows ->
  Pos (expect rows) (fun d => Forall2 (fun k r => (k < length r)%nat) d rows).
Proof.
  induction 1 as [|r rs Hr _ IH]; [apply (Pos_eval []); constructor|].
  apply (Pos_comp (Pos_wsum r Hr) (fun k f => expect rs (fun delta => f (k :: delta)))).
  intros k Hk. apply (Pos_map IH). intros d Hd. now constructor.
Qed.

Lemma val_pick_ext_k (f g : nodeR -> R) ks k :
  (forall c, In c ks -> f c = g c) -> @val_pick RNum f ks k = @val_pick RNum g ks k.
Proof. intros H. apply val_pick_ext. apply Forall_forall. exact H. Qed.

Section OracleExt.
  Context (chance : list (list R)) (draw draw' : oracleR) (pass : N) (sg : bool -> nat -> list R).

  Lemma vval_oracle_ext n :
    (forall ci, coccurs ci n = true ->
                draw true ci pass (@row RNum chance ci) = draw' true ci pass (@row RNum chance ci)) ->
    @vval RNum chance true draw pass sg n = @vval RNum chance true draw' pass sg n.
  Proof.
    induction n as [x|ci kids IH|pl i kids IH] using node_ind'; intros H; cbn [vval].
    - reflexivity.
    - rewrite (H ci) by apply coccurs_here.
      apply val_pick_ext. rewrite Forall_forall in IH |- *. intros c Hc.
      apply IH; eauto using coccurs_Chance.
    - apply val_player_ext. rewrite Forall_forall in IH |- *. intros c Hc.
      apply IH; eauto using coccurs_Player.
  Qed.
End OracleExt.

Definition delta_of (chance : list (list R)) (draw : oracleR) (pass : N) : list nat :=
  map (fun ci => draw true ci pass (@row RNum chance ci)) (seq 0 (length chance)).

Lemma delta_of_length chance draw pass : length (delta_of chance draw pass) = length chance.
Proof. unfold delta_of. now rewrite map_length, seq_length. Qed.

Lemma delta_of_nth chance draw pass ci :
  (ci < length chance)%nat ->
  nth ci (delta_of chance draw pass) O = draw true ci pass (@row RNum chance ci).
Proof.
  intros H. unfold delta_of. rewrite (nth_map_lt _ _ _ O) by now rewrite seq_length.
  now rewrite seq_nth.
Qed.

(** the increments of a sampled pass under any oracle are those of the summand
    [delta_of chance draw pass] of the expectation *)
Theorem oracle_is_summand chance (draw : oracleR) pass sg pl i a n pc p1 p2 :
  ValShaped chance sg n ->
  reg_sum pl i a (@vincs RNum chance true draw pass sg n pc p1 p2) =
  reg_sum pl i a (@vincs RNum chance true (draw_of (delta_of chance draw pass)) pass sg n pc p1 p2).
Proof.
  intros HV. rewrite !reg_sum_vincs_sampled by assumption.
  apply cfr_inc_ext; [|reflexivity]. intros ci _. rewrite !row_samp. unfold draw_of.
  destruct (Nat.lt_ge_cases ci (length chance)) as [Hlt|Hge].
  - now rewrite delta_of_nth.
  - unfold row. rewrite (nth_overflow chance) by assumption. reflexivity.
Qed.

Theorem sampled_pass_unbiased chance pass n pc p1 p2 (st : pstateR) pl i a (draw0 : oracleR) :
  Forall (fun r => Rsum r = 1) chance -> NoRepeat n ->
  ValShaped chance (strat_view st) n ->
  (a < length (cum_regret (@ri_get RNum st pl i)))%nat ->
  expect chance
         (fun delta => nth a (cum_regret (@ri_get RNum
            (snd (@vrec RNum chance true (draw_of delta) pass n pc p1 p2 st)) pl i)) 0) =
  nth a (cum_regret (@ri_get RNum (snd (@vrec RNum chance false draw0 pass n pc p1 p2 st)) pl i)) 0.
Proof.
  intros Hrows HN HV Ha.
  rewrite vrec_state_regret_nth by assumption.
  rewrite (expect_ext chance _
             (fun delta => nth a (cum_regret (@ri_get RNum st pl i)) 0 +
                           reg_sum pl i a (@vincs RNum chance true (draw_of delta) pass
                                                  (strat_view st) n pc p1 p2))).
  2:{ intros delta _. rewrite vrec_incs. cbn [snd]. now rewrite fold_incr_regret_nth. }
  rewrite (E_plus (Lin_expect chance)), expect_const by assumption. f_equal.
  now apply sampled_unbiased.
Qed.

Lemma ChanceOK_sums (g : gameR) : ChanceOK g -> Forall (fun r => Rsum r = 1) (g_chance g).
Proof. unfold ChanceOK. apply Forall_impl. intros r [_ H]. exact H. Qed.

Theorem sampled_unbiased_game (g : gameR) (st : pstateR) pass pl i a :
  WFgame g -> ChanceOK g -> InvA (arities g true) (arities g false) st ->
  NoRepeat (g_root g) ->
  expect (g_chance g)
         (fun delta => reg_sum pl i a (@vincs RNum (g_chance g) true (draw_of delta) pass
                                              (strat_view st) (g_root g) 1 1 1)) =
  cfr_inc (g_chance g) (strat_view st) pl i a (g_root g) 1 1 1.
Proof.
  intros (HS & _) HC HI HN. apply sampled_unbiased; try assumption.
  - now apply ChanceOK_sums.
  - now apply shaped_ValShaped.
Qed.

(** ** Example: the game with a chance root of [CfrRate.v] *)
Lemma seq_NoRepeat : NoRepeat (g_root seq_game).
Proof. cbn. repeat constructor. Qed.

Example seq_unbiased (st : pstateR) pass pl i a :
  InvA (arities seq_game true) (arities seq_game false) st ->
  1 / 2 * reg_sum pl i a (@vincs RNum (g_chance seq_game) true (draw_of [0%nat]) pass
                                 (strat_view st) (g_root seq_game) 1 1 1) +
  1 / 2 * reg_sum pl i a (@vincs RNum (g_chance seq_game) true (draw_of [1%nat]) pass
                                 (strat_view st) (g_root seq_game) 1 1 1) =
  cfr_inc (g_chance seq_game) (strat_view st) pl i a (g_root seq_game) 1 1 1.
Proof.
  intros HI.
  rewrite <- (sampled_unbiased_game seq_game st pass pl i a seq_WF seq_ChanceOK HI seq_NoRepeat).
  cbn [seq_game g_chance expect wsum]. lra.
Qed.

(** Without [NoRepeat]: the sampler makes one draw per chance infoset and pass, so when a
    chance infoset occurs twice on one path the second occurrence follows the *same*
    draw, whereas the unsampled traversal weighs the two occurrences independently; on
    [rep_tree] the sampled increments are biased.  (That the crate's [from_root] accepts
    such a tree is not proved here.) *)
Definition rep_chance : list (list R) := [[1 / 2; 1 / 2]].
Definition rep_sg : bool -> nat -> list R := fun _ _ => [1 / 2; 1 / 2].
Definition rep_tree : nodeR :=
  @Player RNum true 0
          [@Chance RNum 0 [@Chance RNum 0 [@Term RNum 1; @Term RNum 0]; @Term RNum 0];
           @Term RNum 0].

Example repeat_is_biased pass :
  expect rep_chance
         (fun delta => reg_sum true 0 0 (@vincs RNum rep_chance true (draw_of delta) pass
                                                rep_sg rep_tree 1 1 1)) = 1 / 4 /\
  cfr_inc rep_chance rep_sg true 0 0 rep_tree 1 1 1 = 1 / 8.
Proof.
  split.
  - unfold rep_chance, rep_tree, rep_sg, reg_sum. cbn -[Rplus Rmult Rminus Ropp Rdiv Rinv]. lra.
  - unfold rep_chance, rep_tree, rep_sg. cbn -[Rplus Rmult Rminus Ropp Rdiv Rinv].
    unfold node_regret, cfw. cbn -[Rplus Rmult Rminus Ropp Rdiv Rinv]. lra.
Qed.

Lemma rep_tree_repeats : ~ NoRepeat rep_tree.
Proof.
  intros H. inversion H as [| |? ? ? Hk]; subst.
  inversion Hk as [|? ? Hc _]; subst. inversion Hc as [|? ? Ho _|]; subst.
  inversion Ho as [|? ? Hf _]; subst. cbn in Hf. discriminate.
Qed.
