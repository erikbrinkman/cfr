(** * SolveValidProofs: invariants of the solver model (properties C05 and C10).

    - the scans [argmax_last] / [argmin_first] return the last maximum / the first
      minimum; [regret_match] and [avg_strat] return probability distributions;
    - the traversals ([vrec], [erec]), [advance_all], one iteration of each method
      and the whole loop keep an invariant on the infoset state (current strategy
      a distribution, cumulative strategy non-negative, the three vectors of each
      infoset of the infoset's arity);
    - hence [solve_single] returns a valid profile, and its bounds are
      non-negative reals, absent exactly when no iteration ran;
    - the categorical sampler returns [k] exactly when the variate lies in the
      k-th cumulative-probability interval.

    Everything is about the real-number instance [RNum]. *)
From Coq Require Import Reals List Lra Lia Bool Arith NArith.
From Cfr.theories Require Import Num RInst Tree GameWF Strat Eval Solve Valid StratAgreeProofs TruncProofs LoopCore.
Import ListNotations.
Open Scope R_scope.

Lemma repeatT_length (x : R) n : length (@repeatT RNum x n) = n.
Proof. induction n as [|n IH]; cbn [repeatT length]; [reflexivity|now rewrite IH]. Qed.

Lemma Rsum_repeatT (x : R) n : Rsum (@repeatT RNum x n) = INR n * x.
Proof.
  induction n as [|n IH]; [cbn [repeatT Rsum INR]; lra|].
  cbn [repeatT Rsum]. rewrite IH, S_INR. lra.
Qed.

Lemma Forall_repeatT (P : R -> Prop) x n : P x -> Forall P (@repeatT RNum x n).
Proof. intros H; induction n as [|n IH]; cbn [repeatT]; constructor; assumption. Qed.

Lemma lenT_INR (l : list R) : @lenT RNum l = INR (length l).
Proof. unfold lenT. apply of_N_INR. Qed.

Lemma uniform_VRow n : n <> 0%nat -> VRow (@repeatT RNum (1 / INR n) n).
Proof.
  intros H. assert (Hp : 0 < INR n) by (apply lt_0_INR; lia). split.
  - apply Forall_repeatT. unfold Rdiv. rewrite Rmult_1_l. left. now apply Rinv_0_lt_compat.
  - rewrite Rsum_repeatT. field. lra.
Qed.

Lemma VRow_nonempty r : VRow r -> length r <> 0%nat.
Proof. intros [_ Hs] E. destruct r; [cbn [Rsum] in Hs; lra|discriminate]. Qed.

Lemma normalise_VRow (l : list R) :
  Forall (fun x => 0 <= x) l -> 0 < Rsum l -> VRow (map (fun x => x / Rsum l) l).
Proof.
  intros Hnn Hpos. split.
  - apply Forall_map. eapply Forall_impl; [|exact Hnn]. intros x Hx.
    apply Rmult_le_pos; [exact Hx|]. left; now apply Rinv_0_lt_compat.
  - rewrite Rsum_map_div. unfold Rdiv. apply Rinv_r. lra.
Qed.

Lemma one_hot_nonneg n i k : Forall (fun x => 0 <= x) (@one_hot_at RNum n i k).
Proof.
  revert i; induction n as [|n IH]; intros i; cbn [one_hot_at]; constructor; [|apply IH].
  destruct (Nat.eqb i k); cbn [one zero RNum]; lra.
Qed.

Lemma one_hot_length n i k : length (@one_hot_at RNum n i k) = n.
Proof. revert i; induction n as [|n IH]; intros i; cbn [one_hot_at length]; [reflexivity|now rewrite IH]. Qed.

Lemma one_hot_sum_before n i k : (k < i)%nat -> Rsum (@one_hot_at RNum n i k) = 0.
Proof.
  revert i; induction n as [|n IH]; intros i H; cbn [one_hot_at Rsum]; [reflexivity|].
  rewrite IH by lia. destruct (Nat.eqb_spec i k); [lia|]. cbn [zero RNum]. lra.
Qed.

Lemma one_hot_sum_in n i k : (i <= k < i + n)%nat -> Rsum (@one_hot_at RNum n i k) = 1.
Proof.
  revert i; induction n as [|n IH]; intros i H; [lia|]. cbn [one_hot_at Rsum].
  destruct (Nat.eqb_spec i k) as [->|Hne].
  - rewrite one_hot_sum_before by lia. cbn [one RNum]. lra.
  - rewrite IH by lia. cbn [zero RNum]. lra.
Qed.

Lemma one_hot_VRow n k : (k < n)%nat -> VRow (@one_hot_at RNum n 0 k).
Proof. intros H; split; [apply one_hot_nonneg|apply one_hot_sum_in; lia]. Qed.

Lemma map_nth_seq_tail (v : R) (r : list R) :
  map (fun j => nth j (v :: r) 0) (seq 1 (length r)) = r.
Proof.
  revert v; induction r as [|x r IH]; intros v; cbn [length seq map nth]; [reflexivity|].
  rewrite <- seq_shift, map_map. f_equal. apply IH.
Qed.

Lemma lt_S_cases (P : nat -> Prop) (i : nat) :
  (forall j, (j < i)%nat -> P j) -> P i -> forall j, (j < S i)%nat -> P j.
Proof.
  intros Hlt Hi j Hj. destruct (Nat.eq_dec j i) as [->|Hne]; [exact Hi|]. apply Hlt. lia.
Qed.

(** [k] is the last maximum / the first minimum of [a 0, .., a (n-1)] *)
Definition last_max (a : nat -> R) (n k : nat) : Prop :=
  (k < n)%nat /\ forall j, (j < n)%nat -> a j <= a k /\ ((k < j)%nat -> a j < a k).
Definition first_min (a : nat -> R) (n k : nat) : Prop :=
  (k < n)%nat /\ forall j, (j < n)%nat -> a k <= a j /\ ((j < k)%nat -> a k < a j).

(** scanning [a i, .., a (i+n-1)] from the best index [bi] of [a 0, .., a (i-1)] *)
Lemma argmax_last_seq (a : nat -> R) (n i bi : nat) :
  last_max a i bi -> last_max a (i + n) (@argmax_last RNum (map a (seq i n)) i bi (a bi)).
Proof.
  revert i bi; induction n as [|n IH]; intros i bi [Hbi Hall]; cbn [seq map argmax_last].
  - rewrite Nat.add_0_r. now split.
  - rewrite Nat.add_succ_r. change (S (i + n)) with (S i + n)%nat. cbn [ltb RNum].
    destruct (Rltb (a i) (a bi)) eqn:E; apply IH; (split; [lia|]).
    + apply Rltb_true in E. apply lt_S_cases; [exact Hall|]. split; intros; lra.
    + apply Rltb_false in E. apply lt_S_cases; [|split; [lra|lia]].
      intros j Hj. destruct (Hall j Hj). split; [lra|lia].
Qed.

Lemma argmin_first_seq (a : nat -> R) (n i bi : nat) :
  first_min a i bi -> first_min a (i + n) (@argmin_first RNum (map a (seq i n)) i bi (a bi)).
Proof.
  revert i bi; induction n as [|n IH]; intros i bi [Hbi Hall]; cbn [seq map argmin_first].
  - rewrite Nat.add_0_r. now split.
  - rewrite Nat.add_succ_r. change (S (i + n)) with (S i + n)%nat. cbn [ltb RNum].
    destruct (Rltb (a i) (a bi)) eqn:E; apply IH; (split; [lia|]).
    + apply Rltb_true in E. apply lt_S_cases; [|split; [lra|lia]].
      intros j Hj. destruct (Hall j Hj). split; intros; lra.
    + apply Rltb_false in E. apply lt_S_cases; [exact Hall|]. split; [lra|lia].
Qed.

(** the scans as [regret_match] calls them: over the tail, starting from the head *)
Lemma argmax_last_head (v : R) (r : list R) :
  last_max (fun j => nth j (v :: r) 0) (S (length r)) (@argmax_last RNum r 1 0 v).
Proof.
  pose proof (argmax_last_seq (fun j => nth j (v :: r) 0) (length r) 1 0) as H.
  rewrite map_nth_seq_tail in H. apply H. split; [lia|].
  intros j Hj. replace j with 0%nat by lia. split; [lra|lia].
Qed.

Lemma argmin_first_head (v : R) (r : list R) :
  first_min (fun j => nth j (v :: r) 0) (S (length r)) (@argmin_first RNum r 1 0 v).
Proof.
  pose proof (argmin_first_seq (fun j => nth j (v :: r) 0) (length r) 1 0) as H.
  rewrite map_nth_seq_tail in H. apply H. split; [lia|].
  intros j Hj. replace j with 0%nat by lia. split; [lra|lia].
Qed.

(** ** [regret_match] returns a distribution (C05, clause "probabilities") *)
Lemma softmax_VRow (e : R -> R) (l : list R) :
  l <> [] -> (forall x, 0 < e x) ->
  VRow (map (fun r => e r / Rsum (map e l)) l).
Proof.
  intros Hne He. rewrite <- (map_map e (fun x => x / Rsum (map e l))).
  assert (Hall : Forall (fun x => 0 < x) (map e l)).
  { apply Forall_map, Forall_forall. intros x _. apply He. }
  apply normalise_VRow.
  - eapply Forall_impl; [|exact Hall]. intros x. apply Rlt_le.
  - apply Rsum_pos_nonempty; [destruct l; [congruence|discriminate]|exact Hall].
Qed.

Lemma regret_match_unfold (p : @params RNum) (cr : list R) :
  @regret_match RNum p cr =
  let n := length cr in
  let norm := Rsum (filter (fun v => Rltb 0 v) cr) in
  if Rltb 0 norm then map (fun r => if Rltb 0 r then r / norm else 0) cr
  else match a_nopos p with
       | PosInf => match cr with
                   | [] => []
                   | v :: r => @one_hot_at RNum n 0 (@argmax_last RNum r 1 0 v)
                   end
       | NegInf => match cr with
                   | [] => []
                   | v :: r => @one_hot_at RNum n 0 (@argmin_first RNum r 1 0 v)
                   end
       | Fin w =>
           if Reqb w 0 then @repeatT RNum (1 / INR n) n
           else
             let shift := match (if Rltb 0 w then @reduce_max RNum cr else @reduce_min RNum cr) with
                          | Some m => m
                          | None => 0
                          end in
             let e := fun r => Rtrigo_def.exp ((r - shift) * w) in
             map (fun r => e r / Rsum (map e cr)) cr
       end.
Proof.
  unfold regret_match. cbv zeta. rewrite sum_Rsum.
  change (ltb RNum) with Rltb. change (zero RNum) with 0.
  destruct (Rltb 0 _); [reflexivity|].
  destruct (a_nopos p) as [|w|]; try reflexivity.
  rewrite lenT_INR, sum_Rsum. reflexivity.
Qed.

Lemma regret_match_length (p : @params RNum) (cr : list R) :
  length (@regret_match RNum p cr) = length cr.
Proof.
  rewrite regret_match_unfold; cbv zeta.
  destruct (Rltb 0 _); [apply map_length|].
  destruct (a_nopos p) as [|w|].
  - destruct cr; [reflexivity|apply one_hot_length].
  - destruct (Reqb w 0); [apply repeatT_length|apply map_length].
  - destruct cr; [reflexivity|apply one_hot_length].
Qed.

Lemma regret_match_VRow (p : @params RNum) (cr : list R) :
  cr <> [] -> VRow (@regret_match RNum p cr).
Proof.
  intros Hne. rewrite regret_match_unfold; cbv zeta.
  destruct (Rltb 0 _) eqn:E.
  - apply Rltb_true in E. split.
    + apply Forall_map, Forall_forall. intros x _.
      destruct (Rltb 0 x) eqn:Ex; [|lra]. apply Rltb_true in Ex.
      apply Rmult_le_pos; [lra|]. left; now apply Rinv_0_lt_compat.
    + rewrite Rsum_trunc. unfold Rdiv. apply Rinv_r. lra.
  - clear E. destruct (a_nopos p) as [|w|].
    + destruct cr as [|v r]; [congruence|]. apply one_hot_VRow, argmin_first_head.
    + destruct (Reqb w 0).
      * apply uniform_VRow. destruct cr; [congruence|discriminate].
      * apply softmax_VRow; [assumption|]. intros x. apply exp_pos.
    + destruct cr as [|v r]; [congruence|]. apply one_hot_VRow, argmax_last_head.
Qed.

Lemma avg_strat_unfold (cs : list R) :
  @avg_strat RNum cs =
  if Reqb (Rsum cs) 0 then @repeatT RNum (1 / INR (length cs)) (length cs)
  else map (fun p => p / Rsum cs) cs.
Proof. unfold avg_strat. rewrite sum_Rsum, lenT_INR. reflexivity. Qed.

Lemma avg_strat_length (cs : list R) : length (@avg_strat RNum cs) = length cs.
Proof.
  rewrite avg_strat_unfold. destruct (Reqb _ _); [apply repeatT_length|apply map_length].
Qed.

Lemma avg_strat_VRow (cs : list R) :
  cs <> [] -> Forall (fun x => 0 <= x) cs -> VRow (@avg_strat RNum cs).
Proof.
  intros Hne Hnn. rewrite avg_strat_unfold. destruct (Reqb _ _) eqn:E.
  - apply uniform_VRow. destruct cs; [congruence|discriminate].
  - apply Reqb_false in E. pose proof (Rsum_nonneg cs Hnn).
    apply normalise_VRow; [assumption|lra].
Qed.

Definition node_ind' := @GameWF.node_ind' RNum.

(** ** The inner loops of the traversals, abstracted over the recursive call.
    The equations [vrec_*] / [erec_*] below hold by computation. *)
Local Notation nodeR := (@node RNum).
Local Notation pstateR := (@pstate RNum).
Local Notation rinfoR := (@rinfo RNum).

Section InnerLoops.
  Context (rec : nodeR -> R -> R -> R -> pstateR -> R * pstateR).

  Definition vpick (p_chance p1 p2 : R) (st : pstateR) :=
    fix pick (ks : list nodeR) (k : nat) {struct ks} : R * pstateR :=
      match ks with
      | [] => (0, st)
      | c :: r =>
          match k with
          | O => let (pay, st') := rec c (p_chance * 1) p1 p2 st in (0 + 1 * pay, st')
          | S k' => pick r k'
          end
      end.

  Definition vgo_chance (p_chance p1 p2 : R) :=
    fix go (ps : list R) (ks : list nodeR) (expected : R) (st : pstateR) {struct ks}
      : R * pstateR :=
      match ps, ks with
      | p :: ps', c :: ks' =>
          let (pay, st') := rec c (p_chance * p) p1 p2 st in
          go ps' ks' (expected + p * pay) st'
      | _, _ => (expected, st)
      end.

  Definition vgo_player (pl : bool) (i : nat) (p_chance p1 p2 mult : R) :=
    fix go (ks : list nodeR) (ss : list R) (ai : nat) (e1 e : R) (st : pstateR)
           {struct ks} : R * R * pstateR :=
      match ks, ss with
      | c :: ks', prob :: ss' =>
          let '(q1, q2) := if pl then (p1 * prob, p2) else (p1, p2 * prob) in
          let (util_one, st') := rec c p_chance q1 q2 st in
          let util := util_one * mult in
          let ri' := @ri_get RNum st' pl i in
          let cr := cum_regret ri' in
          let st'' := @ri_set RNum st' pl i
                             (@mkRinfo RNum (upd cr ai (nth ai cr 0 + util))
                                      (cum_strat ri') (strat ri')) in
          go ks' ss' (S ai) (e1 + prob * util_one) (e + util * prob) st''
      | _, _ => (e1, e, st)
      end.
End InnerLoops.

Section InnerLoopsE.
  Context (rec : nodeR -> pstateR -> R * pstateR).

  Definition epick (st : pstateR) :=
    fix pick (ks : list nodeR) (k : nat) {struct ks} : R * pstateR :=
      match ks with
      | [] => (0, st)
      | c :: r => match k with
                  | O => rec c st
                  | S k' => pick r k'
                  end
      end.

  Definition ego (pl : bool) (i : nat) :=
    fix go (ks : list nodeR) (ss : list R) (ai : nat) (e : R) (st : pstateR)
           {struct ks} : R * pstateR :=
      match ks, ss with
      | c :: ks', prob :: ss' =>
          let (util, st') := rec c st in
          let ri' := @ri_get RNum st' pl i in
          let cr := cum_regret ri' in
          go ks' ss' (S ai) (e + prob * util)
             (@ri_set RNum st' pl i (@mkRinfo RNum (upd cr ai (nth ai cr 0 + util))
                                             (cum_strat ri') (strat ri')))
      | _, _ => (e, st)
      end.
End InnerLoopsE.

Lemma vrec_Term chance sampled draw pass x pc p1 p2 st :
  @vrec RNum chance sampled draw pass (Term x) pc p1 p2 st = (x, st).
Proof. reflexivity. Qed.

Lemma vrec_Chance chance sampled draw pass ci kids pc p1 p2 st :
  @vrec RNum chance sampled draw pass (Chance ci kids) pc p1 p2 st =
  if sampled
  then vpick (@vrec RNum chance sampled draw pass) pc p1 p2 st kids
             (draw true ci pass (row chance ci))
  else vgo_chance (@vrec RNum chance sampled draw pass) pc p1 p2 (row chance ci) kids 0 st.
Proof. reflexivity. Qed.

Lemma vrec_Player chance sampled draw pass pl i kids pc p1 p2 st :
  @vrec RNum chance sampled draw pass (Player pl i kids) pc p1 p2 st =
  let ri := @ri_get RNum st pl i in
  let mine := if pl then p1 else p2 in
  let cs := map (fun vc : R * R => snd vc + mine * fst vc) (combine (strat ri) (cum_strat ri)) in
  let st0 := @ri_set RNum st pl i (@mkRinfo RNum (cum_regret ri) cs (strat ri)) in
  let mult := if pl then pc * p2 else (- p1) * pc in
  let '(e1, e, st2) := vgo_player (@vrec RNum chance sampled draw pass) pl i pc p1 p2 mult
                                  kids (strat ri) O 0 0 st0 in
  let ri2 := @ri_get RNum st2 pl i in
  (e1, @ri_set RNum st2 pl i (@mkRinfo RNum (map (fun v => v - e) (cum_regret ri2))
                                      (cum_strat ri2) (strat ri2))).
Proof. reflexivity. Qed.

Lemma erec_Term chance draw cpass ppass noff me x st :
  @erec RNum chance draw cpass ppass noff me (Term x) st = (if me then x else - x, st).
Proof. reflexivity. Qed.

Lemma erec_Chance chance draw cpass ppass noff me ci kids st :
  @erec RNum chance draw cpass ppass noff me (Chance ci kids) st =
  epick (@erec RNum chance draw cpass ppass noff me) st kids
        (draw true ci cpass (row chance ci)).
Proof. reflexivity. Qed.

Lemma erec_Player chance draw cpass ppass noff me pl i kids st :
  @erec RNum chance draw cpass ppass noff me (Player pl i kids) st =
  let ri := @ri_get RNum st pl i in
  if Bool.eqb pl me then
    let (e, st2) := ego (@erec RNum chance draw cpass ppass noff me) pl i
                        kids (strat ri) O 0 st in
    let ri2 := @ri_get RNum st2 pl i in
    (e, @ri_set RNum st2 pl i (@mkRinfo RNum (map (fun v => v - e) (cum_regret ri2))
                                       (cum_strat ri2) (strat ri2)))
  else
    let cs := map (fun vc : R * R => snd vc + fst vc) (combine (strat ri) (cum_strat ri)) in
    let st0 := @ri_set RNum st pl i (@mkRinfo RNum (cum_regret ri) cs (strat ri)) in
    epick (@erec RNum chance draw cpass ppass noff me) st0 kids
          (draw false (if pl then i else (noff + i)%nat) ppass (strat ri)).
Proof. reflexivity. Qed.

(** ** The state invariant.

    [RInvA a ri]: infoset [ri] has arity [a], its current strategy is a
    distribution and its cumulative strategy is non-negative.  [InvA a1 a2 st]
    relates a state to the two lists of arities.  Nothing is assumed about the
    game tree: an index out of range reads the default infoset (all vectors
    empty, so every inner loop stops at once) and writes nothing. *)
Definition RInvA (a : nat) (ri : rinfoR) : Prop :=
  VRow (strat ri) /\ Forall (fun x => 0 <= x) (cum_strat ri) /\
  length (cum_regret ri) = a /\ length (cum_strat ri) = a /\ length (strat ri) = a.

Definition InvA (a1 a2 : list nat) (st : pstateR) : Prop :=
  Forall2 RInvA a1 (fst st) /\ Forall2 RInvA a2 (snd st).

(** the same with the arities read off the state ([lens]) instead of given: the form
    in which Properties/C05.v states the invariant *)
Definition RInv (ri : rinfoR) : Prop :=
  VRow (strat ri) /\ Forall (fun x => 0 <= x) (cum_strat ri) /\
  length (cum_regret ri) = length (strat ri) /\ length (cum_strat ri) = length (strat ri) /\
  length (strat ri) <> 0%nat.

Definition Inv (st : pstateR) : Prop := Forall RInv (fst st) /\ Forall RInv (snd st).

Definition lens (l : list rinfoR) : list nat := map (fun ri => length (strat ri)) l.

Lemma RInvA_iff a ri : RInvA a ri <-> RInv ri /\ length (strat ri) = a.
Proof.
  unfold RInv, RInvA. split.
  - intros (H1 & H2 & H3 & H4 & <-). pose proof (VRow_nonempty _ H1). tauto.
  - intros [(H1 & H2 & H3 & H4 & _) <-]. tauto.
Qed.

Lemma Forall2_RInvA_iff a l : Forall2 RInvA a l <-> Forall RInv l /\ lens l = a.
Proof.
  unfold lens. split.
  - induction 1 as [|x ri a l H _ [IH1 IH2]]; cbn [map]; [auto|].
    apply RInvA_iff in H as [H <-]. split; [constructor|f_equal]; assumption.
  - intros [H <-]. induction H; cbn [map]; constructor; [now apply RInvA_iff|assumption].
Qed.

Lemma InvA_Inv a1 a2 st : InvA a1 a2 st <-> Inv st /\ lens (fst st) = a1 /\ lens (snd st) = a2.
Proof. unfold InvA, Inv. rewrite !Forall2_RInvA_iff. tauto. Qed.

Lemma Inv_InvA st : Inv st <-> InvA (lens (fst st)) (lens (snd st)) st.
Proof. rewrite InvA_Inv. tauto. Qed.

Lemma Inv_of_InvA a1 a2 st : InvA a1 a2 st -> Inv st.
Proof. intros H. now apply InvA_Inv in H. Qed.

Lemma Forall2_upd {A B} (Q : A -> B -> Prop) (d : B) la lb i v :
  Forall2 Q la lb -> (forall a, Q a (nth i lb d) -> Q a v) -> Forall2 Q la (upd lb i v).
Proof.
  intros H; revert i; induction H as [|a b la lb Hab H IH]; intros i Hv;
    destruct i; cbn [upd nth] in *; constructor; auto.
Qed.

Lemma Forall2_nth_or {A B} (Q : A -> B -> Prop) (d : B) la lb i :
  Forall2 Q la lb -> nth i lb d = d \/ exists a, Q a (nth i lb d).
Proof.
  intros H; revert i; induction H as [|a b la lb Hab H IH]; intros i;
    destruct i; cbn [nth]; eauto.
Qed.

Lemma InvA_set a1 a2 st pl i ri' :
  InvA a1 a2 st ->
  (forall a, RInvA a (@ri_get RNum st pl i) -> RInvA a ri') ->
  InvA a1 a2 (@ri_set RNum st pl i ri').
Proof.
  destruct st as [l1 l2]. unfold InvA, ri_set, ps_set, ps_get, ri_get.
  destruct pl; cbn [fst snd]; intros [H1 H2] Hv; (split; [|]); try assumption;
    eapply Forall2_upd; eauto.
Qed.

Lemma InvA_get_cases a1 a2 st pl i :
  InvA a1 a2 st ->
  @ri_get RNum st pl i = @mkRinfo RNum [] [] [] \/ exists a, RInvA a (@ri_get RNum st pl i).
Proof.
  destruct st as [l1 l2]. unfold InvA, ri_get, ps_get.
  destruct pl; cbn [fst snd]; intros [H1 H2]; eapply Forall2_nth_or; eauto.
Qed.

Lemma InvA_strat_nonneg a1 a2 st pl i :
  InvA a1 a2 st -> Forall (fun x => 0 <= x) (strat (@ri_get RNum st pl i)).
Proof.
  intros H. destruct (InvA_get_cases a1 a2 st pl i H) as [->|(a & Ha)].
  - constructor.
  - destruct Ha as [[Hnn _] _]. exact Hnn.
Qed.

Lemma RInvA_regret a ri (cr : list R) :
  length cr = length (cum_regret ri) ->
  RInvA a ri -> RInvA a (@mkRinfo RNum cr (cum_strat ri) (strat ri)).
Proof.
  unfold RInvA; cbn [strat cum_strat cum_regret]. intros E (Hv & Hnn & L1 & L2 & L3).
  split; [exact Hv|]. split; [exact Hnn|]. split; [exact (eq_trans E L1)|]. split; assumption.
Qed.

Lemma combine_map_nonneg (f : R * R -> R) (s c : list R) :
  (forall x y, 0 <= x -> 0 <= y -> 0 <= f (x, y)) ->
  Forall (fun x => 0 <= x) s -> Forall (fun x => 0 <= x) c ->
  Forall (fun x => 0 <= x) (map f (combine s c)).
Proof.
  intros Hf Hs Hc. apply Forall_forall; intros y Hy.
  apply in_map_iff in Hy as ([u v] & <- & Hin). rewrite Forall_forall in Hs, Hc.
  apply Hf; [apply Hs; eapply in_combine_l; eauto|apply Hc; eapply in_combine_r; eauto].
Qed.

Lemma RInvA_cum_strat a ri (f : R * R -> R) :
  (forall x y, 0 <= x -> 0 <= y -> 0 <= f (x, y)) ->
  RInvA a ri ->
  RInvA a (@mkRinfo RNum (cum_regret ri) (map f (combine (strat ri) (cum_strat ri))) (strat ri)).
Proof.
  unfold RInvA; cbn [strat cum_strat cum_regret]. intros Hf (Hv & Hnn & L1 & L2 & L3).
  split; [assumption|]. split; [|rewrite map_length, combine_length; lia].
  apply combine_map_nonneg; [assumption|apply Hv|assumption].
Qed.

Section VrecInv.
  Context (a1 a2 : list nat).

  Definition VP (rec : nodeR -> R -> R -> R -> pstateR -> R * pstateR) (c : nodeR) : Prop :=
    forall pc p1 p2 st, 0 <= p1 -> 0 <= p2 -> InvA a1 a2 st -> InvA a1 a2 (snd (rec c pc p1 p2 st)).

  Context (rec : nodeR -> R -> R -> R -> pstateR -> R * pstateR).

  Lemma vpick_inv pc p1 p2 st ks k :
    Forall (VP rec) ks -> 0 <= p1 -> 0 <= p2 -> InvA a1 a2 st ->
    InvA a1 a2 (snd (vpick rec pc p1 p2 st ks k)).
  Proof.
    intros HK H1 H2 Hst. revert k. induction HK as [|c ks Hc HK IH]; intros k; cbn [vpick].
    - exact Hst.
    - destruct k as [|k]; [|apply IH].
      pose proof (Hc (pc * 1) p1 p2 st H1 H2 Hst) as H.
      destruct (rec c (pc * 1) p1 p2 st) as [pay st']. exact H.
  Qed.

  Lemma vgo_chance_inv pc p1 p2 ps ks ex st :
    Forall (VP rec) ks -> 0 <= p1 -> 0 <= p2 -> InvA a1 a2 st ->
    InvA a1 a2 (snd (vgo_chance rec pc p1 p2 ps ks ex st)).
  Proof.
    intros HK H1 H2. revert ps ex st.
    induction HK as [|c ks Hc HK IH]; intros ps ex st Hst; destruct ps as [|p ps];
      cbn [vgo_chance]; try exact Hst.
    pose proof (Hc (pc * p) p1 p2 st H1 H2 Hst) as H.
    destruct (rec c (pc * p) p1 p2 st) as [pay st']. apply IH. exact H.
  Qed.

  Lemma vgo_player_inv pl i pc p1 p2 mult ks ss ai e1 e st :
    Forall (VP rec) ks -> Forall (fun x => 0 <= x) ss -> 0 <= p1 -> 0 <= p2 -> InvA a1 a2 st ->
    InvA a1 a2 (snd (vgo_player rec pl i pc p1 p2 mult ks ss ai e1 e st)).
  Proof.
    intros HK Hss H1 H2. revert ss Hss ai e1 e st.
    induction HK as [|c ks Hc HK IH]; intros ss Hss ai e1 e st Hst; destruct ss as [|prob ss];
      cbn [vgo_player]; try exact Hst.
    inversion Hss as [|? ? Hprob Hss']; subst.
    set (q := if pl then (p1 * prob, p2) else (p1, p2 * prob)).
    assert (Hq : 0 <= fst q /\ 0 <= snd q).
    { unfold q; destruct pl; cbn [fst snd]; split; try assumption; apply Rmult_le_pos; assumption. }
    destruct q as [q1 q2]; cbn [fst snd] in Hq. destruct Hq as [Hq1 Hq2].
    pose proof (Hc pc q1 q2 st Hq1 Hq2 Hst) as H.
    destruct (rec c pc q1 q2 st) as [u st']; cbn [snd] in H. cbv zeta.
    apply IH; [assumption|].
    apply InvA_set; [assumption|]. intros a. apply RInvA_regret. apply upd_length.
  Qed.
End VrecInv.

Lemma vrec_inv a1 a2 chance sampled draw pass n :
  VP a1 a2 (@vrec RNum chance sampled draw pass) n.
Proof.
  induction n as [x|ci kids IH|pl i kids IH] using node_ind'; intros pc p1 p2 st H1 H2 Hst.
  - rewrite vrec_Term. exact Hst.
  - rewrite vrec_Chance. destruct sampled; [apply vpick_inv|apply vgo_chance_inv]; assumption.
  - rewrite vrec_Player. cbv zeta.
    set (ri := @ri_get RNum st pl i).
    set (mine := if pl then p1 else p2).
    assert (Hmine : 0 <= mine) by (unfold mine; now destruct pl).
    set (st0 := @ri_set RNum st pl i _).
    assert (Hst0 : InvA a1 a2 st0).
    { apply InvA_set; [assumption|]. intros a. fold ri.
      apply (RInvA_cum_strat a ri (fun vc : R * R => snd vc + mine * fst vc)).
      intros x y Hx Hy; cbn [fst snd]. pose proof (Rmult_le_pos _ _ Hmine Hx). lra. }
    pose proof (vgo_player_inv a1 a2 (@vrec RNum chance sampled draw pass) pl i pc p1 p2
                  (if pl then pc * p2 else - p1 * pc) kids (strat ri) O 0 0 st0 IH
                  (InvA_strat_nonneg a1 a2 st pl i Hst) H1 H2 Hst0) as H.
    destruct (vgo_player _ _ _ _ _ _ _ _ _ _ _ _ _) as [[e1 e] st2]. cbn [snd] in H |- *.
    apply InvA_set; [assumption|]. intros a. apply RInvA_regret. apply map_length.
Qed.

Section ErecInv.
  Context (a1 a2 : list nat).

  Definition EP (rec : nodeR -> pstateR -> R * pstateR) (c : nodeR) : Prop :=
    forall st, InvA a1 a2 st -> InvA a1 a2 (snd (rec c st)).

  Context (rec : nodeR -> pstateR -> R * pstateR).

  Lemma epick_inv st ks k :
    Forall (EP rec) ks -> InvA a1 a2 st -> InvA a1 a2 (snd (epick rec st ks k)).
  Proof.
    intros HK Hst. revert k. induction HK as [|c ks Hc HK IH]; intros k; cbn [epick].
    - exact Hst.
    - destruct k as [|k]; [now apply Hc|apply IH].
  Qed.

  Lemma ego_inv pl i ks ss ai e st :
    Forall (EP rec) ks -> InvA a1 a2 st -> InvA a1 a2 (snd (ego rec pl i ks ss ai e st)).
  Proof.
    intros HK. revert ss ai e st.
    induction HK as [|c ks Hc HK IH]; intros ss ai e st Hst; destruct ss as [|prob ss];
      cbn [ego]; try exact Hst.
    pose proof (Hc st Hst) as H. destruct (rec c st) as [u st']; cbn [snd] in H. cbv zeta.
    apply IH. apply InvA_set; [assumption|]. intros a. apply RInvA_regret. apply upd_length.
  Qed.
End ErecInv.

Lemma erec_inv a1 a2 chance draw cpass ppass noff me n :
  EP a1 a2 (@erec RNum chance draw cpass ppass noff me) n.
Proof.
  induction n as [x|ci kids IH|pl i kids IH] using node_ind'; intros st Hst.
  - rewrite erec_Term. exact Hst.
  - rewrite erec_Chance. apply epick_inv; assumption.
  - rewrite erec_Player. cbv zeta. destruct (Bool.eqb pl me).
    + pose proof (ego_inv a1 a2 (@erec RNum chance draw cpass ppass noff me) pl i kids
                    (strat (@ri_get RNum st pl i)) O 0 st IH Hst) as H.
      destruct (ego _ _ _ _ _ _ _ _) as [e st2]. cbn [snd] in H |- *.
      apply InvA_set; [assumption|]. intros a. apply RInvA_regret. apply map_length.
    + apply epick_inv; [assumption|].
      apply InvA_set; [assumption|]. intros a.
      apply (RInvA_cum_strat a _ (fun vc : R * R => snd vc + fst vc)).
      intros x y Hx Hy; cbn [fst snd]; lra.
Qed.

(** ** [advance]: regret matching and the two discounts *)
Lemma discount_average_strat_length (p : @params RNum) it (avg : list R) :
  length (@discount_average_strat RNum p it avg) = length avg.
Proof.
  unfold discount_average_strat. destruct (a_strat p) as [|gm|]; [reflexivity| |apply map_length].
  destruct (ltb RNum _ _); [apply map_length|reflexivity].
Qed.

Lemma discount_average_strat_nonneg (p : @params RNum) it (avg : list R) :
  Forall (fun x => 0 <= x) avg ->
  Forall (fun x => 0 <= x) (@discount_average_strat RNum p it avg).
Proof.
  intros H. unfold discount_average_strat. destruct (a_strat p) as [|gm|]; [assumption| |].
  - destruct (ltb RNum _ _); [|assumption].
    apply Forall_map. eapply Forall_impl; [|exact H]. intros x Hx.
    apply Rmult_le_pos; [exact Hx|apply Rpowf_nonneg].
  - apply Forall_map, Forall_forall. intros x _. apply Rle_refl.
Qed.

Lemma discount_cum_regret_length (p : @params RNum) it (cr : list R) :
  length (@discount_cum_regret RNum p it cr) = length cr.
Proof. unfold discount_cum_regret. apply map_length. Qed.

Lemma RInvA_pos a ri : RInvA a ri -> a <> 0%nat.
Proof.
  intros (Hv & _ & _ & _ & L3) E. apply (VRow_nonempty _ Hv). exact (eq_trans L3 E).
Qed.

Lemma length_ne_nil {A} (l : list A) a : length l = a -> a <> 0%nat -> l <> [].
Proof. intros <- H ->. apply H; reflexivity. Qed.

Lemma advance_RInvA a (p : @params RNum) it it_avg ri :
  RInvA a ri -> RInvA a (fst (@advance RNum p it it_avg ri)).
Proof.
  intros HR. pose proof (RInvA_pos a ri HR) as Hpos.
  destruct HR as (Hv & Hnn & L1 & L2 & L3).
  unfold advance, RInvA; cbn [fst strat cum_strat cum_regret].
  assert (Hne : cum_regret ri <> []) by (eapply length_ne_nil; eauto).
  split; [apply regret_match_VRow; assumption|].
  split; [apply discount_average_strat_nonneg; assumption|].
  split; [exact (eq_trans (discount_cum_regret_length _ _ _) L1)|].
  split; [exact (eq_trans (discount_average_strat_length _ _ _) L2)|].
  exact (eq_trans (regret_match_length _ _) L1).
Qed.

Lemma cum_regret_bound_nonneg it (cr : list R) :
  (1 <= it)%N -> 0 <= @cum_regret_bound RNum it cr.
Proof.
  intros Hit. unfold cum_regret_bound, two. cbn [div mul add one zero fmax of_N RNum].
  set (m := match @reduce_max RNum cr with Some m => m | None => 0 end).
  assert (0 < INR (N.to_nat it)) by (apply lt_0_INR; lia).
  pose proof (Rmax_r m 0).
  apply Rmult_le_pos; [lra|]. left. now apply Rinv_0_lt_compat.
Qed.

Lemma advance_all_cons (p : @params RNum) it ia ri r (acc : R) :
  @advance_all RNum p it ia (ri :: r) acc =
  (fst (@advance RNum p it ia ri)
     :: fst (@advance_all RNum p it ia r (acc + snd (@advance RNum p it ia ri))),
   snd (@advance_all RNum p it ia r (acc + snd (@advance RNum p it ia ri)))).
Proof.
  cbn [advance_all]. unfold advance at 1. cbn [fst snd add RNum].
  destruct (advance_all _ _ _ _ _) as [r' acc']. reflexivity.
Qed.

(** the infosets advance independently; the bounds add up *)
Lemma advance_all_map (p : @params RNum) it ia l (acc : R) :
  @advance_all RNum p it ia l acc =
  (map (fun ri => fst (@advance RNum p it ia ri)) l,
   acc + Rsum (map (fun ri => snd (@advance RNum p it ia ri)) l)).
Proof.
  revert acc; induction l as [|ri l IH]; intros acc.
  - cbn [advance_all map Rsum]. apply f_equal. lra.
  - rewrite advance_all_cons, IH. cbn [fst snd map Rsum]. apply f_equal. lra.
Qed.

Lemma advance_all_inv a (p : @params RNum) it ia l (acc : R) :
  Forall2 RInvA a l -> Forall2 RInvA a (fst (@advance_all RNum p it ia l acc)).
Proof.
  intros H. rewrite advance_all_map. cbn [fst].
  induction H; cbn [map]; constructor; [now apply advance_RInvA|assumption].
Qed.

Lemma advance_all_bound (p : @params RNum) it ia l (acc : R) :
  (1 <= it)%N -> 0 <= acc -> 0 <= snd (@advance_all RNum p it ia l acc).
Proof.
  intros Hit Hacc. rewrite advance_all_map. cbn [snd].
  assert (0 <= Rsum (map (fun ri => snd (@advance RNum p it ia ri)) l)); [|lra].
  apply Rsum_nonneg, Forall_map, Forall_forall. intros ri _. now apply cum_regret_bound_nonneg.
Qed.

Lemma vanilla_iter_eq (g : @game RNum) sampled draw p it st :
  @vanilla_iter RNum g sampled draw p it st =
  let st1 := snd (@vrec RNum (g_chance g) sampled draw (it - 1)%N (g_root g) 1 1 1 st) in
  let A1 := @advance_all RNum p it it (fst st1) 0 in
  let A2 := @advance_all RNum p it it (snd st1) 0 in
  ((fst A1, fst A2), (snd A1, snd A2)).
Proof.
  unfold vanilla_iter. cbn [one zero RNum].
  destruct (vrec _ _ _ _ _ _ _ _ _) as [x st1]. cbn [snd].
  destruct (advance_all p it it (fst st1) 0), (advance_all p it it (snd st1) 0). reflexivity.
Qed.

Lemma external_iter_eq (g : @game RNum) draw p it st :
  @external_iter RNum g draw p it st =
  let noff := length (g_infos1 g) in
  let st1 := snd (@erec RNum (g_chance g) draw (2 * (it - 1))%N (it - 1)%N noff true (g_root g) st) in
  let A1 := @advance_all RNum p it (it - 1)%N (fst st1) 0 in
  let st2 := (fst A1, snd st1) in
  let st3 := snd (@erec RNum (g_chance g) draw (2 * (it - 1) + 1)%N it noff false (g_root g) st2) in
  let A2 := @advance_all RNum p it it (snd st3) 0 in
  ((fst st3, fst A2), (snd A1, snd A2)).
Proof.
  unfold external_iter. cbn [one zero RNum]. cbv zeta.
  destruct (erec _ _ _ _ _ true _ _) as [x st1]. cbn [snd].
  destruct (advance_all p it (it - 1)%N (fst st1) 0) as [l1 r1]. cbn [fst snd].
  destruct (erec _ _ _ _ _ false _ _) as [y st3]. cbn [snd].
  destruct (advance_all p it it (snd st3) 0). reflexivity.
Qed.

Lemma one_iter_inv a1 a2 (g : @game RNum) m draw p it st :
  InvA a1 a2 st -> InvA a1 a2 (fst (@one_iter RNum g m draw p it st)).
Proof.
  intros Hst.
  assert (HV : forall sampled, InvA a1 a2 (fst (@vanilla_iter RNum g sampled draw p it st))).
  { intros sampled. rewrite vanilla_iter_eq. cbv zeta. cbn [fst].
    set (st1 := snd (vrec _ _ _ _ _ _ _ _ _)).
    assert (H1 : InvA a1 a2 st1) by (apply vrec_inv; [lra|lra|exact Hst]).
    split; cbn [fst snd]; apply advance_all_inv, H1. }
  destruct m; cbn [one_iter]; [apply HV|apply HV|].
  rewrite external_iter_eq. cbv zeta. cbn [fst].
  set (st1 := snd (erec _ _ _ _ _ true _ _)).
  assert (H1 : InvA a1 a2 st1) by (apply erec_inv; assumption).
  set (st3 := snd (erec _ _ _ _ _ false _ _)).
  assert (H3 : InvA a1 a2 st3).
  { apply erec_inv. split; cbn [fst snd]; [apply advance_all_inv|]; apply H1. }
  split; cbn [fst snd]; [|apply advance_all_inv]; apply H3.
Qed.

Lemma one_iter_bounds (g : @game RNum) m draw p it st :
  (1 <= it)%N ->
  0 <= fst (snd (@one_iter RNum g m draw p it st)) /\
  0 <= snd (snd (@one_iter RNum g m draw p it st)).
Proof.
  intros Hit.
  destruct m; cbn [one_iter]; rewrite ?vanilla_iter_eq, ?external_iter_eq; cbv zeta;
    cbn [fst snd]; split; apply advance_all_bound; try assumption; lra.
Qed.

Lemma solve_loop_inv a1 a2 (g : @game RNum) m draw p stop rem it st regs ran :
  InvA a1 a2 st ->
  InvA a1 a2 (fst (fst (@solve_loop RNum g m draw p stop rem it st regs ran))).
Proof.
  intros Hst. destruct (solve_loop _ _ _ _ _ _ _ _ _ _) as [[st' regs'] ran'] eqn:E. cbn [fst].
  apply (Lloop_inv g m draw p (fun _ => InvA a1 a2) (fun _ _ _ => True)) in E; [| |exact Hst].
  - destruct E as [(_ & -> & _)|(b1 & b2 & _ & _ & H & _)]; assumption.
  - intros j s s1 r1 r2 _ Hs E1. split; [|exact I].
    apply (one_iter_inv a1 a2 g m draw p j) in Hs. now rewrite E1 in Hs.
Qed.

Lemma rinfo_new_RInvA n : n <> 0%nat -> RInvA n (@rinfo_new RNum n).
Proof.
  intros H. unfold rinfo_new, RInvA; cbn [strat cum_strat cum_regret].
  rewrite of_N_INR. rewrite !repeatT_length.
  split; [now apply uniform_VRow|]. split; [|auto].
  apply Forall_repeatT. cbn [zero RNum]; lra.
Qed.

Lemma init_infos_inv (infos : list pinfo) :
  Forall (fun a => (1 <= a)%nat) (map (fun pi => length (pi_actions pi)) infos) ->
  Forall2 RInvA (map (fun pi => length (pi_actions pi)) infos)
          (map (fun pi => @rinfo_new RNum (length (pi_actions pi))) infos).
Proof.
  induction infos as [|pi l IH]; cbn [map]; intros H; [constructor|].
  inversion H; subst. constructor; [apply rinfo_new_RInvA; lia|auto].
Qed.

Definition arities_pos (g : @game RNum) : Prop :=
  forall pl, Forall (fun a => (1 <= a)%nat) (arities g pl).

Lemma arities_length (g : @game RNum) pl : length (arities g pl) = length (g_infos g pl).
Proof. unfold arities. apply map_length. Qed.

Lemma WFgame_arities_pos (g : @game RNum) : WFgame g -> arities_pos g.
Proof.
  intros (_ & [_ H1] & [_ H2] & _) pl. unfold arities, g_infos.
  destruct pl; apply Forall_map; (eapply Forall_impl; [|eassumption]);
    intros pi [_ H]; cbn beta; lia.
Qed.

Lemma shaped_kids_Forall (g : @game RNum) (ks : list (@node RNum)) :
  (fix go (ks : list (@node RNum)) : Prop :=
     match ks with [] => True | k :: r => shaped g k /\ go r end) ks ->
  Forall (shaped g) ks.
Proof. induction ks as [|k r IH]; intros H; constructor; [apply H|apply IH, H]. Qed.

Lemma nth_repeatT_zero n a : nth a (@repeatT RNum 0 n) 0 = 0.
Proof. revert a; induction n as [|n IH]; intros [|a]; cbn [repeatT nth]; auto. Qed.

Lemma init_zero (g : @game RNum) pl i a :
  nth a (cum_regret (@ri_get RNum (@init_state RNum g) pl i)) 0 = 0 /\
  nth a (cum_strat (@ri_get RNum (@init_state RNum g) pl i)) 0 = 0.
Proof.
  assert (H : forall (l : list pinfo),
             let ri := nth i (map (fun pi => @rinfo_new RNum (length (pi_actions pi))) l)
                           (@mkRinfo RNum [] [] []) in
             nth a (cum_regret ri) 0 = 0 /\ nth a (cum_strat ri) 0 = 0).
  { intros l. cbv zeta.
    destruct (nth_in_or_default i (map (fun pi => @rinfo_new RNum (length (pi_actions pi))) l)
                                (@mkRinfo RNum [] [] [])) as [Hin| ->].
    - apply in_map_iff in Hin as (pi & <- & _). unfold rinfo_new. cbn [cum_regret cum_strat].
      split; apply nth_repeatT_zero.
    - cbn [cum_regret cum_strat]. now destruct a. }
  unfold ri_get, init_state, ps_get. destruct pl; cbn [fst snd]; apply H.
Qed.

Lemma init_state_inv (g : @game RNum) :
  arities_pos g -> InvA (arities g true) (arities g false) (@init_state RNum g).
Proof.
  intros H. split; cbn [init_state fst snd]; apply init_infos_inv; [apply (H true)|apply (H false)].
Qed.

Lemma final_rows ars (l : list rinfoR) :
  Forall2 RInvA ars l ->
  map (@length R) (map (fun ri => @avg_strat RNum (cum_strat ri)) l) = ars /\
  Forall VRow (map (fun ri => @avg_strat RNum (cum_strat ri)) l).
Proof.
  induction 1 as [|a ri ars l Ha H [IH1 IH2]]; cbn [map]; [split; constructor|].
  pose proof (RInvA_pos a ri Ha) as Hpos.
  destruct Ha as (Hv & Hnn & L1 & L2 & L3). split.
  - f_equal; [|exact IH1]. exact (eq_trans (avg_strat_length _) L2).
  - constructor; [|assumption]. apply avg_strat_VRow; [|assumption].
    eapply length_ne_nil; eauto.
Qed.

Lemma final_flat ars (l : list rinfoR) :
  Forall2 RInvA ars l ->
  VFlat ars (concat (map (fun ri => @avg_strat RNum (cum_strat ri)) l)).
Proof.
  intros H. destruct (final_rows ars l H) as [E HV]. unfold VFlat.
  rewrite <- E. split; [apply length_concat_nsum|].
  rewrite split_by_concat. exact HV.
Qed.

Lemma final_strats_valid (g : @game RNum) st :
  InvA (arities g true) (arities g false) st -> Valid g (@final_strats RNum st).
Proof.
  intros [H1 H2]. split; cbn [final_strats fst snd]; now apply final_flat.
Qed.

Lemma solve_single_valid (g : @game RNum) m draw p budget stop :
  arities_pos g ->
  Valid g (fst (fst (@solve_single RNum g m draw p budget stop))).
Proof.
  intros Hg. rewrite Lsolve_single_loop.
  pose proof (solve_loop_inv _ _ g m draw p stop budget 1%N _ None 0%N (init_state_inv g Hg)) as H.
  destruct (solve_loop _ _ _ _ _ _ _ _ _ _) as [[st regs] ran]. apply final_strats_valid; assumption.
Qed.

Lemma solve_single_shape (g : @game RNum) m draw p budget stop :
  let res := @solve_single RNum g m draw p budget stop in
  let bounds := snd (fst res) in
  let ran := snd res in
  (bounds = None <-> budget = 0%nat) /\
  (forall b1 b2, bounds = Some (b1, b2) -> 0 <= b1 /\ 0 <= b2) /\
  (ran <= N.of_nat budget)%N /\
  (ran = 0%N <-> budget = 0%nat).
Proof.
  cbv zeta. destruct (solve_single _ _ _ _ _ _) as [[strats regs] ran] eqn:E. cbn [fst snd].
  apply (Lsolve_single_inv g m draw p (fun _ _ => True) (fun _ r1 r2 => 0 <= r1 /\ 0 <= r2)) in E;
    [| |exact I].
  - destruct E as [(-> & -> & ->)|(st & b1 & b2 & _ & -> & Hr & _ & Hb & _)].
    + cbn [N.of_nat]. split; [tauto|]. split; [discriminate|]. split; [lia|tauto].
    + split; [split; [discriminate|lia]|]. split; [intros c1 c2 [= <- <-]; exact Hb|].
      split; [lia|]. split; lia.
  - intros j s s1 r1 r2 Hj _ E1. split; [exact I|].
    pose proof (one_iter_bounds g m draw p j s ltac:(lia)) as H. now rewrite E1 in H.
Qed.

Lemma solve_single_no_stop (g : @game RNum) m draw p budget stop :
  (forall b, stop b = false) ->
  snd (@solve_single RNum g m draw p budget stop) = N.of_nat budget.
Proof.
  intros Hs. rewrite (Lsolve_single_ext g m draw p stop Lnever budget Hs).
  apply Lsolve_single_never_ran.
Qed.

Lemma Inv_init (g : @game RNum) : arities_pos g -> Inv (@init_state RNum g).
Proof. intros H. eapply Inv_of_InvA. now apply init_state_inv. Qed.

Lemma Inv_vrec chance sampled draw pass n pc p1 p2 st :
  0 <= p1 -> 0 <= p2 -> Inv st -> Inv (snd (@vrec RNum chance sampled draw pass n pc p1 p2 st)).
Proof. intros H1 H2 H. apply Inv_InvA in H. eapply Inv_of_InvA, vrec_inv; eassumption. Qed.

Lemma Inv_erec chance draw cpass ppass noff me n st :
  Inv st -> Inv (snd (@erec RNum chance draw cpass ppass noff me n st)).
Proof. intros H. apply Inv_InvA in H. eapply Inv_of_InvA, erec_inv, H. Qed.

Lemma Inv_advance_all (p : @params RNum) it ia l (acc : R) :
  Forall RInv l -> Forall RInv (fst (@advance_all RNum p it ia l acc)).
Proof.
  intros H. eapply Forall2_RInvA_iff, advance_all_inv, Forall2_RInvA_iff. split; [exact H|reflexivity].
Qed.

Lemma Inv_one_iter (g : @game RNum) m draw p it st :
  Inv st -> Inv (fst (@one_iter RNum g m draw p it st)).
Proof. intros H. apply Inv_InvA in H. eapply Inv_of_InvA, one_iter_inv, H. Qed.

Lemma Inv_solve_loop (g : @game RNum) m draw p stop rem it st regs ran :
  Inv st -> Inv (fst (fst (@solve_loop RNum g m draw p stop rem it st regs ran))).
Proof. intros H. apply Inv_InvA in H. eapply Inv_of_InvA, solve_loop_inv, H. Qed.

Lemma lens_solve_loop (g : @game RNum) m draw p stop rem it st regs ran :
  Inv st ->
  let st' := fst (fst (@solve_loop RNum g m draw p stop rem it st regs ran)) in
  lens (fst st') = lens (fst st) /\ lens (snd st') = lens (snd st).
Proof.
  intros H. apply Inv_InvA in H.
  apply (solve_loop_inv _ _ g m draw p stop rem it st regs ran) in H.
  apply InvA_Inv in H. cbv zeta. tauto.
Qed.

(** ** The categorical sampler (C10, last clause) *)
Definition cumul (probs : list R) (k : nat) : R := Rsum (firstn k probs).

Lemma cumul_0 probs : cumul probs 0 = 0.
Proof. reflexivity. Qed.

Lemma cumul_cons x l k : cumul (x :: l) (S k) = x + cumul l k.
Proof. reflexivity. Qed.

Lemma cumul_S probs k :
  (k < length probs)%nat -> cumul probs (S k) = cumul probs k + nth k probs 0.
Proof.
  revert k; induction probs as [|x l IH]; intros k Hk; cbn [length] in Hk; [lia|].
  destruct k as [|k]; [cbn [cumul firstn Rsum nth]; lra|].
  rewrite !cumul_cons, IH by lia. cbn [nth]. lra.
Qed.

Lemma cumul_all probs : cumul probs (length probs) = Rsum probs.
Proof. unfold cumul. now rewrite firstn_all. Qed.

Lemma Forall_firstn {A} (P : A -> Prop) n (l : list A) : Forall P l -> Forall P (firstn n l).
Proof.
  intros H; revert n; induction H as [|x l Hx H IH]; intros n; destruct n; cbn [firstn];
    constructor; auto.
Qed.

Lemma cumul_mono probs i j :
  Forall (fun x => 0 <= x) probs -> (i <= j)%nat -> cumul probs i <= cumul probs j.
Proof.
  intros H; revert i j; induction H as [|x l Hx H IH]; intros i j Hij.
  - unfold cumul. rewrite !firstn_nil. lra.
  - destruct i as [|i].
    + rewrite cumul_0. apply Rsum_nonneg, Forall_firstn. now constructor.
    + destruct j as [|j]; [lia|]. rewrite !cumul_cons. specialize (IH i j ltac:(lia)). lra.
Qed.

(** [k] is the first of the indices [0 .. n] with [u <= c (k + 1)], the last one
    taking whatever is left; there is at most one such index *)
Definition first_reach (c : nat -> R) (n : nat) (u : R) (k : nat) : Prop :=
  (k <= n)%nat /\ (forall j, (j < k)%nat -> c (S j) < u) /\ (k = n \/ u <= c (S k)).

Lemma first_reach_unique c n u k k' : first_reach c n u k -> first_reach c n u k' -> k = k'.
Proof.
  intros (H1 & H2 & H3) (H1' & H2' & H3').
  destruct (Nat.lt_total k k') as [L|[E|L]]; [exfalso|exact E|exfalso].
  - destruct H3 as [->|H3]; [lia|]. specialize (H2' k L). lra.
  - destruct H3' as [->|H3']; [lia|]. specialize (H2 k' L). lra.
Qed.

(** the loop subtracts the entries from the variate one by one and counts those it
    passes *)
Lemma cat_loop_first (init : list R) (rem : R) (res : nat) :
  exists k, @cat_loop RNum init rem res = (res + k)%nat /\
            first_reach (cumul init) (length init) rem k.
Proof.
  revert rem res; induction init as [|v r IH]; intros rem res; cbn [cat_loop length].
  - exists 0%nat. split; [lia|]. split; [lia|]. split; [intros j Hj; lia|now left].
  - change (ltb RNum v rem) with (Rltb v rem). change (sub RNum rem v) with (rem - v).
    destruct (Rltb v rem) eqn:E; [apply Rltb_true in E|apply Rltb_false in E].
    + destruct (IH (rem - v) (S res)) as (k & -> & H1 & H2 & H3).
      exists (S k). split; [lia|]. split; [lia|]. split.
      * intros [|j] Hj; rewrite cumul_cons; [rewrite cumul_0; lra|].
        specialize (H2 j ltac:(lia)). lra.
      * destruct H3 as [H3|H3]; [left; lia|right]. rewrite cumul_cons. lra.
    + exists 0%nat. split; [lia|]. split; [lia|]. split; [intros j Hj; lia|right].
      rewrite cumul_cons, cumul_0. lra.
Qed.

Lemma removelast_length {A} (l : list A) : length (removelast l) = (length l - 1)%nat.
Proof. rewrite removelast_firstn_len, firstn_length. lia. Qed.

(** the last entry is never looked at: it takes whatever mass is left *)
Lemma cumul_removelast probs j :
  (j < length probs)%nat -> cumul (removelast probs) j = cumul probs j.
Proof. intros H. unfold cumul. now rewrite firstn_removelast. Qed.

Lemma categorical_first (probs : list R) (u : R) :
  first_reach (cumul probs) (length probs - 1) u (@categorical RNum probs u).
Proof.
  unfold categorical. change (T RNum) with R.
  destruct (cat_loop_first (removelast probs) u 0) as (k & -> & H1 & H2 & H3).
  rewrite removelast_length in H1, H3. cbn [Nat.add]. split; [exact H1|]. split.
  - intros j Hj. rewrite <- cumul_removelast by lia. now apply H2.
  - destruct (Nat.eq_dec k (length probs - 1)) as [Hk|Hk]; [now left|right].
    destruct H3 as [H3|H3]; [contradiction|]. now rewrite <- cumul_removelast by lia.
Qed.

Lemma categorical_spec_general (probs : list R) (u : R) (k : nat) :
  probs <> [] ->
  (@categorical RNum probs u = k <->
   (k <= length probs - 1)%nat /\
   (forall j, (j < k)%nat -> cumul probs (S j) < u) /\
   (k = (length probs - 1)%nat \/ u <= cumul probs (S k))).
Proof.
  intros _. pose proof (categorical_first probs u) as H. split.
  - intros <-. exact H.
  - apply first_reach_unique, H.
Qed.

(** non-negative entries: the partial sums are monotone, so "all earlier partial
    sums are below [u]" is "the last one is" *)
Lemma categorical_spec (probs : list R) (u : R) (k : nat) :
  probs <> [] -> Forall (fun x => 0 <= x) probs ->
  (@categorical RNum probs u = k <->
   (k <= length probs - 1)%nat /\
   (k = 0%nat \/ cumul probs k < u) /\
   (k = (length probs - 1)%nat \/ u <= cumul probs (S k))).
Proof.
  intros Hne Hnn. rewrite (categorical_spec_general probs u k Hne).
  split; intros (H1 & H2 & H3); (split; [exact H1|]); (split; [|exact H3]).
  - destruct k as [|k]; [now left|right]. apply H2. lia.
  - intros j Hj. destruct H2 as [H2|H2]; [lia|].
    pose proof (cumul_mono probs (S j) k Hnn ltac:(lia)). lra.
Qed.

Lemma categorical_range (probs : list R) (u : R) :
  probs <> [] -> (@categorical RNum probs u < length probs)%nat.
Proof.
  intros Hne. destruct (categorical_first probs u) as [H _].
  destruct probs; [congruence|cbn [length] in *; lia].
Qed.

(** for a distribution and a variate in (0, 1]: exactly the k-th interval *)
Lemma categorical_interval (probs : list R) (u : R) (k : nat) :
  VRow probs -> 0 < u <= 1 ->
  (@categorical RNum probs u = k <->
   (k < length probs)%nat /\ cumul probs k < u <= cumul probs (S k)).
Proof.
  intros [Hnn Hs] Hu.
  assert (Hne : probs <> []) by (intros ->; cbn [Rsum] in Hs; lra).
  assert (Hlen : (1 <= length probs)%nat) by (destruct probs; [congruence|cbn [length]; lia]).
  rewrite (categorical_spec probs u k Hne Hnn).
  split.
  - intros (H1 & H2 & H3). split; [lia|]. split.
    + destruct H2 as [->|H2]; [rewrite cumul_0; lra|exact H2].
    + destruct H3 as [->|H3]; [|exact H3].
      replace (S (length probs - 1)) with (length probs) by lia. rewrite cumul_all. lra.
  - intros (H1 & H2 & H3). split; [lia|]. split; [now right|now right].
Qed.

(** a variate at (or below) zero selects the first entry, whatever its probability *)
Lemma categorical_at_zero (probs : list R) (u : R) :
  probs <> [] -> Forall (fun x => 0 <= x) probs -> u <= 0 -> @categorical RNum probs u = 0%nat.
Proof.
  intros Hne Hnn Hu. apply (categorical_spec probs u 0 Hne Hnn).
  split; [lia|]. split; [now left|right].
  pose proof (cumul_mono probs 0 1 Hnn ltac:(lia)). rewrite cumul_0 in H. lra.
Qed.

Lemma Inv_unfold st :
  Inv st <->
  forall ri, In ri (fst st ++ snd st) ->
    VRow (strat ri) /\ Forall (fun x => 0 <= x) (cum_strat ri) /\
    length (cum_regret ri) = length (strat ri) /\
    length (cum_strat ri) = length (strat ri) /\
    length (strat ri) <> 0%nat.
Proof.
  unfold Inv. rewrite !Forall_forall. unfold RInv. split.
  - intros [H1 H2] ri Hin. apply in_app_iff in Hin as [Hin|Hin]; auto.
  - intros H; split; intros ri Hin; apply H; apply in_app_iff; auto.
Qed.

Lemma cat_step_lt (v rem : R) (r : list R) res :
  v < rem -> @cat_loop RNum (v :: r) rem res = @cat_loop RNum r (rem - v) (S res).
Proof.
  intros H. cbn [cat_loop]. change (ltb RNum v rem) with (Rltb v rem).
  apply Rltb_true in H. rewrite H. reflexivity.
Qed.

Lemma cat_step_ge (v rem : R) (r : list R) res :
  rem <= v -> @cat_loop RNum (v :: r) rem res = res.
Proof.
  intros H. cbn [cat_loop]. change (ltb RNum v rem) with (Rltb v rem).
  apply Rltb_false in H. rewrite H. reflexivity.
Qed.

Lemma cat_step_nil (rem : R) res : @cat_loop RNum [] rem res = res.
Proof. reflexivity. Qed.

(** matching pennies, for the non-vacuity examples *)
Definition mp_game : @game RNum :=
  @mkGame RNum [] [mkPinfo 0 [0%N; 1%N] None] [mkPinfo 0 [0%N; 1%N] None] [] []
          (@Player RNum true 0
             [@Player RNum false 0 [@Term RNum 1; @Term RNum (-1)];
              @Player RNum false 0 [@Term RNum (-1); @Term RNum 1]]).

