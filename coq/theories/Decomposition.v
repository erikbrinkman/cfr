(** * Decomposition: the regret of a pure deviation is the sum of the counterfactual
    regret increments of the infosets it reaches (property C02, part 1).

    For one profile (one iteration): [regret_decomposition_iter].
    Summed with weights [w t] over the iterations of the unsampled solve with any params
    tuple: [wregret_decomposition].  For the vanilla solve ([w t = 1]) the weighted sums
    of the increments are the model's [cum_regret] entries: [regret_decomposition]. *)
From Coq Require Import Reals List Lra Lia Bool Arith NArith.
From Cfr.theories Require Import Num RInst Tree GameWF Strat Eval Solve Valid
     SolveValidProofs Incr IterChar EvalSpec CfrSpec LcfrSpec.
Import ListNotations.
Open Scope R_scope.

Local Notation node := (@node RNum).
Local Notation game := (@game RNum).
Local Notation incr := (@incr RNum).
Local Notation oracle := (@oracle RNum).
Local Notation params := (@params RNum).

Lemma Rsumn_lin n a F G :
  a * (Rsumn n F - Rsumn n G) = Rsumn n (fun b => a * (F b - G b)).
Proof.
  rewrite Rsumn_scal. apply f_equal.
  assert (E : Rsumn n (fun b => F b - G b) + Rsumn n G = Rsumn n F).
  { rewrite <- Rsumn_plus. apply Rsumn_ext. intros b _. lra. }
  lra.
Qed.

Section Decomp.
  Context (chance : list (list R)) (draw : oracle) (pass : N).
  Context (me : bool) (s1 s2 : list (list R)).
  Context (S : list (list R)) (s : nat -> nat).
  Context (H : bool -> nat -> hist) (N : nat).

  Local Notation sg := (sg_of s1 s2).
  Local Notation vv := (@vval RNum chance false draw pass sg).
  Local Notation vi := (@vincs RNum chance false draw pass sg).

  (** the profile in which [me] deviates to the pure table [S] *)
  Definition dev1 : list (list R) := if me then S else s1.
  Definition dev2 : list (list R) := if me then s2 else S.
  Local Notation Us := (u chance dev1 dev2).
  Local Notation Usig := (u chance s1 s2).

  Definition sgn : R := if me then 1 else -1.
  Definition cfwt (pc p1 p2 : R) : R := pc * (if me then p2 else p1).

  (** is the own history [h] consistent with the pure strategy [s] *)
  Definition cons_b (h : hist) : bool := forallb (fun ia => Nat.eqb (s (fst ia)) (snd ia)) h.
  Definition cons_s (h : hist) : R := if cons_b h then 1 else 0.

  Lemma cons_s_app h j b : cons_s (h ++ [(j, b)]) = cons_s h * (if Nat.eqb (s j) b then 1 else 0).
  Proof.
    unfold cons_s, cons_b. rewrite forallb_app. cbn [forallb fst snd].
    destruct (forallb _ h), (Nat.eqb (s j) b); cbn [andb]; lra.
  Qed.

  Lemma cons_s_01 h : 0 <= cons_s h <= 1.
  Proof. unfold cons_s. destruct (cons_b h); lra. Qed.

  (** the measure "sum over the infosets of [me], weighted by reachability under [s], of
      the increment of the regret of the action [s] selects" *)
  Definition nu (x : incr) : R :=
    match x with
    | IStrat _ _ _ => 0
    | IReg pl j b v =>
        if Bool.eqb pl me && Nat.ltb j N && Nat.eqb b (s j) then cons_s (H me j) * v else 0
    | IRegAll pl j v =>
        if Bool.eqb pl me && Nat.ltb j N then - (cons_s (H me j) * v) else 0
    end.

  Lemma nu_point x :
    Rsumn N (fun i => cons_s (H me i) * reg_of me i (s i) x) = nu x.
  Proof.
    destruct x as [pl j w|pl j b v|pl j v]; cbn [reg_of nu].
    - apply Rsumn_zero_ext. intros; lra.
    - destruct (Bool.eqb pl me); cbn [andb]; [|apply Rsumn_zero_ext; intros; lra].
      destruct (Nat.ltb_spec j N) as [Hj|Hj]; cbn [andb].
      + rewrite (Rsumn_ext _ _ (fun i => if Nat.eqb i j
                                         then cons_s (H me i) * (if Nat.eqb b (s i) then v else 0)
                                         else 0)).
        * rewrite Rsumn_single by assumption. destruct (Nat.eqb b (s j)); lra.
        * intros i _. rewrite (Nat.eqb_sym j i). destruct (Nat.eqb i j); cbn [andb]; lra.
      + apply Rsumn_zero_ext. intros i Hi. destruct (Nat.eqb_spec j i); [lia|cbn [andb]; lra].
    - destruct (Bool.eqb pl me); cbn [andb]; [|apply Rsumn_zero_ext; intros; lra].
      destruct (Nat.ltb_spec j N) as [Hj|Hj]; cbn [andb].
      + rewrite (Rsumn_ext _ _ (fun i => if Nat.eqb i j then cons_s (H me i) * - v else 0)).
        * rewrite Rsumn_single by assumption. lra.
        * intros i _. rewrite (Nat.eqb_sym j i). destruct (Nat.eqb i j); lra.
      + apply Rsumn_zero_ext. intros i Hi. destruct (Nat.eqb_spec j i); [lia|lra].
  Qed.

  Lemma nu_msum (L : list incr) :
    Rsumn N (fun i => cons_s (H me i) * reg_sum me i (s i) L) = msum nu L.
  Proof.
    induction L as [|x L IH].
    - apply Rsumn_zero_ext. intros i _. unfold reg_sum. cbn [map Rsum]. lra.
    - rewrite msum_cons, <- IH, <- nu_point, <- Rsumn_plus. apply Rsumn_ext. intros i _.
      unfold reg_sum. cbn [map Rsum]. lra.
  Qed.


  (** what the argument needs of every node of the tree *)
  Definition OKC (ci : nat) (kids : list node) : Prop := length (rowR chance ci) = length kids.
  Definition OKP (pl : bool) (j : nat) (kids : list node) : Prop :=
    length (sg pl j) = length kids /\
    (pl = me -> (j < N)%nat /\ rowR S j = onehot (s j) (length kids) /\ (s j < length kids)%nat).

  (** perfect recall for [me], on a subtree *)
  Definition PRme (x : hentry) : Prop := let '(pl, i, h) := x in pl = me -> h = H me i.

  Lemma cfwt_own pc p1 p2 pr : cfwt pc (q1_of me p1 pr) (q2_of me p2 pr) = cfwt pc p1 p2.
  Proof. unfold cfwt, q1_of, q2_of. destruct me; reflexivity. Qed.

  Lemma cfwt_other pl pc p1 p2 pr :
    pl <> me -> cfwt pc (q1_of pl p1 pr) (q2_of pl p2 pr) = cfwt pc p1 p2 * pr.
  Proof. unfold cfwt, q1_of, q2_of. destruct me, pl; try congruence; intros _; lra. Qed.

  Lemma mult_me pc p1 p2 : (if me then pc * p2 else - p1 * pc) = sgn * cfwt pc p1 p2.
  Proof. unfold sgn, cfwt. destruct me; lra. Qed.

  Lemma vv_u : forall n, vv n = Usig n.
  Proof. intros n. apply vval_u. Qed.

  Lemma dev_me_tbl : (if me then dev1 else dev2) = S.
  Proof. unfold dev1, dev2. destruct me; reflexivity. Qed.

  Lemma dev_other_tbl pl : pl <> me -> (if pl then dev1 else dev2) = (if pl then s1 else s2).
  Proof. unfold dev1, dev2. destruct me, pl; try congruence; reflexivity. Qed.

  Lemma decomp_node : forall n h1 h2,
    allp OKC OKP n -> HSub PRme n h1 h2 ->
    forall pc p1 p2,
      msum nu (vi n pc p1 p2) =
      cons_s (hme me h1 h2) * (sgn * cfwt pc p1 p2 * (Us n - Usig n)).
  Proof.
    refine (hist_ind OKC OKP PRme _ _ _ _).
    - intros x h1 h2 pc p1 p2. cbn [vincs u]. rewrite msum_nil. tR. lra.
    - intros ci kids h1 h2 Hc IH pc p1 p2. unfold OKC in Hc.
      rewrite vincs_Chance, msum_incs_chance by assumption.
      rewrite !u_Chance_n, <- !Rmult_assoc, Rsumn_lin. apply Rsumn_ext. intros b Hb.
      rewrite (IH b Hb). unfold cfwt. tR. lra.
    - intros pl j kids h1 h2 [Hl Hme] Hh IH pc p1 p2.
      rewrite vincs_Player. cbv zeta.
      rewrite msum_cons, msum_app, msum_incs_player by assumption.
      rewrite msum_cons, msum_nil, exp_player_acc.
      rewrite (map_ext _ _ vv_u). cbn [zero RNum nu]. tR.
      assert (EU : dot (sg pl j) (map Usig kids) = Usig (Player pl j kids)) by reflexivity.
      rewrite EU.
      destruct (Bool.eqb_spec pl me) as [Epl|Npl].
      + (* a node of [me] *)
        subst pl. destruct (Hme eq_refl) as (HjN & Hrow & Hsj). specialize (Hh eq_refl).
        change (if me then h1 else h2) with (hme me h1 h2) in Hh.
        apply Nat.ltb_lt in HjN. rewrite HjN. cbn [andb]. rewrite mult_me.
        set (K := sgn * cfwt pc p1 p2).
        set (c := cons_s (hme me h1 h2)).
        rewrite (Rsumn_ext _ _
                   (fun b => if Nat.eqb b (s j)
                             then c * (K * (Us (nth b kids d0) - Usig (nth b kids d0)))
                                  + c * (Usig (nth b kids d0) * K)
                             else 0)).
        * rewrite Rsumn_single by assumption.
          assert (EUs : Us (Player me j kids) = Us (nth (s j) kids d0)).
          { rewrite u_Player_n, dev_me_tbl. unfold prob. rewrite Hrow.
            rewrite (Rsumn_ext _ _ (fun b => if Nat.eqb b (s j) then Us (nth b kids d0) else 0)).
            - now rewrite Rsumn_single.
            - intros b _. rewrite nth_onehot by assumption. destruct (Nat.eqb b (s j)); lra. }
          rewrite EUs, <- Hh. fold c. tR. lra.
        * intros b Hb. rewrite (IH b Hb), hme_ext_same, cons_s_app, cfwt_own, vv_u. cbn [Nat.add].
          rewrite <- Hh. fold c. fold K. rewrite (Nat.eqb_sym (s j) b).
          destruct (Nat.eqb b (s j)); tR; lra.
      + (* a node of the opponent *)
        cbn [andb].
        rewrite !u_Player_n, (dev_other_tbl pl Npl).
        rewrite <- !Rmult_assoc, Rsumn_lin.
        rewrite Rsumn_plus, Rsumn_zero, !Rplus_0_r, !Rplus_0_l.
        apply Rsumn_ext. intros b Hb.
        rewrite (IH b Hb), (hme_ext_other me pl j b h1 h2 Npl), (cfwt_other pl pc p1 p2 _ Npl).
        unfold prob, sg_of. tR. lra.
  Qed.
End Decomp.

Definition own_of (me : bool) (s1 s2 : list (list R)) := if me then s1 else s2.
Definition opp_of (me : bool) (s1 s2 : list (list R)) := if me then s2 else s1.

(** the strategy tables have one row of the right length per infoset *)
Definition Fits (g : game) (s1 s2 : list (list R)) : Prop :=
  forall pl j, (j < ninfos g pl)%nat -> length (rowR (if pl then s1 else s2) j) = arity g pl j.

Definition PRwit (g : game) (H : bool -> nat -> hist) : Prop :=
  forall pl i h, In (pl, i, h) (@hists RNum (g_root g) [] []) -> h = H pl i.

(** is infoset [(me, i)] reachable when [me] plays the pure strategy [s] *)
Definition reach_s (s : nat -> nat) (H : bool -> nat -> hist) (me : bool) (i : nat) : R :=
  cons_s s (H me i).

Lemma reach_s_01 s H me i : 0 <= reach_s s H me i <= 1.
Proof. apply cons_s_01. Qed.

Section Iter.
  Context (g : game) (Hwf : @WFgame RNum g).
  Context (H : bool -> nat -> hist) (HPR : PRwit g H).


  Lemma root_ok me s1 s2 Sp s :
    Fits g s1 s2 -> IsPure g me Sp s ->
    allp (OKC (g_chance g)) (OKP me s1 s2 Sp s (ninfos g me)) (g_root g).
  Proof.
    intros HF HP. destruct Hwf as (Hsh & _).
    eapply allp_impl; [| |exact (shaped_allp g _ Hsh)].
    - intros ci kids Hc. exact Hc.
    - intros pl j kids (Hj & Hlen & _). unfold OKP. split.
      + unfold sg_of. rewrite (HF pl j Hj). now symmetry.
      + intros ->. destruct (HP j Hj) as [Hrow Hs]. rewrite Hlen. auto.
  Qed.

  Lemma root_PR me : HSub (PRme me H) (g_root g) [] [].
  Proof. intros [[pl i] h] Hin. unfold PRme. intros <-. now apply HPR. Qed.

  (** the increments are the counterfactual regrets [cfr_inc], literally what one traversal
      adds to [cum_regret] *)
  Theorem regret_decomposition_iter me s1 s2 Sp s :
    Fits g s1 s2 -> IsPure g me Sp s ->
    u_me g me Sp (opp_of me s1 s2) - u_me g me (own_of me s1 s2) (opp_of me s1 s2) =
    Rsumn (ninfos g me)
          (fun i => reach_s s H me i * cfr_inc (g_chance g) (sg_of s1 s2) me i (s i) (g_root g) 1 1 1).
  Proof.
    intros HF HP. unfold reach_s.
    rewrite (Rsumn_ext _ _ (fun i => cons_s s (H me i) * reg_sum me i (s i)
               (@vincs RNum (g_chance g) false (fun _ _ _ _ => 0%nat) 0%N (sg_of s1 s2) (g_root g) 1 1 1)))
      by (intros i _; now rewrite reg_sum_vincs).
    rewrite (nu_msum me s H (ninfos g me)).
    rewrite (decomp_node (g_chance g) _ 0%N me s1 s2 Sp s H (ninfos g me) (g_root g) [] []
                         (root_ok me s1 s2 Sp s HF HP) (root_PR me) 1 1 1).
    unfold hme, cons_s, cons_b, cfwt, sgn, dev1, dev2, u_me, u_game, own_of, opp_of.
    destruct me; cbn [forallb]; lra.
  Qed.
End Iter.

Section Weighted.
  Context (g : game) (Hwf : @WFgame RNum g).
  Context (H : bool -> nat -> hist) (HPR : PRwit g H).
  Context (draw : oracle) (p : params) (w : nat -> R).

  Local Notation sigma := (dsigma_at g draw p).

  Lemma dsigma_Fits t : Fits g (sigma (S t) true) (sigma (S t) false).
  Proof.
    intros pl j Hj.
    replace (if pl then sigma (S t) true else sigma (S t) false)
      with (sigma (S t) pl) by (destruct pl; reflexivity).
    apply dsigma_at_length; [now apply WFgame_arities_pos|exact Hj].
  Qed.

  (** the weighted external regret of [pl] against the pure strategy [Sp] over [T] iterations *)
  Definition wext_regret (T : nat) (pl : bool) (Sp : list (list R)) : R :=
    Rsumn T (fun t => w t *
                      (u_me g pl Sp (sigma (S t) (negb pl))
                       - u_me g pl (sigma (S t) pl) (sigma (S t) (negb pl)))).

  Theorem wregret_decomposition T pl Sp s :
    IsPure g pl Sp s ->
    wext_regret T pl Sp =
    Rsumn (ninfos g pl) (fun i => reach_s s H pl i * wreg g draw p w T pl i (s i)).
  Proof.
    intros HP. unfold wext_regret, wreg.
    rewrite (Rsumn_ext (ninfos g pl) _
               (fun i => Rsumn T (fun t => reach_s s H pl i * (w t * dinc g draw p t pl i (s i)))))
      by (intros i _; now rewrite Rsumn_scal).
    rewrite Rsumn_exchange. apply Rsumn_ext. intros t _.
    pose proof (regret_decomposition_iter g Hwf H HPR pl (sigma (S t) true) (sigma (S t) false)
                                          Sp s (dsigma_Fits t) HP) as E.
    replace (opp_of pl (sigma (S t) true) (sigma (S t) false))
      with (sigma (S t) (negb pl)) in E by (destruct pl; reflexivity).
    replace (own_of pl (sigma (S t) true) (sigma (S t) false))
      with (sigma (S t) pl) in E by (destruct pl; reflexivity).
    rewrite E, <- Rsumn_scal. apply Rsumn_ext. intros i _.
    unfold dinc. rewrite strat_view_dsigma. lra.
  Qed.
End Weighted.

Section Game.
  Context (g : game) (Hwf : @WFgame RNum g).
  Context (H : bool -> nat -> hist) (HPR : PRwit g H).
  Context (draw : oracle).
  Let Hpos : arities_pos g := WFgame_arities_pos g Hwf.


  (** the external regret of [pl] against the pure strategy [Sp] over [T] iterations *)
  Definition ext_regret (T : nat) (pl : bool) (Sp : list (list R)) : R :=
    Rsumn T (fun t => u_me g pl Sp (sigma_at g draw (S t) (negb pl))
                      - u_me g pl (sigma_at g draw (S t) pl) (sigma_at g draw (S t) (negb pl))).

  Theorem regret_decomposition T pl Sp s :
    IsPure g pl Sp s ->
    ext_regret T pl Sp =
    Rsumn (ninfos g pl) (fun i => reach_s s H pl i * regret_at g draw T pl i (s i)).
  Proof.
    intros HP.
    transitivity (wext_regret g draw (@p_vanilla RNum) (fun _ => 1) T pl Sp).
    { apply Rsumn_ext. intros t _. rewrite sigma_at_vanilla. lra. }
    rewrite (wregret_decomposition g Hwf H HPR draw _ _ T pl Sp s HP).
    apply Rsumn_ext. intros i Hi. apply f_equal.
    rewrite regret_at_vanilla,
      (dregret_at_sum g draw _ (fun _ => 1) (fun _ _ => Rlt_0_1) vanilla_discount_reg Hpos
                      T pl i (s i) Hi (proj2 (HP i Hi))).
    rewrite dprod_one, Rmult_1_l. apply Rsumn_ext. intros t _. now rewrite dprod_one, Rinv_1.
  Qed.
End Game.
