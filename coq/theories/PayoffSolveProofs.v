(** * PayoffSolveProofs: scaling, shifting and swapping payoffs/players — solver
    side (property C12).

    One simulation between the run on a game [g] and the run on
    [tgame flip (aff s k) g] (players exchanged or not, payoff [x |-> s*x + k]),
    instantiated three times: scale ([flip = false], [k = 0]), shift
    ([flip = false], [s = 1]) and swap ([flip = true], [s = -1], [k = 0]).
    A traversal is its value and the fold of its increments ([Incr.vrec_incs]);
    both are compared by induction over the tree, the increments through their
    sums per infoset and action ([IterChar.reg_sum], [IterChar.strat_sum]). *)
From Coq Require Import Reals List Lra Lia Bool Arith NArith.
From Cfr.theories Require Import Num ListAux RInst Tree GameWF Strat Eval Solve Valid
     SolveValidProofs RulesProofs EvalSpec EvalProofs BestResponseProofs Incr IterChar
     PayoffEvalProofs PayoffShiftBRProofs.
Import ListNotations.
Open Scope R_scope.

Local Notation nodeR := (@node RNum).
Local Notation gameR := (@game RNum).
Local Notation pstateR := (@pstate RNum).
Local Notation rinfoR := (@rinfo RNum).
Local Notation paramsR := (@params RNum).
Local Notation oracleR := (@oracle RNum).
Local Notation incrR := (@incr RNum).

Definition nopos_ok (p : paramsR) : Prop :=
  a_nopos p = PosInf \/ a_nopos p = NegInf \/ a_nopos p = Fin (0 : T RNum).

Lemma Rltb_mult c a b : 0 < c -> Rltb (c * a) (c * b) = Rltb a b.
Proof.
  intros Hc. unfold Rltb. destruct (Rlt_dec (c * a) (c * b)), (Rlt_dec a b);
    try reflexivity; exfalso; nra.
Qed.

Lemma Rltb_mult_0l c a : 0 < c -> Rltb 0 (c * a) = Rltb 0 a.
Proof. intros Hc. rewrite <- (Rltb_mult c 0 a Hc). now rewrite Rmult_0_r. Qed.

Lemma Rltb_mult_0r c a : 0 < c -> Rltb (c * a) 0 = Rltb a 0.
Proof. intros Hc. rewrite <- (Rltb_mult c a 0 Hc). now rewrite Rmult_0_r. Qed.

Lemma filter_pos_scale c (l : list R) :
  0 < c -> filter (fun v => Rltb 0 v) (map (Rmult c) l) = map (Rmult c) (filter (fun v => Rltb 0 v) l).
Proof.
  intros Hc. induction l as [|x l IH]; cbn [map filter]; [reflexivity|].
  rewrite Rltb_mult_0l by assumption. destruct (Rltb 0 x); cbn [map]; now rewrite IH.
Qed.

Lemma arg_scale c (l : list R) i bi bv :
  0 < c ->
  @argmax_last RNum (map (Rmult c) l) i bi (c * bv) = @argmax_last RNum l i bi bv /\
  @argmin_first RNum (map (Rmult c) l) i bi (c * bv) = @argmin_first RNum l i bi bv.
Proof.
  intros Hc. revert i bi bv. induction l as [|v r IH]; intros i bi bv;
    cbn [map argmax_last argmin_first]; [split; reflexivity|].
  change (ltb RNum) with Rltb. rewrite Rltb_mult by assumption.
  destruct (Rltb v bv); split; apply IH.
Qed.

(** regret matching does not see a positive rescaling of its argument, in the
    three fallback branches of the presets *)
Lemma regret_match_scale (p : paramsR) c (cr : list R) :
  0 < c -> nopos_ok p ->
  @regret_match RNum p (map (Rmult c) cr) = @regret_match RNum p cr.
Proof.
  intros Hc Hp. rewrite !regret_match_unfold. cbv zeta.
  rewrite filter_pos_scale, Rsum_map_Rmult, Rltb_mult_0l, map_length by assumption.
  destruct (Rltb 0 (Rsum _)) eqn:E.
  - apply Rltb_true in E. rewrite map_map. apply map_ext. intros x.
    rewrite Rltb_mult_0l by assumption. destruct (Rltb 0 x); [|reflexivity]. field. lra.
  - destruct Hp as [Hp|[Hp|Hp]]; rewrite Hp.
    + destruct cr as [|v r]; [reflexivity|]. cbn [map]. now rewrite (proj1 (arg_scale c r _ _ v Hc)).
    + destruct cr as [|v r]; [reflexivity|]. cbn [map]. now rewrite (proj2 (arg_scale c r _ _ v Hc)).
    + replace (Reqb 0 0) with true by (symmetry; now apply Reqb_true). reflexivity.
Qed.

Lemma discount_cum_regret_scale (p : paramsR) it c (cr : list R) :
  0 < c ->
  @discount_cum_regret RNum p it (map (Rmult c) cr) = map (Rmult c) (@discount_cum_regret RNum p it cr).
Proof.
  intros Hc. unfold discount_cum_regret. cbv zeta. rewrite !map_map. apply map_ext. intros x.
  change (ltb RNum) with Rltb. change (zero RNum) with 0. change (mul RNum) with Rmult.
  rewrite Rltb_mult_0l, Rltb_mult_0r by assumption.
  change (T RNum) with R in *.
  destruct (Rltb 0 x); [lra|]. destruct (Rltb x 0); [lra|reflexivity].
Qed.

Lemma cum_regret_bound_scale it c (cr : list R) :
  0 <= c -> @cum_regret_bound RNum it (map (Rmult c) cr) = c * @cum_regret_bound RNum it cr :> R.
Proof.
  intros Hc. rewrite !cum_regret_bound_eq. unfold Rmaxl.
  rewrite reduce_max_map by (intros; now apply RmaxRmult).
  destruct (@reduce_max RNum cr) as [m|]; cbn [option_map].
  - rewrite Rmax_scale0 by assumption. unfold Rdiv. lra.
  - rewrite (Rmax_left 0 0) by lra. unfold Rdiv. lra.
Qed.

(** the side condition is needed: with a finite non-zero fallback weight regret
    matching is a softmax of the (non-positive) cumulative regrets, which is not
    scale invariant *)
Lemma scale_softmax_counterexample :
  let p := @mkParams RNum PosInf PosInf (Fin (0 : T RNum)) (Fin (1 : T RNum)) in
  @regret_match RNum p (map (Rmult 2) [0; -1]) <> @regret_match RNum p [0; -1].
Proof.
  cbv zeta. rewrite !(regret_match_softmax _ 1); try reflexivity; try lra.
  2, 3: intros r [<-|[<-|[]]]; lra.
  cbn [map Rsum]. intros H. injection H as H _.
  replace (1 * (2 * 0)) with 0 in H by lra. replace (1 * (2 * -1)) with (-2) in H by lra.
  replace (1 * 0) with 0 in H by lra. replace (1 * -1) with (-1) in H by lra.
  rewrite exp_0 in H.
  assert (H1 : Rtrigo_def.exp (-2) < Rtrigo_def.exp (-1)) by (apply exp_increasing; lra).
  pose proof (exp_pos (-2)) as P2. pose proof (exp_pos (-1)) as P1.
  assert (Hlt : / (1 + (Rtrigo_def.exp (-1) + 0)) < / (1 + (Rtrigo_def.exp (-2) + 0))).
  { apply Rinv_lt_contravar; [apply Rmult_lt_0_compat; lra|lra]. }
  unfold Rdiv in H. lra.
Qed.

Fixpoint offl (gm : R) (d : nat -> R) (j : nat) (l : list R) : list R :=
  match l with
  | [] => []
  | x :: r => (gm * x + d j) :: offl gm d (S j) r
  end.

Lemma offl_length gm d j l : length (offl gm d j l) = length l.
Proof. revert j; induction l as [|x l IH]; intros j; cbn [offl length]; [reflexivity|now rewrite IH]. Qed.


Definition pfst (flip : bool) (p1 p2 : R) : R := if flip then p2 else p1.
Definition psnd (flip : bool) (p1 p2 : R) : R := if flip then p1 else p2.

Lemma q1_swap flip pl p1 p2 prob :
  (if fl flip pl then pfst flip p1 p2 * prob else pfst flip p1 p2) =
  pfst flip (if pl then p1 * prob else p1) (if pl then p2 else p2 * prob).
Proof. destruct flip, pl; reflexivity. Qed.

Lemma q2_swap flip pl p1 p2 prob :
  (if fl flip pl then psnd flip p1 p2 else psnd flip p1 p2 * prob) =
  psnd flip (if pl then p1 * prob else p1) (if pl then p2 else p2 * prob).
Proof. destruct flip, pl; reflexivity. Qed.

Lemma mine_swap flip pl (p1 p2 : R) :
  (if fl flip pl then pfst flip p1 p2 else psnd flip p1 p2) = if pl then p1 else p2.
Proof. destruct flip, pl; reflexivity. Qed.

Lemma mult_swap flip pl pc p1 p2 :
  (if fl flip pl then pc * psnd flip p1 p2 else - pfst flip p1 p2 * pc) =
  sgn flip * (if pl then pc * p2 else - p1 * pc).
Proof. destruct flip, pl; unfold sgn, pfst, psnd; cbn [fl negb]; lra. Qed.

Lemma incs_player_cons (recv : nodeR -> R) reci pl i (pc p1 p2 mult : R) c ks (prob : R) ss ai :
  @incs_player RNum recv reci pl i pc p1 p2 mult (c :: ks) (prob :: ss) ai =
  reci c pc (if pl then p1 * prob else p1) (if pl then p2 else p2 * prob) ++
  @IReg RNum pl i ai (recv c * mult) :: @incs_player RNum recv reci pl i pc p1 p2 mult ks ss (S ai).
Proof. destruct pl; reflexivity. Qed.

Lemma reg_sum_cons pl i a (x : incrR) l :
  reg_sum pl i a (x :: l) = reg_of pl i a x + reg_sum pl i a l.
Proof. reflexivity. Qed.

Lemma strat_sum_cons pl i (x : incrR) l : strat_sum pl i (x :: l) = strat_of pl i x + strat_sum pl i l.
Proof. reflexivity. Qed.

Lemma if_rel {A} (b : bool) (P : A -> A -> Prop) x y x' y' :
  (b = true -> P x x') -> (b = false -> P y y') ->
  P (if b then x else y) (if b then x' else y').
Proof. destruct b; auto. Qed.

Section Sim.
  Context (flip : bool) (s k : R).
  Context (g : gameR) (sampled : bool) (draw : oracleR) (pass : N).
  Context (st : pstateR) (sg' : bool -> nat -> list R).
  Context (Hsg : forall pl i, sg' (fl flip pl) i = strat_view st pl i).

  Local Notation gm := (s * sgn flip).
  Local Notation tn := (tnode flip (aff s k)).
  Local Notation V := (@vval RNum (g_chance g) sampled draw pass (strat_view st)).
  Local Notation V' := (@vval RNum (g_chance g) sampled draw pass sg').
  Local Notation VI := (@vincs RNum (g_chance g) sampled draw pass (strat_view st)).
  Local Notation VI' := (@vincs RNum (g_chance g) sampled draw pass sg').

  Definition ShiftState : Prop :=
    ChanceOK g /\ InvA (arities g true) (arities g false) st /\
    (sampled = true ->
     forall ci, (ci < length (g_chance g))%nat ->
                (draw true ci pass (row (g_chance g) ci) < length (row (g_chance g) ci))%nat).

  Definition Side (n : nodeR) : Prop := k = 0 \/ (ShiftState /\ shaped g n).

  (** a row of probabilities over the children through which the shift passes whole *)
  Definition FullRow (ps : list R) (ks : list nodeR) : Prop :=
    k = 0 \/ (length ps = length ks /\ Rsum ps = 1).

  Lemma FullRow_k ps ks : FullRow ps ks -> k * Rsum (firstn (length ks) ps) = k.
  Proof. intros [->|[<- E]]; [lra|]. rewrite firstn_all, E. lra. Qed.

  Lemma Side_Chance ci kids :
    Side (Chance ci kids) ->
    Forall Side kids /\ FullRow (row (g_chance g) ci) kids /\
    (k = 0 \/ (sampled = true -> draw true ci pass (row (g_chance g) ci) < length kids)%nat).
  Proof.
    intros [Hk|[(HC & HI & Ho) Hsh]].
    { split; [apply Forall_forall; intros c _|split]; now left. }
    destruct (shaped_Chance g ci kids Hsh) as (Hci & Hlen & _ & Hall).
    split; [|split; right].
    - eapply Forall_impl; [|exact Hall]. intros c Hc. right. now split.
    - exact (chance_row_shaped g ci kids HC Hsh).
    - intros Es. rewrite Hlen. now apply Ho.
  Qed.

  Lemma Side_Player pl i kids :
    Side (Player pl i kids) -> Forall Side kids /\ FullRow (strat_view st pl i) kids.
  Proof.
    intros [Hk|[(HC & HI & Ho) Hsh]].
    { split; [apply Forall_forall; intros c _|]; now left. }
    destruct (shaped_Player g pl i kids Hsh) as (Hi & Hlen & _ & Hall).
    split.
    { eapply Forall_impl; [|exact Hall]. intros c Hc. right. now split. }
    assert (HR : RInvA (length kids) (@ri_get RNum st pl i)).
    { rewrite Hlen. apply Forall2_nth; [destruct pl; apply HI|now rewrite arities_length]. }
    destruct HR as ((_ & Hs) & _ & _ & _ & L3). right. now split.
  Qed.

  Definition SimV (c : nodeR) : Prop := V' (tn c) = s * V c + k.

  Lemma val_chance_sim ks :
    Forall SimV ks -> forall (ps : list R) (e e' : R),
    @val_chance RNum V' ps (map tn ks) e' - e' =
    s * (@val_chance RNum V ps ks e - e) + k * Rsum (firstn (length ks) ps).
  Proof.
    induction 1 as [|c ks Hc HK IH]; intros ps e e'; destruct ps as [|p ps];
      cbn [val_chance map length firstn Rsum]; try lra.
    specialize (IH ps (e + p * V c) (e' + p * V' (tn c))). rewrite Hc in *.
    change (add RNum) with Rplus. change (mul RNum) with Rmult. lra.
  Qed.

  Lemma val_chance_mass ks ps :
    Forall SimV ks -> FullRow ps ks ->
    @val_chance RNum V' ps (map tn ks) 0 = s * @val_chance RNum V ps ks 0 + k.
  Proof.
    intros HV HM. pose proof (val_chance_sim ks HV ps 0 0) as E.
    rewrite (FullRow_k _ _ HM) in E. lra.
  Qed.

  Lemma val_pick_sim ks :
    Forall SimV ks -> forall idx, (k = 0 \/ (idx < length ks)%nat) ->
    @val_pick RNum V' (map tn ks) idx = s * @val_pick RNum V ks idx + k.
  Proof.
    induction 1 as [|c ks Hc HK IH]; intros idx Hi; cbn [val_pick map].
    - destruct Hi as [->|Hi]; [cbn; lra|cbn [length] in Hi; lia].
    - destruct idx as [|idx].
      + rewrite Hc. cbn. lra.
      + apply IH. cbn [length] in Hi. destruct Hi; [now left|right; lia].
  Qed.

  Lemma vval_sim n : Side n -> SimV n.
  Proof.
    induction n as [x|ci kids IH|pl i kids IH] using node_ind'; intros HS; unfold SimV; cbn [tnode vval].
    - reflexivity.
    - destruct (Side_Chance ci kids HS) as (HK & HM & Hd).
      assert (HV : Forall SimV kids).
      { rewrite Forall_forall in IH, HK |- *. auto. }
      apply (if_rel sampled (fun v v' => v' = s * v + k)); intros Es.
      + apply val_pick_sim; [exact HV|]. destruct Hd as [Hd|Hd]; [now left|right; now apply Hd].
      + now apply val_chance_mass.
    - destruct (Side_Player pl i kids HS) as (HK & HM).
      assert (HV : Forall SimV kids).
      { rewrite Forall_forall in IH, HK |- *. auto. }
      rewrite Hsg, <- !val_chance_player. now apply val_chance_mass.
  Qed.

  (** the increments, summed for one infoset [(pl, i)] and one action [a]:
      the regret sums are multiplied by [gm] (the shift cancels between the
      action's value and the node's, the row summing to 1), the strategy
      weights are equal *)
  Context (pl : bool) (i a : nat)
          (Ha : k = 0 \/ (a < length (strat_view st pl i))%nat).

  (** [e] is the part of the shift still on the regret sums *)
  Definition RelE (e : R) (L L' : list incrR) : Prop :=
    reg_sum (fl flip pl) i a L' = gm * reg_sum pl i a L + e /\
    strat_sum (fl flip pl) i L' = strat_sum pl i L.

  Definition SimI (c : nodeR) : Prop :=
    forall pc p1 p2 : R, RelE 0 (VI c pc p1 p2) (VI' (tn c) pc (pfst flip p1 p2) (psnd flip p1 p2)).

  Lemma RelE_nil e : e = 0 -> RelE e [] [].
  Proof. intros ->. unfold RelE, reg_sum, strat_sum; cbn [map Rsum]. split; lra. Qed.

  Lemma RelE_app e1 e2 e L1 L1' L2 L2' :
    RelE e1 L1 L1' -> RelE e2 L2 L2' -> e = e1 + e2 -> RelE e (L1 ++ L2) (L1' ++ L2').
  Proof.
    intros [A1 A2] [B1 B2] ->. unfold RelE.
    rewrite !reg_sum_app, !strat_sum_app, A1, A2, B1, B2. split; lra.
  Qed.

  Lemma RelE_cons e1 e2 e (x x' : incrR) L L' :
    reg_of (fl flip pl) i a x' = gm * reg_of pl i a x + e1 ->
    strat_of (fl flip pl) i x' = strat_of pl i x ->
    RelE e2 L L' -> e = e1 + e2 -> RelE e (x :: L) (x' :: L').
  Proof.
    intros A1 A2 [B1 B2] ->. unfold RelE.
    rewrite !reg_sum_cons, !strat_sum_cons, A1, A2, B1, B2. split; lra.
  Qed.

  Lemma incs_pick_sim (pc p1 p2 : R) ks :
    Forall SimI ks -> forall idx,
    RelE 0 (@incs_pick RNum VI pc p1 p2 ks idx)
         (@incs_pick RNum VI' pc (pfst flip p1 p2) (psnd flip p1 p2) (map tn ks) idx).
  Proof.
    induction 1 as [|c ks Hc HK IH]; intros idx; cbn [incs_pick map]; [now apply RelE_nil|].
    destruct idx; [apply Hc|apply IH].
  Qed.

  Lemma incs_chance_sim (pc p1 p2 : R) ks :
    Forall SimI ks -> forall ps,
    RelE 0 (@incs_chance RNum VI pc p1 p2 ps ks)
         (@incs_chance RNum VI' pc (pfst flip p1 p2) (psnd flip p1 p2) ps (map tn ks)).
  Proof.
    induction 1 as [|c ks Hc HK IH]; intros ps; destruct ps as [|p ps];
      cbn [incs_chance map]; try now apply RelE_nil.
    eapply RelE_app; [apply Hc|apply IH|lra].
  Qed.

  (** inside the loop over the actions the shift is still there, on the
      actions [ai, ai + n) already visited: [ind] is 1 on them *)
  Definition ind (ai n : nat) : R := if (ai <=? a)%nat && (a <? ai + n)%nat then 1 else 0.

  Lemma ind_0 ai : ind ai 0 = 0.
  Proof.
    unfold ind. destruct (Nat.leb_spec ai a), (Nat.ltb_spec a (ai + 0)); cbn [andb]; try reflexivity. lia.
  Qed.

  Lemma ind_S ai n : (if (ai =? a)%nat then 1 else 0) + ind (S ai) n = ind ai (S n).
  Proof.
    unfold ind. rewrite <- Nat.add_succ_comm.
    destruct (Nat.eqb_spec ai a), (Nat.leb_spec (S ai) a), (Nat.leb_spec ai a),
      (Nat.ltb_spec a (S ai + n)); cbn [andb]; try lra; lia.
  Qed.

  Lemma incs_player_sim pl' i' (pc p1 p2 mult : R) ks :
    Forall SimI ks -> Forall SimV ks -> forall (ss : list R) ai,
    RelE (if is_info pl' i' pl i
          then k * ind ai (Nat.min (length ks) (length ss)) * (sgn flip * mult) else 0)
         (@incs_player RNum V VI pl' i' pc p1 p2 mult ks ss ai)
         (@incs_player RNum V' VI' (fl flip pl') i' pc (pfst flip p1 p2) (psnd flip p1 p2)
                       (sgn flip * mult) (map tn ks) ss ai).
  Proof.
    intros HI HV; induction HI as [|c ks Hc HK IH]; intros ss ai; inversion_clear HV as [|? ? Hv HV'];
      destruct ss as [|prob ss]; cbn [map length Nat.min]; rewrite ?incs_player_cons;
      cbn [incs_player].
    1-3: apply RelE_nil; rewrite ind_0; destruct (is_info pl' i' pl i); lra.
    rewrite q1_swap, q2_swap.
    eapply RelE_app; [apply Hc| |symmetry; apply Rplus_0_l].
    eapply (RelE_cons (if is_info pl' i' pl i && (ai =? a)%nat then k * (sgn flip * mult) else 0));
      [| |apply (IH HV' ss (S ai))|].
    - cbn [reg_of]. rewrite fl_eqb, Hv. fold (is_info pl' i' pl i).
      destruct (is_info pl' i' pl i && (ai =? a)%nat); lra.
    - reflexivity.
    - rewrite <- ind_S. destruct (is_info pl' i' pl i), (ai =? a)%nat; cbn [andb]; lra.
  Qed.

  Lemma ind_in n : (a < n)%nat -> ind 0 n = 1.
  Proof.
    intros H. unfold ind. cbn [Nat.leb andb Nat.add]. destruct (Nat.ltb_spec a n); [reflexivity|lia].
  Qed.

  Lemma vincs_sim n : Side n -> SimI n.
  Proof.
    induction n as [x|ci kids IH|pl' i' kids IH] using node_ind'; intros HS pc p1 p2; cbn [tnode vincs].
    - now apply RelE_nil.
    - destruct (Side_Chance ci kids HS) as (HK & _ & _).
      assert (HI : Forall SimI kids) by (rewrite Forall_forall in IH, HK |- *; auto).
      apply (if_rel sampled (RelE 0)); intros _; [now apply incs_pick_sim|now apply incs_chance_sim].
    - destruct (Side_Player pl' i' kids HS) as (HK & HM).
      assert (HI : Forall SimI kids) by (rewrite Forall_forall in IH, HK |- *; auto).
      assert (HV : Forall SimV kids).
      { eapply Forall_impl; [|exact HK]. exact vval_sim. }
      change (mul RNum) with Rmult. change (neg RNum) with Ropp. change (zero RNum) with 0.
      rewrite mine_swap, mult_swap, Hsg, !exp_player_val, <- !val_chance_player,
        (val_chance_mass kids _ HV HM).
      set (m := sgn flip * (if pl' then pc * p2 else - p1 * pc)).
      apply (RelE_cons 0 0); [cbn [reg_of]; lra|cbn [strat_of]; now rewrite fl_eqb| |lra].
      eapply RelE_app; [apply incs_player_sim; assumption| |].
      + apply (RelE_cons (if is_info pl' i' pl i then - (k * m) else 0) 0);
          [|reflexivity|now apply RelE_nil|symmetry; apply Rplus_0_r].
        cbn [reg_of]. rewrite fl_eqb. fold (is_info pl' i' pl i). unfold m.
        change (T RNum) with R. destruct (is_info pl' i' pl i); lra.
      + subst m. destruct (is_info pl' i' pl i) eqn:E; [|lra]. apply is_info_true in E as [-> ->].
        (* the loop has visited action [a], so the two parts of the shift cancel *)
        assert (HX : k * ind 0 (Nat.min (length kids) (@length R (strat_view st pl i))) = k).
        { destruct Ha as [Hk|Ha']; [rewrite Hk; lra|].
          destruct HM as [Hk|[HL _]]; [rewrite Hk; lra|].
          rewrite ind_in; [lra|]. unfold strat_view in *. change (T RNum) with R in Ha'. lia. }
        rewrite HX. symmetry. apply Rplus_opp_r.
  Qed.
End Sim.

Definition scale_ri (gm : R) (ri : rinfoR) : rinfoR :=
  @mkRinfo RNum (map (Rmult gm) (cum_regret ri)) (cum_strat ri) (strat ri).

Definition Len3 (ri : rinfoR) : Prop :=
  length (cum_strat ri) = length (strat ri) /\ length (cum_regret ri) = length (strat ri).

Definition RS0 (flip : bool) (gm : R) (st st' : pstateR) : Prop :=
  forall pl, Forall Len3 (@ps_get RNum st pl) /\
             @ps_get RNum st' (fl flip pl) = map (scale_ri gm) (@ps_get RNum st pl).

Lemma RS0_get flip gm st st' pl i :
  RS0 flip gm st st' ->
  Len3 (@ri_get RNum st pl i) /\
  @ri_get RNum st' (fl flip pl) i = scale_ri gm (@ri_get RNum st pl i).
Proof.
  intros H. destruct (H pl) as [HL HE]. unfold ri_get. split.
  - destruct (Nat.lt_ge_cases i (length (@ps_get RNum st pl))) as [Hi|Hi].
    + now apply Forall_nth.
    + rewrite nth_overflow by exact Hi. split; reflexivity.
  - rewrite HE. exact (map_nth (scale_ri gm) _ (@mkRinfo RNum [] [] []) i).
Qed.

Lemma rinfo_eq (x y : rinfoR) :
  cum_regret x = cum_regret y -> cum_strat x = cum_strat y -> strat x = strat y -> x = y.
Proof. destruct x, y. cbn. now intros -> -> ->. Qed.

Lemma nth_scale gm (l : list R) a : nth a (map (Rmult gm) l) 0 = gm * nth a l 0.
Proof. rewrite <- (Rmult_0_r gm) at 1. apply (map_nth (Rmult gm)). Qed.

Lemma fold_incr_sim gm (L L' : list incrR) (st st' : pstateR) pl pl' i :
  Len3 (@ri_get RNum st pl i) ->
  @ri_get RNum st' pl' i = scale_ri gm (@ri_get RNum st pl i) ->
  (forall a, (a < length (cum_regret (@ri_get RNum st pl i)))%nat ->
             reg_sum pl' i a L' = gm * reg_sum pl i a L /\ strat_sum pl' i L' = strat_sum pl i L) ->
  Len3 (@ri_get RNum (fold_left apply_incr L st) pl i) /\
  @ri_get RNum (fold_left apply_incr L' st') pl' i =
  scale_ri gm (@ri_get RNum (fold_left apply_incr L st) pl i).
Proof.
  intros [E1 E2] E HL.
  assert (E1' : len_ok st' pl' i) by (unfold len_ok; now rewrite E).
  assert (EL : length (cum_regret (@ri_get RNum st' pl' i)) =
               length (cum_regret (@ri_get RNum st pl i))) by (rewrite E; apply map_length).
  split.
  - unfold Len3. now rewrite fold_incr_cs_len, fold_incr_regret_len, fold_incr_strat_eq.
  - apply rinfo_eq; cbn [scale_ri cum_regret cum_strat strat].
    + apply (nth_ext _ _ 0 0).
      * now rewrite map_length, !fold_incr_regret_len.
      * intros a Ha. rewrite fold_incr_regret_len, EL in Ha.
        rewrite nth_scale, !fold_incr_regret_nth, E, (proj1 (HL a Ha)) by (rewrite ?EL; exact Ha).
        cbn [scale_ri cum_regret]. rewrite nth_scale. symmetry. apply Rmult_plus_distr_l.
    + apply (nth_ext _ _ 0 0).
      * now rewrite !fold_incr_cs_len, E.
      * intros a Ha. rewrite fold_incr_cs_len, E in Ha by exact E1'. cbn [scale_ri cum_strat] in Ha.
        rewrite E1, <- E2 in Ha.
        now rewrite !fold_incr_cs_nth, (proj2 (HL a Ha)), E.
    + now rewrite !fold_incr_strat_eq, E.
Qed.

Lemma vrec_sim flip s k (g : gameR) sampled (draw : oracleR) pass n (pc p1 p2 : R) st st' :
  Side k g sampled draw pass st n -> RS0 flip (s * sgn flip) st st' ->
  RS0 flip (s * sgn flip)
      (snd (@vrec RNum (g_chance g) sampled draw pass n pc p1 p2 st))
      (snd (@vrec RNum (g_chance g) sampled draw pass (tnode flip (aff s k) n) pc
                  (pfst flip p1 p2) (psnd flip p1 p2) st')).
Proof.
  intros HS HR. rewrite !vrec_incs. cbn [snd].
  assert (Hsg : forall pl i, strat_view st' (fl flip pl) i = strat_view st pl i).
  { intros pl i. unfold strat_view. now rewrite (proj2 (RS0_get _ _ _ _ pl i HR)). }
  set (L := @vincs RNum _ _ _ _ (strat_view st) n pc p1 p2).
  set (L' := @vincs RNum _ _ _ _ (strat_view st') _ pc _ _).
  assert (HG : forall pl i,
    Len3 (@ri_get RNum (fold_left apply_incr L st) pl i) /\
    @ri_get RNum (fold_left apply_incr L' st') (fl flip pl) i =
    scale_ri (s * sgn flip) (@ri_get RNum (fold_left apply_incr L st) pl i)).
  { intros pl i. destruct (RS0_get _ _ _ _ pl i HR) as [E1 E]. apply fold_incr_sim; try assumption.
    intros a Ha. rewrite (proj2 E1) in Ha.
    destruct (vincs_sim flip s k g sampled draw pass st _ Hsg pl i a (or_intror Ha) n HS pc p1 p2)
      as [A B].
    rewrite Rplus_0_r in A. now split. }
  intros pl. split.
  - apply Forall_ps_get. intros i _. apply HG.
  - apply (nth_ext _ _ (@mkRinfo RNum [] [] []) (scale_ri (s * sgn flip) (@mkRinfo RNum [] [] []))).
    + now rewrite map_length, !fold_incr_len, (proj2 (HR pl)), map_length.
    + intros i _. rewrite (map_nth (scale_ri (s * sgn flip))). apply HG.
Qed.

Lemma advance_scale gm (p : paramsR) it ia ri :
  0 < gm -> (gm = 1 \/ nopos_ok p) ->
  @advance RNum p it ia (scale_ri gm ri) =
  (scale_ri gm (fst (@advance RNum p it ia ri)), gm * snd (@advance RNum p it ia ri)).
Proof.
  intros Hg Hp. rewrite !advance_order. cbn [scale_ri cum_regret cum_strat strat fst snd].
  rewrite discount_cum_regret_scale, cum_regret_bound_scale by lra.
  unfold scale_ri. cbn [cum_regret cum_strat strat].
  replace (@regret_match RNum p (map (Rmult gm) (cum_regret ri))) with (@regret_match RNum p (cum_regret ri));
    [reflexivity|symmetry].
  destruct Hp as [->|Hp]; [now rewrite (map_ext _ id Rmult_1_l), map_id|now apply regret_match_scale].
Qed.

Lemma advance_all_scale gm (p : paramsR) it ia l :
  0 < gm -> (gm = 1 \/ nopos_ok p) -> forall acc acc' : R, acc' = gm * acc ->
  @advance_all RNum p it ia (map (scale_ri gm) l) acc' =
  (map (scale_ri gm) (fst (@advance_all RNum p it ia l acc)),
   gm * snd (@advance_all RNum p it ia l acc)).
Proof.
  intros Hg Hp. induction l as [|ri l IH]; intros acc acc' ->; [reflexivity|].
  cbn [map]. rewrite !advance_all_cons, advance_scale by assumption. cbn [fst snd map].
  rewrite (IH (acc + snd (@advance RNum p it ia ri))); [reflexivity|].
  change (T RNum) with R. lra.
Qed.

Lemma advance_all_Len3 (p : paramsR) it ia l :
  Forall Len3 l -> forall acc : R, Forall Len3 (fst (@advance_all RNum p it ia l acc)).
Proof.
  induction 1 as [|ri l [E1 E2] H IH]; intros acc; [constructor|].
  rewrite advance_all_cons. cbn [fst]. constructor; [|apply IH].
  rewrite advance_order. unfold Len3. cbn [fst cum_regret cum_strat strat].
  rewrite discount_average_strat_length, discount_cum_regret_length, regret_match_length.
  split; [exact (eq_trans E1 (eq_sym E2))|reflexivity].
Qed.

Lemma swp_fl {X} flip (F F' : bool -> X) :
  (forall pl, F' (fl flip pl) = F pl) -> (F' true, F' false) = swp flip (F true, F false).
Proof. intros H. rewrite <- (H true), <- (H false). now destruct flip. Qed.

Definition treg (flip : bool) (gm : R) (rr : R * R) : R * R := swp flip (gm * fst rr, gm * snd rr).

Lemma vanilla_iter_sim flip s k (g : gameR) sampled (draw : oracleR) (p : paramsR) it st st' :
  0 < s * sgn flip -> (s * sgn flip = 1 \/ nopos_ok p) ->
  Side k g sampled draw (it - 1)%N st (g_root g) ->
  RS0 flip (s * sgn flip) st st' ->
  let r := @vanilla_iter RNum g sampled draw p it st in
  let r' := @vanilla_iter RNum (tgame flip (aff s k) g) sampled draw p it st' in
  RS0 flip (s * sgn flip) (fst r) (fst r') /\ snd r' = treg flip (s * sgn flip) (snd r).
Proof.
  intros Hg Hp HS HR. cbv zeta. rewrite !vanilla_iter_eq. cbv zeta. cbn [tgame g_chance g_root fst snd].
  pose proof (vrec_sim flip s k g sampled draw (it - 1)%N (g_root g) 1 1 1 st st' HS HR) as H1.
  replace (pfst flip 1 1) with 1 in H1 by now destruct flip.
  replace (psnd flip 1 1) with 1 in H1 by now destruct flip.
  set (st1 := snd (@vrec RNum (g_chance g) sampled draw (it - 1)%N (g_root g) 1 1 1 st)) in *.
  set (st1' := snd (@vrec RNum (g_chance g) sampled draw (it - 1)%N
                          (tnode flip (aff s k) (g_root g)) 1 1 1 st')) in *.
  set (adv := fun (x : pstateR) pl => @advance_all RNum p it it (@ps_get RNum x pl) 0).
  assert (HA : forall pl,
    adv st1' (fl flip pl) =
    (map (scale_ri (s * sgn flip)) (fst (adv st1 pl)), s * sgn flip * snd (adv st1 pl))).
  { intros pl. unfold adv. rewrite (proj2 (H1 pl)). apply advance_all_scale; try assumption. lra. }
  split.
  - intros pl. split.
    + destruct pl; apply advance_all_Len3; [apply (H1 true)|apply (H1 false)].
    + transitivity (fst (adv st1' (fl flip pl))); [now destruct (fl flip pl)|].
      rewrite HA. now destruct pl.
  - apply (swp_fl flip (fun pl => s * sgn flip * snd (adv st1 pl)) (fun pl => snd (adv st1' pl))).
    intros pl. now rewrite HA.
Qed.

Definition vmethod (sampled : bool) : method := if sampled then Sampled else Full.

Lemma one_iter_vmethod (g : gameR) sampled draw p it st :
  @one_iter RNum g (vmethod sampled) draw p it st = @vanilla_iter RNum g sampled draw p it st.
Proof. destruct sampled; reflexivity. Qed.

Definition ShiftSide (g : gameR) (sampled : bool) (draw : oracleR) : Prop :=
  ChanceOK g /\ shaped g (g_root g) /\ arities_pos g /\
  (sampled = true ->
   forall pass ci, (ci < length (g_chance g))%nat ->
                   (draw true ci pass (row (g_chance g) ci) < length (row (g_chance g) ci))%nat).

Lemma treg_max flip gm rr :
  0 <= gm -> Rmax (fst (treg flip gm rr)) (snd (treg flip gm rr)) = gm * Rmax (fst rr) (snd rr).
Proof.
  intros Hg. unfold treg. destruct flip; cbn [swp fst snd].
  - rewrite Rmax_comm. now apply RmaxRmult.
  - now apply RmaxRmult.
Qed.

Lemma solve_loop_rel {NN : Num} (g g' : @game NN) m (draw : @oracle NN) (p : @params NN)
      (stop stop' : T NN -> bool) (Rel : @pstate NN -> @pstate NN -> Prop)
      (f : T NN * T NN -> T NN * T NN) :
  (forall it st st', Rel st st' ->
     Rel (fst (one_iter g m draw p it st)) (fst (one_iter g' m draw p it st')) /\
     snd (one_iter g' m draw p it st') = f (snd (one_iter g m draw p it st))) ->
  (forall rr, stop' (fmax NN (fst (f rr)) (snd (f rr))) = stop (fmax NN (fst rr) (snd rr))) ->
  forall rem it st st' regs ran, Rel st st' ->
  let r := solve_loop g m draw p stop rem it st regs ran in
  let r' := solve_loop g' m draw p stop' rem it st' (option_map f regs) ran in
  Rel (fst (fst r)) (fst (fst r')) /\ snd (fst r') = option_map f (snd (fst r)) /\ snd r' = snd r.
Proof.
  intros Hstep Hstop. induction rem as [|rem IH]; intros it st st' regs ran HR; cbv zeta;
    cbn [solve_loop].
  - cbn [fst snd]. auto.
  - destruct (Hstep it st st' HR) as [H1 E].
    destruct (one_iter g m draw p it st) as [st1 [r1 r2]].
    destruct (one_iter g' m draw p it st') as [st1' [r1' r2']]. cbn [fst snd] in H1, E.
    pose proof (Hstop (r1, r2)) as Es. rewrite <- E in Es. cbn [fst snd] in Es.
    rewrite Es, E. destruct (stop (fmax NN r1 r2)).
    + cbn [fst snd option_map]. auto.
    + apply (IH (it + 1)%N st1 st1' (Some (r1, r2)) it H1).
Qed.

Lemma init_infos_sim gm (infos : list pinfo) :
  let l := map (fun pi => @rinfo_new RNum (length (pi_actions pi))) infos in
  Forall Len3 l /\ l = map (scale_ri gm) l.
Proof.
  cbv zeta. split.
  - apply Forall_forall. intros ri Hin. apply in_map_iff in Hin as (pi & <- & _).
    unfold Len3, rinfo_new; cbn [strat cum_strat cum_regret]. now rewrite !repeatT_length.
  - rewrite map_map. apply map_ext. intros pi.
    unfold scale_ri, rinfo_new; cbn [strat cum_strat cum_regret]. now rewrite repeatT_zero_scale.
Qed.

Lemma init_state_sim flip gm f (g : gameR) :
  RS0 flip gm (@init_state RNum g) (@init_state RNum (tgame flip f g)).
Proof.
  intros pl. unfold init_state, tgame; cbn [g_infos1 g_infos2].
  destruct flip, pl; cbn [fl negb ps_get fst snd g_infos]; apply init_infos_sim.
Qed.

Lemma final_strats_sim flip gm st st' :
  RS0 flip gm st st' -> @final_strats RNum st' = swp flip (@final_strats RNum st).
Proof.
  intros H. unfold final_strats.
  set (avg := fun (x : pstateR) pl =>
                concat (map (fun ri => @avg_strat RNum (cum_strat ri)) (@ps_get RNum x pl))).
  apply (swp_fl flip (avg st) (avg st')). intros pl. unfold avg. now rewrite (proj2 (H pl)), map_map.
Qed.

Theorem solve_single_tgame flip s k (g : gameR) sampled (draw : oracleR) (p : paramsR) budget
        (stop stop' : R -> bool) :
  0 < s * sgn flip -> (s * sgn flip = 1 \/ nopos_ok p) ->
  (k = 0 \/ ShiftSide g sampled draw) ->
  (forall b, stop' (s * sgn flip * b) = stop b) ->
  @solve_single RNum (tgame flip (aff s k) g) (vmethod sampled) draw p budget stop' =
  let '(strats, regs, ran) := @solve_single RNum g (vmethod sampled) draw p budget stop in
  (swp flip strats, option_map (treg flip (s * sgn flip)) regs, ran).
Proof.
  intros Hg Hp HK Hstop. unfold solve_single.
  set (Rel := fun st st' : pstateR =>
                (k = 0 \/ InvA (arities g true) (arities g false) st) /\
                RS0 flip (s * sgn flip) st st').
  assert (H : Rel (@init_state RNum g) (@init_state RNum (tgame flip (aff s k) g))).
  { split; [|apply init_state_sim]. destruct HK as [HK|(_ & _ & Ha & _)]; [now left|right].
    now apply init_state_inv. }
  apply (solve_loop_rel g (tgame flip (aff s k) g) (vmethod sampled) draw p stop stop' Rel
           (treg flip (s * sgn flip))) with (rem := budget) (it := 1%N) (regs := None) (ran := 0%N)
    in H.
  - cbv zeta in H. cbn [option_map] in H.
    destruct (@solve_loop RNum g _ _ _ _ _ _ _ _ _) as [[st regs] ran].
    destruct (@solve_loop RNum (tgame flip (aff s k) g) _ _ _ _ _ _ _ _ _) as [[st' regs'] ran'].
    cbn [fst snd] in H. destruct H as ((_ & H1) & -> & ->).
    now rewrite (final_strats_sim _ _ _ _ H1).
  - intros it st st' [HI HR]. rewrite !one_iter_vmethod.
    assert (HS : Side k g sampled draw (it - 1)%N st (g_root g)).
    { destruct HK as [HK|(C & Hsh & _ & Ho)]; [now left|]. destruct HI as [HI|HI]; [now left|right].
      split; [|exact Hsh]. split; [exact C|split; [exact HI|]]. intros Es ci Hci. now apply Ho. }
    destruct (vanilla_iter_sim flip s k g sampled draw p it st st' Hg Hp HS HR) as [H1 E].
    split; [split; [|exact H1]|exact E].
    destruct HI as [HI|HI]; [now left|right]. rewrite <- one_iter_vmethod. now apply one_iter_inv.
  - intros rr. rewrite treg_max by lra. apply Hstop.
Qed.

Lemma treg_1 flip regs : option_map (treg flip 1) regs = option_map (swp flip) regs.
Proof.
  destruct regs as [[a b]|]; [|reflexivity]. unfold treg. cbn [option_map fst snd].
  now rewrite !Rmult_1_l.
Qed.

Corollary solve_single_tgame_1 flip s k (g : gameR) sampled (draw : oracleR) (p : paramsR) budget
          (stop : R -> bool) :
  s * sgn flip = 1 -> (k = 0 \/ ShiftSide g sampled draw) ->
  @solve_single RNum (tgame flip (aff s k) g) (vmethod sampled) draw p budget stop =
  let '(strats, regs, ran) := @solve_single RNum g (vmethod sampled) draw p budget stop in
  (swp flip strats, option_map (swp flip) regs, ran).
Proof.
  intros E HK. rewrite (solve_single_tgame flip s k g sampled draw p budget stop stop); rewrite ?E.
  - destruct (@solve_single RNum g _ _ _ _ _) as [[strats regs] ran]. now rewrite treg_1.
  - lra.
  - now left.
  - exact HK.
  - intros b. now rewrite Rmult_1_l.
Qed.


(** scaling the payoffs by [c > 0]: same strategies, bounds multiplied by [c],
    same number of iterations when the threshold is scaled accordingly *)
Theorem solve_scale_gen c (g : gameR) sampled (draw : oracleR) (p : paramsR) budget (stop stop' : R -> bool) :
  0 < c -> nopos_ok p -> (forall b, stop' (c * b) = stop b) ->
  @solve_single RNum (scale c g) (vmethod sampled) draw p budget stop' =
  let '(strats, regs, ran) := @solve_single RNum g (vmethod sampled) draw p budget stop in
  (strats, option_map (fun rr : R * R => (c * fst rr, c * snd rr)) regs, ran).
Proof.
  intros Hc Hp Hstop.
  rewrite scale_tgame, (solve_single_tgame false c 0 g sampled draw p budget stop stop');
    unfold sgn; rewrite ?Rmult_1_r; [reflexivity|assumption|now right|now left|exact Hstop].
Qed.

Theorem solve_scale c (g : gameR) sampled (draw : oracleR) (p : paramsR) budget (stop : R -> bool) :
  0 < c -> nopos_ok p ->
  @solve_single RNum (scale c g) (vmethod sampled) draw p budget (fun b => stop (b / c)) =
  let '(strats, regs, ran) := @solve_single RNum g (vmethod sampled) draw p budget stop in
  (strats, option_map (fun rr : R * R => (c * fst rr, c * snd rr)) regs, ran).
Proof.
  intros Hc Hp. apply solve_scale_gen; try assumption. intros b. apply f_equal. field. lra.
Qed.

(** adding a constant to the payoffs: the two runs are equal *)
Theorem solve_shift k (g : gameR) sampled (draw : oracleR) (p : paramsR) budget (stop : R -> bool) :
  ShiftSide g sampled draw ->
  @solve_single RNum (shift k g) (vmethod sampled) draw p budget stop =
  @solve_single RNum g (vmethod sampled) draw p budget stop.
Proof.
  intros HS. rewrite shift_tgame, (solve_single_tgame_1 false 1 k); [|unfold sgn; lra|now right].
  now destruct (@solve_single RNum g _ _ _ _ _) as [[strats [rr|]] ran].
Qed.

(** exchanging the players and negating the payoffs: strategies and bounds exchanged *)
Theorem solve_swap (g : gameR) sampled (draw : oracleR) (p : paramsR) budget (stop : R -> bool) :
  @solve_single RNum (swap g) (vmethod sampled) draw p budget stop =
  let '(strats, regs, ran) := @solve_single RNum g (vmethod sampled) draw p budget stop in
  ((snd strats, fst strats), option_map (fun rr : R * R => (snd rr, fst rr)) regs, ran).
Proof.
  rewrite swap_tgame. apply (solve_single_tgame_1 true (-1) 0); [unfold sgn; lra|now left].
Qed.

(** the unsampled method, as the statements are usually read *)
Corollary solve_scale_full c (g : gameR) (draw : oracleR) (p : paramsR) budget (stop : R -> bool) :
  0 < c -> nopos_ok p ->
  @solve_single RNum (scale c g) Full draw p budget (fun b => stop (b / c)) =
  let '(strats, regs, ran) := @solve_single RNum g Full draw p budget stop in
  (strats, option_map (fun rr : R * R => (c * fst rr, c * snd rr)) regs, ran).
Proof. exact (solve_scale c g false draw p budget stop). Qed.

Corollary solve_shift_full k (g : gameR) (draw : oracleR) (p : paramsR) budget (stop : R -> bool) :
  ChanceOK g -> shaped g (g_root g) -> arities_pos g ->
  @solve_single RNum (shift k g) Full draw p budget stop = @solve_single RNum g Full draw p budget stop.
Proof.
  intros H1 H2 H3. apply (solve_shift k g false draw p budget stop).
  repeat split; try assumption. discriminate.
Qed.

Corollary solve_swap_full (g : gameR) (draw : oracleR) (p : paramsR) budget (stop : R -> bool) :
  @solve_single RNum (swap g) Full draw p budget stop =
  let '(strats, regs, ran) := @solve_single RNum g Full draw p budget stop in
  ((snd strats, fst strats), option_map (fun rr : R * R => (snd rr, fst rr)) regs, ran).
Proof. exact (solve_swap g false draw p budget stop). Qed.

Lemma presets_nopos_ok :
  nopos_ok (@p_vanilla RNum) /\ nopos_ok (@p_lcfr RNum) /\ nopos_ok (@p_cfr_plus RNum) /\
  nopos_ok (@p_dcfr RNum) /\ nopos_ok (@p_dcfr_prune RNum) /\ nopos_ok (@p_default RNum).
Proof. unfold nopos_ok; cbn; tauto. Qed.

(** ** Non-vacuity: a small game with a chance node *)
Definition pg_game : gameR :=
  @mkGame RNum [[1 / 2; 1 / 2]] [mkPinfo 0 [0%N; 1%N] None] [mkPinfo 0 [0%N; 1%N] None] [] []
    (@Chance RNum 0
       [@Player RNum true 0
          [@Player RNum false 0 [@Term RNum 1; @Term RNum (-1)]; @Term RNum 0];
        @Player RNum true 0
          [@Term RNum 2; @Player RNum false 0 [@Term RNum (-1); @Term RNum 3]]]).

Definition draw0 : oracleR := fun _ _ _ _ => 0%nat.

Lemma pg_ShiftSide sampled : ShiftSide pg_game sampled draw0.
Proof.
  unfold ShiftSide. split; [|split; [|split]].
  - unfold ChanceOK, pg_game; cbn [g_chance]. constructor; [|constructor].
    split; [repeat constructor; lra|cbn [Rsum]; lra].
  - cbn. repeat split; lia.
  - intros pl. destruct pl; cbn; repeat constructor.
  - intros _ pass ci. unfold draw0, row, pg_game; cbn [g_chance length].
    destruct ci as [|ci]; cbn [nth length]; lia.
Qed.

Example pg_scale (stop : R -> bool) budget :
  @solve_single RNum (scale 3 pg_game) Full draw0 (@p_default RNum) budget (fun b => stop (b / 3)) =
  let '(strats, regs, ran) := @solve_single RNum pg_game Full draw0 (@p_default RNum) budget stop in
  (strats, option_map (fun rr : R * R => (3 * fst rr, 3 * snd rr)) regs, ran).
Proof. apply solve_scale_full; [lra|apply presets_nopos_ok]. Qed.

Example pg_shift (stop : R -> bool) budget sampled :
  @solve_single RNum (shift 10 pg_game) (vmethod sampled) draw0 (@p_default RNum) budget stop =
  @solve_single RNum pg_game (vmethod sampled) draw0 (@p_default RNum) budget stop.
Proof. apply solve_shift. apply pg_ShiftSide. Qed.

Example pg_swap (stop : R -> bool) budget :
  @solve_single RNum (swap pg_game) Full draw0 (@p_vanilla RNum) budget stop =
  let '(strats, regs, ran) := @solve_single RNum pg_game Full draw0 (@p_vanilla RNum) budget stop in
  ((snd strats, fst strats), option_map (fun rr : R * R => (snd rr, fst rr)) regs, ran).
Proof. apply solve_swap_full. Qed.

Example pg_swap_root :
  g_root (swap pg_game) =
  @Chance RNum 0
    [@Player RNum false 0
       [@Player RNum true 0 [@Term RNum (- 1); @Term RNum (- -1)]; @Term RNum (- 0)];
     @Player RNum false 0
       [@Term RNum (- 2); @Player RNum true 0 [@Term RNum (- -1); @Term RNum (- 3)]]].
Proof. reflexivity. Qed.

Example pg_shift_root :
  g_root (shift 10 pg_game) =
  @Chance RNum 0
    [@Player RNum true 0
       [@Player RNum false 0 [@Term RNum (1 + 10); @Term RNum (-1 + 10)]; @Term RNum (0 + 10)];
     @Player RNum true 0
       [@Term RNum (2 + 10); @Player RNum false 0 [@Term RNum (-1 + 10); @Term RNum (3 + 10)]]].
Proof. reflexivity. Qed.

Lemma pg_uniform_valid : Valid pg_game ([1 / 2; 1 / 2], [1 / 2; 1 / 2]).
Proof.
  split; cbn [fst snd]; (split; [reflexivity|]); cbn; (constructor; [|constructor]);
    (split; [repeat constructor; lra|cbn [Rsum]; lra]).
Qed.

Example pg_info_scale :
  @info RNum (scale 3 pg_game) ([1 / 2; 1 / 2], [1 / 2; 1 / 2]) =
  let i := @info RNum pg_game ([1 / 2; 1 / 2], [1 / 2; 1 / 2]) in
  @mkSinfo RNum (3 * si_util i) (3 * si_reg1 i) (3 * si_reg2 i).
Proof. apply info_scale. lra. Qed.

Example pg_info_shift_util :
  si_util (@info RNum (shift 10 pg_game) ([1 / 2; 1 / 2], [1 / 2; 1 / 2])) =
  si_util (@info RNum pg_game ([1 / 2; 1 / 2], [1 / 2; 1 / 2])) + 10.
Proof.
  apply info_shift_util; [apply (pg_ShiftSide false)|apply (pg_ShiftSide false)|apply pg_uniform_valid].
Qed.

Example pg_util : @expected RNum pg_game [[1 / 2; 1 / 2]] [[1 / 2; 1 / 2]] = 3 / 4.
Proof.
  rewrite expected_exact by (repeat constructor; lra).
  unfold u_game, pg_game, dot. cbn. lra.
Qed.

Lemma pg_Incr me : Incr me 0 (g_root pg_game).
Proof. destruct me; cbn; repeat split; lia. Qed.

Example pg_info_shift :
  @info RNum (shift 10 pg_game) ([1 / 2; 1 / 2], [1 / 2; 1 / 2]) =
  let i := @info RNum pg_game ([1 / 2; 1 / 2], [1 / 2; 1 / 2]) in
  @mkSinfo RNum (si_util i + 10) (si_reg1 i) (si_reg2 i).
Proof.
  apply info_shift; [apply (pg_ShiftSide false)|apply (pg_ShiftSide false)|apply pg_uniform_valid| |];
    apply pg_Incr.
Qed.

Example pg_info_swap :
  @info RNum (swap pg_game) ([1 / 2; 1 / 2], [1 / 2; 1 / 2]) =
  let i := @info RNum pg_game ([1 / 2; 1 / 2], [1 / 2; 1 / 2]) in
  @mkSinfo RNum (- si_util i) (si_reg2 i) (si_reg1 i).
Proof. apply (info_swap pg_game ([1 / 2; 1 / 2], [1 / 2; 1 / 2])). Qed.

Example pg_utils :
  @expected RNum (scale 3 pg_game) [[1 / 2; 1 / 2]] [[1 / 2; 1 / 2]] = 9 / 4 /\
  @expected RNum (shift 10 pg_game) [[1 / 2; 1 / 2]] [[1 / 2; 1 / 2]] = 43 / 4 /\
  @expected RNum (swap pg_game) [[1 / 2; 1 / 2]] [[1 / 2; 1 / 2]] = - (3 / 4).
Proof.
  split; [|split].
  - rewrite expected_scale, pg_util. lra.
  - rewrite expected_shift, pg_util; [lra|apply (pg_ShiftSide false)|apply (pg_ShiftSide false)|].
    apply (Valid_RowsOK pg_game ([1 / 2; 1 / 2], [1 / 2; 1 / 2]) pg_uniform_valid).
  - rewrite expected_swap, pg_util. lra.
Qed.
