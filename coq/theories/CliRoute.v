(** * CliRoute: how the binary chooses a reader ([main.rs] format selection, [auto.rs]).

    [main] picks the reader from the [--input-format] flag, then (for files) from the
    extension, and otherwise lets [auto::from_reader] try JSON first and Gambit second.
    The two text parsers ([serde_json] with the [json.rs] grammar, [gambit-parser]) are
    dependencies of the crate: they appear here as the section parameters [parse_json] and
    [parse_gambit] (total functions from the input text to an optional parsed file), so every
    theorem below holds for whatever the parsers do.  The semantic layers behind them
    ([json_load], [gambit_load]) are the models of [Cli.v].

    The routes the help text promises to be equivalent are exercised against the shipped
    binary by check C16 (stdin/file, explicit/auto, matching, odd and misleading extensions). *)
From Coq Require Import List Bool String Ascii.
From Coq Require Import Reals NArith.
From Cfr.theories Require Import Num RInst Tree Solve Cli SolveApi CliRun.
Import ListNotations.
Open Scope string_scope.

Inductive input_format := FAuto | FGambit | FJson.
Inductive reader := RdJson | RdGambit | RdAuto.

(** [str::ends_with] *)
Fixpoint ends_with (suffix s : string) : bool :=
  if String.eqb suffix s then true
  else match s with
       | EmptyString => false
       | String _ rest => ends_with suffix rest
       end.

(** the two [match args.input_format] blocks of [main]; [None] = stdin ("-") *)
Definition choose_reader (input : option string) (f : input_format) : reader :=
  match input with
  | None => match f with FJson => RdJson | FGambit => RdGambit | FAuto => RdAuto end
  | Some path =>
      match f with
      | FJson => RdJson
      | FGambit => RdGambit
      | FAuto => if ends_with ".json" path then RdJson
                 else if ends_with ".efg" path then RdGambit else RdAuto
      end
  end.

(** what a reader does with a text: the parser refuses it ([Unparsable]: the process panics with
    the format's README anchor, or with #auto-error), or the semantic layer of [Cli.v] runs *)
Inductive outcome (A : Type) := Parsed (l : loaded A) | Unparsable.
Arguments Parsed {A}. Arguments Unparsable {A}.

Section Readers.
  Context {Text JFile GFile Result : Type}.
  Context (parse_json : Text -> option JFile).       (* serde_json::from_str::<JsonNode> *)
  Context (parse_gambit : Text -> option GFile).     (* gambit_parser::ExtensiveFormGame::try_from *)
  Context (load_json : JFile -> loaded Result).      (* json.rs after parsing: Cli.json_load *)
  Context (load_gambit : GFile -> loaded Result).    (* gambit.rs after parsing: Cli.gambit_load *)

  (** [json::from_reader] / [gambit::from_reader]: a text that does not parse is rejected
      ([expect] panics with the format's README anchor) *)
  Definition read_json (t : Text) : outcome Result :=
    match parse_json t with Some j => Parsed (load_json j) | None => Unparsable end.
  Definition read_gambit (t : Text) : outcome Result :=
    match parse_gambit t with Some e => Parsed (load_gambit e) | None => Unparsable end.

  (** [auto::from_reader]: [json::from_str] first; its [Err] is only the parse error (a game
      error inside a well-formed JSON file panics there and then), Gambit second *)
  Definition read_auto (t : Text) : outcome Result :=
    match parse_json t with
    | Some j => Parsed (load_json j)
    | None => match parse_gambit t with
              | Some e => Parsed (load_gambit e)
              | None => Unparsable
              end
    end.

  Definition read_with (r : reader) (t : Text) : outcome Result :=
    match r with RdJson => read_json t | RdGambit => read_gambit t | RdAuto => read_auto t end.

  Definition cli_load (input : option string) (f : input_format) (t : Text) : outcome Result :=
    read_with (choose_reader input f) t.

  (** ** the flag wins over everything *)
  Theorem explicit_format_wins input t :
    cli_load input FJson t = read_json t /\ cli_load input FGambit t = read_gambit t.
  Proof. unfold cli_load. destruct input; split; reflexivity. Qed.

  (** ** then the extension (files only) *)
  Theorem extension_selects path t :
    (ends_with ".json" path = true -> cli_load (Some path) FAuto t = read_json t) /\
    (ends_with ".json" path = false -> ends_with ".efg" path = true ->
     cli_load (Some path) FAuto t = read_gambit t) /\
    (ends_with ".json" path = false -> ends_with ".efg" path = false ->
     cli_load (Some path) FAuto t = read_auto t) /\
    cli_load None FAuto t = read_auto t.
  Proof.
    unfold cli_load, choose_reader. repeat split; intros.
    - now rewrite H.
    - now rewrite H, H0.
    - now rewrite H, H0.
  Qed.

  (** ** then the content: JSON first *)
  Theorem auto_prefers_json t j : parse_json t = Some j -> read_auto t = read_json t.
  Proof. intros H. unfold read_auto, read_json. now rewrite H. Qed.

  Theorem auto_falls_back_to_gambit t :
    parse_json t = None -> read_auto t = read_gambit t.
  Proof. intros H. unfold read_auto, read_gambit. now rewrite H. Qed.

  Theorem auto_rejects_unknown t :
    parse_json t = None -> parse_gambit t = None -> read_auto t = Unparsable.
  Proof. intros H1 H2. unfold read_auto. now rewrite H1, H2. Qed.

  (** ** every route the help text describes loads the same game.
      A JSON game file is read identically by: the explicit flag (any path, stdin), the
      [.json] extension, and content detection (stdin or any other extension) — the last
      even if the text happened to be valid Gambit too, because JSON is tried first. *)
  Theorem json_routes_agree t j input :
    parse_json t = Some j ->
    (match input with
     | Some path => ends_with ".json" path = true \/ ends_with ".efg" path = false
     | None => True
     end) ->
    cli_load input FAuto t = read_json t /\ cli_load input FJson t = read_json t.
  Proof.
    intros Hj Hp. split; [|apply explicit_format_wins].
    unfold cli_load, choose_reader. destruct input as [path|].
    - destruct (ends_with ".json" path) eqn:E1; [reflexivity|].
      destruct Hp as [Hp|Hp]; [discriminate|]. rewrite Hp. now apply auto_prefers_json with j.
    - now apply auto_prefers_json with j.
  Qed.

  (** A Gambit file is read identically by the flag, the [.efg] extension and content
      detection, provided the text is not also a JSON game file (the two grammars are
      disjoint: a JSON game starts with an opening brace, a Gambit file with [EFG]; that
      fact about the dependencies is the hypothesis [parse_json t = None]). *)
  Theorem gambit_routes_agree t input :
    parse_json t = None ->
    (match input with
     | Some path => ends_with ".json" path = false
     | None => True
     end) ->
    cli_load input FAuto t = read_gambit t /\ cli_load input FGambit t = read_gambit t.
  Proof.
    intros Hj Hp. split; [|apply explicit_format_wins].
    unfold cli_load, choose_reader. destruct input as [path|].
    - rewrite Hp. destruct (ends_with ".efg" path); [reflexivity|]. now apply auto_falls_back_to_gambit.
    - now apply auto_falls_back_to_gambit.
  Qed.

  Theorem format_selection_spec (path : string) t :
    (forall input, cli_load input FJson t = read_json t /\ cli_load input FGambit t = read_gambit t) /\
    (ends_with ".json" path = true -> cli_load (Some path) FAuto t = read_json t) /\
    (ends_with ".json" path = false -> ends_with ".efg" path = true ->
     cli_load (Some path) FAuto t = read_gambit t) /\
    (ends_with ".json" path = false -> ends_with ".efg" path = false ->
     cli_load (Some path) FAuto t = read_auto t) /\
    cli_load None FAuto t = read_auto t /\
    (forall j, parse_json t = Some j -> read_auto t = read_json t) /\
    (parse_json t = None -> read_auto t = read_gambit t).
  Proof.
    split; [intros input; apply explicit_format_wins|].
    destruct (extension_selects path t) as (A & B & C & D).
    repeat split; try assumption.
    - intros j Hj. now apply auto_prefers_json with j.
    - apply auto_falls_back_to_gambit.
  Qed.

  (** the misleading-extension route: the flag still wins *)
  Corollary misleading_extension_harmless t :
    cli_load (Some "game.json") FGambit t = read_gambit t /\
    cli_load (Some "game.efg") FJson t = read_json t.
  Proof. split; reflexivity. Qed.

  (** a text neither parser accepts is rejected on every route: nothing is solved *)
  Theorem unparsable_rejected_everywhere t input f :
    parse_json t = None -> parse_gambit t = None -> cli_load input f t = Unparsable.
  Proof.
    intros H1 H2. unfold cli_load.
    destruct (choose_reader input f); cbn [read_with]; unfold read_json, read_gambit, read_auto;
      now rewrite ?H1, ?H2.
  Qed.
End Readers.

(** ** the whole program: arguments, route, text -> what is printed ([None] = the process
    panics and prints no result object) *)
Section Main.
  Context {Text JFile GFile : Type}.
  Context (parse_json : Text -> option JFile).
  Context (parse_gambit : Text -> option GFile).
  Context (load_json : JFile -> loaded (@game RNum * R)).
  Context (load_gambit : GFile -> loaded (@game RNum * R)).

  Definition cli_main (a : args) (input : option string) (f : input_format) (t : Text)
             (draw : @oracle RNum) (par : N) (s : schedules) : option (@output RNum * @game RNum) :=
    match cli_load parse_json parse_gambit load_json load_gambit input f t with
    | Unparsable => None
    | Parsed l => cli_run a l draw par s
    end.

  Theorem main_json_route_irrelevant a t j input input' draw par s :
    parse_json t = Some j ->
    (match input with Some path => ends_with ".json" path = true \/ ends_with ".efg" path = false | None => True end) ->
    cli_main a input FAuto t draw par s = cli_main a input' FJson t draw par s /\
    cli_main a input' FJson t draw par s = cli_run a (load_json j) draw par s.
  Proof.
    intros Hj Hp. unfold cli_main.
    destruct (json_routes_agree parse_json parse_gambit load_json load_gambit t j input Hj Hp) as [E1 _].
    destruct (explicit_format_wins parse_json parse_gambit load_json load_gambit input' t) as [E2 _].
    rewrite E1, E2. unfold read_json. rewrite Hj. split; reflexivity.
  Qed.

  Theorem main_gambit_route_irrelevant a t e input input' draw par s :
    parse_json t = None -> parse_gambit t = Some e ->
    (match input with Some path => ends_with ".json" path = false | None => True end) ->
    cli_main a input FAuto t draw par s = cli_main a input' FGambit t draw par s /\
    cli_main a input' FGambit t draw par s = cli_run a (load_gambit e) draw par s.
  Proof.
    intros Hj He Hp. unfold cli_main.
    destruct (gambit_routes_agree parse_json parse_gambit load_json load_gambit t input Hj Hp) as [E1 _].
    destruct (explicit_format_wins parse_json parse_gambit load_json load_gambit input' t) as [_ E2].
    rewrite E1, E2. unfold read_gambit. rewrite He. split; reflexivity.
  Qed.

  Theorem main_some_loaded a t input f draw par s out g :
    cli_main a input f t draw par s = Some (out, g) ->
    exists sum, cli_load parse_json parse_gambit load_json load_gambit input f t = Parsed (Loaded (g, sum)).
  Proof.
    unfold cli_main.
    destruct (cli_load parse_json parse_gambit load_json load_gambit input f t) as [[[g0 sum]|r]|];
      [|discriminate|discriminate].
    intros H. exists sum. unfold cli_run in H.
    destruct (solve_api g0 _ _ _ _ _ _ _ _) as [[[st rg] rn]|]; [|discriminate].
    injection H as _ <-. reflexivity.
  Qed.

  Theorem main_prints_nothing_for_bad_input a t input f draw par s :
    (parse_json t = None /\ parse_gambit t = None) \/
    (exists r, cli_load parse_json parse_gambit load_json load_gambit input f t = Parsed (Rejected r)) ->
    cli_main a input f t draw par s = None.
  Proof.
    intros [[H1 H2]|[r Hr]]; unfold cli_main.
    - now rewrite (unparsable_rejected_everywhere parse_json parse_gambit load_json load_gambit t input f H1 H2).
    - rewrite Hr. apply cli_run_rejected.
  Qed.
End Main.

Example ends_with_examples :
  ends_with ".json" "a/b/game.json" = true /\ ends_with ".json" "game.json.efg" = false /\
  ends_with ".efg" "game.json.efg" = true /\ ends_with ".json" ".json" = true /\
  ends_with ".json" "json" = false /\ ends_with ".efg" "" = false.
Proof. repeat split. Qed.
