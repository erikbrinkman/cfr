(** * BoundDominates: the bounds returned by the unsampled solve dominate the true regret
    of the returned strategies (property C02, part 3).

    [traj_bound_gen] is the general statement: if the strategy is discounted by positive
    factors [e t] and the [1 / (e 1 ... e t)]-weighted external regret of each player is at
    most [Bext pl], the gaps of the average profile are non-negative and sum to at most
    [(Bext true + Bext false) / sum_t w_t].  It uses the best responses of C01 and
    [wavg_realisation], no decomposition.  [dbound_dominates] adds [wregret_decomposition]
    for one discount sequence [d]; vanilla is [d t = 1].  [halved_bound_refuted]: the
    factor 2 in the returned bound cannot be dropped. *)
From Coq Require Import Reals List Lra Lia Bool Arith NArith.
From Cfr.theories Require Import Num RInst Tree GameWF Strat Eval Solve Valid BestResponseProofs
     SolveValidProofs LoopProofs RulesProofs Incr IterChar CfrRate EvalSpec EvalProofs
     CfrSpec LcfrSpec Decomposition AvgRealisation.
Import ListNotations.
Open Scope R_scope.

Local Notation node := (@node RNum).
Local Notation game := (@game RNum).
Local Notation oracle := (@oracle RNum).
Local Notation params := (@params RNum).

Section DLoopTraj.
  Context (g : game) (draw : oracle) (p : params) (stop : R -> bool).

  Lemma dvanilla_iter_traj k :
    @vanilla_iter RNum g false draw p (N.of_nat (S k)) (dstate_at g draw p k) =
    (dstate_at g draw p (S k), dbounds_at g draw p (S k)).
  Proof.
    unfold dbounds_at. cbn [dstate_at]. replace (S k - 1)%nat with k by lia.
    now destruct (vanilla_iter _ _ _ _ _ _).
  Qed.

  Lemma dloop_traj rem : forall k regs ran st' regs' ran',
    @solve_loop RNum g Full draw p stop rem (N.of_nat (S k)) (dstate_at g draw p k)
                regs ran = (st', regs', ran') ->
    (rem = 0%nat /\ st' = dstate_at g draw p k /\ regs' = regs /\ ran' = ran) \/
    (exists T, (k < T <= k + rem)%nat /\ st' = dstate_at g draw p T /\
               regs' = Some (dbounds_at g draw p T) /\ ran' = N.of_nat T).
  Proof.
    induction rem as [|r IH]; intros k regs ran st' regs' ran' E.
    - left. cbn [solve_loop] in E. injection E as <- <- <-. auto.
    - right. rewrite loop_S in E. cbn [one_iter] in E. rewrite dvanilla_iter_traj in E.
      destruct (dbounds_at g draw p (S k)) as [r1 r2] eqn:Eb.
      destruct (stop (Rmax r1 r2)).
      + injection E as <- <- <-. exists (S k). split; [lia|]. rewrite Eb. auto.
      + replace (N.of_nat (S k) + 1)%N with (N.of_nat (S (S k))) in E by lia.
        apply IH in E. destruct E as [(-> & -> & -> & ->)|(T & HT & -> & -> & ->)].
        * exists (S k). split; [lia|]. rewrite Eb. auto.
        * exists T. split; [lia|]. auto.
  Qed.

  Lemma dsolve_single_traj budget strats b1 b2 ran :
    @solve_single RNum g Full draw p budget stop = (strats, Some (b1, b2), ran) ->
    exists T, (1 <= T <= budget)%nat /\ strats = @final_strats RNum (dstate_at g draw p T) /\
              dbounds_at g draw p T = (b1, b2) /\ ran = N.of_nat T.
  Proof.
    unfold solve_single.
    destruct (solve_loop _ _ _ _ _ _ _ _ _ _) as [[st regs] ran'] eqn:E.
    intros Hs. injection Hs as <- -> <-.
    change 1%N with (N.of_nat 1) in E.
    change (@init_state RNum g) with (dstate_at g draw p 0) in E.
    apply dloop_traj in E. destruct E as [(_ & _ & Hr & _)|(T & HT & -> & Hr & ->)]; [discriminate|].
    exists T. split; [lia|]. injection Hr as Hr. auto.
  Qed.
End DLoopTraj.

Lemma dfinal_strats_rows (g : game) (draw : oracle) (p : params) T :
  arities_pos g ->
  split_by (fst (@final_strats RNum (dstate_at g draw p T))) (arities g true) = davg g draw p T true /\
  split_by (snd (@final_strats RNum (dstate_at g draw p T))) (arities g false) = davg g draw p T false.
Proof.
  intros Hpos. destruct (dstate_at_inv g draw p Hpos T) as [H1 H2].
  destruct (final_rows _ _ H1) as [E1 _]. destruct (final_rows _ _ H2) as [E2 _].
  unfold final_strats, davg, ps_get. cbn [fst snd]. split.
  - rewrite <- E1. apply split_by_concat.
  - rewrite <- E2. apply split_by_concat.
Qed.

Lemma davg_StratOf (g : game) (draw : oracle) (p : params) T pl :
  arities_pos g -> StratOf g pl (davg g draw p T pl).
Proof.
  intros Hpos. destruct (dstate_at_inv g draw p Hpos T) as [H1 H2].
  unfold StratOf, davg, ps_get. destruct pl.
  - destruct (final_rows _ _ H1) as [E1 V1]. split; assumption.
  - destruct (final_rows _ _ H2) as [E2 V2]. split; assumption.
Qed.

(** the two true regrets, before clipping at 0, of the average profile after [T] iterations *)
Definition avg_gap (g : game) (draw : oracle) (p : params) (T : nat) (pl : bool) : R :=
  if pl
  then @br_value RNum g true (davg g draw p T false)
       - u_game g (davg g draw p T true) (davg g draw p T false)
  else @br_value RNum g false (davg g draw p T true)
       + u_game g (davg g draw p T true) (davg g draw p T false).

Lemma solve_single_gaps (g : game) (draw : oracle) (p : params) budget (stop : R -> bool)
      strats b1 b2 ran :
  arities_pos g ->
  @solve_single RNum g Full draw p budget stop = (strats, Some (b1, b2), ran) ->
  let T := N.to_nat ran in
  (1 <= T <= budget)%nat /\ 0 <= b1 /\ 0 <= b2 /\
  dbound_pl g draw p T true = b1 /\ dbound_pl g draw p T false = b2 /\
  si_reg1 (@info RNum g strats) = Rmax (avg_gap g draw p T true) 0 /\
  si_reg2 (@info RNum g strats) = Rmax (avg_gap g draw p T false) 0.
Proof.
  intros Hpos Hs. cbv zeta.
  destruct (bounds_nonneg g Full draw _ stop budget strats b1 b2 ran Hs) as [Hb1 Hb2].
  apply dsolve_single_traj in Hs as (T & HT & -> & Hb & ->). rewrite Nat2N.id.
  split; [exact HT|]. split; [exact Hb1|]. split; [exact Hb2|].
  unfold dbound_pl. rewrite Hb. split; [reflexivity|]. split; [reflexivity|].
  destruct (dfinal_strats_rows g draw p T Hpos) as [ER1 ER2].
  unfold info. cbn [si_reg1 si_reg2 fmax sub add zero RNum].
  rewrite ER1, ER2.
  pose proof (davg_StratOf g draw p T true Hpos) as HA1.
  pose proof (davg_StratOf g draw p T false Hpos) as HA2.
  rewrite (expected_exact g _ _ (StratOf_nonneg _ _ _ HA1) (StratOf_nonneg _ _ _ HA2)).
  split; reflexivity.
Qed.

Lemma Rsumn_minus n F G : Rsumn n (fun b => F b - G b) = Rsumn n F - Rsumn n G.
Proof. pose proof (Rsumn_lin n 1 F G) as E. rewrite Rmult_1_l in E. rewrite E. apply Rsumn_ext. intros; lra. Qed.

Lemma Rsumn_opp n F : Rsumn n (fun b => - F b) = - Rsumn n F.
Proof.
  rewrite (Rsumn_ext n _ (fun b => -1 * F b)) by (intros; lra). rewrite Rsumn_scal. lra.
Qed.

Section Bound.
  Context (g : game) (Hwf : @WFgame RNum g) (HPR : @PerfectRecall RNum g) (HCh : ChanceOK g).
  Context (draw : oracle) (p : params) (e : nat -> R).
  Context (He_pos : forall t, (1 <= t)%nat -> 0 < e t).
  Context (He_avg : forall t cs, (1 <= t)%nat ->
              @discount_average_strat RNum p (N.of_nat t) cs = map (fun a => a * e t) cs).

  Let Hpos : arities_pos g := WFgame_arities_pos g Hwf.
  Local Notation sigma := (dsigma_at g draw p).
  Local Notation w := (fun t => / dprod e t).

  Theorem traj_bound_gen T (Bext : bool -> R) :
    (1 <= T)%nat ->
    (forall pl Sp s, IsPure g pl Sp s -> wext_regret g draw p w T pl Sp <= Bext pl) ->
    0 <= avg_gap g draw p T true /\ 0 <= avg_gap g draw p T false /\
    avg_gap g draw p T true + avg_gap g draw p T false <= (Bext true + Bext false) / Rsumn T w.
  Proof.
    intros HT Hext. unfold avg_gap.
    destruct HPR as [H HH].
    set (A1 := davg g draw p T true). set (A2 := davg g draw p T false).
    pose proof (davg_StratOf g draw p T true Hpos) as HA1. fold A1 in HA1.
    pose proof (davg_StratOf g draw p T false Hpos) as HA2. fold A2 in HA2.
    pose proof (StratOf_nonneg _ _ _ HA1) as N1. pose proof (StratOf_nonneg _ _ _ HA2) as N2.
    pose proof (br_upper g true A2 Hwf (ex_intro _ H HH) HCh N2 A1 HA1) as U1.
    pose proof (br_upper g false A1 Hwf (ex_intro _ H HH) HCh N1 A2 HA2) as U2.
    destruct (br_attained g true A2 Hwf (ex_intro _ H HH) HCh N2) as (S1 & HS1 & E1).
    destruct (br_attained g false A1 Hwf (ex_intro _ H HH) HCh N1) as (S2 & HS2 & E2).
    unfold u_me in U1, U2, E1, E2.
    split; [lra|]. split; [lra|].
    (* the averages realise the weighted averages of the iterates *)
    pose proof (wavg_realisation g Hwf draw p e false H T S1 He_pos He_avg (fun i h => HH false i h) HT) as R2.
    pose proof (wavg_realisation g Hwf draw p e true H T S2 He_pos He_avg (fun i h => HH true i h) HT) as R1.
    unfold u_me in R1, R2. fold A1 in R1. fold A2 in R2.
    pose proof (Hext true S1 _ (PureOf_IsPure g true S1 HS1)) as B1.
    pose proof (Hext false S2 _ (PureOf_IsPure g false S2 HS2)) as B2.
    unfold wext_regret, u_me in B1, B2. cbn [negb] in B1, B2.
    pose proof (dprod_inv_sum_pos e T He_pos HT) as HWpos.
    set (W := Rsumn T w) in *.
    set (X1 := Rsumn T (fun t => / dprod e t * u_game g S1 (sigma (S t) false))) in *.
    set (X2 := Rsumn T (fun t => / dprod e t * u_game g (sigma (S t) true) S2)) in *.
    set (M := Rsumn T (fun t => / dprod e t * u_game g (sigma (S t) true) (sigma (S t) false))).
    assert (EB1 : Rsumn T (fun t => / dprod e t *
                     (u_game g S1 (sigma (S t) false) - u_game g (sigma (S t) true) (sigma (S t) false)))
                  = X1 - M).
    { unfold X1, M. rewrite <- Rsumn_minus. apply Rsumn_ext. intros; lra. }
    assert (EB2 : Rsumn T (fun t => / dprod e t *
                     (- u_game g (sigma (S t) true) S2 - - u_game g (sigma (S t) true) (sigma (S t) false)))
                  = M - X2).
    { unfold X2, M. rewrite <- Rsumn_minus. apply Rsumn_ext. intros; lra. }
    rewrite EB1 in B1. rewrite EB2 in B2.
    assert (ER2 : Rsumn T (fun t => / dprod e t * - u_game g S1 (sigma (S t) false)) = - X1).
    { unfold X1. rewrite <- Rsumn_opp. apply Rsumn_ext. intros; lra. }
    rewrite ER2 in R2.
    assert (Hbr : @br_value RNum g true A2 + @br_value RNum g false A1 = / W * (X1 - X2)).
    { rewrite <- E1, <- E2. lra. }
    replace (@br_value RNum g true A2 - u_game g A1 A2 + (@br_value RNum g false A1 + u_game g A1 A2))
      with (@br_value RNum g true A2 + @br_value RNum g false A1) by lra.
    rewrite Hbr. unfold Rdiv. rewrite (Rmult_comm _ (/ W)).
    apply Rmult_le_compat_l; [left; now apply Rinv_0_lt_compat|lra].
  Qed.
End Bound.

Section Uniform.
  Context (g : game) (Hwf : @WFgame RNum g) (HPR : @PerfectRecall RNum g) (HCh : ChanceOK g).
  Context (draw : oracle) (p : params) (d : nat -> R).
  Context (Hd_pos : forall t, (1 <= t)%nat -> 0 < d t).
  Context (Hd_reg : forall t cr, (1 <= t)%nat ->
              @discount_cum_regret RNum p (N.of_nat t) cr = map (fun r => r * d t) cr).
  Context (Hd_avg : forall t cs, (1 <= t)%nat ->
              @discount_average_strat RNum p (N.of_nat t) cs = map (fun a => a * d t) cs).

  Let Hpos : arities_pos g := WFgame_arities_pos g Hwf.
  Local Notation w := (fun t => / dprod d t).

  (** the weighted external regret is the reach-weighted sum of [cum_regret] entries, one
      per infoset, hence at most [T * b_pl / 2], [b_pl] being the bound the model returns *)
  Lemma dexternal_regret_bound T pl Sp s :
    (1 <= T)%nat -> IsPure g pl Sp s ->
    dprod d T * wext_regret g draw p w T pl Sp <= INR T * dbound_pl g draw p T pl / 2.
  Proof.
    intros HT HP. destruct HPR as [H HH].
    rewrite (wregret_decomposition g Hwf H HH draw p w T pl Sp s HP), <- Rsumn_scal.
    rewrite (Rsumn_ext _ _ (fun i => reach_s s H pl i * dregret_at g draw p T pl i (s i))).
    - apply (dbound_pl_dominates g draw p Hpos T pl (fun i => reach_s s H pl i) s HT).
      intros i Hi. split; [apply reach_s_01|exact (proj2 (HP i Hi))].
    - intros i Hi.
      rewrite (dregret_at_sum g draw p d Hd_pos Hd_reg Hpos T pl i (s i) Hi (proj2 (HP i Hi))). lra.
  Qed.

  Definition dconst (T : nat) : R := INR T / (dprod d T * Rsumn T w).

  Theorem dtrajectory_bound T :
    (1 <= T)%nat ->
    0 <= avg_gap g draw p T true /\ 0 <= avg_gap g draw p T false /\
    avg_gap g draw p T true + avg_gap g draw p T false <=
    dconst T * ((dbound_pl g draw p T true + dbound_pl g draw p T false) / 2).
  Proof.
    intros HT.
    pose proof (dprod_pos d T Hd_pos) as HP. pose proof (dprod_inv_sum_pos d T Hd_pos HT) as HW.
    destruct (traj_bound_gen g Hwf HPR HCh draw p d Hd_pos Hd_avg T
                (fun pl => INR T * dbound_pl g draw p T pl / 2 / dprod d T) HT) as (P1 & P2 & P3).
    - intros pl Sp s HS. pose proof (dexternal_regret_bound T pl Sp s HT HS) as B.
      apply (Rmult_le_reg_l (dprod d T)); [exact HP|].
      eapply Rle_trans; [exact B|]. right. field. lra.
    - split; [exact P1|]. split; [exact P2|].
      eapply Rle_trans; [exact P3|]. right. unfold dconst. field. split; lra.
  Qed.

  Theorem dbound_dominates budget (stop : R -> bool) strats b1 b2 ran :
    @solve_single RNum g Full draw p budget stop = (strats, Some (b1, b2), ran) ->
    let T := N.to_nat ran in
    (1 <= T <= budget)%nat /\ 0 <= b1 /\ 0 <= b2 /\
    0 <= si_reg1 (@info RNum g strats) /\ 0 <= si_reg2 (@info RNum g strats) /\
    si_reg1 (@info RNum g strats) + si_reg2 (@info RNum g strats) <= dconst T * ((b1 + b2) / 2).
  Proof.
    intros Hs. cbv zeta.
    destruct (solve_single_gaps g draw p budget stop strats b1 b2 ran Hpos Hs)
      as (HT & Hb1 & Hb2 & <- & <- & -> & ->).
    destruct (dtrajectory_bound _ (proj1 HT)) as (P1 & P2 & P3).
    rewrite !Rmax_left by assumption. auto 6.
  Qed.
End Uniform.

Lemma vanilla_dconst T : (1 <= T)%nat -> dconst (fun _ => 1) T = 1.
Proof.
  intros HT. unfold dconst.
  rewrite dprod_one, (Rsumn_ext T _ (fun _ => 1)) by (intros; now rewrite dprod_one, Rinv_1).
  rewrite Rsumn_const_one. assert (0 < INR T) by (apply lt_0_INR; lia). field. lra.
Qed.

Section Game.
  Context (g : game) (Hwf : @WFgame RNum g) (HPR : @PerfectRecall RNum g) (HCh : ChanceOK g).
  Context (draw : oracle).

  Theorem bound_dominates budget (stop : R -> bool) strats b1 b2 ran :
    @solve_single RNum g Full draw (@p_vanilla RNum) budget stop = (strats, Some (b1, b2), ran) ->
    @si_regret RNum (@info RNum g strats) <= Rmax b1 b2 /\ 0 <= b1 /\ 0 <= b2.
  Proof.
    intros Hs.
    destruct (dbound_dominates g Hwf HPR HCh draw _ (fun _ => 1) (fun _ _ => Rlt_0_1)
                vanilla_discount_reg vanilla_discount_avg budget stop strats b1 b2 ran Hs)
      as (HT & Hb1 & Hb2 & H1 & H2 & H3).
    rewrite vanilla_dconst in H3 by lia. split; [|split; assumption].
    pose proof (Rmax_l b1 b2). pose proof (Rmax_r b1 b2).
    unfold si_regret. cbn [fmax RNum]. apply Rmax_lub; lra.
  Qed.

  Corollary bound_dominates_each budget (stop : R -> bool) strats b1 b2 ran :
    @solve_single RNum g Full draw (@p_vanilla RNum) budget stop = (strats, Some (b1, b2), ran) ->
    0 <= si_reg1 (@info RNum g strats) <= Rmax b1 b2 /\
    0 <= si_reg2 (@info RNum g strats) <= Rmax b1 b2.
  Proof.
    intros Hs. destruct (bound_dominates budget stop strats b1 b2 ran Hs) as (Hd & _ & _).
    unfold si_regret in Hd. cbn [fmax RNum] in Hd.
    pose proof (Rmax_l (si_reg1 (@info RNum g strats)) (si_reg2 (@info RNum g strats))).
    pose proof (Rmax_r (si_reg1 (@info RNum g strats)) (si_reg2 (@info RNum g strats))).
    assert (0 <= si_reg1 (@info RNum g strats)) by (cbn [info si_reg1 fmax RNum]; apply Rmax_r).
    assert (0 <= si_reg2 (@info RNum g strats)) by (cbn [info si_reg2 fmax RNum]; apply Rmax_r).
    lra.
  Qed.
End Game.

(** [early_stop_sound] and [mp_bound_dominates] are stated under the best-response theorems
    of C01 as section hypotheses, with exactly the statements of [BestResponseProofs.v].
    Their proofs do not use them ([traj_bound_gen] calls [br_upper] and [br_attained]);
    [BoundDominatesClosed.v] instantiates them. *)
Section BoundDominates.
  Context (BR_upper : forall (g : game) (me : bool) (so : list (list R)),
              @WFgame RNum g -> @PerfectRecall RNum g -> ChanceOK g -> NonnegRows so ->
              forall tau, StratOf g me tau -> u_me g me tau so <= @br_value RNum g me so).
  Context (BR_attained : forall (g : game) (me : bool) (so : list (list R)),
              @WFgame RNum g -> @PerfectRecall RNum g -> ChanceOK g -> NonnegRows so ->
              exists s, PureOf g me s /\ u_me g me s so = @br_value RNum g me so).

  Section Game.
    Context (g : game) (Hwf : @WFgame RNum g) (HPR : @PerfectRecall RNum g) (HCh : ChanceOK g).
    Context (draw : oracle).

    (** a solve that stops before its budget returns a profile whose true regret is
        below the threshold *)
    Corollary early_stop_sound budget (r : R) strats b1 b2 ran :
      @solve_single RNum g Full draw (@p_vanilla RNum) budget (@stop_at RNum r) =
        (strats, Some (b1, b2), ran) ->
      (ran < N.of_nat budget)%N ->
      @si_regret RNum (@info RNum g strats) < r.
    Proof using BR_upper BR_attained Hwf HPR HCh.
      intros Hs Hran.
      destruct (bound_dominates g Hwf HPR HCh draw budget _ strats b1 b2 ran Hs) as [Hd _].
      destruct (budget_never_exceeded g Full draw _ _ budget strats _ ran Hs) as (_ & _ & Hstop).
      destruct (Hstop Hran) as (c1 & c2 & Ec & Hfire). injection Ec as <- <-.
      unfold stop_at in Hfire. cbn [ltb RNum] in Hfire. apply Rltb_true in Hfire. lra.
    Qed.
  End Game.

  (** non-vacuity: matching pennies with player two's two nodes in one infoset
      ([SolveValidProofs.mp_game]) satisfies the hypotheses, and every solve with a positive
      budget returns bounds to which the theorem applies *)
  Example mp_bound_dominates (draw : oracle) (budget : nat) (stop : R -> bool) :
    (1 <= budget)%nat ->
    exists strats b1 b2 ran,
      @solve_single RNum mp_game Full draw (@p_vanilla RNum) budget stop = (strats, Some (b1, b2), ran) /\
      @si_regret RNum (@info RNum mp_game strats) <= Rmax b1 b2 /\ 0 <= b1 /\ 0 <= b2.
  Proof using BR_upper BR_attained.
    intros Hb.
    destruct (@solve_single RNum mp_game Full draw (@p_vanilla RNum) budget stop) as [[strats regs] ran] eqn:E.
    destruct (budget_never_exceeded mp_game Full draw _ stop budget strats regs ran E) as (_ & Hsome & _).
    destruct (Hsome Hb) as (_ & b1 & b2 & ->).
    exists strats, b1, b2, ran. split; [reflexivity|].
    exact (bound_dominates mp_game mp_WF mp_PR CfrRate.mp_ChanceOK draw budget stop strats b1 b2 ran E).
  Qed.
End BoundDominates.

(** ** The factor 2 of [cum_regret_bound] is needed: a 2x2 simultaneous game (player one
    picks a row, player two — one infoset — a column; payoff 1 in one cell, 0 elsewhere)
    in which, after two iterations, the true regret (3/16) exceeds half of the returned
    bound (1/4 / 2 = 1/8) *)
Definition g2 : game :=
  @mkGame RNum [] [mkPinfo 0 [0%N; 1%N] None] [mkPinfo 0 [0%N; 1%N] None] [] []
          (@Player RNum true 0
             [@Player RNum false 0 [@Term RNum 0; @Term RNum 0];
              @Player RNum false 0 [@Term RNum 0; @Term RNum 1]]).

Definition st12 (a1 a2 c1 c2 a3 a4 c3 c4 : R) (s1 s2 : list R) : @pstate RNum :=
  ([@mkRinfo RNum [a1; a2] [c1; c2] s1], [@mkRinfo RNum [a3; a4] [c3; c4] s2]).

Lemma st12_ext a1 a2 c1 c2 a3 a4 c3 c4 s1 s2 a1' a2' c1' c2' a3' a4' c3' c4' s1' s2' :
  a1 = a1' -> a2 = a2' -> c1 = c1' -> c2 = c2' -> a3 = a3' -> a4 = a4' -> c3 = c3' -> c4 = c4' ->
  s1 = s1' -> s2 = s2' ->
  st12 a1 a2 c1 c2 a3 a4 c3 c4 s1 s2 = st12 a1' a2' c1' c2' a3' a4' c3' c4' s1' s2'.
Proof. intros; subst; reflexivity. Qed.

Lemma g2_vrec draw pass a1 a2 c1 c2 e1 e2 a3 a4 c3 c4 f1 f2 :
  snd (@vrec RNum [] false draw pass (g_root g2) 1 1 1 (st12 a1 a2 c1 c2 a3 a4 c3 c4 [e1; e2] [f1; f2])) =
  st12 (a1 - f2 * e2) (a2 + f2 - f2 * e2) (c1 + e1) (c2 + e2)
       (a3 + e2 * f2) (a4 - e2 + e2 * f2) (c3 + 2 * f1) (c4 + 2 * f2) [e1; e2] [f1; f2].
Proof.
  unfold st12 at 1. cbv -[Rmax Rltb Rleb Reqb Rdiv Rplus Rmult Rminus Ropp Rinv IZR INR N.to_nat st12].
  apply st12_ext; try reflexivity; lra.
Qed.

(** regret matching with one positive regret never reads the fall-back of [p] *)
Lemma rm_np (p : params) x y : x <= 0 -> 0 < y -> @regret_match RNum p [x; y] = [0; 1].
Proof.
  intros Hx Hy. rewrite regret_match_unfold. cbv zeta. cbn [filter].
  assert (E1 : Rltb 0 x = false) by (apply Rltb_false; lra).
  assert (E2 : Rltb 0 y = true) by (apply Rltb_true; lra).
  rewrite E1, E2. cbn [Rsum]. rewrite Rplus_0_r, E2. cbn [map]. rewrite E1, E2.
  unfold Rdiv. rewrite Rinv_r by lra. reflexivity.
Qed.

Lemma rm_pn (p : params) x y : 0 < x -> y <= 0 -> @regret_match RNum p [x; y] = [1; 0].
Proof.
  intros Hx Hy. rewrite regret_match_unfold. cbv zeta. cbn [filter].
  assert (E1 : Rltb 0 x = true) by (apply Rltb_true; lra).
  assert (E2 : Rltb 0 y = false) by (apply Rltb_false; lra).
  rewrite E1, E2. cbn [Rsum]. rewrite Rplus_0_r, E1. cbn [map]. rewrite E1, E2.
  unfold Rdiv. rewrite Rinv_r by lra. reflexivity.
Qed.

Lemma avg2 x y : x + y <> 0 -> @avg_strat RNum [x; y] = [x / (x + y); y / (x + y)].
Proof.
  intros Hne. rewrite avg_strat_unfold. cbn [Rsum]. rewrite Rplus_0_r.
  assert (E : Reqb (x + y) 0 = false) by (apply Reqb_false; exact Hne).
  rewrite E. reflexivity.
Qed.

Lemma bound2_r x y d : x <= y -> 0 <= y -> 2 * Rmax (Rmax x y) 0 / d = 2 * y / d.
Proof. intros H1 H2. rewrite (Rmax_right x y) by lra. rewrite (Rmax_left y 0) by lra. reflexivity. Qed.
Lemma bound2_l x y d : y <= x -> 0 <= x -> 2 * Rmax (Rmax x y) 0 / d = 2 * x / d.
Proof. intros H1 H2. rewrite (Rmax_left x y) by lra. rewrite (Rmax_left x 0) by lra. reflexivity. Qed.

Lemma dstate_at_unfold (g : game) (draw : oracle) (p : params) k :
  dstate_at g draw p (S k) =
  fst (@vanilla_iter RNum g false draw p (N.of_nat (S k)) (dstate_at g draw p k)).
Proof. reflexivity. Qed.

Lemma g2_init : @init_state RNum g2 = st12 0 0 0 0 0 0 0 0 [1 / 2; 1 / 2] [1 / 2; 1 / 2].
Proof.
  unfold init_state, rinfo_new. cbn [g2 g_infos1 g_infos2 map pi_actions length repeatT].
  rewrite !of_N_INR. cbn [INR zero one div RNum]. apply st12_ext; reflexivity.
Qed.

Lemma g2_WFtables : @WFtables [mkPinfo 0%N [0%N; 1%N] None] [].
Proof.
  split.
  - cbn. constructor; [intros []|constructor].
  - constructor; [|constructor]. cbn. split; [|lia].
    constructor; [intros [E|[]]; discriminate E|]. constructor; [intros []|constructor].
Qed.

Lemma g2_WFgame : @WFgame RNum g2.
Proof.
  split; [|split; [|split; [|split]]].
  - cbn. repeat split; lia.
  - apply g2_WFtables.
  - apply g2_WFtables.
  - intros pl i h Hin. cbn in Hin.
    destruct Hin as [E|[E|[E|[]]]]; inversion E; subst; reflexivity.
  - intros pl i j a Hi Hp. destruct pl; cbn in Hi, Hp;
      (destruct i as [|i]; [discriminate Hp|lia]).
Qed.

Lemma g2_PerfectRecall : @PerfectRecall RNum g2.
Proof.
  exists (fun _ _ => []). intros pl i h Hin. cbn in Hin.
  destruct Hin as [E|[E|[E|[]]]]; inversion E; subst; reflexivity.
Qed.

Lemma g2_ChanceOK : ChanceOK g2.
Proof. constructor. Qed.

(** the true regret of the returned profile is at least what player two gains by deviating
    to the first column (nothing) on top of the value of the profile *)
Lemma g2_two_iterations draw (p : params) x1 x2 y1 y2 :
  davg g2 draw p 2 true = [[x1; x2]] -> davg g2 draw p 2 false = [[y1; y2]] ->
  exists strats ran,
    @solve_single RNum g2 Full draw p 2 never = (strats, Some (dbounds_at g2 draw p 2), ran) /\
    x2 * y2 <= @si_regret RNum (@info RNum g2 strats).
Proof.
  intros EA1 EA2.
  destruct (@solve_single RNum g2 Full draw p 2 never) as [[strats regs] ran] eqn:E.
  pose proof (solve_single_no_stop g2 Full draw p 2 never (fun _ => eq_refl)) as Hran.
  rewrite E in Hran. cbn [snd] in Hran.
  destruct (budget_never_exceeded g2 Full draw _ never 2 strats regs ran E) as (_ & Hsome & _).
  destruct (Hsome ltac:(lia)) as (_ & b1 & b2 & ->).
  pose proof (WFgame_arities_pos g2 g2_WFgame) as Hpos.
  destruct (solve_single_gaps g2 draw p 2 never strats b1 b2 ran Hpos E)
    as (_ & _ & _ & <- & <- & E1 & E2).
  subst ran. rewrite Nat2N.id in *.
  exists strats, (N.of_nat 2). split; [unfold dbound_pl; now rewrite <- surjective_pairing|].
  pose proof (davg_StratOf g2 draw p 2 true Hpos) as HA1.
  assert (Hst : StratOf g2 false [[1; 0]]).
  { split; [|reflexivity]. constructor; [|constructor]. split; [repeat constructor; lra|cbn; lra]. }
  pose proof (br_upper g2 false _ g2_WFgame g2_PerfectRecall g2_ChanceOK
                       (StratOf_nonneg _ _ _ HA1) [[1; 0]] Hst) as U2.
  unfold si_regret. cbn [fmax RNum]. rewrite E1, E2. unfold avg_gap. rewrite EA1, EA2 in *.
  assert (Eu : u_game g2 [[x1; x2]] [[y1; y2]] = x2 * y2).
  { unfold u_game. cbv -[Rdiv Rplus Rmult Rminus Ropp Rinv IZR]. lra. }
  assert (Ev : u_me g2 false [[1; 0]] [[x1; x2]] = 0).
  { unfold u_me, u_game. cbv -[Rdiv Rplus Rmult Rminus Ropp Rinv IZR]. lra. }
  rewrite Eu. rewrite Ev in U2. set (v := x2 * y2).
  set (br1 := @br_value RNum g2 true _). set (br2 := @br_value RNum g2 false _) in *.
  pose proof (Rmax_r (Rmax (br1 - v) 0) (Rmax (br2 + v) 0)).
  pose proof (Rmax_l (br2 + v) 0). lra.
Qed.

Lemma g2_avg2 draw (p : params) a1 a2 c1 c2 a3 a4 c3 c4 s1 s2 :
  dstate_at g2 draw p 2 = st12 a1 a2 c1 c2 a3 a4 c3 c4 s1 s2 -> c1 + c2 <> 0 -> c3 + c4 <> 0 ->
  davg g2 draw p 2 true = [[c1 / (c1 + c2); c2 / (c1 + c2)]] /\
  davg g2 draw p 2 false = [[c3 / (c3 + c4); c4 / (c3 + c4)]].
Proof.
  intros Est H1 H2. unfold davg. rewrite Est. unfold st12. cbn [ps_get fst snd map cum_strat].
  rewrite (avg2 c1 c2), (avg2 c3 c4) by assumption. split; reflexivity.
Qed.

Section G2Uniform.
  Context (p : params) (d : nat -> R) (draw : oracle).
  Context (Hd_pos : forall t, (1 <= t)%nat -> 0 < d t).
  Context (Hd_reg : forall t cr, (1 <= t)%nat ->
              @discount_cum_regret RNum p (N.of_nat t) cr = map (fun r => r * d t) cr).
  Context (Hd_avg : forall t cs, (1 <= t)%nat ->
              @discount_average_strat RNum p (N.of_nat t) cs = map (fun a => a * d t) cs).

  Lemma g2_iter t a1 a2 c1 c2 e1 e2 a3 a4 c3 c4 f1 f2 :
    (1 <= t)%nat ->
    @vanilla_iter RNum g2 false draw p (N.of_nat t)
                  (st12 a1 a2 c1 c2 a3 a4 c3 c4 [e1; e2] [f1; f2]) =
    let dd := d t in
    let r11 := a1 - f2 * e2 in
    let r12 := a2 + f2 - f2 * e2 in
    let r21 := a3 + e2 * f2 in
    let r22 := a4 - e2 + e2 * f2 in
    (st12 (r11 * dd) (r12 * dd) ((c1 + e1) * dd) ((c2 + e2) * dd)
          (r21 * dd) (r22 * dd) ((c3 + 2 * f1) * dd) ((c4 + 2 * f2) * dd)
          (@regret_match RNum p [r11; r12]) (@regret_match RNum p [r21; r22]),
     (2 * Rmax (Rmax (r11 * dd) (r12 * dd)) 0 / INR t,
      2 * Rmax (Rmax (r21 * dd) (r22 * dd)) 0 / INR t)).
  Proof.
    intros Ht. rewrite vanilla_iter_eq. cbv zeta. change (g_chance g2) with (@nil (list R)).
    rewrite g2_vrec. rewrite !advance_all_map. unfold st12.
    cbn [fst snd map Rsum]. unfold advance. cbn [fst snd cum_regret cum_strat strat].
    rewrite !Hd_reg, !Hd_avg by exact Ht.
    rewrite !cum_regret_bound_eq. cbn [map]. unfold Rmaxl. cbn [reduce_max fold_left fmax RNum].
    rewrite Nat2N.id, !Rplus_0_r, !Rplus_0_l. reflexivity.
  Qed.

  Lemma g2_state1 :
    dstate_at g2 draw p 1 =
    st12 (- d 1 / 4) (d 1 / 4) (d 1 / 2) (d 1 / 2) (d 1 / 4) (- d 1 / 4) (d 1) (d 1) [0; 1] [1; 0].
  Proof.
    cbn [dstate_at]. rewrite g2_init, (g2_iter 1) by lia.
    cbv zeta. cbn [fst]. rewrite rm_np, rm_pn by lra. apply st12_ext; try reflexivity; lra.
  Qed.

  Lemma g2_state2 :
    exists s1 s2,
      dstate_at g2 draw p 2 =
      st12 (- d 1 / 4 * d 2) (d 1 / 4 * d 2) (d 1 / 2 * d 2) ((d 1 / 2 + 1) * d 2)
           (d 1 / 4 * d 2) ((- d 1 / 4 - 1) * d 2) ((d 1 + 2) * d 2) (d 1 * d 2) s1 s2.
  Proof.
    do 2 eexists. rewrite (dstate_at_unfold g2 draw p 1), g2_state1, (g2_iter 2) by lia.
    cbv zeta. cbn [fst]. apply st12_ext; try reflexivity; lra.
  Qed.

  Lemma g2_bounds2 : dbounds_at g2 draw p 2 = (d 1 * d 2 / 4, d 1 * d 2 / 4).
  Proof.
    pose proof (Hd_pos 2 ltac:(lia)) as H2.
    pose proof (Rmult_lt_0_compat _ _ (Hd_pos 1 ltac:(lia)) H2) as Hdd.
    unfold dbounds_at. change (2 - 1)%nat with 1%nat. rewrite g2_state1, (g2_iter 2) by lia.
    cbv zeta. cbn [snd INR]. rewrite bound2_r, bound2_l by lra. apply f_equal2; lra.
  Qed.

  Lemma g2_after_two :
    exists strats ran,
      @solve_single RNum g2 Full draw p 2 never =
        (strats, Some (d 1 * d 2 / 4, d 1 * d 2 / 4), ran) /\
      d 1 * (d 1 + 2) <= 4 * (d 1 + 1) * (d 1 + 1) * @si_regret RNum (@info RNum g2 strats).
  Proof.
    pose proof (Hd_pos 1 ltac:(lia)) as H1. pose proof (Hd_pos 2 ltac:(lia)) as H2.
    pose proof (Rmult_lt_0_compat _ _ H1 H2) as Hdd.
    destruct g2_state2 as (s1 & s2 & Est).
    destruct (g2_avg2 draw p _ _ _ _ _ _ _ _ _ _ Est) as [EA1 EA2]; [lra|lra|].
    destruct (g2_two_iterations draw p _ _ _ _ EA1 EA2) as (strats & ran & E & Hlow).
    rewrite g2_bounds2 in E. exists strats, ran. split; [exact E|].
    eapply Rle_trans; [|apply Rmult_le_compat_l; [nra|exact Hlow]].
    right. field. lra.
  Qed.
End G2Uniform.

Theorem halved_bound_refuted (draw : oracle) :
  exists strats b1 b2 ran,
    @solve_single RNum g2 Full draw (@p_vanilla RNum) 2 never = (strats, Some (b1, b2), ran) /\
    Rmax b1 b2 / 2 < @si_regret RNum (@info RNum g2 strats).
Proof.
  destruct (g2_after_two _ (fun _ => 1) draw (fun _ _ => Rlt_0_1) vanilla_discount_reg vanilla_discount_avg)
    as (strats & ran & E & Hlow).
  exists strats, (1 * 1 / 4), (1 * 1 / 4), ran. split; [exact E|].
  rewrite Rmax_left by lra. lra.
Qed.
