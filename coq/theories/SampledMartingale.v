(** * SampledMartingale: over a whole run of the chance-sampled solver the sampled regret
    increments are a martingale-difference estimator of the true counterfactual regret
    increments.

    [Unbiased.v] proves the one-step statement: for a *fixed* state, the expectation over
    one draw per chance infoset of the regret increment the sampled pass makes is the
    increment [cfr_inc] of the unsampled pass.  Here the state of iteration [t] is the one
    the sampled run itself has reached, a function of the draws of iterations [1..t-1].

    - [expect_run rows n f]: expectation over the draw vectors of [n] successive
      iterations (independent, each distributed as the product of the chance rows).
    - [run_state g p ds]: the solver state after the iterations whose draw vectors are
      [ds] (oldest first), obtained by iterating the model's own [one_iter g Sampled].
      It is the state [solve_loop] holds under the oracle [draw_run ds]
      ([run_state_solve_loop]).
    - [sampled_inc_at]/[true_inc_at]: the sampled / the true increment of iteration [t+1]
      along the run [ds].
    - [sampled_md_conditional]: conditional on any history the sampled increment of the
      next iteration has the true increment as its mean (martingale difference).
    - [sampled_md_orthogonal]: the difference is orthogonal to every function of the past.
    - [sampled_run_tower]: E[sum_t sampled_t] = E[sum_t true_t].
    - [sampled_run_regret_tower]: for the undiscounted parameters the expected cumulative
      regret held by the solver after [T] sampled iterations is the expected sum of the true
      increments along the run.

    [sum_upto], [RunSums], [snoc] and [newest] are not about this solver: they continue
    [FinExp.v], and [ExternalConcentration.v] uses them too. *)
From Coq Require Import Reals List Lra Lia Bool Arith NArith.
From Cfr.theories Require Import Num ListAux RInst Tree GameWF Solve Valid SolveValidProofs Incr
     IterChar CfMass CfrRate FinExp Unbiased.
Import ListNotations.
Open Scope R_scope.

Local Notation nodeR := (@node RNum).
Local Notation gameR := (@game RNum).
Local Notation pstateR := (@pstate RNum).
Local Notation paramsR := (@params RNum).
Local Notation oracleR := (@oracle RNum).

(** ** The expectation over a run: the first iteration outermost *)
Fixpoint expect_run (rows : list (list R)) (n : nat) (f : list (list nat) -> R) : R :=
  match n with
  | O => f []
  | S n' => expect rows (fun d => expect_run rows n' (fun ds => f (d :: ds)))
  end.

Lemma Lin_expect_run rows n : Lin (expect_run rows n).
Proof.
  induction n as [|n IH]; [exact (Lin_eval [])|].
  exact (Lin_comp (Lin_expect rows) (fun d f => expect_run rows n (fun ds => f (d :: ds)))
                  (fun d => Lin_map IH (cons d))).
Qed.

Lemma Pos_expect_run rows n :
  Forall (Forall (fun x => 0 <= x)) rows -> Pos (expect_run rows n) (fun _ => True).
Proof.
  intros Hr. induction n as [|n IH]; [exact (Pos_eval [] _ I)|].
  apply (Pos_comp (Pos_expect rows Hr) (fun d f => expect_run rows n (fun ds => f (d :: ds)))).
  intros d _. now apply (Pos_map IH).
Qed.

(** peeling the *last* iteration: the tower property of the product measure *)
Lemma expect_run_snoc rows n (f : list (list nat) -> R) :
  expect_run rows (S n) f = expect_run rows n (fun ds => expect rows (fun d => f (ds ++ [d]))).
Proof.
  revert f; induction n as [|n IH]; intros f; [reflexivity|].
  apply (expect_ext rows (fun d => expect_run rows (S n) (fun ds => f (d :: ds)))).
  intros d _. now rewrite IH.
Qed.

Fixpoint sum_upto (n : nat) (f : nat -> R) : R :=
  match n with
  | O => 0
  | S k => sum_upto k f + f k
  end.

Lemma sum_upto_ext n (f h : nat -> R) :
  (forall t, (t < n)%nat -> f t = h t) -> sum_upto n f = sum_upto n h.
Proof.
  induction n as [|n IH]; intros H; cbn [sum_upto]; [reflexivity|].
  rewrite IH by (intros t Ht; apply H; lia). now rewrite (H n) by lia.
Qed.

Lemma sum_upto_minus n (f h : nat -> R) :
  sum_upto n (fun t => f t - h t) = sum_upto n f - sum_upto n h.
Proof. induction n as [|n IH]; cbn [sum_upto]; [lra|]. rewrite IH. lra. Qed.

Lemma sum_upto_shift n (f : nat -> R) :
  sum_upto (S n) f = f O + sum_upto n (fun t => f (S t)).
Proof.
  induction n as [|n IH]; [cbn [sum_upto]; lra|].
  change (sum_upto (S (S n)) f) with (sum_upto (S n) f + f (S n)). rewrite IH.
  cbn [sum_upto]. lra.
Qed.

Lemma E_sum_upto {A} (E : (A -> R) -> R) (L : Lin E) m (F : nat -> A -> R) :
  E (fun a => sum_upto m (fun t => F t a)) = sum_upto m (fun t => E (F t)).
Proof.
  induction m as [|m IH]; cbn [sum_upto]; [apply (E_zero L)|]. now rewrite (E_plus L), IH.
Qed.

(** ** Sums along a run ([FinExp.IsRun]) *)
Section RunSums.
  Context {St X} {E : St -> (X -> R) -> R} {W : St -> X -> Prop} {step : St -> X -> St}
          {Inv : St -> Prop} {run : nat -> St -> (list X -> R) -> R}
          (Sys : IsRun E W step Inv run).
  Context (d : St -> X -> R) (D : St -> list X -> nat -> R) (HD : IsAt step D d).

  Lemma IsAt_sum : IsSum step (fun s xs => sum_upto (length xs) (D s xs)) d.
  Proof.
    destruct HD as [D0 D1]. split; [reflexivity|]. intros s x xs. cbn [length].
    rewrite sum_upto_shift, D0. f_equal. apply sum_upto_ext. intros t _. apply D1.
  Qed.

  Lemma sum_of_at M : IsSum step M d -> forall xs s, M s xs = sum_upto (length xs) (D s xs).
  Proof.
    intros [M0 M1]. induction xs as [|x xs IH]; intros s; [apply M0|].
    rewrite M1, IH. symmetry. apply (proj2 IsAt_sum).
  Qed.

  Theorem run_second_moment M :
    IsSum step M d -> (forall s, Inv s -> E s (d s) = 0) ->
    forall n s, Inv s ->
      run n s (fun xs => M s xs ^ 2) = sum_upto n (fun t => run n s (fun xs => D s xs t ^ 2)).
  Proof.
    intros HM Hd. destruct HD as [D0 D1]. induction n as [|n IH]; intros s Hs.
    - rewrite (run_O Sys), (proj1 HM). cbn [sum_upto]. lra.
    - rewrite (run_sq_step Sys d Hd M HM n s Hs), sum_upto_shift. f_equal.
      + rewrite (run_S Sys). apply (Pos_ext (E_Pos Sys s Hs)). intros x Hx.
        rewrite (E_ext (run_Lin Sys n _) _ (fun _ => d s x ^ 2)) by (intros; now rewrite D0).
        symmetry. apply (E_const (run_Lin Sys n _)), (run_one Sys). now apply (Inv_step Sys).
      + rewrite (Pos_ext (E_Pos Sys s Hs) _
                   (fun x => sum_upto n (fun t => run n (step s x)
                                                    (fun xs => D (step s x) xs t ^ 2))))
          by (intros x Hx; apply IH; now apply (Inv_step Sys)).
        rewrite (E_sum_upto _ (E_Lin Sys s)). apply sum_upto_ext. intros t _.
        rewrite (run_S Sys). apply (E_ext (E_Lin Sys s)). intros x.
        apply (E_ext (run_Lin Sys n _)). intros xs. now rewrite D1.
  Qed.
End RunSums.

Lemma ChanceOK_nonneg (g : gameR) :
  ChanceOK g -> Forall (Forall (fun x => 0 <= x)) (g_chance g).
Proof.
  unfold ChanceOK. apply Forall_impl. intros r [H _]. revert H. apply Forall_impl.
  intros x Hx. lra.
Qed.

Section Run.
  Context (g : gameR) (p : paramsR).

  Definition run_step (it : N) (st : pstateR) (d : list nat) : pstateR :=
    fst (@one_iter RNum g Sampled (draw_of d) p it st).

  Fixpoint run_from (it : N) (st : pstateR) (ds : list (list nat)) : pstateR :=
    match ds with
    | [] => st
    | d :: ds' => run_from (it + 1) (run_step it st d) ds'
    end.

  (** the state after the iterations [1 .. length ds], iteration [t] drawing [nth (t-1) ds] *)
  Definition run_state (ds : list (list nat)) : pstateR := run_from 1 (@init_state RNum g) ds.

  Lemma run_from_app it st ds es :
    run_from it st (ds ++ es) = run_from (it + N.of_nat (length ds)) (run_from it st ds) es.
  Proof.
    revert it st; induction ds as [|d ds IH]; intros it st; cbn [app run_from length].
    - now rewrite N.add_0_r.
    - rewrite IH. f_equal. lia.
  Qed.

  Lemma run_state_snoc ds d :
    run_state (ds ++ [d]) = run_step (N.of_nat (S (length ds))) (run_state ds) d.
  Proof.
    unfold run_state. rewrite run_from_app. cbn [run_from]. f_equal. lia.
  Qed.

  Lemma run_state_nil : run_state [] = @init_state RNum g.
  Proof. reflexivity. Qed.

  Local Notation IA := (InvA (arities g true) (arities g false)).

  Lemma run_step_inv it st d : IA st -> IA (run_step it st d).
  Proof. intros H. exact (one_iter_inv _ _ g Sampled (draw_of d) p it st H). Qed.

  Lemma run_from_inv it st ds : IA st -> IA (run_from it st ds).
  Proof.
    revert it st; induction ds as [|d ds IH]; intros it st H; cbn [run_from]; [exact H|].
    apply IH. now apply run_step_inv.
  Qed.

  Lemma run_state_inv ds : WFgame g -> IA (run_state ds).
  Proof. intros HWF. apply run_from_inv. now apply init_InvA. Qed.

  (** what the traversal of iteration [it] (draws [d], state [st] before it) adds to
      [cum_regret[pl][i][a]], before the discounting of [advance] *)
  Definition sampled_inc (pl : bool) (i a : nat) (it : N) (st : pstateR) (d : list nat) : R :=
    reg_sum pl i a (@vincs RNum (g_chance g) true (draw_of d) (it - 1)%N (strat_view st)
                           (g_root g) 1 1 1).

  (** the true (unsampled) counterfactual regret increment at the strategy of [st] *)
  Definition true_inc (pl : bool) (i a : nat) (st : pstateR) : R :=
    cfr_inc (g_chance g) (strat_view st) pl i a (g_root g) 1 1 1.

  Lemma sampled_inc_spec pl i a it st d :
    (a < length (cum_regret (@ri_get RNum st pl i)))%nat ->
    nth a (cum_regret (@ri_get RNum
       (snd (@vrec RNum (g_chance g) true (draw_of d) (it - 1)%N (g_root g) 1 1 1 st)) pl i)) 0 =
    nth a (cum_regret (@ri_get RNum st pl i)) 0 + sampled_inc pl i a it st d.
  Proof.
    intros Ha. rewrite vrec_incs. cbn [snd]. now rewrite fold_incr_regret_nth.
  Qed.

  (** along a run: iteration [t+1] of the run [ds] (0-based index [t]) *)
  Definition sampled_inc_at (pl : bool) (i a : nat) (ds : list (list nat)) (t : nat) : R :=
    sampled_inc pl i a (N.of_nat (S t)) (run_state (firstn t ds)) (nth t ds []).
  Definition true_inc_at (pl : bool) (i a : nat) (ds : list (list nat)) (t : nat) : R :=
    true_inc pl i a (run_state (firstn t ds)).

  Lemma sampled_inc_at_prefix pl i a ds es t :
    (t < length ds)%nat -> sampled_inc_at pl i a (ds ++ es) t = sampled_inc_at pl i a ds t.
  Proof.
    intros Ht. unfold sampled_inc_at. rewrite firstn_app, app_nth1 by assumption.
    replace (t - length ds)%nat with O by lia. cbn [firstn]. now rewrite app_nil_r.
  Qed.

  Lemma true_inc_at_prefix pl i a ds es t :
    (t <= length ds)%nat -> true_inc_at pl i a (ds ++ es) t = true_inc_at pl i a ds t.
  Proof.
    intros Ht. unfold true_inc_at. rewrite firstn_app.
    replace (t - length ds)%nat with O by lia. cbn [firstn]. now rewrite app_nil_r.
  Qed.

  Lemma sampled_inc_at_last pl i a ds d :
    sampled_inc_at pl i a (ds ++ [d]) (length ds) =
    sampled_inc pl i a (N.of_nat (S (length ds))) (run_state ds) d.
  Proof.
    unfold sampled_inc_at. rewrite firstn_app, Nat.sub_diag, firstn_all. cbn [firstn].
    rewrite app_nil_r, app_nth2, Nat.sub_diag by lia. reflexivity.
  Qed.

  Lemma true_inc_at_last pl i a ds : true_inc_at pl i a ds (length ds) = true_inc pl i a (run_state ds).
  Proof. unfold true_inc_at. now rewrite firstn_all. Qed.

  Context (HWF : WFgame g) (HCO : ChanceOK g) (HNR : NoRepeat (g_root g)).

  Local Notation rows := (g_chance g).

  (** conditional on *any* history [ds] — reachable with positive probability or not — and
      whatever the iteration number *)
  Theorem sampled_md_step pl i a it ds :
    expect rows (fun d => sampled_inc pl i a it (run_state ds) d) = true_inc pl i a (run_state ds).
  Proof.
    unfold sampled_inc, true_inc.
    apply (sampled_unbiased_game g (run_state ds) (it - 1)%N pl i a HWF HCO); [|exact HNR].
    now apply run_state_inv.
  Qed.

  Theorem sampled_md_conditional pl i a ds :
    expect rows (fun d => sampled_inc_at pl i a (ds ++ [d]) (length ds)) =
    true_inc_at pl i a ds (length ds).
  Proof.
    rewrite true_inc_at_last, <- (sampled_md_step pl i a (N.of_nat (S (length ds))) ds).
    apply expect_ext. intros d _. apply sampled_inc_at_last.
  Qed.

  (** The expectation over a run is a run in the sense of [FinExp]: the state is the list of
      the draw vectors so far; a draw vector carries weight when every draw is an index into
      its row. *)
  Definition snoc {X} (pre : list X) (x : X) : list X := pre ++ [x].

  (** of a process [F ds t] that at time [t] looks at the first [t + 1] entries of [ds] only:
      the value the newest entry [x] adds after the entries [pre] *)
  Definition newest {X} (F : list X -> nat -> R) (pre : list X) (x : X) : R :=
    F (pre ++ [x]) (length pre).

  Local Notation in_rows := (fun d : list nat => Forall2 (fun k r => (k < length r)%nat) d rows).

  Lemma sampled_IsRun :
    IsRun (fun _ => expect rows) (fun _ => in_rows) snoc (Forall in_rows)
          (fun n _ => expect_run rows n).
  Proof.
    split; try reflexivity.
    - intros _. apply Lin_expect.
    - intros n _. apply Lin_expect_run.
    - intros _ _. apply Pos_expect, ChanceOK_nonneg, HCO.
    - intros _ _. apply expect_const, ChanceOK_sums, HCO.
    - intros pre d Hpre Hd. apply Forall_app. auto.
  Qed.

  Local Notation diff pl i a :=
    (fun ds t => sampled_inc_at pl i a ds t - true_inc_at pl i a ds t).

  Lemma inc_diff_at pl i a :
    IsAt snoc (fun pre ds t => diff pl i a (pre ++ ds) (length pre + t)%nat) (newest (diff pl i a)).
  Proof.
    split; intros pre d ds; intros; unfold newest, snoc; cbv beta.
    - rewrite Nat.add_0_r. change (d :: ds) with ([d] ++ ds). rewrite app_assoc.
      now rewrite sampled_inc_at_prefix, true_inc_at_prefix by (rewrite app_length; cbn [length]; lia).
    - rewrite <- app_assoc, app_length. cbn [length app]. now rewrite <- Nat.add_assoc.
  Qed.

  Lemma inc_diff_mean_zero pl i a pre : expect rows (newest (diff pl i a) pre) = 0.
  Proof.
    unfold newest. rewrite (E_minus (Lin_expect rows)), sampled_md_conditional.
    rewrite (expect_ext rows _ (fun _ => true_inc_at pl i a pre (length pre)))
      by (intros d _; apply true_inc_at_prefix; lia).
    rewrite expect_const by apply (ChanceOK_sums g HCO). lra.
  Qed.

  Theorem inc_diff_orthogonal pl i a n T (h : list (list nat) -> R) :
    (n < T)%nat ->
    expect_run rows T
      (fun ds => h (firstn n ds) * (sampled_inc_at pl i a ds n - true_inc_at pl i a ds n)) = 0.
  Proof.
    exact (run_orth sampled_IsRun _ (fun pre _ => inc_diff_mean_zero pl i a pre) _
                    (inc_diff_at pl i a) n T [] h (Forall_nil _)).
  Qed.

  Theorem sampled_md_orthogonal pl i a n (h : list (list nat) -> R) :
    expect_run rows (S n)
      (fun ds => h (firstn n ds) * (sampled_inc_at pl i a ds n - true_inc_at pl i a ds n)) = 0.
  Proof. apply inc_diff_orthogonal. lia. Qed.

  Corollary sampled_run_diff_zero pl i a T :
    expect_run rows T
      (fun ds => sum_upto T (fun t => sampled_inc_at pl i a ds t - true_inc_at pl i a ds t)) = 0.
  Proof.
    rewrite <- (run_mean_zero sampled_IsRun _ (fun pre _ => inc_diff_mean_zero pl i a pre) _
                              (IsAt_sum _ _ (inc_diff_at pl i a)) T [] (Forall_nil _)).
    apply (run_ext sampled_IsRun T [] _ _ (Forall_nil _)). intros ds Hds.
    now rewrite (hist_length Hds).
  Qed.

  Theorem sampled_run_tower pl i a T :
    expect_run rows T (fun ds => sum_upto T (sampled_inc_at pl i a ds)) =
    expect_run rows T (fun ds => sum_upto T (true_inc_at pl i a ds)).
  Proof.
    pose proof (Lin_expect_run rows T) as L.
    apply Rminus_diag_uniq. rewrite <- (E_minus L), <- (sampled_run_diff_zero pl i a T).
    apply (E_ext L). intros ds. symmetry. apply sum_upto_minus.
  Qed.

  (** the true increments of the first [T] iterations do not depend on the last draw: the
      right-hand side is an expectation over [T-1] iterations *)
  Corollary sampled_run_tower_pred pl i a T :
    expect_run rows (S T) (fun ds => sum_upto (S T) (sampled_inc_at pl i a ds)) =
    expect_run rows T (fun ds => sum_upto (S T) (true_inc_at pl i a ds)).
  Proof.
    rewrite sampled_run_tower, expect_run_snoc.
    apply (run_ext sampled_IsRun T [] _ _ (Forall_nil _)). intros ds Hds.
    apply hist_length in Hds.
    rewrite (expect_ext rows _ (fun _ => sum_upto (S T) (true_inc_at pl i a ds))).
    - apply expect_const, ChanceOK_sums, HCO.
    - intros d _. apply sum_upto_ext. intros t Ht. apply true_inc_at_prefix. lia.
  Qed.
End Run.

(** ** [run_state] is the state of the model's iteration loop

    [vrec] on pass [pass] consults the oracle at that pass only, so the oracle that answers
    with the [t]-th draw vector on pass [t - 1] makes [solve_loop] follow [run_state]. *)
Lemma incs_pick_ext (F G : nodeR -> R -> R -> R -> list (@incr RNum)) pc p1 p2 ks k :
  Forall (fun c => forall qc q1 q2, F c qc q1 q2 = G c qc q1 q2) ks ->
  @incs_pick RNum F pc p1 p2 ks k = @incs_pick RNum G pc p1 p2 ks k.
Proof.
  intros H; revert k; induction H as [|c ks Hc H IH]; intros k; cbn [incs_pick]; [reflexivity|].
  destruct k as [|k]; [apply Hc|apply IH].
Qed.

Lemma incs_player_ext (f h : nodeR -> R) (F G : nodeR -> R -> R -> R -> list (@incr RNum))
      pl i pc p1 p2 mult ks :
  Forall (fun c => f c = h c) ks ->
  Forall (fun c => forall qc q1 q2, F c qc q1 q2 = G c qc q1 q2) ks ->
  forall ss ai, @incs_player RNum f F pl i pc p1 p2 mult ks ss ai =
                @incs_player RNum h G pl i pc p1 p2 mult ks ss ai.
Proof.
  induction 1 as [|c ks Hvc _ IH]; intros H ss ai; destruct ss as [|s ss];
    cbn [incs_player]; try reflexivity.
  rewrite Hvc, (IH (Forall_inv_tail H)). destruct pl; now rewrite (Forall_inv H).
Qed.

Section PassExt.
  Context (chance : list (list R)) (draw draw' : oracleR) (pass : N) (sg : bool -> nat -> list R).
  Context (Hd : forall ci w, draw true ci pass w = draw' true ci pass w).

  Lemma vval_pass_ext n :
    @vval RNum chance true draw pass sg n = @vval RNum chance true draw' pass sg n.
  Proof. apply vval_oracle_ext. intros ci _. apply Hd. Qed.

  Lemma vincs_pass_ext n :
    forall pc p1 p2, @vincs RNum chance true draw pass sg n pc p1 p2 =
                     @vincs RNum chance true draw' pass sg n pc p1 p2.
  Proof.
    induction n as [x|ci kids IH|pl i kids IH] using node_ind'; intros pc p1 p2; cbn [vincs].
    - reflexivity.
    - rewrite Hd. now apply incs_pick_ext.
    - assert (HV : Forall (fun c => @vval RNum chance true draw pass sg c =
                                    @vval RNum chance true draw' pass sg c) kids).
      { apply Forall_forall. intros c _. apply vval_pass_ext. }
      rewrite (incs_player_ext _ _ _ _ pl i pc p1 p2 _ kids HV IH).
      now rewrite (exp_player_ext _ _ _ kids _ 0 HV).
  Qed.
End PassExt.

Lemma vrec_pass_ext chance (draw draw' : oracleR) pass n pc p1 p2 (st : pstateR) :
  (forall ci w, draw true ci pass w = draw' true ci pass w) ->
  @vrec RNum chance true draw pass n pc p1 p2 st = @vrec RNum chance true draw' pass n pc p1 p2 st.
Proof.
  intros Hd. rewrite !vrec_incs.
  now rewrite (vval_pass_ext chance draw draw' pass _ Hd), (vincs_pass_ext chance draw draw' pass _ Hd).
Qed.

Lemma one_iter_sampled_pass_ext (g : gameR) (draw draw' : oracleR) (p : paramsR) it (st : pstateR) :
  (forall ci w, draw true ci (it - 1)%N w = draw' true ci (it - 1)%N w) ->
  @one_iter RNum g Sampled draw p it st = @one_iter RNum g Sampled draw' p it st.
Proof.
  intros Hd. cbn [one_iter]. unfold vanilla_iter.
  now rewrite (vrec_pass_ext (g_chance g) draw draw' (it - 1)%N _ _ _ _ st Hd).
Qed.

(** the oracle of a run: on pass [t] (0-based) it answers with the draw vector [nth t ds] *)
Definition draw_run (ds : list (list nat)) : oracleR :=
  fun _ ci pass _ => nth ci (nth (N.to_nat pass) ds []) O.

Section Loop.
  Context (g : gameR) (p : paramsR).

  Lemma run_step_draw_run all it (st : pstateR) d :
    nth (N.to_nat it - 1) all [] = d ->
    fst (@one_iter RNum g Sampled (draw_run all) p it st) = run_step g p it st d.
  Proof.
    intros E. unfold run_step. f_equal. apply one_iter_sampled_pass_ext.
    intros ci w. unfold draw_run, draw_of. rewrite N2Nat.inj_sub. change (N.to_nat 1) with 1%nat.
    now rewrite E.
  Qed.

  Lemma solve_loop_run_from all (stop : R -> bool) rem :
    forall es it (st : pstateR) regs ran,
      (1 <= it)%N -> (rem <= length es)%nat ->
      (forall k, (k < length es)%nat -> nth (N.to_nat it - 1 + k) all [] = nth k es []) ->
      exists k, (k <= rem)%nat /\ ((forall b, stop b = false) -> k = rem) /\
        fst (fst (@solve_loop RNum g Sampled (draw_run all) p stop rem it st regs ran)) =
        run_from g p it st (firstn k es).
  Proof.
    induction rem as [|rem IH]; intros es it st regs ran Hit Hlen Hall.
    - exists O. split; [lia|now split].
    - destruct es as [|d es]; [cbn [length] in Hlen; lia|].
      cbn [solve_loop].
      pose proof (Hall O ltac:(cbn [length]; lia)) as E0.
      rewrite Nat.add_0_r in E0. cbn [nth] in E0.
      pose proof (run_step_draw_run all it st d E0) as E.
      destruct (@one_iter RNum g Sampled (draw_run all) p it st) as [st' [r1 r2]]. cbn [fst] in E.
      destruct (stop _) eqn:Es.
      + exists 1%nat. split; [lia|]. split; [|cbn [fst firstn run_from]; exact E].
        intros Hs. rewrite Hs in Es. discriminate.
      + destruct (IH es (it + 1)%N st' (Some (r1, r2)) it) as (k & Hk & Hk' & Ek).
        * lia.
        * cbn [length] in Hlen. lia.
        * intros k Hk. pose proof (Hall (S k) ltac:(cbn [length]; lia)) as Ek.
          cbn [nth] in Ek. rewrite <- Ek. f_equal. lia.
        * exists (S k). split; [lia|]. split; [intros Hs; now rewrite Hk'|].
          rewrite Ek. cbn [firstn run_from]. now rewrite E.
  Qed.

  Theorem run_state_solve_loop ds (stop : R -> bool) :
    (forall b, stop b = false) ->
    fst (fst (@solve_loop RNum g Sampled (draw_run ds) p stop (length ds) 1
                          (@init_state RNum g) None 0%N)) = run_state g p ds.
  Proof.
    intros Hs.
    destruct (solve_loop_run_from ds stop (length ds) ds 1%N (@init_state RNum g) None 0%N)
      as (k & _ & Hk & E); [lia|lia|reflexivity|].
    now rewrite E, (Hk Hs), firstn_all.
  Qed.

  Corollary run_state_solve_loop_prefix ds (stop : R -> bool) budget :
    (budget <= length ds)%nat ->
    exists k, (k <= budget)%nat /\
      fst (fst (@solve_loop RNum g Sampled (draw_run ds) p stop budget 1
                            (@init_state RNum g) None 0%N)) = run_state g p (firstn k ds).
  Proof.
    intros Hb.
    destruct (solve_loop_run_from ds stop budget ds 1%N (@init_state RNum g) None 0%N)
      as (k & Hk & _ & E); [lia|exact Hb|reflexivity|].
    now exists k.
  Qed.
End Loop.

(** ** Undiscounted parameters: the cumulative regret the solver holds is the sum of the
    sampled increments *)
Section Undiscounted.
  Context (g : gameR).
  Local Notation pv := (@p_vanilla RNum).
  Local Notation IA := (InvA (arities g true) (arities g false)).

  Lemma InvA_lens (st : pstateR) pl i :
    IA st -> (i < length (arities g pl))%nat ->
    length (cum_regret (@ri_get RNum st pl i)) = nth i (arities g pl) O /\
    length (strat_view st pl i) = nth i (arities g pl) O /\
    (i < length (ps_get st pl))%nat.
  Proof.
    intros [H1 H2] Hi.
    assert (HF : Forall2 RInvA (arities g pl) (ps_get st pl)) by (destruct pl; assumption).
    destruct (Forall2_nth RInvA _ _ i 0%nat (@mkRinfo RNum [] [] []) HF Hi) as (_ & _ & L1 & _ & L3).
    apply Forall2_len in HF. repeat split; [exact L1|exact L3|lia].
  Qed.

  Lemma run_step_regret_vanilla it (st : pstateR) d pl i a :
    IA st -> (i < length (arities g pl))%nat -> (a < nth i (arities g pl) O)%nat ->
    nth a (cum_regret (@ri_get RNum (run_step g pv it st d) pl i)) 0 =
    nth a (cum_regret (@ri_get RNum st pl i)) 0 + sampled_inc g pl i a it st d.
  Proof.
    intros HI Hi Ha. destruct (InvA_lens st pl i HI Hi) as (L & _ & Hlen).
    unfold run_step. cbn [one_iter]. rewrite vanilla_iter_state. cbv zeta. cbn [fst].
    rewrite ri_get_map by (now rewrite vrec_len).
    cbn [adv_vanilla cum_regret]. apply sampled_inc_spec. now rewrite L.
  Qed.

  Context (HWF : WFgame g).

  Theorem run_state_regret_vanilla ds pl i a :
    (i < length (arities g pl))%nat -> (a < nth i (arities g pl) O)%nat ->
    nth a (cum_regret (@ri_get RNum (run_state g pv ds) pl i)) 0 =
    sum_upto (length ds) (sampled_inc_at g pv pl i a ds).
  Proof.
    intros Hi Ha. induction ds as [|d ds IH] using rev_ind.
    - cbn [length sum_upto]. apply init_zero.
    - rewrite run_state_snoc, run_step_regret_vanilla; try assumption.
      2:{ now apply run_state_inv. }
      rewrite app_length. cbn [length]. rewrite Nat.add_1_r. cbn [sum_upto].
      rewrite IH, sampled_inc_at_last. f_equal.
      apply sum_upto_ext. intros t Ht. symmetry. now apply sampled_inc_at_prefix.
  Qed.

  Context (HCO : ChanceOK g) (HNR : NoRepeat (g_root g)).

  Theorem sampled_run_regret_tower pl i a T :
    (i < length (arities g pl))%nat -> (a < nth i (arities g pl) O)%nat ->
    expect_run (g_chance g) T
      (fun ds => nth a (cum_regret (@ri_get RNum (run_state g pv ds) pl i)) 0) =
    expect_run (g_chance g) T (fun ds => sum_upto T (true_inc_at g pv pl i a ds)).
  Proof.
    intros Hi Ha. rewrite <- (sampled_run_tower g pv HWF HCO HNR pl i a T).
    apply (run_ext (sampled_IsRun g HCO) T [] _ _ (Forall_nil _)). intros ds Hds.
    rewrite <- (hist_length Hds). now apply run_state_regret_vanilla.
  Qed.
End Undiscounted.

(** ** Non-vacuity: the game with a chance root of [CfrRate.v], two iterations *)
Example seq_run_tower (p : paramsR) pl i a :
  expect_run (g_chance seq_game) 2 (fun ds => sum_upto 2 (sampled_inc_at seq_game p pl i a ds)) =
  expect_run (g_chance seq_game) 2 (fun ds => sum_upto 2 (true_inc_at seq_game p pl i a ds)).
Proof. exact (sampled_run_tower seq_game p seq_WF seq_ChanceOK seq_NoRepeat pl i a 2). Qed.

(** the same, the four equally likely histories spelled out: on the left the two sampled
    increments of each history, on the right the true increment at the initial strategies
    and at the strategies reached after the first iteration under either draw *)
Definition seq_S (p : paramsR) pl i a (d1 d2 t : nat) : R :=
  sampled_inc_at seq_game p pl i a [[d1]; [d2]] t.

Example seq_run_tower_explicit (p : paramsR) pl i a :
  1 / 4 * ((seq_S p pl i a 0 0 0 + seq_S p pl i a 0 0 1) + (seq_S p pl i a 0 1 0 + seq_S p pl i a 0 1 1) +
           (seq_S p pl i a 1 0 0 + seq_S p pl i a 1 0 1) + (seq_S p pl i a 1 1 0 + seq_S p pl i a 1 1 1)) =
  true_inc seq_game pl i a (@init_state RNum seq_game) +
  (1 / 2 * true_inc seq_game pl i a (run_state seq_game p [[0%nat]]) +
   1 / 2 * true_inc seq_game pl i a (run_state seq_game p [[1%nat]])).
Proof.
  pose proof (sampled_run_tower_pred seq_game p seq_WF seq_ChanceOK seq_NoRepeat pl i a 1) as H.
  cbn [seq_game g_chance expect_run expect wsum sum_upto] in H.
  unfold true_inc_at in H. cbn [firstn] in H. rewrite run_state_nil in H.
  unfold seq_S. lra.
Qed.

(** the estimator is not degenerate: in the first iteration of [seq_game] the sampled
    increment at (player one, infoset 0, action 0) is 1/4 or 0 according to the draw, and the
    true increment is their mean *)
Example seq_first_iteration it :
  sampled_inc seq_game true 0 0 it (@init_state RNum seq_game) [0%nat] = 1 / 4 /\
  sampled_inc seq_game true 0 0 it (@init_state RNum seq_game) [1%nat] = 0 /\
  true_inc seq_game true 0 0 (@init_state RNum seq_game) = 1 / 8.
Proof.
  cbv -[Rplus Rmult Rminus Ropp Rdiv Rinv IZR INR N.sub].
  change (INR 2) with (1 + 1). repeat split; lra.
Qed.

(** ** The statements that [Properties/C04.v] uses *)
Check expect_run_snoc :
  forall rows n (f : list (list nat) -> R),
    expect_run rows (S n) f = expect_run rows n (fun ds => expect rows (fun d => f (ds ++ [d]))).
Check run_state_inv :
  forall (g : gameR) (p : paramsR) ds, WFgame g -> InvA (arities g true) (arities g false) (run_state g p ds).
Check sampled_md_step :
  forall (g : gameR) (p : paramsR), WFgame g -> ChanceOK g -> NoRepeat (g_root g) ->
  forall pl i a it ds,
    expect (g_chance g) (fun d => sampled_inc g pl i a it (run_state g p ds) d) =
    true_inc g pl i a (run_state g p ds).
Check sampled_md_conditional :
  forall (g : gameR) (p : paramsR), WFgame g -> ChanceOK g -> NoRepeat (g_root g) ->
  forall pl i a ds,
    expect (g_chance g) (fun d => sampled_inc_at g p pl i a (ds ++ [d]) (length ds)) =
    true_inc_at g p pl i a ds (length ds).
Check sampled_md_orthogonal :
  forall (g : gameR) (p : paramsR), WFgame g -> ChanceOK g -> NoRepeat (g_root g) ->
  forall pl i a n (h : list (list nat) -> R),
    expect_run (g_chance g) (S n)
      (fun ds => h (firstn n ds) * (sampled_inc_at g p pl i a ds n - true_inc_at g p pl i a ds n)) = 0.
Check sampled_run_tower :
  forall (g : gameR) (p : paramsR), WFgame g -> ChanceOK g -> NoRepeat (g_root g) ->
  forall pl i a T,
    expect_run (g_chance g) T (fun ds => sum_upto T (sampled_inc_at g p pl i a ds)) =
    expect_run (g_chance g) T (fun ds => sum_upto T (true_inc_at g p pl i a ds)).
Check sampled_run_diff_zero :
  forall (g : gameR) (p : paramsR), WFgame g -> ChanceOK g -> NoRepeat (g_root g) ->
  forall pl i a T,
    expect_run (g_chance g) T
      (fun ds => sum_upto T (fun t => sampled_inc_at g p pl i a ds t - true_inc_at g p pl i a ds t)) = 0.
Check sampled_run_tower_pred :
  forall (g : gameR) (p : paramsR), WFgame g -> ChanceOK g -> NoRepeat (g_root g) ->
  forall pl i a T,
    expect_run (g_chance g) (S T) (fun ds => sum_upto (S T) (sampled_inc_at g p pl i a ds)) =
    expect_run (g_chance g) T (fun ds => sum_upto (S T) (true_inc_at g p pl i a ds)).
Check run_state_solve_loop :
  forall (g : gameR) (p : paramsR) ds (stop : R -> bool),
    (forall b, stop b = false) ->
    fst (fst (@solve_loop RNum g Sampled (draw_run ds) p stop (length ds) 1
                          (@init_state RNum g) None 0%N)) = run_state g p ds.
Check sampled_run_regret_tower :
  forall (g : gameR), WFgame g -> ChanceOK g -> NoRepeat (g_root g) ->
  forall pl i a T,
    (i < length (arities g pl))%nat -> (a < nth i (arities g pl) O)%nat ->
    expect_run (g_chance g) T
      (fun ds => nth a (cum_regret (@ri_get RNum (run_state g (@p_vanilla RNum) ds) pl i)) 0) =
    expect_run (g_chance g) T (fun ds => sum_upto T (true_inc_at g (@p_vanilla RNum) pl i a ds)).
