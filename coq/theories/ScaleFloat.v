(** * ScaleFloat: scaling the payoffs by a power of two is exact at binary64 (instance [FNum]).

    Property C12 says that multiplying the payoffs by [c > 0] multiplies utilities, regrets
    and bounds by [c].  Over the reals this is [PayoffEvalProofs]; at binary64 it holds bit
    for bit when [c = 2^e] and nothing underflows or overflows, because correctly rounded
    operations commute with the scaling by a power of two in the normal range
    ([rnd_scale]; a rounded sum needs no condition on the sum: [rnd_add_scale]).

    [Sc e a a'] says that the float [a'] is [a] scaled exactly by [2^e]; the arithmetic
    operations, [f64::max] and the comparisons preserve it.  [Inv] carries it, with a bound
    on the magnitude, through the accumulators of a traversal ([pgo_scale]: [exp_acc] here,
    [search] in [ScaleFloatBR]).  Hence [expected (scale_game c g) s1 s2 = expected g s1 s2 * c]
    under the predicate [RangeOK] that follows the evaluation ([expected_scale_float]), or
    under a closed condition on probabilities, payoffs and depth
    ([expected_scale_float_simple]).  The best-response side is in [ScaleFloatBR]. *)
From Coq Require Import List ZArith Reals Floats Bool Lia Lra Arith.
From Flocq Require Import Core IEEE754.BinarySingleNaN IEEE754.PrimFloat Plus_error Mult_error.
From Cfr.theories Require Import Num ListAux FInst Tree GameWF Strat Eval
  TruncFloat NormFloat EvalFloat.
Import ListNotations.

Local Existing Instance Flocq.IEEE754.PrimFloat.Hprec.
Local Existing Instance Flocq.IEEE754.PrimFloat.Hmax.

Local Open Scope R_scope.
Local Notation float := PrimFloat.float.
Local Notation Hp := Flocq.IEEE754.PrimFloat.Hprec.
Local Notation Hm := Flocq.IEEE754.PrimFloat.Hmax.
Local Notation node := (@node FNum).
Local Notation game := (@game FNum).
Local Notation bp := (bpow radix2).

Local Instance fexp_valid_s : Valid_exp (SpecFloat.fexp prec emax) := fexp_correct prec emax Hp.

(** zero, or of magnitude at least the smallest positive normal number [2^-1022] *)
Definition nz (y : R) : Prop := y = 0 \/ bp (-1022) <= Rabs y.

Lemma fexp64 : forall m : Z, SpecFloat.fexp prec emax m = Z.max (m - 53) (-1074).
Proof. intros m. reflexivity. Qed.

Lemma bp_pos : forall e, 0 < bp e.
Proof. intros e. apply bpow_gt_0. Qed.

Lemma normal_mag : forall y, bp (-1022) <= Rabs y -> (-1021 <= mag radix2 y)%Z.
Proof. intros y Hy. apply mag_ge_bpow. exact Hy. Qed.

Lemma normal_neq0 : forall y, bp (-1022) <= Rabs y -> y <> 0.
Proof.
  intros y Hy Hz. rewrite Hz, Rabs_R0 in Hy. generalize (bp_pos (-1022)). lra.
Qed.

(** the key fact: no underflow before or after scaling => rounding commutes *)
Lemma rnd_scale_normal : forall y e,
  bp (-1022) <= Rabs y -> bp (-1022) <= Rabs (y * bp e) ->
  rnd (y * bp e) = rnd y * bp e.
Proof.
  intros y e H1 H2.
  assert (Hy0 := normal_neq0 y H1).
  assert (M1 := normal_mag y H1). assert (M2 := normal_mag _ H2).
  rewrite (mag_mult_bpow radix2 y e Hy0) in M2.
  assert (Hc : cexp radix2 (SpecFloat.fexp prec emax) (y * bp e)
               = (cexp radix2 (SpecFloat.fexp prec emax) y + e)%Z).
  { unfold cexp. rewrite (mag_mult_bpow radix2 y e Hy0), !fexp64. lia. }
  unfold rnd, round, scaled_mantissa. rewrite Hc.
  unfold F2R. cbn [Fnum Fexp].
  replace (y * bp e * bp (- (cexp radix2 (SpecFloat.fexp prec emax) y + e)))
    with (y * bp (- cexp radix2 (SpecFloat.fexp prec emax) y)).
  - rewrite bpow_plus. ring.
  - rewrite Rmult_assoc, <- bpow_plus. apply f_equal, f_equal. lia.
Qed.

Lemma rnd_0 : rnd 0 = 0.
Proof. exact (rnd_fmt 0 fmt_0). Qed.

Theorem rnd_scale : forall y e, nz y -> nz (y * bp e) -> rnd (y * bp e) = rnd y * bp e.
Proof.
  intros y e [Hy|Hy] [Hs|Hs].
  - rewrite Hy, Rmult_0_l, rnd_0. ring.
  - rewrite Hy, Rmult_0_l, rnd_0. ring.
  - assert (y = 0).
    { apply Rmult_integral in Hs. destruct Hs as [Hs|Hs]; [exact Hs|].
      generalize (bp_pos e). lra. }
    subst y. rewrite Rmult_0_l, rnd_0. ring.
  - apply rnd_scale_normal; assumption.
Qed.

Lemma fmt_scale : forall x e, fmt x -> nz (x * bp e) -> fmt (x * bp e).
Proof.
  intros x e Hx [Hs|Hs].
  - rewrite Hs. apply fmt_0.
  - assert (Hx0 : x <> 0).
    { intros Hz. rewrite Hz, Rmult_0_l, Rabs_R0 in Hs. generalize (bp_pos (-1022)). lra. }
    assert (M := normal_mag _ Hs). rewrite (mag_mult_bpow radix2 x e Hx0) in M.
    apply (mult_bpow_exact_FLT radix2 (SpecFloat.emin prec emax) prec x e Hx).
    change (SpecFloat.emin prec emax) with (-1074)%Z. change prec with 53%Z. lia.
Qed.

Lemma fmt_scale_up : forall x e, fmt x -> (0 <= e)%Z -> fmt (x * bp e).
Proof.
  intros x e Hx He.
  apply (mult_bpow_pos_exact_FLT radix2 (SpecFloat.emin prec emax) prec x e Hx He).
Qed.

Lemma fmt_plus_small : forall x y, fmt x -> fmt y -> Rabs (x + y) <= bp (-1021) -> fmt (x + y).
Proof.
  intros x y Hx Hy H.
  apply (FLT_format_plus_small radix2 (SpecFloat.emin prec emax) prec x y Hx Hy).
  exact H.
Qed.

Lemma fmt_rnd : forall x, fmt (rnd x).
Proof. intros x. unfold fmt, rnd. apply generic_format_round; auto with typeclass_instances. Qed.

(** Addition needs no range condition on the sum: if both operands scale exactly, the
    rounded sum scales exactly (a subnormal sum of two binary64 numbers is exact). *)
Theorem rnd_add_scale : forall a b e,
  fmt a -> fmt b -> fmt (a * bp e) -> fmt (b * bp e) ->
  rnd (a * bp e + b * bp e) = rnd (a + b) * bp e.
Proof.
  intros a b e Ha Hb Ha' Hb'.
  rewrite <- Rmult_plus_distr_r.
  assert (Hlt : bp (-1022) < bp (-1021)) by (apply bpow_lt; lia).
  assert (Hboth : fmt (a + b) -> fmt ((a + b) * bp e) -> rnd ((a + b) * bp e) = rnd (a + b) * bp e).
  { intros F1 F2. rewrite (rnd_fmt _ F1), (rnd_fmt _ F2). reflexivity. }
  (* a sum of two binary64 numbers below the normal range is a binary64 number *)
  assert (S1 : Rabs (a + b) < bp (-1022) -> fmt (a + b)).
  { intros H. apply fmt_plus_small; try assumption. lra. }
  assert (S2 : Rabs ((a + b) * bp e) < bp (-1022) -> fmt ((a + b) * bp e)).
  { intros H. rewrite Rmult_plus_distr_r. apply fmt_plus_small; try assumption.
    rewrite <- Rmult_plus_distr_r. lra. }
  destruct (Rle_lt_dec (bp (-1022)) (Rabs (a + b))) as [H1|H1];
    destruct (Rle_lt_dec (bp (-1022)) (Rabs ((a + b) * bp e))) as [H2|H2].
  - apply rnd_scale_normal; assumption.
  - (* the sum is the scaled sum scaled back, and is normal *)
    assert (E : (a + b) * bp e * bp (- e) = a + b).
    { rewrite Rmult_assoc, <- bpow_plus, Z.add_opp_diag_r. cbn [bpow]. ring. }
    apply Hboth; [|exact (S2 H2)].
    rewrite <- E. apply fmt_scale; [exact (S2 H2) | right; rewrite E; exact H1].
  - apply Hboth; [exact (S1 H1) | apply fmt_scale; [exact (S1 H1) | right; exact H2]].
  - apply Hboth; [exact (S1 H1) | exact (S2 H2)].
Qed.

Definition Fsign (x : float) : bool := Bsign (Prim2B x).

(** Flocq's correctness statements, read in the no-overflow case, with what they say about
    the sign *)
Lemma no_overflow_sign : forall (b : binary_float prec emax) (x : R) (f : bool) (P Q : Prop),
  (if Rlt_bool (Rabs (rnd x)) (bp emax)
   then B2R b = rnd x /\ is_finite b = f /\ P else Q) ->
  Rabs (rnd x) < bp emax ->
  is_finite b = f /\ B2R b = rnd x /\ P.
Proof. intros b x f P Q H Hb. rewrite Rlt_bool_true in H by exact Hb. tauto. Qed.

Lemma fin_not_nan : forall b : binary_float prec emax, is_finite b = true -> BinarySingleNaN.is_nan b = false.
Proof. intros [s|s| |s m e He] H; try reflexivity. discriminate H. Qed.

Lemma mul_ok_sign : forall x y,
  Ffin x -> Ffin y ->
  Rabs (rnd (FR x * FR y)) < bp emax ->
  Ffin (x * y)%float /\ FR (x * y)%float = rnd (FR x * FR y) /\
  Fsign (x * y)%float = xorb (Fsign x) (Fsign y).
Proof.
  intros x y Hx Hy Hb. unfold Ffin, FR, Fsign in *. rewrite mul_equiv.
  destruct (no_overflow_sign _ _ _ _ _ (Bmult_correct prec emax Hp Hm mode_NE (Prim2B x) (Prim2B y)) Hb)
    as [Hf [He Hs]].
  rewrite Hx, Hy in Hf. split; [exact Hf|]. split; [exact He | exact (Hs (fin_not_nan _ Hf))].
Qed.

Lemma add_ok_sign : forall x y,
  Ffin x -> Ffin y ->
  Rabs (rnd (FR x + FR y)) < bp emax ->
  Ffin (x + y)%float /\ FR (x + y)%float = rnd (FR x + FR y) /\
  Fsign (x + y)%float =
    match Rcompare (FR x + FR y) 0 with
    | Eq => andb (Fsign x) (Fsign y)
    | Lt => true
    | Gt => false
    end.
Proof.
  intros x y Hx Hy Hb. unfold Ffin, FR, Fsign. rewrite add_equiv.
  exact (no_overflow_sign _ _ _ _ _ (Bplus_correct prec emax Hp Hm mode_NE _ _ Hx Hy) Hb).
Qed.

Lemma div_ok_sign : forall x y,
  Ffin x -> FR y <> 0 ->
  Rabs (rnd (FR x / FR y)) < bp emax ->
  Ffin (x / y)%float /\ FR (x / y)%float = rnd (FR x / FR y) /\
  Fsign (x / y)%float = xorb (Fsign x) (Fsign y).
Proof.
  intros x y Hx Hy Hb. unfold Ffin, FR, Fsign in *. rewrite div_equiv.
  destruct (no_overflow_sign _ _ _ _ _ (Bdiv_correct prec emax Hp Hm mode_NE (Prim2B x) (Prim2B y) Hy) Hb)
    as [Hf [He Hs]].
  rewrite Hx in Hf. split; [exact Hf|]. split; [exact He | exact (Hs (fin_not_nan _ Hf))].
Qed.

Lemma sub_ok_sign : forall x y,
  Ffin x -> Ffin y ->
  Rabs (rnd (FR x - FR y)) < bp emax ->
  Ffin (x - y)%float /\ FR (x - y)%float = rnd (FR x - FR y) /\
  Fsign (x - y)%float =
    match Rcompare (FR x - FR y) 0 with
    | Eq => andb (Fsign x) (negb (Fsign y))
    | Lt => true
    | Gt => false
    end.
Proof.
  intros x y Hx Hy Hb. unfold Ffin, FR, Fsign. rewrite sub_equiv.
  exact (no_overflow_sign _ _ _ _ _ (Bminus_correct prec emax Hp Hm mode_NE _ _ Hx Hy) Hb).
Qed.

Lemma fmt_opp : forall x, fmt x -> fmt (- x).
Proof. intros x Hx. unfold fmt. apply generic_format_opp. exact Hx. Qed.

Lemma float_eq : forall x y : float,
  Ffin x -> Ffin y -> FR x = FR y -> Fsign x = Fsign y -> x = y.
Proof.
  intros x y Hx Hy Hr Hs. apply Prim2B_inj.
  apply (B2R_Bsign_inj prec emax); assumption.
Qed.

Definition IsPow2 (c : float) (e : Z) : Prop := Ffin c /\ FR c = bp e.

Lemma IsPow2_sign : forall c e, IsPow2 c e -> Fsign c = false.
Proof.
  intros c e [Hc Hr]. unfold Fsign. apply Bsign_pos; [exact Hc|].
  fold (FR c). rewrite Hr. apply bp_pos.
Qed.

(** [a'] is [a] scaled by [2^e] exactly, sign of zero included *)
Definition Sc (e : Z) (a a' : float) : Prop :=
  Ffin a /\ Ffin a' /\ FR a' = FR a * bp e /\ Fsign a' = Fsign a.

Theorem Sc_mulc : forall c e a, IsPow2 c e -> Ffin a ->
  fmt (FR a * bp e) -> Rabs (FR a * bp e) < bp emax ->
  Sc e a (a * c)%float.
Proof.
  intros c e a Hc Ha Hf Hb.
  assert (Hs := IsPow2_sign c e Hc). destruct Hc as [Hcf Hcr].
  assert (Hb' : Rabs (rnd (FR a * FR c)) < bp emax).
  { rewrite Hcr, (rnd_fmt _ Hf). exact Hb. }
  destruct (mul_ok_sign a c Ha Hcf Hb') as [G1 [G2 G3]].
  split; [exact Ha|]. split; [exact G1|]. split.
  - rewrite G2, Hcr. apply rnd_fmt. exact Hf.
  - rewrite G3, Hs. apply xorb_false_r.
Qed.

Lemma Sc_term : forall c e x, IsPow2 c e -> Ffin x ->
  nz (FR x * bp e) -> Rabs (FR x * bp e) < bp emax -> Sc e x (x * c)%float.
Proof.
  intros c e x Hc Hx Hn Hb. apply Sc_mulc; try assumption.
  apply fmt_scale; [apply fmt_FR | exact Hn].
Qed.

Lemma Sc_inj : forall e a a1 a2, Sc e a a1 -> Sc e a a2 -> a1 = a2.
Proof.
  intros e a a1 a2 [_ [F1 [R1 S1]]] [_ [F2 [R2 S2]]].
  apply float_eq; try assumption; congruence.
Qed.

Theorem Sc_eq : forall c e a a', IsPow2 c e -> Sc e a a' -> a' = (a * c)%float.
Proof.
  intros c e a a' Hc Hs. apply (Sc_inj e a); [exact Hs|].
  destruct Hs as [Ha [Ha' [Hr _]]].
  apply Sc_mulc; [exact Hc | exact Ha | rewrite <- Hr; apply fmt_FR | rewrite <- Hr; apply abs_B2R_lt_emax].
Qed.

Lemma Sc_zero : forall e, Sc e 0%float 0%float.
Proof.
  intros e. split; [apply Ffin_zero|]. split; [apply Ffin_zero|].
  split; [rewrite FR_zero; ring | reflexivity].
Qed.

Lemma Sc_of_rnd : forall e z z' v v' s, rnd v' = rnd v * bp e ->
  Ffin z /\ FR z = rnd v /\ Fsign z = s ->
  Ffin z' /\ FR z' = rnd v' /\ Fsign z' = s -> Sc e z z'.
Proof.
  intros e z z' v v' s Hk [F [R S]] [F' [R' S']].
  split; [exact F|]. split; [exact F'|].
  split; [rewrite R', R; exact Hk | rewrite S', S; reflexivity].
Qed.

Theorem Sc_opp : forall e a a', Sc e a a' -> Sc e (- a)%float (- a')%float.
Proof.
  intros e a a' [Ha [Ha' [Ra Sa]]].
  unfold Sc, Ffin, FR, Fsign in *. rewrite !opp_equiv, !is_finite_Bopp, !B2R_Bopp.
  split; [exact Ha|]. split; [exact Ha'|]. split; [rewrite Ra; ring|].
  rewrite !Bsign_Bopp by (apply fin_not_nan; assumption). rewrite Sa. reflexivity.
Qed.

Lemma Rcompare_scale : forall e y, Rcompare (y * bp e) 0 = Rcompare y 0.
Proof.
  intros e y. rewrite <- (Rcompare_mult_r (bp e) y 0 (bp_pos e)), Rmult_0_l. reflexivity.
Qed.

Lemma rnd_add_Sc : forall e a a' b b', Sc e a a' -> Sc e b b' ->
  rnd (FR a' + FR b') = rnd (FR a + FR b) * bp e /\
  rnd (FR a' - FR b') = rnd (FR a - FR b) * bp e.
Proof.
  intros e a a' b b' [_ [_ [Ra _]]] [_ [_ [Rb _]]].
  assert (Fa' : fmt (FR a * bp e)) by (rewrite <- Ra; apply fmt_FR).
  assert (Fb' : fmt (FR b * bp e)) by (rewrite <- Rb; apply fmt_FR).
  rewrite Ra, Rb. split.
  - apply rnd_add_scale; try apply fmt_FR; assumption.
  - unfold Rminus. rewrite Ropp_mult_distr_l.
    apply rnd_add_scale; [apply fmt_FR | apply fmt_opp, fmt_FR | exact Fa' |].
    rewrite <- Ropp_mult_distr_l. apply fmt_opp, Fb'.
Qed.

Theorem Sc_add : forall e a a' b b',
  Sc e a a' -> Sc e b b' ->
  Rabs (rnd (FR a + FR b)) < bp emax ->
  Rabs (rnd (FR a + FR b) * bp e) < bp emax ->
  Sc e (a + b)%float (a' + b')%float.
Proof.
  intros e a a' b b' Sa Sb Ho Ho'. destruct (rnd_add_Sc e a a' b b' Sa Sb) as [Hk _].
  destruct Sa as [Ha [Ha' [Ra Sa]]]. destruct Sb as [Hb [Hb' [Rb Sb]]].
  rewrite <- Hk in Ho'.
  apply (Sc_of_rnd e _ _ _ _ _ Hk (add_ok_sign a b Ha Hb Ho)).
  rewrite <- Sa, <- Sb, <- (Rcompare_scale e), Rmult_plus_distr_r, <- Ra, <- Rb.
  apply add_ok_sign; assumption.
Qed.

Theorem Sc_sub : forall e a a' b b',
  Sc e a a' -> Sc e b b' ->
  Rabs (rnd (FR a - FR b)) < bp emax ->
  Rabs (rnd (FR a - FR b) * bp e) < bp emax ->
  Sc e (a - b)%float (a' - b')%float.
Proof.
  intros e a a' b b' Sa Sb Ho Ho'. destruct (rnd_add_Sc e a a' b b' Sa Sb) as [_ Hk].
  destruct Sa as [Ha [Ha' [Ra Sa]]]. destruct Sb as [Hb [Hb' [Rb Sb]]].
  rewrite <- Hk in Ho'.
  apply (Sc_of_rnd e _ _ _ _ _ Hk (sub_ok_sign a b Ha Hb Ho)).
  rewrite <- Sa, <- Sb, <- (Rcompare_scale e), Rmult_minus_distr_r, <- Ra, <- Rb.
  apply sub_ok_sign; assumption.
Qed.

Theorem Sc_mul : forall e p x x',
  Ffin p -> Sc e x x' ->
  nz (FR p * FR x) -> nz (FR p * FR x * bp e) ->
  Rabs (rnd (FR p * FR x)) < bp emax ->
  Rabs (rnd (FR p * FR x) * bp e) < bp emax ->
  Sc e (p * x)%float (p * x')%float.
Proof.
  intros e p x x' Hp [Hx [Hx' [Rx Sx]]] N1 N2 Ho Ho'.
  assert (Hk : rnd (FR p * FR x') = rnd (FR p * FR x) * bp e).
  { rewrite Rx, <- Rmult_assoc. apply rnd_scale; assumption. }
  rewrite <- Hk in Ho'.
  apply (Sc_of_rnd e _ _ _ _ _ Hk (mul_ok_sign p x Hp Hx Ho)).
  rewrite <- Sx. apply mul_ok_sign; assumption.
Qed.

Theorem mul_pow2_exact : forall c e x, IsPow2 c e -> Ffin x ->
  nz (FR x * bp e) -> Rabs (FR x * bp e) < bp emax ->
  Ffin (x * c)%float /\ FR (x * c)%float = FR x * bp e /\ Fsign (x * c)%float = Fsign x.
Proof.
  intros c e x Hc Hx Hn Hb. exact (proj2 (Sc_term c e x Hc Hx Hn Hb)).
Qed.

Theorem mul_pow2_exact_up : forall c e x, IsPow2 c e -> Ffin x ->
  (0 <= e)%Z -> Rabs (FR x * bp e) < bp emax ->
  Ffin (x * c)%float /\ FR (x * c)%float = FR x * bp e /\ Fsign (x * c)%float = Fsign x.
Proof.
  intros c e x Hc Hx He Hb.
  exact (proj2 (Sc_mulc c e x Hc Hx (fmt_scale_up _ _ (fmt_FR x) He) Hb)).
Qed.

Theorem add_scale_exact : forall c e a b, IsPow2 c e -> Ffin a -> Ffin b ->
  fmt (FR a * bp e) -> Rabs (FR a * bp e) < bp emax ->
  fmt (FR b * bp e) -> Rabs (FR b * bp e) < bp emax ->
  Rabs (rnd (FR a + FR b)) < bp emax ->
  Rabs (rnd (FR a + FR b) * bp e) < bp emax ->
  (a * c + b * c = (a + b) * c)%float.
Proof.
  intros c e a b Hc Ha Hb Fa Ba Fb Bb Ho Ho'.
  apply (Sc_eq c e); [exact Hc|].
  apply Sc_add; try assumption; apply Sc_mulc; assumption.
Qed.

Theorem mul_scale_exact : forall c e p x, IsPow2 c e -> Ffin p -> Ffin x ->
  fmt (FR x * bp e) -> Rabs (FR x * bp e) < bp emax ->
  nz (FR p * FR x) -> nz (FR p * FR x * bp e) ->
  Rabs (rnd (FR p * FR x)) < bp emax ->
  Rabs (rnd (FR p * FR x) * bp e) < bp emax ->
  (p * (x * c) = (p * x) * c)%float.
Proof.
  intros c e p x Hc Hp Hx Fx Bx N1 N2 Ho Ho'.
  apply (Sc_eq c e); [exact Hc|].
  apply Sc_mul; try assumption. apply Sc_mulc; assumption.
Qed.

Definition pow2 (e : Z) : float := Z.ldexp 1%float e.

Theorem pow2_IsPow2 : forall e : Z, (-1074 <= e <= 1023)%Z -> IsPow2 (pow2 e) e.
Proof.
  intros e [H1 H2]. unfold IsPow2, Ffin, FR, pow2.
  rewrite ldexp_equiv, Prim2B_one.
  generalize (Bldexp_correct prec emax Hp Hm mode_NE Bone e).
  change (round_mode mode_NE) with ZnearestE.
  rewrite (Bone_correct prec emax Hp Hm), Rmult_1_l.
  fold (rnd (bp e)). rewrite (rnd_fmt _ (fmt_bpow e H1)).
  rewrite Rlt_bool_true.
  - intros [G1 [G2 _]]. split; [rewrite G2; apply is_finite_Bone | exact G1].
  - rewrite Rabs_pos_eq by (left; apply bp_pos). apply bpow_lt. change emax with 1024%Z. lia.
Qed.

Fixpoint scale_node (c : float) (n : node) : node :=
  match n with
  | Term x => @Term FNum (x * c)%float
  | Chance ci kids => @Chance FNum ci (map (scale_node c) kids)
  | Player pl i kids => @Player FNum pl i (map (scale_node c) kids)
  end.

Definition scale_game (c : float) (g : game) : game :=
  @mkGame FNum (g_chance g) (g_infos1 g) (g_infos2 g) (g_singles1 g) (g_singles2 g)
          (scale_node c (g_root g)).

Definition Rg (e M : Z) (v : R) : Prop :=
  nz v /\ nz (v * bp e) /\ Rabs v <= bp M /\ Rabs (v * bp e) <= bp M.

(** The "in range" predicate, following the evaluation: at every leaf that is visited,
    with the reach [r] computed on the way down (a float; the same in both runs),
    - the scaled payoff [x * 2^e] is zero or normal (so [x * c] is exact), no overflow;
    - the exact product [r * x] is zero or normal, before and after the scaling (so the
      rounding of the product commutes with the scaling);
    - [|r * x|] and [|r * x * 2^e|] are at most [2^M] (with [L * 2^M < 2^1024] below, the
      accumulators cannot overflow). *)
Definition LeafOK (e M : Z) (r x : float) : Prop :=
  Ffin r /\ Ffin x /\
  nz (FR x * bp e) /\ Rabs (FR x * bp e) < bp emax /\ Rg e M (FR r * FR x).

Section RLoop.
  Context (P : node -> float -> Prop) (tst : float -> bool) (reach : float).
  Fixpoint rgo (ps : list float) (ks : list node) {struct ks} : Prop :=
    match ps, ks with
    | p :: ps', k :: ks' => (if tst p then P k (p * reach)%float else True) /\ rgo ps' ks'
    | _, _ => True
    end.
End RLoop.

Section Range.
  Context (e M : Z) (chance s1 s2 : list (list float)).

  Fixpoint RangeOK (n : node) (reach : float) {struct n} : Prop :=
    match n with
    | Term x => LeafOK e M reach x
    | Chance ci kids =>
        (fix go (ps : list float) (ks : list node) {struct ks} : Prop :=
           match ps, ks with
           | p :: ps', k :: ks' => RangeOK k (p * reach)%float /\ go ps' ks'
           | _, _ => True
           end) (@row FNum chance ci) kids
    | Player pl i kids =>
        (fix go (ps : list float) (ks : list node) {struct ks} : Prop :=
           match ps, ks with
           | p :: ps', k :: ks' =>
               (if PrimFloat.ltb 0 p then RangeOK k (p * reach)%float else True) /\ go ps' ks'
           | _, _ => True
           end) (@row FNum (if pl then s1 else s2) i) kids
    end.

  Lemma RangeOK_Term : forall x r, RangeOK (Term x) r = LeafOK e M r x.
  Proof. reflexivity. Qed.

  Lemma RangeOK_Chance : forall ci kids r,
    RangeOK (Chance ci kids) r = rgo RangeOK (fun _ => true) r (@row FNum chance ci) kids.
  Proof. reflexivity. Qed.

  Lemma RangeOK_Player : forall pl i kids r,
    RangeOK (Player pl i kids) r =
    rgo RangeOK (fun p => PrimFloat.ltb 0 p) r (@row FNum (if pl then s1 else s2) i) kids.
  Proof. reflexivity. Qed.
End Range.

Lemma scale_node_Term : forall c x, scale_node c (Term x) = @Term FNum (x * c)%float.
Proof. reflexivity. Qed.

Lemma scale_node_Chance : forall c ci kids,
  scale_node c (Chance ci kids) = @Chance FNum ci (map (scale_node c) kids).
Proof. reflexivity. Qed.

Lemma scale_node_Player : forall c pl i kids,
  scale_node c (Player pl i kids) = @Player FNum pl i (map (scale_node c) kids).
Proof. reflexivity. Qed.

Lemma fmt_IZR_bp : forall (n M : Z), (Z.abs n < 2 ^ 53)%Z -> (-1074 <= M)%Z -> fmt (IZR n * bp M).
Proof.
  intros n M Hn HM. unfold fmt.
  apply (generic_format_FLT radix2 (SpecFloat.emin prec emax) prec).
  apply (FLT_spec radix2 (SpecFloat.emin prec emax) prec (IZR n * bp M) (Float radix2 n M)).
  - reflexivity.
  - exact Hn.
  - exact HM.
Qed.

Lemma IZR_bp_lt_emax : forall (n M : Z), (0 <= n < 2 ^ 53)%Z -> (M <= 971)%Z ->
  IZR n * bp M < bp emax.
Proof.
  intros n M Hn HM.
  apply Rlt_le_trans with (bp 53 * bp M).
  - apply Rmult_lt_compat_r; [apply bp_pos|].
    change (bp 53) with (IZR (Zpower radix2 53)). apply IZR_lt. exact (proj2 Hn).
  - rewrite <- bpow_plus. apply bpow_le. change emax with 1024%Z. lia.
Qed.

Lemma rnd_abs_le : forall x y, fmt y -> Rabs x <= y -> Rabs (rnd x) <= y.
Proof.
  intros x y Hy H. unfold rnd. apply abs_round_le_generic; auto with typeclass_instances.
Qed.

Lemma rnd_add_le : forall X u v, fmt X -> Rabs u + Rabs v <= X -> Rabs (rnd (u + v)) <= X.
Proof.
  intros X u v FX H. apply rnd_abs_le; [exact FX|].
  apply Rle_trans with (2 := H). apply Rabs_triang.
Qed.

Lemma rnd_sub_le : forall X u v, fmt X -> Rabs u + Rabs v <= X -> Rabs (rnd (u - v)) <= X.
Proof. intros X u v FX H. apply rnd_add_le; [exact FX | rewrite Rabs_Ropp; exact H]. Qed.

Definition Inv (e M : Z) (j : Z) (a a' : float) : Prop :=
  Sc e a a' /\ Rabs (FR a) <= IZR j * bp M /\ Rabs (FR a') <= IZR j * bp M.

Definition TermSc (e M : Z) (t t' : float) : Prop := Inv e M 1 t t'.

Section Steps.
  Context (e M : Z) (HM : (-1074 <= M <= 971)%Z).

  Lemma bpM_lt : bp M < bp emax.
  Proof. apply bpow_lt. change emax with 1024%Z. lia. Qed.

  Lemma fmt_bpM : fmt (bp M).
  Proof. apply fmt_bpow. lia. Qed.

  Lemma Inv_mono : forall j j' a a', (j <= j')%Z -> Inv e M j a a' -> Inv e M j' a a'.
  Proof.
    intros j j' a a' Hj [H1 [H2 H3]].
    assert (IZR j * bp M <= IZR j' * bp M).
    { apply Rmult_le_compat_r; [left; apply bp_pos | apply IZR_le; exact Hj]. }
    split; [exact H1|]. split; lra.
  Qed.

  Lemma Inv_zero : Inv e M 0 0%float 0%float.
  Proof. split; [apply Sc_zero|]. rewrite FR_zero, Rabs_R0. cbn. lra. Qed.

  Lemma Rg_rnd : forall v, Rg e M v ->
    rnd (v * bp e) = rnd v * bp e /\ Rabs (rnd v) <= bp M /\ Rabs (rnd (v * bp e)) <= bp M.
  Proof.
    intros v [N1 [N2 [B1 B2]]]. assert (FM := fmt_bpM).
    split; [apply rnd_scale; assumption|]. split; apply rnd_abs_le; assumption.
  Qed.

  Lemma TermSc_of_rnd : forall z z' v v' s, Rg e M v -> v' = v * bp e ->
    (Rabs (rnd v) < bp emax -> Ffin z /\ FR z = rnd v /\ Fsign z = s) ->
    (Rabs (rnd v') < bp emax -> Ffin z' /\ FR z' = rnd v' /\ Fsign z' = s) ->
    TermSc e M z z'.
  Proof.
    intros z z' v v' s Hg -> Hz Hz'. destruct (Rg_rnd v Hg) as [Hk [T T']].
    assert (HbM := bpM_lt). specialize (Hz ltac:(lra)). specialize (Hz' ltac:(lra)).
    split; [exact (Sc_of_rnd e z z' _ _ s Hk Hz Hz')|].
    rewrite (proj1 (proj2 Hz)), (proj1 (proj2 Hz')). split; lra.
  Qed.

  Lemma term_mul : forall x x' p, Sc e x x' -> Ffin p -> Rg e M (FR x * FR p) ->
    TermSc e M (x * p)%float (x' * p)%float /\ TermSc e M (p * x)%float (p * x')%float.
  Proof.
    intros x x' p [Hx [Hx' [Rx Sx]]] Hp Hg. split.
    - apply (TermSc_of_rnd _ _ _ (FR x' * FR p) (xorb (Fsign x) (Fsign p)) Hg);
        [rewrite Rx; ring | exact (mul_ok_sign x p Hx Hp) | rewrite <- Sx; exact (mul_ok_sign x' p Hx' Hp)].
    - rewrite Rmult_comm in Hg.
      apply (TermSc_of_rnd _ _ _ (FR p * FR x') (xorb (Fsign p) (Fsign x)) Hg);
        [rewrite Rx; ring | exact (mul_ok_sign p x Hp Hx) | rewrite <- Sx; exact (mul_ok_sign p x' Hp Hx')].
  Qed.

  Lemma term_mul_l : forall x x' p, Sc e x x' -> Ffin p -> Rg e M (FR x * FR p) ->
    TermSc e M (x * p)%float (x' * p)%float.
  Proof. intros x x' p Hs Hp Hg. exact (proj1 (term_mul x x' p Hs Hp Hg)). Qed.

  (** the counts add up, and [(j + k) * 2^M] with [j + k < 2^53] and [M <= 971 = 1024 - 53]
      is a binary64 number below the overflow threshold *)
  Lemma Inv_plus : forall j k a a' b b', Inv e M j a a' -> Inv e M k b b' ->
    (0 <= j)%Z -> (0 <= k)%Z -> (j + k < 2 ^ 53)%Z ->
    Inv e M (j + k) (a + b)%float (a' + b')%float.
  Proof.
    intros j k a a' b b' [Sa [Ba Ba']] [Sb [Bb Bb']] Hj Hk Hjk.
    assert (FX : fmt (IZR (j + k) * bp M)) by (apply fmt_IZR_bp; lia).
    assert (HX : IZR (j + k) * bp M < bp emax) by (apply IZR_bp_lt_emax; lia).
    unfold Inv. rewrite plus_IZR, Rmult_plus_distr_r in FX, HX |- *.
    destruct (rnd_add_Sc e a a' b b' Sa Sb) as [Hr _].
    assert (P := rnd_add_le _ _ _ FX (Rplus_le_compat _ _ _ _ Ba Bb)).
    assert (P' := rnd_add_le _ _ _ FX (Rplus_le_compat _ _ _ _ Ba' Bb')).
    assert (O := Rle_lt_trans _ _ _ P HX). assert (O' := Rle_lt_trans _ _ _ P' HX).
    split; [apply Sc_add; try assumption; rewrite <- Hr; exact O'|].
    destruct Sa as [Ha [Ha' _]]. destruct Sb as [Hb [Hb' _]].
    rewrite (proj2 (add_ok a b Ha Hb O)), (proj2 (add_ok a' b' Ha' Hb' O')).
    split; assumption.
  Qed.

  Lemma Inv_minus : forall j k a a' b b', Inv e M j a a' -> Inv e M k b b' ->
    (0 <= j)%Z -> (0 <= k)%Z -> (j + k < 2 ^ 53)%Z ->
    Inv e M (j + k) (a - b)%float (a' - b')%float.
  Proof.
    intros j k a a' b b' [Sa [Ba Ba']] [Sb [Bb Bb']] Hj Hk Hjk.
    assert (FX : fmt (IZR (j + k) * bp M)) by (apply fmt_IZR_bp; lia).
    assert (HX : IZR (j + k) * bp M < bp emax) by (apply IZR_bp_lt_emax; lia).
    unfold Inv. rewrite plus_IZR, Rmult_plus_distr_r in FX, HX |- *.
    destruct (rnd_add_Sc e a a' b b' Sa Sb) as [_ Hr].
    assert (P := rnd_sub_le _ _ _ FX (Rplus_le_compat _ _ _ _ Ba Bb)).
    assert (P' := rnd_sub_le _ _ _ FX (Rplus_le_compat _ _ _ _ Ba' Bb')).
    assert (O := Rle_lt_trans _ _ _ P HX). assert (O' := Rle_lt_trans _ _ _ P' HX).
    split; [apply Sc_sub; try assumption; rewrite <- Hr; exact O'|].
    destruct Sa as [Ha [Ha' _]]. destruct Sb as [Hb [Hb' _]].
    rewrite (proj2 (sub_ok a b Ha Hb O)), (proj2 (sub_ok a' b' Ha' Hb' O')).
    split; assumption.
  Qed.
End Steps.

(** generic loop lemma: two traversals [f] (of the tree) and [f'] (of the scaled tree) that
    add at most [sz k] terms below [k], under an "in range" predicate [P] *)
Section GenLoop.
  Context (c : float) (e M : Z) (sz : node -> nat).
  Context (f f' : node -> float -> float -> float) (P : node -> float -> Prop).

  Definition GSpec (k : node) : Prop := forall r a a' j,
    P k r -> Inv e M j a a' -> (0 <= j)%Z -> (j + Z.of_nat (sz k) < 2 ^ 53)%Z ->
    Inv e M (j + Z.of_nat (sz k)) (f k r a) (f' (scale_node c k) r a').

  Lemma pgo_scale : forall (tst : float -> bool) ks, Forall GSpec ks ->
    forall ps r a a' j,
    rgo P tst r ps ks -> Inv e M j a a' -> (0 <= j)%Z ->
    (j + Z.of_nat (list_sum (map sz ks)) < 2 ^ 53)%Z ->
    Inv e M (j + Z.of_nat (list_sum (map sz ks)))
        (pgo f tst r ps ks a) (pgo f' tst r ps (map (scale_node c) ks) a').
  Proof.
    intros tst ks Hks. induction Hks as [|k ks Hk Hks IH]; intros ps r a a' j Hr Hi Hj0 Hj.
    - destruct ps; cbn [pgo map list_sum fold_right]; rewrite Z.add_0_r; exact Hi.
    - destruct ps as [|p ps].
      + cbn [pgo map]. apply (Inv_mono e M j); [lia | exact Hi].
      + change (list_sum (map sz (k :: ks)))
          with (sz k + list_sum (map sz ks))%nat in Hj |- *.
        rewrite Nat2Z.inj_add in Hj |- *.
        cbn [rgo] in Hr. destruct Hr as [Hr1 Hr2].
        assert (H1 := IH ps r a a' j Hr2 Hi Hj0 ltac:(lia)).
        cbn [pgo map]. destruct (tst p).
        * assert (H2 := Hk (p * r)%float _ _ _ Hr1 H1 ltac:(lia) ltac:(lia)).
          eapply Inv_mono; [|exact H2]. lia.
        * eapply Inv_mono; [|exact H1]. lia.
  Qed.
End GenLoop.

Section ScaleEval.
  Context (c : float) (e M : Z) (chance s1 s2 : list (list float)).
  Context (Hc : IsPow2 c e) (HM : (-1074 <= M <= 971)%Z).

  Local Notation ea := (@exp_acc FNum chance s1 s2).
  Local Notation ROK := (RangeOK e M chance s1 s2).

  Theorem exp_acc_scale : forall n, GSpec c e M nleaves ea ea ROK n.
  Proof.
    induction n as [x|ci kids IH|pl i kids IH] using node_ind'; intros r a a' j Hr Hi Hj0 Hj.
    - rewrite scale_node_Term, !exp_acc_Term. cbn [nleaves] in Hj |- *.
      destruct Hr as [Hrf [Hx [Nx [Bx Hg]]]].
      rewrite Rmult_comm in Hg.
      exact (Inv_plus e M HM j 1 a a' _ _ Hi
               (proj2 (term_mul e M HM x _ r (Sc_term c e x Hc Hx Nx Bx) Hrf Hg))
               Hj0 (Z.le_0_1) Hj).
    - rewrite RangeOK_Chance in Hr. rewrite scale_node_Chance, !exp_acc_Chance. cbn [nleaves] in Hj |- *.
      apply (pgo_scale c e M nleaves ea ea ROK); assumption.
    - rewrite RangeOK_Player in Hr. rewrite scale_node_Player, !exp_acc_Player. cbn [nleaves] in Hj |- *.
      apply (pgo_scale c e M nleaves ea ea ROK); assumption.
  Qed.
End ScaleEval.

(** [e] may be any integer for which [c] is the float [2^e]; [M] is the magnitude budget
    of the terms. *)
Theorem expected_scale_float : forall (c : float) (e M : Z) (g : game) (s1 s2 : list (list float)),
  IsPow2 c e -> (-1074 <= M <= 971)%Z ->
  (Z.of_nat (nleaves (g_root g)) < 2 ^ 53)%Z ->
  RangeOK e M (g_chance g) s1 s2 (g_root g) 1%float ->
  @expected FNum (scale_game c g) s1 s2 = (@expected FNum g s1 s2 * c)%float /\
  Ffin (@expected FNum g s1 s2) /\ Ffin (@expected FNum (scale_game c g) s1 s2) /\
  FR (@expected FNum (scale_game c g) s1 s2) = FR (@expected FNum g s1 s2) * bp e.
Proof.
  intros c e M g s1 s2 Hc HM HL Hr.
  assert (H := exp_acc_scale c e M (g_chance g) s1 s2 Hc HM (g_root g)
                 1%float 0%float 0%float 0%Z Hr (Inv_zero e M) (Z.le_refl 0) ltac:(lia)).
  destruct H as [Hs _].
  change (@exp_acc FNum (g_chance g) s1 s2 (g_root g) 1%float 0%float)
    with (@expected FNum g s1 s2) in Hs.
  change (@exp_acc FNum (g_chance g) s1 s2 (scale_node c (g_root g)) 1%float 0%float)
    with (@expected FNum (scale_game c g) s1 s2) in Hs.
  split; [apply (Sc_eq c e); assumption|].
  destruct Hs as [F1 [F2 [R _]]]. split; [exact F1|]. split; [exact F2 | exact R].
Qed.

Definition Rng (lo hi : Z) (y : R) : Prop := y = 0 \/ (bp lo <= Rabs y <= bp hi).

Lemma Rng_mul : forall lo1 hi1 lo2 hi2 u v,
  Rng lo1 hi1 u -> Rng lo2 hi2 v -> Rng (lo1 + lo2) (hi1 + hi2) (u * v).
Proof.
  intros lo1 hi1 lo2 hi2 u v [Hu|[Hu1 Hu2]] Hv; [left; rewrite Hu; apply Rmult_0_l|].
  destruct Hv as [Hv|[Hv1 Hv2]]; [left; rewrite Hv; apply Rmult_0_r|].
  right. rewrite Rabs_mult, !bpow_plus. split.
  - apply Rmult_le_compat; [left; apply bp_pos | left; apply bp_pos | exact Hu1 | exact Hv1].
  - apply Rmult_le_compat; [apply Rabs_pos | apply Rabs_pos | exact Hu2 | exact Hv2].
Qed.

Lemma Rng_bp : forall e, Rng e e (bp e).
Proof. intros e. right. rewrite Rabs_pos_eq by (left; apply bp_pos). lra. Qed.

Lemma Rng_nz : forall lo hi y, Rng lo hi y -> (-1022 <= lo)%Z -> nz y.
Proof.
  intros lo hi y [H|[H _]] Hlo; [left; exact H | right].
  apply Rle_trans with (2 := H). apply bpow_le. exact Hlo.
Qed.

Lemma Rng_le : forall lo hi y M, Rng lo hi y -> (hi <= M)%Z -> Rabs y <= bp M.
Proof.
  intros lo hi y M [H|[_ H]] Hhi.
  - rewrite H, Rabs_R0. left. apply bp_pos.
  - apply Rle_trans with (1 := H). apply bpow_le. exact Hhi.
Qed.

Lemma Rng_lt_emax : forall lo hi y, Rng lo hi y -> (hi < 1024)%Z -> Rabs y < bp emax.
Proof.
  intros lo hi y H Hhi. apply Rle_lt_trans with (bp hi); [|apply bpow_lt; exact Hhi].
  apply (Rng_le _ _ _ _ H), Z.le_refl.
Qed.

Lemma Rng_Rg : forall e M lo hi v, Rng lo hi v ->
  (-1022 <= lo)%Z -> (-1022 <= lo + e)%Z -> (hi <= M)%Z -> (hi + e <= M)%Z -> Rg e M v.
Proof.
  intros e M lo hi v Hv H1 H2 H3 H4. assert (Hve := Rng_mul _ _ _ _ _ _ Hv (Rng_bp e)).
  split; [apply (Rng_nz _ _ _ Hv); exact H1|]. split; [apply (Rng_nz _ _ _ Hve); exact H2|].
  split; [apply (Rng_le _ _ _ _ Hv); exact H3 | apply (Rng_le _ _ _ _ Hve); exact H4].
Qed.

Definition ProbOK (q : Z) (p : float) : Prop := fin01 p /\ (FR p = 0 \/ bp (- q) <= FR p).
Definition TblQ (q : Z) (t : list (list float)) : Prop := Forall (Forall (ProbOK q)) t.

Inductive PayIn (A : Z) : node -> Prop :=
| PayIn_Term : forall x, Ffin x -> Rng (- A) A (FR x) -> PayIn A (@Term FNum x)
| PayIn_Chance : forall ci kids, Forall (PayIn A) kids -> PayIn A (@Chance FNum ci kids)
| PayIn_Player : forall pl i kids, Forall (PayIn A) kids -> PayIn A (@Player FNum pl i kids).

Definition ReachQ (q : Z) (j : nat) (r : float) : Prop :=
  fin01 r /\ (FR r = 0 \/ bp (- (q * Z.of_nat j)) <= FR r).

Lemma ReachQ_one : forall q, ReachQ q 0 1%float.
Proof.
  intros q. split; [split; [apply Ffin_one | rewrite FR_one; lra]|].
  right. rewrite FR_one, Z.mul_0_r. cbn. lra.
Qed.

Lemma ReachQ_step : forall q j p r, (0 <= q)%Z -> (q * Z.of_nat (S j) <= 1074)%Z ->
  ProbOK q p -> ReachQ q j r -> ReachQ q (S j) (p * r)%float.
Proof.
  intros q j p r Hq Hqj [Hp Hpl] [Hr Hrl].
  destruct (mul_reach p r Hp Hr) as [Hf He].
  split; [exact Hf|]. rewrite He.
  destruct Hpl as [Hpz|Hpl]; [left; rewrite Hpz, Rmult_0_l; apply rnd_0|].
  destruct Hrl as [Hrz|Hrl]; [left; rewrite Hrz, Rmult_0_r; apply rnd_0|].
  right. apply rnd_ge_fmt; [apply fmt_bpow; lia|].
  replace (- (q * Z.of_nat (S j)))%Z with (- q + - (q * Z.of_nat j))%Z by lia.
  rewrite bpow_plus.
  assert (0 < bp (- q)) by apply bp_pos. assert (0 < bp (- (q * Z.of_nat j))) by apply bp_pos.
  apply Rmult_le_compat; lra.
Qed.

Lemma row_ProbOK : forall q t i, TblQ q t -> Forall (ProbOK q) (@row FNum t i).
Proof. intros q t i Ht. unfold row. apply nth_Forall; [exact Ht | constructor]. Qed.

Section Simple.
  Context (e q A : Z) (D : nat) (chance s1 s2 : list (list float)).
  Context (Hq : (0 <= q)%Z) (HA : (0 <= A)%Z).
  Context (H1022 : (q * Z.of_nat D + A + Z.abs e <= 1022)%Z) (H971 : (A + Z.abs e <= 971)%Z).
  Context (Hchance : TblQ q chance) (Hs1 : TblQ q s1) (Hs2 : TblQ q s2).

  Local Notation ROK := (RangeOK e (A + Z.abs e) chance s1 s2).

  Lemma leaf_simple : forall j r x, (j <= D)%nat -> ReachQ q j r ->
    Ffin x -> Rng (- A) A (FR x) -> LeafOK e (A + Z.abs e) r x.
  Proof.
    intros j r x Hj [[Hrf [Hr0 Hr1]] Hrl] Hx Hxr.
    assert (HjD : (q * Z.of_nat j <= q * Z.of_nat D)%Z) by (apply Z.mul_le_mono_nonneg_l; lia).
    assert (Rr : Rng (- (q * Z.of_nat j)) 0 (FR r)).
    { destruct Hrl as [Hz|Hl]; [left; exact Hz | right].
      rewrite Rabs_pos_eq by exact Hr0. cbn [bpow]. lra. }
    assert (Rxe := Rng_mul _ _ _ _ _ _ Hxr (Rng_bp e)).
    assert (Rrx := Rng_mul _ _ _ _ _ _ Rr Hxr).
    split; [exact Hrf|]. split; [exact Hx|].
    split; [apply (Rng_nz _ _ _ Rxe); lia|].
    split; [apply (Rng_lt_emax _ _ _ Rxe); lia | apply (Rng_Rg _ _ _ _ _ Rrx); lia].
  Qed.

  Definition RSpec (k : node) : Prop := forall j r,
    (j + depth k <= D)%nat -> ReachQ q j r -> PayIn A k -> ROK k r.

  Lemma rgo_simple : forall (tst : float -> bool) ks, Forall RSpec ks ->
    forall ps j r, Forall (ProbOK q) ps -> Forall (PayIn A) ks ->
    (S j + list_max (map depth ks) <= D)%nat -> ReachQ q j r ->
    rgo ROK tst r ps ks.
  Proof.
    intros tst ks Hks. induction Hks as [|k ks Hk Hks IH]; intros ps j r Hps Hpay Hd Hr.
    - destruct ps; exact I.
    - destruct ps as [|p ps]; [exact I|].
      inversion Hps as [|? ? Hp Hps']; subst. inversion Hpay as [|? ? Hpk Hpay']; subst.
      change (list_max (map depth (k :: ks))) with (Nat.max (depth k) (list_max (map depth ks))) in Hd.
      cbn [rgo]. split.
      + destruct (tst p); [|exact I].
        apply (Hk (S j)); [lia | | exact Hpk].
        apply ReachQ_step; try assumption.
        assert ((q * Z.of_nat (S j) <= q * Z.of_nat D)%Z) by (apply Z.mul_le_mono_nonneg_l; lia).
        lia.
      + apply (IH ps j r); try assumption. lia.
  Qed.

  Lemma RangeOK_simple : forall n, RSpec n.
  Proof.
    induction n as [x|ci kids IH|pl i kids IH] using node_ind'; intros j r Hd Hr Hpay.
    - inversion Hpay as [x' Hx Hxr| |]; subst. rewrite RangeOK_Term.
      apply (leaf_simple j); try assumption. lia.
    - inversion Hpay as [|ci' kids' Hkids|]; subst. rewrite RangeOK_Chance.
      cbn [depth] in Hd.
      apply (rgo_simple _ kids IH _ j); try assumption; [apply row_ProbOK; exact Hchance | lia].
    - inversion Hpay as [| |pl' i' kids' Hkids]; subst. rewrite RangeOK_Player.
      cbn [depth] in Hd.
      apply (rgo_simple _ kids IH _ j); try assumption; [|lia].
      apply row_ProbOK. destruct pl; assumption.
  Qed.
End Simple.

Theorem expected_scale_float_simple :
  forall (c : float) (e q A : Z) (g : game) (s1 s2 : list (list float)),
  IsPow2 c e -> (0 <= q)%Z -> (0 <= A)%Z ->
  (q * Z.of_nat (depth (g_root g)) + A + Z.abs e <= 1022)%Z -> (A + Z.abs e <= 971)%Z ->
  TblQ q (g_chance g) -> TblQ q s1 -> TblQ q s2 -> PayIn A (g_root g) ->
  (Z.of_nat (nleaves (g_root g)) < 2 ^ 53)%Z ->
  @expected FNum (scale_game c g) s1 s2 = (@expected FNum g s1 s2 * c)%float /\
  Ffin (@expected FNum g s1 s2) /\ Ffin (@expected FNum (scale_game c g) s1 s2) /\
  FR (@expected FNum (scale_game c g) s1 s2) = FR (@expected FNum g s1 s2) * bp e.
Proof.
  intros c e q A g s1 s2 Hc Hq HA H1 H2 Tc T1 T2 Hpay HL.
  apply (expected_scale_float c e (A + Z.abs e)); try assumption; [lia|].
  apply (RangeOK_simple e q A (depth (g_root g)) (g_chance g) s1 s2 Hq HA H1 H2 Tc T1 T2
           (g_root g) 0%nat 1%float); [lia | apply ReachQ_one | exact Hpay].
Qed.

Theorem Sc_div : forall e x x' t,
  Sc e x x' -> Ffin t -> FR t <> 0 ->
  nz (FR x / FR t) -> nz (FR x / FR t * bp e) ->
  Rabs (rnd (FR x / FR t)) < bp emax ->
  Rabs (rnd (FR x / FR t) * bp e) < bp emax ->
  Sc e (x / t)%float (x' / t)%float.
Proof.
  intros e x x' t [Hx [Hx' [Rx Sx]]] Ht Ht0 N1 N2 Ho Ho'.
  assert (Hk : rnd (FR x' / FR t) = rnd (FR x / FR t) * bp e).
  { rewrite Rx. replace (FR x * bp e / FR t) with (FR x / FR t * bp e) by (field; exact Ht0).
    apply rnd_scale; assumption. }
  rewrite <- Hk in Ho'.
  apply (Sc_of_rnd e _ _ _ _ _ Hk (div_ok_sign x t Hx Ht0 Ho)).
  rewrite <- Sx. apply div_ok_sign; assumption.
Qed.

(** numerator and denominator both scaled: the quotient is the same float (this is why
    regret matching returns the same strategy) *)
Theorem div_scale_both : forall e x x' t t',
  Sc e x x' -> Sc e t t' -> FR t <> 0 ->
  Rabs (rnd (FR x / FR t)) < bp emax ->
  (x' / t')%float = (x / t)%float.
Proof.
  intros e x x' t t' [Hx [Hx' [Rx Sx]]] [Ht [Ht' [Rt St]]] Ht0 Ho.
  assert (Hbe : bp e <> 0) by (apply Rgt_not_eq, bp_pos).
  assert (Ht0' : FR t' <> 0).
  { rewrite Rt. intros Hz. apply Rmult_integral in Hz. tauto. }
  assert (Hq : FR x' / FR t' = FR x / FR t) by (rewrite Rx, Rt; field; split; assumption).
  assert (Ho2 : Rabs (rnd (FR x' / FR t')) < bp emax) by (rewrite Hq; exact Ho).
  destruct (div_ok_sign x t Hx Ht0 Ho) as [G1 [G2 G3]].
  destruct (div_ok_sign x' t' Hx' Ht0' Ho2) as [G1' [G2' G3']].
  apply float_eq; try assumption.
  - rewrite G2', G2, Hq. reflexivity.
  - rewrite G3', G3, Sx, St. reflexivity.
Qed.

Theorem Sc_ltb : forall e a a' b b', Sc e a a' -> Sc e b b' ->
  PrimFloat.ltb a' b' = PrimFloat.ltb a b.
Proof.
  intros e a a' b b' [Ha [Ha' [Ra _]]] [Hb [Hb' [Rb _]]].
  rewrite (ltb_fin a' b' Ha' Hb'), (ltb_fin a b Ha Hb), Ra, Rb.
  assert (He := bp_pos e).
  destruct (Rlt_bool_spec (FR a) (FR b)) as [H|H].
  - apply Rlt_bool_true. apply Rmult_lt_compat_r; assumption.
  - apply Rlt_bool_false. apply Rmult_le_compat_r; [lra | exact H].
Qed.

Lemma Sc_ltb_0l : forall e a a', Sc e a a' -> PrimFloat.ltb 0 a' = PrimFloat.ltb 0 a.
Proof. intros e a a' H. apply (Sc_ltb e 0%float 0%float a a' (Sc_zero e) H). Qed.

Lemma Sc_ltb_0r : forall e a a', Sc e a a' -> PrimFloat.ltb a' 0 = PrimFloat.ltb a 0.
Proof. intros e a a' H. apply (Sc_ltb e a a' 0%float 0%float H (Sc_zero e)). Qed.

(** [f64::max] *)
Theorem Sc_fmax : forall e a a' b b', Sc e a a' -> Sc e b b' ->
  Sc e (f_max a b) (f_max a' b').
Proof.
  intros e a a' b b' Ha Hb. unfold f_max.
  rewrite (Sc_ltb e a a' b b' Ha Hb).
  destruct (PrimFloat.ltb a b); [exact Hb|].
  destruct Ha as [Fa [Fa' Hr]].
  rewrite (f_is_nan_fin a Fa), (f_is_nan_fin a' Fa').
  split; [exact Fa|]. split; [exact Fa' | exact Hr].
Qed.

Lemma f_max_cases : forall a b : float, f_max a b = a \/ f_max a b = b.
Proof.
  intros a b. unfold f_max. destruct (PrimFloat.ltb a b); [right; reflexivity|].
  destruct (f_is_nan a); [right | left]; reflexivity.
Qed.

(** Functions that do not read the payoffs are unchanged, by computation. *)

Theorem truncate_scale_float : forall (c h : float) (g : game) (prof : list float * list float),
  @truncate FNum (scale_game c g) h prof = @truncate FNum g h prof.
Proof. reflexivity. Qed.

Theorem distance_scale_float : forall (c p : float) (g : game) (a b : list float * list float),
  @distance FNum (scale_game c g) p a b = @distance FNum g p a b.
Proof. reflexivity. Qed.

Lemma leb_pow2_abs : forall k x, (-1074 <= k <= 1023)%Z -> Ffin x ->
  PrimFloat.leb (pow2 k) (PrimFloat.abs x) = true -> bp k <= Rabs (FR x).
Proof.
  intros k x Hk Hx H. destruct (pow2_IsPow2 k Hk) as [Gf Gr].
  rewrite <- Gr, <- FR_abs. apply leb_true_R; [exact Gf | apply Ffin_abs, Hx | exact H].
Qed.

Lemma leb_abs_pow2 : forall k x, (-1074 <= k <= 1023)%Z -> Ffin x ->
  PrimFloat.leb (PrimFloat.abs x) (pow2 k) = true -> Rabs (FR x) <= bp k.
Proof.
  intros k x Hk Hx H. destruct (pow2_IsPow2 k Hk) as [Gf Gr].
  rewrite <- Gr, <- FR_abs. apply leb_true_R; [apply Ffin_abs, Hx | exact Gf | exact H].
Qed.

Definition probokb (q : Z) (p : float) : bool :=
  fin01b p && (PrimFloat.eqb p 0 || PrimFloat.leb (pow2 (- q)) p).

Lemma probokb_spec : forall q p, (0 <= q <= 1074)%Z -> probokb q p = true -> ProbOK q p.
Proof.
  intros q p Hq H. unfold probokb in H. apply andb_true_iff in H. destruct H as [H1 H2].
  apply fin01b_spec in H1. split; [exact H1|].
  destruct H1 as [Hf _].
  apply orb_true_iff in H2. destruct H2 as [H2|H2].
  - left. apply (eqb_zero_fin p Hf). exact H2.
  - right. destruct (pow2_IsPow2 (- q) ltac:(lia)) as [Gf Gr].
    rewrite <- Gr. apply leb_true_R; assumption.
Qed.

Definition tblqb (q : Z) (t : list (list float)) : bool := forallb (forallb (probokb q)) t.

Lemma tblqb_spec : forall q t, (0 <= q <= 1074)%Z -> tblqb q t = true -> TblQ q t.
Proof.
  intros q t Hq H. unfold tblqb in H. rewrite forallb_forall in H.
  apply Forall_forall. intros r Hr. specialize (H r Hr). rewrite forallb_forall in H.
  apply Forall_forall. intros p Hp. apply probokb_spec; [exact Hq | apply H; exact Hp].
Qed.

Definition payin1b (A : Z) (x : float) : bool :=
  f_is_fin x &&
  (PrimFloat.eqb x 0 ||
   (PrimFloat.leb (pow2 (- A)) (PrimFloat.abs x) && PrimFloat.leb (PrimFloat.abs x) (pow2 A))).

Fixpoint payinb (A : Z) (n : node) : bool :=
  match n with
  | Term x => payin1b A x
  | Chance _ kids => forallb (payinb A) kids
  | Player _ _ kids => forallb (payinb A) kids
  end.

Lemma payinb_spec : forall A, (0 <= A <= 1023)%Z -> forall n, payinb A n = true -> PayIn A n.
Proof.
  intros A HA.
  induction n as [x|ci kids IH|pl i kids IH] using node_ind'; cbn [payinb]; intros H.
  - unfold payin1b in H. apply andb_true_iff in H. destruct H as [Hf H2].
    apply NormFloat.f_is_fin_true in Hf.
    constructor; [exact Hf|].
    apply orb_true_iff in H2. destruct H2 as [H2|H2].
    + left. apply (eqb_zero_fin x Hf). exact H2.
    + right. apply andb_true_iff in H2. destruct H2 as [L1 L2].
      split; [apply leb_pow2_abs | apply leb_abs_pow2]; try assumption; lia.
  - constructor. apply (Forall_mp _ _ _ IH). apply Forall_forall, forallb_forall, H.
  - constructor. apply (Forall_mp _ _ _ IH). apply Forall_forall, forallb_forall, H.
Qed.

(** Examples on the tree of [EvalFloat.ex_g] (payoffs 1, -2, 3, 0.1) *)

Definition c70 : float := pow2 (-70).

Example c70_value : c70 = 0x1p-70%float.
Proof. vm_compute. reflexivity. Qed.

Example ex_scale_both :
  @expected FNum (scale_game c70 ex_g) ex_s1 ex_s2 = 0x1.7ae147ae147aep-72%float /\
  (@expected FNum ex_g ex_s1 ex_s2 * c70)%float = 0x1.7ae147ae147aep-72%float.
Proof. split; vm_compute; reflexivity. Qed.

(** the theorem applies to this game for every unit [2^e] with [|e| <= 967]: probabilities
    [>= 2^-2], depth 2, payoffs within [2^-4, 2^2] (so [A = 4]), and [4 + |e| <= 971] *)
Lemma ex_scale_pow2 : forall e : Z, (-967 <= e <= 967)%Z ->
  @expected FNum (scale_game (pow2 e) ex_g) ex_s1 ex_s2 = (@expected FNum ex_g ex_s1 ex_s2 * pow2 e)%float.
Proof.
  intros e He. apply (expected_scale_float_simple (pow2 e) e 2 4 ex_g ex_s1 ex_s2).
  - apply pow2_IsPow2. lia.
  - lia.
  - lia.
  - change (depth (g_root ex_g)) with 2%nat. lia.
  - lia.
  - apply tblqb_spec; [lia | vm_compute; reflexivity].
  - apply tblqb_spec; [lia | vm_compute; reflexivity].
  - apply tblqb_spec; [lia | vm_compute; reflexivity].
  - apply payinb_spec; [lia | vm_compute; reflexivity].
  - change (nleaves (g_root ex_g)) with 4%nat. lia.
Qed.

Example ex_scale_thm :
  @expected FNum (scale_game c70 ex_g) ex_s1 ex_s2 = (@expected FNum ex_g ex_s1 ex_s2 * c70)%float.
Proof. apply (ex_scale_pow2 (-70)). lia. Qed.

(** the units used by the correspondence check, [2^-200] and [2^150], also qualify *)
Example ex_scale_units :
  @expected FNum (scale_game (pow2 (-200)) ex_g) ex_s1 ex_s2
    = (@expected FNum ex_g ex_s1 ex_s2 * pow2 (-200))%float /\
  @expected FNum (scale_game (pow2 150) ex_g) ex_s1 ex_s2
    = (@expected FNum ex_g ex_s1 ex_s2 * pow2 150)%float.
Proof. split; apply ex_scale_pow2; lia. Qed.

(** the range hypotheses cannot be dropped: with [c = 2^-1070] products underflow and the
    two sides differ *)
Example ex_scale_underflow :
  @expected FNum (scale_game (pow2 (-1070)) ex_g) ex_s1 ex_s2
  <> (@expected FNum ex_g ex_s1 ex_s2 * pow2 (-1070))%float.
Proof.
  intros H. apply (f_equal (fun x => PrimFloat.eqb x (@expected FNum ex_g ex_s1 ex_s2 * pow2 (-1070))%float)) in H.
  vm_compute in H. discriminate H.
Qed.
