(** * StratImportProofs: what the scan-based import ([strat_into_box_slow], model
    [import_slow_player]) computes, declaratively.

    The dense vector under construction is represented by a *weight function*
    [F : infoset -> action -> T] ([rows_of infos F]); an input entry [(I, a, w)] updates
    [F] at [(I, a)].  With unique infoset names and unique actions this representation
    is exact, and the result of the whole loop is "the last weight given to [(I, a)]"
    ([w_from], [w_last]).

    This file is generic in the arithmetic ([NN : Num]); the normalisation step and the
    theorems over the reals are in [StratImportRProofs.v]. *)
From Coq Require Import List NArith Bool Arith Lia.
From Cfr.theories Require Import Num ListAux Tree Strat StratAgreeProofs.
Import ListNotations.

Lemma upd_app_r {A} (pre l : list A) i v : upd (pre ++ l) (length pre + i) v = pre ++ upd l i v.
Proof. induction pre as [|x pre IH]; cbn [app length Nat.add upd]; [reflexivity|now rewrite IH]. Qed.

Lemma upd_app_l {A} (l post : list A) i v : i < length l -> upd (l ++ post) i v = upd l i v ++ post.
Proof.
  revert i; induction l as [|x l IH]; intros [|i] H; cbn [length] in H; try lia; cbn [app upd]; [reflexivity|].
  rewrite IH by lia. reflexivity.
Qed.

Lemma upd_nth_same {A} (l : list A) i d : upd l i (nth i l d) = l.
Proof. revert i; induction l as [|x l IH]; intros [|i]; cbn [upd nth]; try reflexivity. now rewrite IH. Qed.

Lemma map_const_repeat {A B} (z : B) (l : list A) : map (fun _ => z) l = repeat z (length l).
Proof. induction l as [|x l IH]; cbn [map length repeat]; [reflexivity|now rewrite IH]. Qed.

Lemma fold_left_add_acc l a : fold_left Nat.add l a = a + fold_left Nat.add l 0.
Proof.
  revert a; induction l as [|x l IH]; intros a; cbn [fold_left]; [lia|].
  rewrite (IH (a + x)), (IH (0 + x)). lia.
Qed.

Lemma upd_concat {A} (rows : list (list A)) : forall pre ind ai v,
  ind < length rows -> ai < length (nth ind rows []) ->
  upd (pre ++ concat rows) (nth ind (offsets (map (@length A) rows) (length pre)) 0 + ai) v =
  pre ++ concat (upd rows ind (upd (nth ind rows []) ai v)).
Proof.
  induction rows as [|r rows IH]; intros pre ind ai v Hi Ha; cbn [length] in Hi; [lia|].
  destruct ind as [|k]; cbn [map offsets nth concat upd] in *.
  - rewrite upd_app_r, upd_app_l by assumption. reflexivity.
  - rewrite <- app_length. rewrite app_assoc. rewrite IH by (assumption || lia).
    now rewrite <- app_assoc.
Qed.

Lemma N_eqb_l a y : N.eqb a y = true <-> y = a.
Proof. rewrite N.eqb_eq. split; congruence. Qed.

Lemma upd_map_key {A B} (key : A -> N) (k : N) (f : A -> bool) (G G' : A -> B) (v : B) :
  (forall y, f y = true <-> key y = k) ->
  forall l, NoDup (map key l) ->
  forall i x, find_index f l = Some (i, x) ->
  G' x = v -> (forall y, In y l -> f y = false -> G' y = G y) ->
  upd (map G l) i v = map G' l.
Proof.
  intros Hf; induction l as [|y r IH]; intros Hnd i x Hfi Hx Hy; cbn [find_index] in Hfi; [discriminate|].
  cbn [map] in Hnd. apply NoDup_cons_iff in Hnd as [Hk Hr]. cbn [map].
  destruct (f y) eqn:E.
  - inversion Hfi; subst i x. cbn [upd]. rewrite Hx. f_equal.
    apply map_ext_in. intros z Hz. symmetry. apply Hy; [now right|].
    destruct (f z) eqn:Ez; [|reflexivity]. exfalso. apply Hk.
    apply Hf in E, Ez. rewrite E, <- Ez. now apply in_map.
  - destruct (find_index f r) as [[j z]|] eqn:Er; [|discriminate]. inversion Hfi; subst i x.
    cbn [upd]. rewrite (Hy y (or_introl eq_refl) E). f_equal.
    apply (IH Hr j z eq_refl Hx). intros w Hw. apply Hy. now right.
Qed.

Section Import.
  Context {NN : Num}.
  Local Notation T := (T NN).

  Definition tr (name : N) (es : list (N * T)) : list (N * N * T) :=
    map (fun e => (name, fst e, snd e)) es.

  Definition triples (strat : list (N * list (N * T))) : list (N * N * T) :=
    flat_map (fun it => tr (fst it) (snd it)) strat.

  Definition hits (I a : N) (t : N * N * T) : bool :=
    N.eqb (fst (fst t)) I && N.eqb (snd (fst t)) a.

  (** the weight of [(I, a)] after the triples [ts], starting from [d]: every triple for
      [(I, a)] overwrites the previous value *)
  Definition w_from (ts : list (N * N * T)) (I a : N) (d : T) : T :=
    fold_left (fun acc t => if hits I a t then snd t else acc) ts d.

  Definition w_last (strat : list (N * list (N * T))) (I a : N) : T :=
    w_from (triples strat) I a (zero NN).

  Lemma hits_iff I a t : hits I a t = true <-> fst t = (I, a).
  Proof.
    destruct t as [[J b] w]. unfold hits; cbn [fst snd].
    rewrite andb_true_iff, !N.eqb_eq. split; [intros [-> ->]; reflexivity|intros [= -> ->]; split; reflexivity].
  Qed.

  Lemma hits_false I a t : fst t <> (I, a) -> hits I a t = false.
  Proof. intros H. destruct (hits I a t) eqn:E; [|reflexivity]. now apply hits_iff in E. Qed.

  Lemma hits_same I a p : hits I a (I, a, p) = true.
  Proof. now apply hits_iff. Qed.

  Lemma w_from_cons t ts I a d : w_from (t :: ts) I a d = w_from ts I a (if hits I a t then snd t else d).
  Proof. reflexivity. Qed.

  Lemma w_from_app ts1 ts2 I a d : w_from (ts1 ++ ts2) I a d = w_from ts2 I a (w_from ts1 I a d).
  Proof. unfold w_from. apply fold_left_app. Qed.

  Lemma w_from_find ts I a d :
    w_from ts I a d = match find (hits I a) (rev ts) with Some t => snd t | None => d end.
  Proof.
    induction ts as [|t ts IH] using rev_ind; [reflexivity|].
    rewrite w_from_app, rev_app_distr. cbn [rev app find w_from fold_left].
    destruct (hits I a t); [reflexivity|exact IH].
  Qed.

  Lemma w_from_nohit ts I a d : (forall t, In t ts -> hits I a t = false) -> w_from ts I a d = d.
  Proof.
    revert d; induction ts as [|t ts IH]; intros d H; [reflexivity|].
    rewrite w_from_cons, (H t (or_introl eq_refl)). apply IH. intros u Hu. apply H. now right.
  Qed.

  Lemma w_from_inv (P : T -> Prop) ts I a d :
    P d -> Forall (fun t => P (snd t)) ts -> P (w_from ts I a d).
  Proof.
    intros Hd H; revert d Hd; induction H as [|t ts Ht _ IH]; intros d Hd; [exact Hd|].
    rewrite w_from_cons. apply IH. now destruct (hits I a t).
  Qed.

  Lemma triples_app s1 s2 : triples (s1 ++ s2) = triples s1 ++ triples s2.
  Proof. unfold triples. apply flat_map_app. Qed.

  Lemma triples_cons it rest : triples (it :: rest) = tr (fst it) (snd it) ++ triples rest.
  Proof. reflexivity. Qed.

  Lemma in_triples I a w strat :
    In (I, a, w) (triples strat) <-> exists es, In (I, es) strat /\ In (a, w) es.
  Proof.
    unfold triples, tr. rewrite in_flat_map. split.
    - intros ([name es] & Hit & Ht). apply in_map_iff in Ht as ([b v] & [= -> -> ->] & He). exists es; auto.
    - intros (es & Hit & He). exists (I, es). split; [assumption|]. apply in_map_iff. exists (a, w); auto.
  Qed.

  Lemma w_from_other strat I a d : ~ In I (map fst strat) -> w_from (triples strat) I a d = d.
  Proof.
    intros H. apply w_from_nohit. intros [[J b] w] Ht. apply in_triples in Ht as (es & Hit & _).
    apply hits_false. cbn [fst]. intros [= -> _]. apply H. apply in_map_iff. exists (I, es); auto.
  Qed.

  Definition rows_of (infos : list pinfo) (F : N -> N -> T) : list (list T) :=
    map (fun pi => map (F (pi_name pi)) (pi_actions pi)) infos.

  Lemma rows_of_ext infos F F' :
    (forall pi a, In pi infos -> In a (pi_actions pi) -> F (pi_name pi) a = F' (pi_name pi) a) ->
    rows_of infos F = rows_of infos F'.
  Proof.
    intros H. unfold rows_of. apply map_ext_in. intros pi Hpi. apply map_ext_in. intros a Ha. now apply H.
  Qed.

  Lemma rows_of_lengths infos F : map (@length T) (rows_of infos F) = map arity infos.
  Proof. unfold rows_of. rewrite map_map. apply map_ext. intros pi. apply map_length. Qed.

  Lemma rows_of_const infos z :
    concat (rows_of infos (fun _ _ => z)) = repeat z (fold_left Nat.add (map arity infos) 0).
  Proof.
    induction infos as [|pi r IH]; [reflexivity|].
    cbn [rows_of map concat fold_left]. fold (rows_of r (fun _ _ => z)). rewrite IH.
    rewrite map_const_repeat, <- repeat_app. f_equal.
    rewrite (fold_left_add_acc _ (0 + _)). unfold arity. lia.
  Qed.

  Definition Fstep (name : N) (es : list (N * T)) (F : N -> N -> T) : N -> N -> T :=
    fun I a => w_from (tr name es) I a (F I a).

  Lemma Fstep_other name es F I a : name <> I -> Fstep name es F I a = F I a.
  Proof.
    intros H. apply w_from_nohit. intros t Ht. apply in_map_iff in Ht as (e & <- & _).
    apply hits_false. cbn [fst]. congruence.
  Qed.

  Lemma upd_dense infos F name a p ind pi ai x :
    NoDup (map pi_name infos) -> Forall (fun pi => NoDup (pi_actions pi)) infos ->
    find_index (fun pi => N.eqb (pi_name pi) name) infos = Some (ind, pi) ->
    find_index (N.eqb a) (pi_actions pi) = Some (ai, x) ->
    upd (concat (rows_of infos F)) (nth ind (offsets (map arity infos) 0) 0 + ai) p =
    concat (rows_of infos (Fstep name [(a, p)] F)).
  Proof.
    intros Hnd Hacts Hfi Hfa.
    destruct (find_index_some _ _ _ _ pi Hfi) as (Hind & Hnth & Hname). apply N.eqb_eq in Hname.
    destruct (find_index_some _ _ _ _ 0%N Hfa) as (Hai & _ & Hx). apply N.eqb_eq in Hx. subst x.
    pose proof (find_index_In _ _ _ _ Hfi) as Hpi.
    assert (Hrow : nth ind (rows_of infos F) [] = map (F (pi_name pi)) (pi_actions pi)).
    { unfold rows_of. rewrite nth_map_lt with (d := pi) by assumption. now rewrite Hnth. }
    rewrite <- rows_of_lengths with (F := F).
    pose proof (upd_concat (rows_of infos F) [] ind ai p) as H. cbn [app length] in H.
    rewrite H; clear H.
    2:{ unfold rows_of. now rewrite map_length. }
    2:{ now rewrite Hrow, map_length. }
    f_equal. rewrite Hrow. unfold rows_of.
    apply upd_map_key with (key := pi_name) (k := name) (f := fun pi => N.eqb (pi_name pi) name) (x := pi);
      try assumption.
    - intros y. apply N.eqb_eq.
    - symmetry. apply upd_map_key with (key := fun a => a) (k := a) (f := N.eqb a) (x := a); try assumption.
      + apply N_eqb_l.
      + rewrite map_id. rewrite Forall_forall in Hacts. now apply Hacts.
      + unfold Fstep. cbn [tr map fst snd]. now rewrite Hname, w_from_cons, hits_same.
      + intros y _ Hy. unfold Fstep. cbn [tr map fst snd]. rewrite w_from_cons, hits_false; [reflexivity|].
        cbn [fst]. apply N.eqb_neq in Hy. congruence.
    - intros y _ Hy. apply map_ext. intros b. apply Fstep_other. apply N.eqb_neq in Hy. congruence.
  Qed.

  Definition EntriesOk (legal : N -> Prop) (es : list (N * T)) : Prop :=
    Forall (fun e => legal (fst e) /\ prob_ok (snd e) = true) es.

  Definition EntryErr (legal : N -> Prop) (e : serr) (es : list (N * T)) : Prop :=
    match e with
    | InvalidAction => exists x, In x es /\ ~ legal (fst x)
    | InvalidProbability => exists x, In x es /\ prob_ok (snd x) = false
    | _ => False
    end.

  Lemma EntryErr_cons legal e x es : EntryErr legal e es -> EntryErr legal e (x :: es).
  Proof.
    destruct e; cbn [EntryErr]; try tauto; intros (y & Hy & H); exists y; (split; [right; assumption|assumption]).
  Qed.

  Lemma slow_multi_spec infos name ind pi :
    NoDup (map pi_name infos) -> Forall (fun pi => NoDup (pi_actions pi)) infos ->
    find_index (fun pi => N.eqb (pi_name pi) name) infos = Some (ind, pi) ->
    forall (es : list (N * T)) F,
      match slow_multi (pi_actions pi) (nth ind (offsets (map arity infos) 0) 0) es
                       (concat (rows_of infos F)) with
      | SOk d => d = concat (rows_of infos (Fstep name es F)) /\
                 EntriesOk (fun a => In a (pi_actions pi)) es
      | SErr e => EntryErr (fun a => In a (pi_actions pi)) e es
      end.
  Proof.
    intros Hnd Hacts Hfi. induction es as [|[a p] es IH]; intros F; cbn [slow_multi].
    - split; [reflexivity|constructor].
    - destruct (prob_ok p) eqn:Ep; [|exists (a, p); split; [left; reflexivity|exact Ep]].
      pose proof (find_index_key (fun b => b) (N.eqb a) a (pi_actions pi) (N_eqb_l a)) as Hfa.
      destruct (find_index (N.eqb a) (pi_actions pi)) as [[ai x]|] eqn:Ea;
        [|exists (a, p); split; [now left|now rewrite map_id in Hfa]].
      destruct Hfa as (Hin & -> & _).
      rewrite (upd_dense infos F name a p ind pi ai a) by assumption.
      specialize (IH (Fstep name [(a, p)] F)).
      destruct (slow_multi _ _ es _) as [d|e]; [|apply EntryErr_cons; assumption].
      destruct IH as [-> Hall]. split; [reflexivity|]. constructor; [now split|assumption].
  Qed.

  Definition nonnil {A} (l : list A) : bool := match l with [] => false | _ => true end.

  Lemma slow_single_spec act : forall (es : list (N * T)) seen,
    match slow_single act es seen with
    | SOk b => b = seen || nonnil es /\ EntriesOk (fun a => a = act) es
    | SErr e => EntryErr (fun a => a = act) e es
    end.
  Proof.
    induction es as [|[a p] es IH]; intros seen; cbn [slow_single].
    - split; [now rewrite orb_false_r|constructor].
    - destruct (N.eqb a act) eqn:Ea; cbn [negb]; [|exists (a, p); split; [now left|apply N.eqb_neq; assumption]].
      destruct (prob_ok p) eqn:Ep; [|exists (a, p); split; [now left|exact Ep]].
      specialize (IH true). destruct (slow_single act es true) as [b|e]; [|now apply EntryErr_cons].
      destruct IH as [-> Hall]. cbn [orb nonnil]. split; [now rewrite orb_true_r|].
      constructor; [|assumption]. apply N.eqb_eq in Ea. now split.
  Qed.

  Section Loop.
    Context (infos : list pinfo) (singles : list (N * N)).

    Definition KnownItem (it : N * list (N * T)) : Prop :=
      (exists pi, In pi infos /\ pi_name pi = fst it /\
                  Forall (fun e => In (fst e) (pi_actions pi)) (snd it)) \/
      (exists act, In (fst it, act) singles /\ Forall (fun e => fst e = act) (snd it)).

    Definition ProbsOk (strat : list (N * list (N * T))) : Prop :=
      Forall (fun t => prob_ok (snd t) = true) (triples strat).

    Definition BadInfoset (strat : list (N * list (N * T))) : Prop :=
      exists it, In it strat /\ ~ In (fst it) (map pi_name infos) /\ ~ In (fst it) (map fst singles).

    Definition BadAction (strat : list (N * list (N * T))) : Prop :=
      exists it e, In it strat /\ In e (snd it) /\
        ((exists pi, In pi infos /\ pi_name pi = fst it /\ ~ In (fst e) (pi_actions pi)) \/
         (exists act, In (fst it, act) singles /\ fst e <> act)).

    Definition BadProb (strat : list (N * list (N * T))) : Prop :=
      exists t, In t (triples strat) /\ prob_ok (snd t) = false.

    Definition LoopErr (e : serr) (strat : list (N * list (N * T))) : Prop :=
      match e with
      | InvalidInfoset => BadInfoset strat
      | InvalidAction => BadAction strat
      | InvalidProbability => BadProb strat
      | UninitializedInfoset => False
      end.

    Lemma LoopErr_cons e it strat : LoopErr e strat -> LoopErr e (it :: strat).
    Proof.
      destruct e; cbn [LoopErr]; [intros (x & H & R)|intros (x & y & H & R)|intros (t & H & R)|auto].
      - exists x. split; [now right|assumption].
      - exists x, y. split; [now right|assumption].
      - exists t. split; [|assumption]. rewrite triples_cons. apply in_or_app. now right.
    Qed.

    (** an error among the entries of the first item, whose illegal actions are those that
        the infoset it names does not have *)
    Lemma EntryErr_LoopErr legal e name es rest :
      (forall a, ~ legal a ->
         (exists pi, In pi infos /\ pi_name pi = name /\ ~ In a (pi_actions pi)) \/
         (exists act, In (name, act) singles /\ a <> act)) ->
      EntryErr legal e es -> LoopErr e ((name, es) :: rest).
    Proof.
      intros Hl. destruct e; cbn [EntryErr LoopErr]; try tauto; intros ([a w] & Hx & Hbad).
      - exists (name, es), (a, w). split; [now left|]. split; [assumption|now apply Hl].
      - exists (name, a, w). split; [|assumption]. apply in_triples. exists es. split; [now left|assumption].
    Qed.

    Definition mentioned (strat : list (N * list (N * T))) (k : N) : bool :=
      existsb (fun t => N.eqb (fst (fst t)) k) (triples strat).

    Lemma mentioned_tr name (es : list (N * T)) k :
      existsb (fun t : N * N * T => N.eqb (fst (fst t)) k) (tr name es) = N.eqb name k && nonnil es.
    Proof.
      destruct es as [|e es]; cbn [tr map existsb nonnil fst]; [now rewrite andb_false_r|].
      destruct (N.eqb name k) eqn:E; cbn [orb andb]; [reflexivity|].
      induction es as [|e' es IH]; cbn [map existsb fst]; [reflexivity|].
      rewrite E. cbn [orb]. exact IH.
    Qed.

    Definition Sstep (name : N) (es : list (N * T)) (S : N -> bool) : N -> bool :=
      fun k => S k || N.eqb name k && nonnil es.

    Lemma Sstep_other name es S k : name <> k -> Sstep name es S k = S k.
    Proof. intros H. unfold Sstep. apply N.eqb_neq in H. now rewrite H, orb_false_r. Qed.

    (** what the loop returns on [strat], started from the weights [F] and the flags [S] *)
    Definition LoopSpec (strat : list (N * list (N * T))) (F : N -> N -> T) (S : N -> bool)
               (res : sres (list T * list bool)) : Prop :=
      match res with
      | SOk (d, seen) =>
          Forall KnownItem strat /\ ProbsOk strat /\
          d = concat (rows_of infos (fun I a => w_from (triples strat) I a (F I a))) /\
          seen = map (fun e => S (fst e) || mentioned strat (fst e)) singles
      | SErr e => LoopErr e strat
      end.

    Lemma LoopSpec_nil F S : LoopSpec [] F S (SOk (concat (rows_of infos F), map (fun e => S (fst e)) singles)).
    Proof.
      repeat split; try constructor. apply map_ext. intros e. cbn. now rewrite orb_false_r.
    Qed.

    Lemma LoopSpec_cons name es rest F S res :
      KnownItem (name, es) -> Forall (fun e => prob_ok (snd e) = true) es ->
      LoopSpec rest (Fstep name es F) (Sstep name es S) res -> LoopSpec ((name, es) :: rest) F S res.
    Proof.
      intros Hk Hp. destruct res as [[d seen]|e]; cbn [LoopSpec]; [|apply LoopErr_cons].
      intros (Hks & Hps & -> & ->). split; [now constructor|]. split.
      { apply Forall_app. split; [|assumption]. unfold tr. rewrite Forall_map. exact Hp. }
      split.
      - f_equal. apply rows_of_ext. intros pi a _ _. now rewrite triples_cons, w_from_app.
      - apply map_ext. intros e. unfold mentioned, Sstep.
        rewrite triples_cons, existsb_app, mentioned_tr, orb_assoc; reflexivity.
    Qed.

    Context (Hwf : WFnames_tables infos singles).

    Lemma name_not_single pi e : In pi infos -> In e singles -> pi_name pi <> fst e.
    Proof.
      destruct Hwf as [Hnd _]. apply NoDup_app_iff in Hnd as (_ & _ & Hd).
      intros Hpi He Heq. apply (Hd (pi_name pi)); [now apply in_map|]. rewrite Heq. now apply in_map.
    Qed.

    Lemma slow_loop_spec : forall (strat : list (N * list (N * T))) F S,
      LoopSpec strat F S
        (slow_loop infos (offsets (map arity infos) 0) singles strat
                   (concat (rows_of infos F)) (map (fun e => S (fst e)) singles)).
    Proof.
      destruct (WFtables_names _ _ Hwf) as [Hn Hs]. pose proof (WFtables_actions _ _ Hwf) as Ha.
      induction strat as [|[name es] rest IH]; intros F S; cbn [slow_loop]; [apply LoopSpec_nil|].
      specialize (IH (Fstep name es F) (Sstep name es S)).
      pose proof (find_index_key pi_name _ name infos (fun y => N.eqb_eq _ _)) as Hfi.
      destruct (find_index (fun pi => N.eqb (pi_name pi) name) infos) as [[ind pi]|] eqn:Ef.
      - (* a multi-action infoset: the flags stay as they are *)
        destruct Hfi as (Hpi & Hname & _).
        pose proof (slow_multi_spec infos name ind pi Hn Ha Ef es F) as Hm.
        destruct (slow_multi _ _ es _) as [d1|e].
        + destruct Hm as [-> Hall]. apply Forall_and_inv in Hall as [Hl Hp].
          rewrite (map_ext_in _ (fun e => Sstep name es S (fst e))).
          * apply LoopSpec_cons; [left; exists pi; auto|assumption|exact IH].
          * intros e He. symmetry. apply Sstep_other. rewrite <- Hname. now apply name_not_single.
        + eapply EntryErr_LoopErr; [|exact Hm]. intros a Hbad. left. exists pi. auto.
      - (* not a multi-action infoset: the weights stay as they are *)
        fold (key_is name).
        pose proof (find_index_key fst (key_is name) name singles (fun y => N.eqb_eq _ _)) as Hfs.
        destruct (find_index (key_is name) singles) as [[ind [i act]]|] eqn:Es;
          [|exists (name, es); split; [now left|now split]].
        destruct Hfs as (Hin & Hkey & Hnth). cbn [fst] in Hkey. subst i.
        destruct (Hnth (name, act)) as [Hind Hnth'].
        rewrite nth_map_lt with (d := (name, act)), Hnth' by assumption. cbn [fst].
        pose proof (slow_single_spec act es (S name)) as Hsg.
        destruct (slow_single act es (S name)) as [b|e].
        + destruct Hsg as [-> Hall]. apply Forall_and_inv in Hall as [Hl Hp].
          rewrite upd_map_key with (key := fst) (k := name) (f := key_is name) (x := (name, act))
                                   (G' := fun e => Sstep name es S (fst e)); try assumption.
          * rewrite (rows_of_ext infos F (Fstep name es F)).
            -- apply LoopSpec_cons; [right; exists act; auto|assumption|exact IH].
            -- intros pi a Hpi _. symmetry. apply Fstep_other. intros Heq. apply Hfi.
               rewrite Heq. now apply in_map.
          * intros y. apply N.eqb_eq.
          * unfold Sstep; cbn [fst]. now rewrite N.eqb_refl.
          * intros y _ Hy. apply Sstep_other. apply N.eqb_neq in Hy. congruence.
        + eapply EntryErr_LoopErr; [|exact Hsg]. intros a Hbad. right. exists act. auto.
    Qed.

    Lemma import_loop_spec (strat : list (N * list (N * T))) :
      LoopSpec strat (fun _ _ => zero NN) (fun _ => false)
        (slow_loop infos (offsets (map arity infos) 0) singles strat
                   (repeat (zero NN) (fold_left Nat.add (map arity infos) 0))
                   (repeat false (length singles))).
    Proof.
      rewrite <- rows_of_const, <- (map_const_repeat false singles). apply slow_loop_spec.
    Qed.
  End Loop.
End Import.
