(** * LoopGeneric: early termination (property C09) for every number type, and at binary64.

    The first part restates the theorems of [LoopCore.v] (by [exact]) under definitions with
    prefix [G]; these are the ones of [LoopCore.v] (prefix [L]) and, at [RNum], of
    [LoopProofs.v] (no prefix), up to conversion.  Nothing is assumed about the arithmetic
    of [NN].  The second part (prefix [F]) reads them at the executed instance [FNum] with
    the test [fun b => PrimFloat.ltb b r] and proves that a NaN threshold never shortens a
    run at binary64. *)
From Coq Require Import List NArith Bool.
From Cfr.theories Require Import Num Tree Strat Eval Solve LoopCore.
Import ListNotations.

Fixpoint Gfirst_fire (f : nat -> bool) (rem t : nat) : nat :=
  match rem with
  | O => t
  | S r => if f (S t) then S t else Gfirst_fire f r (S t)
  end.

Section Generic.
  Context {NN : Num}.
  Local Notation T := (T NN).

  Definition Gnever : T -> bool := fun _ => false.

  Definition Gregs_bound (regs : option (T * T)) : option T :=
    match regs with Some (b1, b2) => Some (fmax NN b1 b2) | None => None end.

  Definition Gfires (stop : T -> bool) (ob : option T) : bool :=
    match ob with Some b => stop b | None => false end.

  Section Loop.
    Context (g : @game NN) (m : method) (draw : @oracle NN) (p : @params NN).

    Local Notation loop := (@solve_loop NN g m draw p).
    Local Notation pstate := (@pstate NN).

    Definition Gbound_from (it : N) (st : pstate) (k : nat) : option T :=
      Gregs_bound (snd (fst (loop Gnever k it st None 0%N))).

    Lemma Gloop_stop_never (stop : T -> bool) rem it (st : pstate) regs ran :
      loop stop rem it st regs ran =
      loop Gnever (Gfirst_fire (fun k => Gfires stop (Gbound_from it st k)) rem 0) it st regs ran.
    Proof. exact (Lloop_stop_never g m draw p stop rem it st regs ran). Qed.
  End Loop.

  Definition Gbound_at (g : @game NN) (m : method) (draw : @oracle NN) (p : @params NN)
             (t : nat) : option T :=
    Gregs_bound (snd (fst (@solve_single NN g m draw p t Gnever))).

  Definition Gtstar (g : @game NN) (m : method) (draw : @oracle NN) (p : @params NN)
             (stop : T -> bool) (N : nat) : nat :=
    Gfirst_fire (fun t => Gfires stop (Gbound_at g m draw p t)) N 0.

  Section Single.
    Context (g : @game NN) (m : method) (draw : @oracle NN) (p : @params NN).

    Lemma Gbound_at_0 : Gbound_at g m draw p 0 = None.
    Proof. reflexivity. Qed.

    Lemma Gtstar_spec (stop : T -> bool) N :
      let k := Gtstar g m draw p stop N in
      (k <= N)%nat /\ ((1 <= N)%nat -> (1 <= k)%nat) /\
      (forall j, (1 <= j < k)%nat -> Gfires stop (Gbound_at g m draw p j) = false) /\
      ((k < N)%nat -> Gfires stop (Gbound_at g m draw p k) = true).
    Proof. exact (Ltstar_spec g m draw p stop N). Qed.

    Lemma Gtstar_least (stop : T -> bool) N j :
      (1 <= j <= N)%nat -> Gfires stop (Gbound_at g m draw p j) = true ->
      (Gtstar g m draw p stop N <= j)%nat /\
      Gfires stop (Gbound_at g m draw p (Gtstar g m draw p stop N)) = true.
    Proof. exact (Ltstar_least g m draw p stop N j). Qed.

    Lemma Gtstar_none (stop : T -> bool) N :
      (forall j, (1 <= j <= N)%nat -> Gfires stop (Gbound_at g m draw p j) = false) ->
      Gtstar g m draw p stop N = N.
    Proof. exact (Ltstar_none g m draw p stop N). Qed.

    Lemma Gtstar_ext (stop stop' : T -> bool) N :
      (forall b, stop b = stop' b) -> Gtstar g m draw p stop N = Gtstar g m draw p stop' N.
    Proof. exact (Ltstar_ext g m draw p stop stop' N). Qed.

    (** C09.1: a thresholded solve is the unthresholded solve with budget [Gtstar] *)
    Lemma Gearly_stop_exact (stop : T -> bool) N :
      @solve_single NN g m draw p N stop =
      @solve_single NN g m draw p (Gtstar g m draw p stop N) Gnever.
    Proof. exact (Learly_stop_exact g m draw p stop N). Qed.

    Lemma Gsolve_single_never_ran k :
      snd (@solve_single NN g m draw p k Gnever) = N.of_nat k.
    Proof. exact (Lsolve_single_never_ran g m draw p k). Qed.

    Lemma Giterations_run (stop : T -> bool) N :
      snd (@solve_single NN g m draw p N stop) = N.of_nat (Gtstar g m draw p stop N) /\
      snd (@solve_single NN g m draw p (Gtstar g m draw p stop N) Gnever) =
      N.of_nat (Gtstar g m draw p stop N).
    Proof. split; [exact (Learly_stop_ran g m draw p stop N)|apply Gsolve_single_never_ran]. Qed.

    (** C09.2 *)
    Lemma Gbudget_never_exceeded (stop : T -> bool) N strats regs ran :
      @solve_single NN g m draw p N stop = (strats, regs, ran) ->
      (ran <= N.of_nat N)%N /\
      ((1 <= N)%nat -> (1 <= ran)%N /\ exists b1 b2, regs = Some (b1, b2)) /\
      ((ran < N.of_nat N)%N ->
       exists b1 b2, regs = Some (b1, b2) /\ stop (fmax NN b1 b2) = true).
    Proof. exact (Lbudget_never_exceeded g m draw p stop N strats regs ran). Qed.

    (** [stop] fired on the returned bound whenever fewer iterations ran than the budget;
        for the threshold test [stop_at r] this reads [ltb NN (fmax NN b1 b2) r = true] *)
    Lemma Gbelow_threshold_when_short (stop : T -> bool) N strats regs ran :
      @solve_single NN g m draw p N stop = (strats, regs, ran) ->
      (ran < N.of_nat N)%N ->
      exists b1 b2, regs = Some (b1, b2) /\ stop (fmax NN b1 b2) = true.
    Proof. intros H. exact (proj2 (proj2 (Gbudget_never_exceeded stop N strats regs ran H))). Qed.

    Lemma Gbelow_threshold_when_short_at (r : T) N strats regs ran :
      @solve_single NN g m draw p N (@stop_at NN r) = (strats, regs, ran) ->
      (ran < N.of_nat N)%N ->
      exists b1 b2, regs = Some (b1, b2) /\ ltb NN (fmax NN b1 b2) r = true.
    Proof. exact (Gbelow_threshold_when_short (@stop_at NN r) N strats regs ran). Qed.

    Lemma Gsolve_single_ext (stop stop' : T -> bool) N :
      (forall b, stop b = stop' b) ->
      @solve_single NN g m draw p N stop = @solve_single NN g m draw p N stop'.
    Proof. exact (Lsolve_single_ext g m draw p stop stop' N). Qed.

    Lemma Gnever_stops (stop : T -> bool) N :
      (forall b, stop b = false) ->
      @solve_single NN g m draw p N stop = @solve_single NN g m draw p N Gnever.
    Proof. exact (Gsolve_single_ext stop Gnever N). Qed.

    Lemma Gnever_fires_never_stops (stop : T -> bool) N :
      (forall j, (1 <= j <= N)%nat -> Gfires stop (Gbound_at g m draw p j) = false) ->
      @solve_single NN g m draw p N stop = @solve_single NN g m draw p N Gnever.
    Proof. exact (Lnever_fires_never_stops g m draw p stop N). Qed.
  End Single.
End Generic.

(** * The executed binary64 instance [FNum]

    The threshold test of the code, [max(b1,b2) < max_reg], is
    [stop_at r = fun b => PrimFloat.ltb b r] with [fmax FNum = f_max] (f64::max).
    Nothing about the float arithmetic of the iteration is used: the statements
    below are the generic ones read at [FNum], plus the IEEE facts about [<] and
    NaN ([FloatAxioms.ltb_spec], [eqb_spec]).  That the bounds are non-negative is a fact
    about the arithmetic ([SolveFloat.v], under its range hypothesis), so nothing is
    claimed here about zero or negative thresholds. *)
From Coq Require Import Floats ZArith.
From Cfr.theories Require Import FInst.

Section FloatFacts.
  Open Scope float_scope.

  Lemma F_Prim2SF_nan : Prim2SF nan = S754_nan.
  Proof. reflexivity. Qed.

  Lemma F_SFltb_nan_r x : SFltb x S754_nan = false.
  Proof. destruct x as [s| s| |s mm e]; reflexivity. Qed.

  Lemma F_SFltb_nan_l x : SFltb S754_nan x = false.
  Proof. reflexivity. Qed.

  Lemma F_ltb_nan_r (b : float) : (b <? nan) = false.
  Proof. rewrite ltb_spec, F_Prim2SF_nan. apply F_SFltb_nan_r. Qed.

  Lemma F_ltb_nan_l (r : float) : (nan <? r) = false.
  Proof. rewrite ltb_spec, F_Prim2SF_nan. apply F_SFltb_nan_l. Qed.

  Lemma F_SFeqb_refl x : x <> S754_nan -> SFeqb x x = true.
  Proof.
    intros Hx. destruct x as [s| s| |s mm e]; [reflexivity|destruct s; reflexivity|congruence|].
    unfold SFeqb, SFcompare. rewrite Z.compare_refl.
    destruct s; rewrite Pos.compare_cont_refl; reflexivity.
  Qed.

  (** the model's [is_nan] ([x != x]) recognises exactly the (unique) NaN *)
  Lemma F_is_nan_spec (r : float) : f_is_nan r = true <-> r = nan.
  Proof.
    split.
    - intros H. apply Prim2SF_inj. rewrite F_Prim2SF_nan.
      unfold f_is_nan in H. rewrite eqb_spec in H.
      destruct (Prim2SF r) as [s| s| |s mm e] eqn:E; [| |reflexivity|];
        rewrite F_SFeqb_refl in H by discriminate; discriminate.
    - intros ->. reflexivity.
  Qed.

  Lemma F_ltb_is_nan_r (b r : float) : f_is_nan r = true -> (b <? r) = false.
  Proof. intros H. apply F_is_nan_spec in H. subst r. apply F_ltb_nan_r. Qed.

  Lemma F_ltb_is_nan_l (b r : float) : f_is_nan b = true -> (b <? r) = false.
  Proof. intros H. apply F_is_nan_spec in H. subst b. apply F_ltb_nan_l. Qed.

  Lemma F_ltb_true_not_nan (b r : float) :
    (b <? r) = true -> f_is_nan b = false /\ f_is_nan r = false.
  Proof.
    intros H. split.
    - destruct (f_is_nan b) eqn:E; [|reflexivity]. rewrite F_ltb_is_nan_l in H by exact E. discriminate.
    - destruct (f_is_nan r) eqn:E; [|reflexivity]. rewrite F_ltb_is_nan_r in H by exact E. discriminate.
  Qed.
End FloatFacts.

Section FloatLoop.
  Context (g : @game FNum) (m : method) (draw : @oracle FNum) (p : @params FNum).

  (** the threshold test of the code at binary64 *)
  Definition Fstop (r : float) : float -> bool := fun b => PrimFloat.ltb b r.

  Lemma Fstop_is_stop_at (r : float) : Fstop r = @stop_at FNum r.
  Proof. reflexivity. Qed.

  Lemma F_fmax_is_f_max : fmax FNum = f_max.
  Proof. reflexivity. Qed.

  (** C09.1 at binary64: the run with threshold [r] and budget [N] returns exactly
      (strategies, bounds, iteration count -- bit for bit) what the run without a
      threshold returns with budget [t*] *)
  Lemma F_early_stop_exact (r : float) N :
    @solve_single FNum g m draw p N (fun b => PrimFloat.ltb b r) =
    @solve_single FNum g m draw p (Gtstar g m draw p (fun b => PrimFloat.ltb b r) N) Gnever.
  Proof. exact (Gearly_stop_exact g m draw p (Fstop r) N). Qed.

  Lemma F_iterations_run (r : float) N :
    snd (@solve_single FNum g m draw p N (fun b => PrimFloat.ltb b r)) =
    N.of_nat (Gtstar g m draw p (fun b => PrimFloat.ltb b r) N).
  Proof. exact (Learly_stop_ran g m draw p (Fstop r) N). Qed.

  Lemma F_tstar_spec (r : float) N :
    let k := Gtstar g m draw p (fun b => PrimFloat.ltb b r) N in
    (k <= N)%nat /\ ((1 <= N)%nat -> (1 <= k)%nat) /\
    (forall j, (1 <= j < k)%nat ->
               @Gfires FNum (fun b => PrimFloat.ltb b r) (Gbound_at g m draw p j) = false) /\
    ((k < N)%nat -> @Gfires FNum (fun b => PrimFloat.ltb b r) (Gbound_at g m draw p k) = true).
  Proof. exact (Gtstar_spec g m draw p (Fstop r) N). Qed.

  (** C09.2 at binary64 *)
  Lemma F_budget_never_exceeded (r : float) N strats regs ran :
    @solve_single FNum g m draw p N (fun b => PrimFloat.ltb b r) = (strats, regs, ran) ->
    (ran <= N.of_nat N)%N /\
    ((1 <= N)%nat -> (1 <= ran)%N /\ exists b1 b2, regs = Some (b1, b2)) /\
    ((ran < N.of_nat N)%N ->
     exists b1 b2, regs = Some (b1, b2) /\ PrimFloat.ltb (f_max b1 b2) r = true).
  Proof. exact (Gbudget_never_exceeded g m draw p (Fstop r) N strats regs ran). Qed.

  (** a run that stops short returns a total bound strictly below the threshold in
      the IEEE sense; in particular neither the bound nor the threshold is NaN *)
  Lemma F_below_threshold_when_short (r : float) N strats regs ran :
    @solve_single FNum g m draw p N (fun b => PrimFloat.ltb b r) = (strats, regs, ran) ->
    (ran < N.of_nat N)%N ->
    exists b1 b2, regs = Some (b1, b2) /\ PrimFloat.ltb (f_max b1 b2) r = true /\
                  f_is_nan (f_max b1 b2) = false /\ f_is_nan r = false.
  Proof.
    intros H Hlt.
    destruct (Gbelow_threshold_when_short g m draw p (Fstop r) N strats regs ran H Hlt)
      as (b1 & b2 & -> & Hs).
    exists b1, b2. split; [reflexivity|]. split; [exact Hs|].
    apply F_ltb_true_not_nan. exact Hs.
  Qed.

  (** a NaN threshold never shortens a run at binary64: same strategies, same
      bounds, same iteration count as the run without a threshold, and the whole
      budget is run *)
  Lemma F_nan_threshold_never_stops N :
    @solve_single FNum g m draw p N (fun b => PrimFloat.ltb b nan) =
    @solve_single FNum g m draw p N Gnever.
  Proof. apply Gnever_stops. intros b. apply F_ltb_nan_r. Qed.

  Lemma F_is_nan_threshold_never_stops (r : float) N :
    f_is_nan r = true ->
    @solve_single FNum g m draw p N (fun b => PrimFloat.ltb b r) =
    @solve_single FNum g m draw p N Gnever /\
    snd (@solve_single FNum g m draw p N (fun b => PrimFloat.ltb b r)) = N.of_nat N /\
    Gtstar g m draw p (fun b => PrimFloat.ltb b r) N = N.
  Proof.
    intros Hr.
    assert (Hs : forall b, PrimFloat.ltb b r = false) by (intros b; apply F_ltb_is_nan_r; exact Hr).
    pose proof (Gnever_stops g m draw p (fun b => PrimFloat.ltb b r) N Hs) as E.
    split; [exact E|]. split; [rewrite E; apply Gsolve_single_never_ran|].
    apply Gtstar_none. intros j _. destruct (Gbound_at g m draw p j) as [b|]; [apply Hs|reflexivity].
  Qed.

  Lemma F_stop_at_nan_never_stops (r : T FNum) N :
    Num.is_nan FNum r = true ->
    @solve_single FNum g m draw p N (@stop_at FNum r) = @solve_single FNum g m draw p N Gnever.
  Proof. intros Hr. exact (proj1 (F_is_nan_threshold_never_stops r N Hr)). Qed.

  (** an iteration whose total bound is NaN never triggers the test, whatever [r] *)
  Lemma F_nan_bound_does_not_fire (r b : float) :
    f_is_nan b = true -> @Gfires FNum (fun x => PrimFloat.ltb x r) (Some b) = false.
  Proof. intros Hb. cbn [Gfires]. apply F_ltb_is_nan_l. exact Hb. Qed.
End FloatLoop.

(** * Consistency with [LoopProofs.v]: at [NN := RNum] the generic vocabulary IS
    the one of the real-number development, so the generic theorems specialise to
    the C09 theorems stated there. *)
From Cfr.theories Require RInst LoopProofs.

Lemma Gfirst_fire_is_first_fire f rem t : Gfirst_fire f rem t = LoopProofs.first_fire f rem t.
Proof. reflexivity. Qed.

Lemma Gnever_RNum : @Gnever RInst.RNum = LoopProofs.never.
Proof. reflexivity. Qed.

Lemma Gfires_RNum : @Gfires RInst.RNum = LoopProofs.fires.
Proof. reflexivity. Qed.

Lemma Gbound_at_RNum g m draw p t :
  @Gbound_at RInst.RNum g m draw p t = LoopProofs.bound_at g m draw p t.
Proof. reflexivity. Qed.

Lemma Gtstar_RNum g m draw p stop N :
  @Gtstar RInst.RNum g m draw p stop N = LoopProofs.tstar g m draw p stop N.
Proof. reflexivity. Qed.
