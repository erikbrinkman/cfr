(** * CliNamesProofs: the infoset-name resolution of the Gambit reader
    ([get_global_info] of [gambit.rs], modelled by [given_names], [infoset_numbers],
    [final_names] in [Cli.v]).

    GENERIC: everything in this file holds for every arithmetic instance [NN : Num]
    (names are numbers; no arithmetic is involved), hence for the real instance and the
    binary64 instance alike. *)
From Coq Require Import List NArith Bool Arith Lia.
From Cfr.theories Require Import Num ListAux Tree Strat StratAgreeProofs Cli.
Import ListNotations.

Lemma existsb_Neqb x l : existsb (N.eqb x) l = true <-> In x l.
Proof.
  rewrite existsb_exists. split.
  - intros (y & Hy & E). apply N.eqb_eq in E. now subst.
  - intros H. exists x. split; [assumption|apply N.eqb_refl].
Qed.

Lemma NoDup_snoc {A} (l : list A) x : NoDup l -> ~ In x l -> NoDup (l ++ [x]).
Proof.
  intros Hd Hx. apply NoDup_app_iff. split; [assumption|]. split; [repeat constructor; intros []|].
  intros y Hy [<-|[]]. contradiction.
Qed.

Lemma alookup_none {A} k (l : list (N * A)) : alookup k l = None <-> ~ In k (map fst l).
Proof.
  induction l as [|[k' v] l IH]; cbn [alookup map fst In]; [tauto|].
  destruct (N.eqb k k') eqn:E.
  - apply N.eqb_eq in E. subst. split; [discriminate|]. intros H. exfalso. apply H. now left.
  - apply N.eqb_neq in E. rewrite IH. split; [intros H [C|C]; [congruence|contradiction]|tauto].
Qed.

Lemma alookup_existsb {A} k (l : list (N * A)) :
  existsb (N.eqb k) (map fst l) = match alookup k l with Some _ => true | None => false end.
Proof.
  induction l as [|[k' v] l IH]; cbn [alookup map fst existsb]; [reflexivity|].
  now destruct (N.eqb k k').
Qed.

Lemma alookup_some_in {A} k (l : list (N * A)) v : alookup k l = Some v -> In (k, v) l.
Proof.
  induction l as [|[k' v'] l IH]; cbn [alookup In]; [discriminate|].
  destruct (N.eqb k k') eqn:E.
  - apply N.eqb_eq in E. intros H; inversion H; subst. now left.
  - intros H. right. now apply IH.
Qed.

Lemma alookup_in_nodup {A} k (l : list (N * A)) v :
  NoDup (map fst l) -> In (k, v) l -> alookup k l = Some v.
Proof.
  induction l as [|[k' v'] l IH]; cbn [alookup In map fst]; [intros _ []|].
  intros Hd [H|H]; inversion Hd as [|? ? Hn Hd']; subst.
  - inversion H; subst. now rewrite N.eqb_refl.
  - destruct (N.eqb k k') eqn:E; [|now apply IH].
    apply N.eqb_eq in E. subst. exfalso. apply Hn. apply in_map_iff. exists (k', v); auto.
Qed.

Lemma alookup_app {A} k (l1 l2 : list (N * A)) :
  alookup k (l1 ++ l2) = match alookup k l1 with Some v => Some v | None => alookup k l2 end.
Proof.
  induction l1 as [|[k' v] l1 IH]; cbn [alookup app]; [reflexivity|].
  destruct (N.eqb k k'); [reflexivity|exact IH].
Qed.

(** a name carried by two different keys: what [nodupb] on the names detects *)
Lemma dup_names_iff (l : list (N * N)) :
  NoDup (map fst l) ->
  (nodupb (map snd l) = false <->
   exists k1 k2 nm, k1 <> k2 /\ In (k1, nm) l /\ In (k2, nm) l).
Proof.
  induction l as [|[k nm] l IH]; intros Hd; cbn [map fst snd nodupb].
  - split; [discriminate|]. now intros (k1 & k2 & n & _ & [] & _).
  - apply NoDup_cons_iff in Hd as [Hn Hd].
    assert (Hhd : existsb (N.eqb nm) (map snd l) = true <-> exists k2, In (k2, nm) l).
    { rewrite existsb_Neqb, in_map_iff. split.
      - intros ([k2 n] & <- & H). exists k2; auto.
      - intros (k2 & H). exists (k2, nm); auto. }
    rewrite andb_false_iff, negb_false_iff, Hhd, (IH Hd). split.
    + intros [(k2 & H)|(k1 & k2 & n & Hne & H1 & H2)].
      * exists k, k2, nm. split; [|split; [now left|now right]].
        intros ->. apply Hn. exact (in_map fst _ _ H).
      * exists k1, k2, n. split; [assumption|]. split; now right.
    + intros (k1 & k2 & n & Hne & H1 & H2). destruct H1 as [H1|H1], H2 as [H2|H2].
      * congruence.
      * inversion H1; subst. left. exists k2; auto.
      * inversion H2; subst. left. exists k1; auto.
      * right. exists k1, k2, n; auto.
Qed.

Lemma fold_left_ext {A B} (f g : A -> B -> A) l :
  (forall a b, f a b = g a b) -> forall acc, fold_left f l acc = fold_left g l acc.
Proof. intros H. induction l as [|x l IH]; intros acc; cbn [fold_left]; [reflexivity|]. now rewrite H. Qed.

(** ** A fold that appends what has a new key: [cand b] is what [b] contributes *)
Section AddNew.
  Context {A B : Type} (key : A -> N) (cand : B -> option A).

  Definition add_new (acc : list A) (b : B) : list A :=
    match cand b with
    | Some x => if existsb (N.eqb (key x)) (map key acc) then acc else acc ++ [x]
    | None => acc
    end.

  Lemma add_new_step acc b :
    NoDup (map key acc) ->
    NoDup (map key (add_new acc b)) /\ incl acc (add_new acc b) /\
    (forall x, In x (add_new acc b) -> In x acc \/ cand b = Some x) /\
    (forall x, cand b = Some x -> In (key x) (map key (add_new acc b))).
  Proof.
    intros Hd. unfold add_new. destruct (cand b) as [x|]; [|repeat split; auto using incl_refl; discriminate].
    destruct (existsb _ _) eqn:E.
    - apply existsb_Neqb in E. repeat split; auto using incl_refl. intros x' Hx. now inversion Hx; subst.
    - assert (Hn : ~ In (key x) (map key acc)) by (rewrite <- existsb_Neqb; congruence).
      split; [rewrite map_app; now apply NoDup_snoc|]. split; [apply incl_appl, incl_refl|]. split.
      + intros x' Hx'. apply in_app_or in Hx' as [H|[<-|[]]]; auto.
      + intros x' Hx'. inversion Hx'; subst. apply in_map, in_or_app. right; now left.
  Qed.

  Lemma add_new_fold l : forall acc,
    NoDup (map key acc) ->
    NoDup (map key (fold_left add_new l acc)) /\ incl acc (fold_left add_new l acc) /\
    (forall x, In x (fold_left add_new l acc) -> In x acc \/ exists b, In b l /\ cand b = Some x) /\
    (forall b x, In b l -> cand b = Some x -> In (key x) (map key (fold_left add_new l acc))).
  Proof.
    induction l as [|b l IH]; intros acc Hd; cbn [fold_left].
    - repeat split; auto using incl_refl. intros b x [].
    - destruct (add_new_step acc b Hd) as (S1 & S2 & S3 & S4). destruct (IH _ S1) as (I1 & I2 & I3 & I4).
      split; [assumption|]. split; [eapply incl_tran; eassumption|]. split.
      + intros x Hx. apply I3 in Hx as [Hx|(b' & Hb & Hx)]; [|right; exists b'; split; [now right|assumption]].
        apply S3 in Hx as [Hx|Hx]; [now left|]. right. exists b. split; [now left|assumption].
      + intros b' x [<-|Hb] Hx; [|now apply (I4 b')]. now apply (incl_map key I2), S4.
  Qed.
End AddNew.

Section Names.
  Context {NN : Num}.
  Local Notation T := (T NN).
  Local Notation enode := (@enode NN).

  Fixpoint enode_ind' (P : enode -> Prop)
           (HT : forall oid pay, P (ETerm oid pay))
           (HC : forall info acts oid pay,
               Forall (fun e => P (snd e)) acts -> P (EChance info acts oid pay))
           (HP : forall pl info name acts oid pay,
               Forall (fun e => P (snd e)) acts -> P (EPlayer pl info name acts oid pay))
           (n : enode) : P n :=
    match n with
    | ETerm oid pay => HT oid pay
    | EChance info acts oid pay =>
        HC info acts oid pay
           ((fix go (l : list (N * T * enode)) : Forall (fun e => P (snd e)) l :=
               match l with
               | [] => Forall_nil _
               | e :: r => Forall_cons e (enode_ind' P HT HC HP (snd e)) (go r)
               end) acts)
    | EPlayer pl info name acts oid pay =>
        HP pl info name acts oid pay
           ((fix go (l : list (N * enode)) : Forall (fun e => P (snd e)) l :=
               match l with
               | [] => Forall_nil _
               | e :: r => Forall_cons e (enode_ind' P HT HC HP (snd e)) (go r)
               end) acts)
    end.

  (** ** The nodes of a file in the order of [e_fold] (depth first, first child first) *)
  Fixpoint enodes (n : enode) : list enode :=
    n :: match n with
         | ETerm _ _ => []
         | EChance _ acts _ _ =>
             (fix go (l : list (N * T * enode)) : list enode :=
                match l with [] => [] | (_, _, c) :: r => enodes c ++ go r end) acts
         | EPlayer _ _ _ acts _ _ =>
             (fix go (l : list (N * enode)) : list enode :=
                match l with [] => [] | (_, c) :: r => enodes c ++ go r end) acts
         end.

  Lemma enodes_EChance info (acts : list (N * T * enode)) oid pay :
    enodes (EChance info acts oid pay) =
    EChance info acts oid pay :: flat_map (fun e => enodes (snd e)) acts.
  Proof.
    cbn [enodes]. apply f_equal.
    induction acts as [|[[a p] c] r IH]; [reflexivity|]. cbn [flat_map snd]. now rewrite <- IH.
  Qed.

  Lemma enodes_EPlayer pl info name (acts : list (N * enode)) oid pay :
    enodes (EPlayer pl info name acts oid pay) =
    EPlayer pl info name acts oid pay :: flat_map (fun e => enodes (snd e)) acts.
  Proof.
    cbn [enodes]. apply f_equal.
    induction acts as [|[a c] r IH]; [reflexivity|]. cbn [flat_map snd]. now rewrite <- IH.
  Qed.

  Theorem e_fold_enodes {A} (f : enode -> A -> A) (n : enode) : forall acc,
    e_fold f n acc = fold_left (fun a m => f m a) (enodes n) acc.
  Proof.
    induction n as [oid pay|info acts oid pay IH|pl info name acts oid pay IH] using enode_ind';
      intros acc.
    - reflexivity.
    - rewrite enodes_EChance. cbn [e_fold fold_left].
      generalize (f (EChance info acts oid pay) acc) as acc0.
      induction IH as [|[[a p] c] r Hc Hr IHr]; intros acc0; [reflexivity|].
      cbn [flat_map snd] in *. rewrite fold_left_app, <- Hc. apply IHr.
    - rewrite enodes_EPlayer. cbn [e_fold fold_left].
      generalize (f (EPlayer pl info name acts oid pay) acc) as acc0.
      induction IH as [|[a c] r Hc Hr IHr]; intros acc0; [reflexivity|].
      cbn [flat_map snd] in *. rewrite fold_left_app, <- Hc. apply IHr.
  Qed.

  (** ** Decision nodes: (player, infoset number, given name) *)
  Definition header (n : enode) : option (bool * N * option N) :=
    match n with
    | EPlayer pl info name _ _ _ => Some (pl, info, name)
    | _ => None
    end.

  (** infoset number [k] of player [me] occurs in the file *)
  Definition has_infoset (me : bool) (root : enode) (k : N) : Prop :=
    exists n name, In n (enodes root) /\ header n = Some (me, k, name).

  (** some node of infoset [k] of player [me] carries the name [nm] *)
  Definition has_name (me : bool) (root : enode) (k nm : N) : Prop :=
    exists n, In n (enodes root) /\ header n = Some (me, k, Some nm).

  Definition mine (me : bool) (n : enode) : option (N * option N) :=
    match header n with
    | Some (pl, info, name) => if Bool.eqb pl me then Some (info, name) else None
    | None => None
    end.

  Lemma mine_iff me n k name : mine me n = Some (k, name) <-> header n = Some (me, k, name).
  Proof.
    unfold mine. destruct (header n) as [[[pl info] nm]|]; [|split; discriminate].
    destruct (Bool.eqb pl me) eqn:E.
    - apply eqb_prop in E. subst pl. split; intros H; now inversion H.
    - split; [discriminate|]. intros H; inversion H; subst. now rewrite eqb_reflx in E.
  Qed.

  Definition num_cand (me : bool) (n : enode) : option N := option_map fst (mine me n).

  Lemma num_cand_iff me n k : num_cand me n = Some k <-> exists name, header n = Some (me, k, name).
  Proof.
    unfold num_cand. setoid_rewrite <- mine_iff. destruct (mine me n) as [[k' name]|]; cbn [option_map fst].
    - split; [intros H; inversion H; exists name; auto|intros (nm & H); now inversion H].
    - split; [discriminate|intros (nm & H); discriminate].
  Qed.

  Lemma infoset_numbers_fold me (root : enode) :
    infoset_numbers me root = fold_left (add_new (fun k => k) (num_cand me)) (enodes root) [].
  Proof.
    unfold infoset_numbers. rewrite e_fold_enodes. apply fold_left_ext. intros acc n.
    destruct n as [oid pay|info acts oid pay|pl info name acts oid pay]; try reflexivity.
    unfold add_new, num_cand, mine; cbn [header]. destruct (Bool.eqb pl me); [|reflexivity].
    cbn [option_map fst andb]. rewrite map_id. now destruct (existsb _ acc).
  Qed.

  Theorem infoset_numbers_nodup me (root : enode) : NoDup (infoset_numbers me root).
  Proof.
    rewrite infoset_numbers_fold, <- map_id. now apply add_new_fold; constructor.
  Qed.

  Theorem infoset_numbers_in me (root : enode) k : In k (infoset_numbers me root) <-> has_infoset me root k.
  Proof.
    rewrite infoset_numbers_fold.
    destruct (add_new_fold (fun k => k) (num_cand me) (enodes root) [] (NoDup_nil _)) as (_ & _ & H3 & H4).
    split.
    - intros H. apply H3 in H as [[]|(n & Hn & Hc)]. apply num_cand_iff in Hc as [name Hh]. exists n, name; auto.
    - intros (n & name & Hn & Hh). rewrite <- map_id. apply (H4 n k Hn). apply num_cand_iff. exists name; auto.
  Qed.

  Definition name_cand (me : bool) (n : enode) : option (N * N) :=
    match mine me n with Some (k, Some nm) => Some (k, nm) | _ => None end.

  Lemma name_cand_iff me n k nm : name_cand me n = Some (k, nm) <-> header n = Some (me, k, Some nm).
  Proof.
    unfold name_cand. rewrite <- mine_iff. destruct (mine me n) as [[k' [nm'|]]|]; split; try discriminate;
      intros H; now inversion H.
  Qed.

  Lemma given_names_fold me (root : enode) :
    given_names me root = fold_left (add_new fst (name_cand me)) (enodes root) [].
  Proof.
    unfold given_names. rewrite e_fold_enodes. apply fold_left_ext. intros acc n.
    destruct n as [oid pay|info acts oid pay|pl info [nm|] acts oid pay]; try reflexivity.
    - unfold add_new, name_cand, mine; cbn [header]. destruct (Bool.eqb pl me); [|reflexivity].
      cbn [fst]. rewrite alookup_existsb. now destruct (alookup info acc).
    - unfold add_new, name_cand, mine; cbn [header]. now destruct (Bool.eqb pl me).
  Qed.

  Theorem given_names_nodup me (root : enode) : NoDup (map fst (given_names me root)).
  Proof. rewrite given_names_fold. now apply add_new_fold; constructor. Qed.

  Theorem given_names_in me (root : enode) k nm : In (k, nm) (given_names me root) -> has_name me root k nm.
  Proof.
    rewrite given_names_fold. intros H. apply add_new_fold in H as [[]|(n & Hn & Hc)]; [|constructor].
    apply name_cand_iff in Hc. exists n; auto.
  Qed.

  Theorem given_names_keys me (root : enode) k :
    In k (map fst (given_names me root)) <-> exists nm, has_name me root k nm.
  Proof.
    split.
    - intros H. apply in_map_iff in H as ([k' nm] & <- & H). exists nm. now apply given_names_in.
    - intros (nm & n & Hn & Hh). rewrite given_names_fold.
      apply (add_new_fold fst (name_cand me) (enodes root) [] (NoDup_nil _)) with (b := n) (x := (k, nm));
        [assumption|now apply name_cand_iff].
  Qed.

  Definition unnamed_numbers (me : bool) (root : enode) : list N :=
    filter (fun k => match alookup k (given_names me root) with Some _ => false | None => true end)
           (infoset_numbers me root).

  Definition assigned_names (numname : N -> N) (me : bool) (root : enode) : list (N * N) :=
    given_names me root ++ map (fun k => (k, numname k)) (unnamed_numbers me root).

  Theorem unnamed_numbers_in me (root : enode) k :
    In k (unnamed_numbers me root) <->
    has_infoset me root k /\ ~ exists nm, has_name me root k nm.
  Proof.
    unfold unnamed_numbers. rewrite filter_In, infoset_numbers_in, <- given_names_keys.
    apply and_iff_compat_l. rewrite <- alookup_none. now destruct (alookup k (given_names me root)).
  Qed.

  Theorem assigned_names_keys_nodup numname me (root : enode) :
    NoDup (map fst (assigned_names numname me root)).
  Proof.
    unfold assigned_names. rewrite map_app, map_map. cbn [fst]. rewrite map_id.
    apply NoDup_app_iff. split; [apply given_names_nodup|].
    split; [apply NoDup_filter, infoset_numbers_nodup|].
    intros k Hk C. apply unnamed_numbers_in in C as [_ C]. apply C. now apply given_names_keys.
  Qed.

  Theorem assigned_names_keys numname me (root : enode) k :
    In k (map fst (assigned_names numname me root)) <-> has_infoset me root k.
  Proof.
    unfold assigned_names. rewrite map_app, map_map, in_app_iff. cbn [fst]. rewrite map_id.
    rewrite given_names_keys, unnamed_numbers_in. split.
    - intros [(nm & n & Hn & Hh)|[H _]]; [|assumption]. exists n, (Some nm); auto.
    - intros H. destruct (in_dec N.eq_dec k (map fst (given_names me root))) as [D|D];
        rewrite given_names_keys in D; [now left|now right].
  Qed.

  (** the first cause of the duplicate-infosets diagnostic: the decimal string of the
      number of an unnamed infoset is a given name of the same player *)
  Definition numeric_clash (numname : N -> N) (me : bool) (root : enode) : Prop :=
    exists k, In k (unnamed_numbers me root) /\ In (numname k) (map snd (given_names me root)).

  (** the second cause: two infoset numbers of the player with the same final name *)
  Definition same_name_clash (numname : N -> N) (me : bool) (root : enode) : Prop :=
    exists k1 k2 nm, k1 <> k2 /\ In (k1, nm) (assigned_names numname me root) /\
                     In (k2, nm) (assigned_names numname me root).

  Lemma final_names_eq numname me (root : enode) :
    final_names numname me root =
    if existsb (fun k => existsb (N.eqb (numname k)) (map snd (given_names me root)))
               (unnamed_numbers me root)
    then None
    else if nodupb (map snd (assigned_names numname me root))
         then Some (assigned_names numname me root) else None.
  Proof. reflexivity. Qed.

  Lemma numeric_clash_b numname me (root : enode) :
    existsb (fun k => existsb (N.eqb (numname k)) (map snd (given_names me root)))
            (unnamed_numbers me root) = true <-> numeric_clash numname me root.
  Proof. unfold numeric_clash. rewrite existsb_exists. now setoid_rewrite existsb_Neqb. Qed.

  Lemma same_name_clash_b numname me (root : enode) :
    nodupb (map snd (assigned_names numname me root)) = false <-> same_name_clash numname me root.
  Proof. apply dup_names_iff, assigned_names_keys_nodup. Qed.

  Theorem final_names_none_iff numname me (root : enode) :
    final_names numname me root = None <->
    numeric_clash numname me root \/ same_name_clash numname me root.
  Proof.
    rewrite final_names_eq, <- numeric_clash_b, <- same_name_clash_b.
    destruct (existsb _ (unnamed_numbers me root)); [split; auto|].
    destruct (nodupb _); split; auto; [discriminate|]. intros [C|C]; discriminate.
  Qed.

  Theorem final_names_some_iff numname me (root : enode) names :
    final_names numname me root = Some names <->
    names = assigned_names numname me root /\
    ~ numeric_clash numname me root /\ NoDup (map snd (assigned_names numname me root)).
  Proof.
    rewrite final_names_eq, <- numeric_clash_b, <- nodupb_iff.
    destruct (existsb _ (unnamed_numbers me root)).
    - split; [discriminate|]. intros (_ & C & _). now contradiction C.
    - destruct (nodupb _); split; try discriminate.
      + intros H; inversion H. repeat split. discriminate.
      + now intros (-> & _).
      + intros (_ & _ & C). discriminate.
  Qed.

  (** when the names are accepted, different infosets of a player have different names and
      every infoset of the player has one: no two infosets are merged, none is split *)
  Theorem final_names_injective numname me (root : enode) names k1 k2 nm :
    final_names numname me root = Some names ->
    In (k1, nm) names -> In (k2, nm) names -> k1 = k2.
  Proof.
    intros H H1 H2. apply final_names_some_iff in H as (-> & _ & Hd).
    destruct (N.eq_dec k1 k2) as [|Hne]; [assumption|]. apply nodupb_iff in Hd.
    assert (C : same_name_clash numname me root) by (exists k1, k2, nm; auto).
    apply same_name_clash_b in C. congruence.
  Qed.

  Theorem final_names_lookup numname me (root : enode) names k :
    final_names numname me root = Some names -> has_infoset me root k ->
    exists nm, alookup k names = Some nm.
  Proof.
    intros H Hk. apply final_names_some_iff in H as (-> & _ & _).
    destruct (alookup k (assigned_names numname me root)) as [nm|] eqn:E; [exists nm; auto|].
    apply alookup_none in E. exfalso. apply E. now apply assigned_names_keys.
  Qed.

  (** the parser's validation: the names written on the nodes of one infoset agree *)
  Definition names_consistent (me : bool) (root : enode) : Prop :=
    forall k nm nm', has_name me root k nm -> has_name me root k nm' -> nm = nm'.

  Theorem given_names_in_iff me (root : enode) k nm :
    names_consistent me root ->
    (In (k, nm) (given_names me root) <-> has_name me root k nm).
  Proof.
    intros Hc. split; [apply given_names_in|]. intros H.
    assert (Hk : In k (map fst (given_names me root))) by (apply given_names_keys; exists nm; auto).
    apply in_map_iff in Hk as ([k' nm'] & E & Hin). cbn [fst] in E. subst k'.
    rewrite (Hc k nm nm' H (given_names_in me root k nm' Hin)). exact Hin.
  Qed.

  (** the first cause, on the file itself: an infoset of the player none of whose nodes is
      named, and the string of its number is written as the name of another infoset of the
      same player *)
  Theorem numeric_clash_iff numname me (root : enode) :
    names_consistent me root ->
    (numeric_clash numname me root <->
     exists k k' : N, has_infoset me root k /\ ~ (exists nm : N, has_name me root k nm) /\
                      has_name me root k' (numname k)).
  Proof.
    intros Hc. unfold numeric_clash. split.
    - intros (k & Hk & Hin). apply unnamed_numbers_in in Hk as [H1 H2].
      apply in_map_iff in Hin as ([k' nm] & E & Hin). cbn [snd] in E. subst nm.
      exists k, k'. repeat split; [assumption|assumption|]. now apply given_names_in.
    - intros (k & k' & H1 & H2 & H3). exists k. split; [now apply unnamed_numbers_in|].
      apply in_map_iff. exists (k', numname k). split; [reflexivity|].
      now apply given_names_in_iff.
  Qed.

  (** ** The two players' name spaces are separate *)

  (** forget the names given to the infosets of player [who] *)
  Fixpoint erase_names (who : bool) (n : enode) : enode :=
    match n with
    | ETerm oid pay => ETerm oid pay
    | EChance info acts oid pay =>
        EChance info
                ((fix go (l : list (N * T * enode)) : list (N * T * enode) :=
                    match l with [] => [] | (a, p, c) :: r => (a, p, erase_names who c) :: go r end)
                   acts) oid pay
    | EPlayer pl info name acts oid pay =>
        EPlayer pl info (if Bool.eqb pl who then None else name)
                ((fix go (l : list (N * enode)) : list (N * enode) :=
                    match l with [] => [] | (a, c) :: r => (a, erase_names who c) :: go r end)
                   acts) oid pay
    end.

  Lemma erase_names_EChance who info (acts : list (N * T * enode)) oid pay :
    erase_names who (EChance info acts oid pay) =
    EChance info (map (fun e => (fst e, erase_names who (snd e))) acts) oid pay.
  Proof.
    cbn [erase_names]. apply (f_equal (fun l => EChance info l oid pay)).
    induction acts as [|[[a p] c] r IH]; [reflexivity|]. cbn [map fst snd]. now rewrite <- IH.
  Qed.

  Lemma erase_names_EPlayer who pl info name (acts : list (N * enode)) oid pay :
    erase_names who (EPlayer pl info name acts oid pay) =
    EPlayer pl info (if Bool.eqb pl who then None else name)
            (map (fun e => (fst e, erase_names who (snd e))) acts) oid pay.
  Proof.
    cbn [erase_names]. apply (f_equal (fun l => EPlayer pl info _ l oid pay)).
    induction acts as [|[a c] r IH]; [reflexivity|]. cbn [map fst snd]. now rewrite <- IH.
  Qed.

  Lemma enodes_erase who n : enodes (erase_names who n) = map (erase_names who) (enodes n).
  Proof.
    induction n as [oid pay|info acts oid pay IH|pl info name acts oid pay IH] using enode_ind'.
    - reflexivity.
    - rewrite erase_names_EChance, !enodes_EChance. cbn [map]. rewrite <- erase_names_EChance.
      apply f_equal. induction IH as [|[[a p] c] r Hc Hr IHr]; [reflexivity|].
      cbn [map flat_map fst snd] in *. now rewrite map_app, Hc, IHr.
    - rewrite erase_names_EPlayer, !enodes_EPlayer. cbn [map]. rewrite <- erase_names_EPlayer.
      apply f_equal. induction IH as [|[a c] r Hc Hr IHr]; [reflexivity|].
      cbn [map flat_map fst snd] in *. now rewrite map_app, Hc, IHr.
  Qed.

  Lemma fold_left_map_step {A C} (f : A -> C -> A) (h : C -> C) l : forall acc,
    (forall a c, f a (h c) = f a c) ->
    fold_left f (map h l) acc = fold_left f l acc.
  Proof.
    induction l as [|x l IH]; intros acc H; [reflexivity|]. cbn [map fold_left]. rewrite H. now apply IH.
  Qed.

  Lemma mine_erase me who n :
    mine me (erase_names who n) =
    match mine me n with
    | Some (k, name) => Some (k, if Bool.eqb me who then None else name)
    | None => None
    end.
  Proof.
    unfold mine. destruct n as [oid pay|info acts oid pay|pl info name acts oid pay]; [reflexivity| |].
    - now rewrite erase_names_EChance.
    - rewrite erase_names_EPlayer. cbn [header]. destruct (Bool.eqb pl me) eqn:E; [|reflexivity].
      apply eqb_prop in E. now subst pl.
  Qed.

  Theorem given_names_erase me who (root : enode) :
    who <> me -> given_names me (erase_names who root) = given_names me root.
  Proof.
    intros Hne. rewrite !given_names_fold, enodes_erase.
    apply fold_left_map_step. intros a c. unfold add_new, name_cand. rewrite mine_erase.
    assert (Bool.eqb me who = false) as -> by (destruct who, me; try reflexivity; congruence).
    now destruct (mine me c) as [[k name]|].
  Qed.

  Theorem infoset_numbers_erase me who (root : enode) :
    infoset_numbers me (erase_names who root) = infoset_numbers me root.
  Proof.
    rewrite !infoset_numbers_fold, enodes_erase.
    apply fold_left_map_step. intros a c. unfold add_new, num_cand. rewrite mine_erase.
    now destruct (mine me c) as [[k name]|].
  Qed.

  (** the names of a player's infosets do not depend on the names written on the other
      player's infosets: erasing the latter changes nothing ... *)
  Theorem final_names_erase numname me who (root : enode) :
    who <> me -> final_names numname me (erase_names who root) = final_names numname me root.
  Proof.
    intros Hne. unfold final_names.
    now rewrite (given_names_erase me who root Hne), infoset_numbers_erase.
  Qed.

  Lemma final_names_erase_eq numname me who (root root' : enode) :
    who <> me -> erase_names who root = erase_names who root' ->
    final_names numname me root = final_names numname me root'.
  Proof.
    intros Hne H.
    now rewrite <- (final_names_erase numname me who root), <- (final_names_erase numname me who root'), H.
  Qed.

  (** ... hence two files that differ only in the [name] fields of player two's decision
      nodes give player one's infosets the same names (and are rejected for player one's
      names alike) *)
  Corollary final_names_separate numname (root root' : enode) :
    erase_names false root = erase_names false root' ->
    final_names numname true root = final_names numname true root'.
  Proof. now apply final_names_erase_eq. Qed.

  Corollary final_names_separate2 numname (root root' : enode) :
    erase_names true root = erase_names true root' ->
    final_names numname false root = final_names numname false root'.
  Proof. now apply final_names_erase_eq. Qed.
End Names.
