(** * LcfrSpec: the trajectory of the unsampled solve, for any params tuple, over [RNum].

    [dstate_at] is the state after [t] iterations; one iteration is the traversal ([dmid_at],
    which adds [dinc] to [cum_regret] and [dsinc] times the strategy to [cum_strat])
    followed by the discounts of [advance].  When the cumulative regrets are discounted by
    positive factors [d 1, d 2, ...], with [P T = d 1 * ... * d T],
    [cum_regret_T(I,a) = P T * sum_{t<T} r_t(I,a) / P t] ([dregret_at_sum]), and likewise
    for the cumulative strategy ([dcstrat_at_sum]).  Vanilla has [d t = 1]; LCFR ([p_lcfr])
    has [d t = t / (t + 1)] for all three discounts, so [P T = 1 / (T + 1)]: iteration
    number [t + 1] has weight [(t + 1) / (T + 1)]. *)
From Coq Require Import Reals List Lra Lia Bool Arith NArith.
From Cfr.theories Require Import Num RInst Tree GameWF Strat Eval Solve Valid
     SolveValidProofs RulesProofs Incr IterChar CfrRate EvalSpec CfrSpec ListAux.
Import ListNotations.
Open Scope R_scope.

Local Notation node := (@node RNum).
Local Notation game := (@game RNum).
Local Notation pstate := (@pstate RNum).
Local Notation rinfo := (@rinfo RNum).
Local Notation oracle := (@oracle RNum).
Local Notation params := (@params RNum).

Lemma nth_map_scale (l : list R) (c : R) (a : nat) :
  nth a (map (fun r => r * c) l) 0 = nth a l 0 * c.
Proof.
  revert a; induction l as [|x l IH]; intros [|a]; cbn [map nth]; try lra. apply IH.
Qed.

(** ** Regret matching is invariant under a positive rescaling of the regrets when
    the fall-back is "the best action" ([a_nopos = PosInf]) *)
Lemma Rltb_scale (c x y : R) : 0 < c -> Rltb (x * c) (y * c) = Rltb x y.
Proof.
  intros Hc. destruct (Rltb x y) eqn:E.
  - apply Rltb_true in E. apply Rltb_true. nra.
  - apply Rltb_false in E. apply Rltb_false. nra.
Qed.

Lemma Rltb_0_scale (c x : R) : 0 < c -> Rltb 0 (x * c) = Rltb 0 x.
Proof. intros Hc. rewrite <- (Rmult_0_l c) at 1. now apply Rltb_scale. Qed.

Lemma argmax_last_scale (c : R) (l : list R) i bi bv :
  0 < c ->
  @argmax_last RNum (map (fun r => r * c) l) i bi (bv * c) = @argmax_last RNum l i bi bv.
Proof.
  intros Hc. revert i bi bv; induction l as [|v l IH]; intros i bi bv; cbn [map argmax_last];
    [reflexivity|].
  cbn [ltb RNum]. rewrite Rltb_scale by assumption. destruct (Rltb v bv); apply IH.
Qed.

Lemma filter_pos_scale (c : R) (l : list R) :
  0 < c ->
  filter (fun v => Rltb 0 v) (map (fun r => r * c) l) =
  map (fun r => r * c) (filter (fun v => Rltb 0 v) l).
Proof.
  intros Hc. induction l as [|x l IH]; cbn [map filter]; [reflexivity|].
  rewrite Rltb_0_scale by assumption. destruct (Rltb 0 x); cbn [map]; now rewrite IH.
Qed.

Lemma Rsum_scale_r (c : R) (l : list R) : Rsum (map (fun r => r * c) l) = Rsum l * c.
Proof. induction l as [|x l IH]; cbn [map Rsum]; [lra|rewrite IH; lra]. Qed.

Lemma regret_match_scale (p : params) (c : R) (cr : list R) :
  0 < c -> a_nopos p = PosInf ->
  @regret_match RNum p (map (fun r => r * c) cr) = @regret_match RNum p cr.
Proof.
  intros Hc Hp. rewrite !regret_match_unfold. cbv zeta. rewrite Hp, map_length.
  rewrite filter_pos_scale, Rsum_scale_r by assumption.
  set (nm := Rsum (filter (fun v => Rltb 0 v) cr)).
  rewrite Rltb_0_scale by assumption. destruct (Rltb 0 nm) eqn:En.
  - apply Rltb_true in En. rewrite map_map. apply map_ext. intros r.
    rewrite Rltb_0_scale by assumption. destruct (Rltb 0 r); [|reflexivity]. field. split; lra.
  - destruct cr as [|v r]; [reflexivity|]. cbn [map]. now rewrite argmax_last_scale.
Qed.

Section DTrajDefs.
  Context (g : game) (draw : oracle) (p : params).

  Fixpoint dstate_at (t : nat) : pstate :=
    match t with
    | O => @init_state RNum g
    | S k => fst (@vanilla_iter RNum g false draw p (N.of_nat (S k)) (dstate_at k))
    end.

  (** the bounds returned by iteration [t] (1-based) *)
  Definition dbounds_at (t : nat) : R * R :=
    snd (@vanilla_iter RNum g false draw p (N.of_nat t) (dstate_at (t - 1))).

  (** the strategy used *during* iteration [t] (1-based) *)
  Definition dsigma_at (t : nat) (pl : bool) : list (list R) := tbl_strat (dstate_at (t - 1)) pl.

  (** the average strategy after [T] iterations, row-wise what [final_strats] returns *)
  Definition davg (T : nat) (pl : bool) : list (list R) :=
    map (fun ri => @avg_strat RNum (cum_strat ri)) (@ps_get RNum (dstate_at T) pl).

  Definition dregret_at (T : nat) (pl : bool) (i a : nat) : R :=
    nth a (cum_regret (@ri_get RNum (dstate_at T) pl i)) 0.
  Definition dcstrat_at (T : nat) (pl : bool) (i a : nat) : R :=
    nth a (cum_strat (@ri_get RNum (dstate_at T) pl i)) 0.


  (** the state left by the traversal of iteration [t + 1], before [advance] *)
  Definition dmid_at (t : nat) : pstate :=
    snd (@vrec RNum (g_chance g) false draw (N.of_nat (S t) - 1)%N (g_root g) 1 1 1 (dstate_at t)).

  (** what that traversal adds to [cum_regret], and the weight with which it adds the
      strategy to [cum_strat]: the counterfactual regret and the own reach of the infoset *)
  Definition dinc (t : nat) (pl : bool) (i a : nat) : R :=
    cfr_inc (g_chance g) (strat_view (dstate_at t)) pl i a (g_root g) 1 1 1.
  Definition dsinc (t : nat) (pl : bool) (i : nat) : R :=
    cs_inc (g_chance g) (strat_view (dstate_at t)) pl i (g_root g) 1 1 1.

  Definition wreg (w : nat -> R) (T : nat) (pl : bool) (i a : nat) : R :=
    Rsumn T (fun t => w t * dinc t pl i a).


  Definition dbound_pl (T : nat) (pl : bool) : R :=
    if pl then fst (dbounds_at T) else snd (dbounds_at T).

  Lemma dbounds_at_S k :
    dbounds_at (S k) =
    (Rsum (map (info_bound (N.of_nat (S k))) (fst (dstate_at (S k)))),
     Rsum (map (info_bound (N.of_nat (S k))) (snd (dstate_at (S k))))).
  Proof.
    unfold dbounds_at. replace (S k - 1)%nat with k by lia.
    pose proof (vanilla_iter_bounds g false draw p (N.of_nat (S k)) (dstate_at k)) as H.
    cbv zeta in H. exact H.
  Qed.


  Lemma dstate_at_S k :
    dstate_at (S k) =
    (map (fun ri => fst (@advance RNum p (N.of_nat (S k)) (N.of_nat (S k)) ri)) (fst (dmid_at k)),
     map (fun ri => fst (@advance RNum p (N.of_nat (S k)) (N.of_nat (S k)) ri)) (snd (dmid_at k))).
  Proof. cbn [dstate_at]. now rewrite vanilla_iter_fst. Qed.

  Lemma dregret_at_0 pl i a : dregret_at 0 pl i a = 0.
  Proof. apply init_zero. Qed.

  Lemma dcstrat_at_0 pl i a : dcstrat_at 0 pl i a = 0.
  Proof. apply init_zero. Qed.

  Context (Hpos : arities_pos g).

  Lemma dstate_at_inv t : InvA (arities g true) (arities g false) (dstate_at t).
  Proof.
    induction t as [|k IH]; [now apply init_state_inv|].
    cbn [dstate_at]. exact (one_iter_inv _ _ g Full draw _ _ _ IH).
  Qed.

  Lemma dstate_at_len t pl : length (@ps_get RNum (dstate_at t) pl) = ninfos g pl.
  Proof.
    destruct (dstate_at_inv t) as [H1 H2]. unfold ninfos. rewrite <- arities_length.
    destruct pl; cbn [ps_get]; symmetry; eapply Forall2_len; eassumption.
  Qed.

  Lemma dstate_at_RInvA t pl i :
    (i < ninfos g pl)%nat -> RInvA (arity g pl i) (@ri_get RNum (dstate_at t) pl i).
  Proof.
    intros Hi. destruct (dstate_at_inv t) as [H1 H2]. unfold arity, ri_get.
    unfold ninfos in Hi. rewrite <- arities_length in Hi.
    destruct pl; cbn [ps_get]; apply Forall2_nth; assumption.
  Qed.

  Lemma dsigma_at_row t pl i :
    rowR (dsigma_at (S t) pl) i = strat (@ri_get RNum (dstate_at t) pl i).
  Proof.
    unfold dsigma_at, tbl_strat, rowR, ri_get. replace (S t - 1)%nat with t by lia.
    change (@nil R) with (@strat RNum (mkRinfo [] [] [])). now rewrite map_nth.
  Qed.

  Lemma strat_view_dsigma t :
    strat_view (dstate_at t) = sg_of (dsigma_at (S t) true) (dsigma_at (S t) false).
  Proof. rewrite strat_view_tbl. unfold dsigma_at. now replace (S t - 1)%nat with t by lia. Qed.

  Lemma dsigma_at_VRow t pl i : (i < ninfos g pl)%nat -> VRow (rowR (dsigma_at (S t) pl) i).
  Proof. intros Hi. rewrite dsigma_at_row. now destruct (dstate_at_RInvA t pl i Hi) as (H & _). Qed.

  Lemma dsigma_at_length t pl i :
    (i < ninfos g pl)%nat -> length (rowR (dsigma_at (S t) pl) i) = arity g pl i.
  Proof.
    intros Hi. rewrite dsigma_at_row. destruct (dstate_at_RInvA t pl i Hi) as (_ & _ & _ & _ & H).
    exact H.
  Qed.

  Lemma dmid_at_len k pl : length (@ps_get RNum (dmid_at k) pl) = ninfos g pl.
  Proof. unfold dmid_at. now rewrite vrec_len, dstate_at_len. Qed.

  Lemma dstate_at_S_get k pl i :
    (i < ninfos g pl)%nat ->
    @ri_get RNum (dstate_at (S k)) pl i =
    fst (@advance RNum p (N.of_nat (S k)) (N.of_nat (S k)) (@ri_get RNum (dmid_at k) pl i)).
  Proof. intros Hi. rewrite dstate_at_S. apply ri_get_map. now rewrite dmid_at_len. Qed.

  (** [advance] discounts what the traversal left; it never reads the discounted vectors:
      the next strategy is regret matching on the undiscounted cumulative regret *)
  Lemma dstate_at_S_cum k pl i :
    (i < ninfos g pl)%nat ->
    cum_regret (@ri_get RNum (dstate_at (S k)) pl i) =
      @discount_cum_regret RNum p (N.of_nat (S k)) (cum_regret (@ri_get RNum (dmid_at k) pl i)) /\
    cum_strat (@ri_get RNum (dstate_at (S k)) pl i) =
      @discount_average_strat RNum p (N.of_nat (S k)) (cum_strat (@ri_get RNum (dmid_at k) pl i)).
  Proof. intros Hi. rewrite (dstate_at_S_get k pl i Hi). split; reflexivity. Qed.

  Lemma dstrat_at_S_mid k pl i :
    (i < ninfos g pl)%nat ->
    rowR (dsigma_at (S (S k)) pl) i =
    @regret_match RNum p (cum_regret (@ri_get RNum (dmid_at k) pl i)).
  Proof. intros Hi. rewrite dsigma_at_row, dstate_at_S_get by assumption. reflexivity. Qed.

  Lemma dmid_regret k pl i a :
    (i < ninfos g pl)%nat -> (a < arity g pl i)%nat ->
    nth a (cum_regret (@ri_get RNum (dmid_at k) pl i)) 0 = dregret_at k pl i a + dinc k pl i a.
  Proof.
    intros Hi Ha. destruct (dstate_at_RInvA k pl i Hi) as (_ & _ & L1 & _ & _).
    apply vrec_state_regret_nth. rewrite L1. exact Ha.
  Qed.

  Lemma dmid_cstrat k pl i a :
    (i < ninfos g pl)%nat ->
    nth a (cum_strat (@ri_get RNum (dmid_at k) pl i)) 0 =
    dcstrat_at k pl i a + dsinc k pl i * prob (dsigma_at (S k) pl) i a.
  Proof.
    intros Hi. destruct (dstate_at_RInvA k pl i Hi) as (_ & _ & _ & L2 & L3).
    unfold dmid_at, prob. rewrite vrec_incs, dsigma_at_row. cbn [snd].
    rewrite fold_incr_cs_nth by exact (eq_trans L2 (eq_sym L3)). now rewrite strat_sum_vincs.
  Qed.

  Lemma dbound_pl_eq T pl :
    (1 <= T)%nat ->
    dbound_pl T pl =
    Rsumn (ninfos g pl)
          (fun i => 2 * Rmax (Rmaxl (cum_regret (@ri_get RNum (dstate_at T) pl i))) 0 / INR T).
  Proof.
    intros HT. destruct T as [|k]; [lia|]. unfold dbound_pl. rewrite dbounds_at_S.
    rewrite <- (dstate_at_len (S k) pl).
    destruct pl; cbn [fst snd ps_get];
      rewrite (Rsum_map_nth _ _ (@mkRinfo RNum [] [] [])); apply Rsumn_ext; intros i _;
      unfold info_bound, ri_get, ps_get; cbn [fst snd]; rewrite Nat2N.id; reflexivity.
  Qed.

  (** [T * b_pl / 2] dominates every selection of one cumulative regret per infoset,
      weighted by anything in [0, 1] *)
  Lemma dbound_pl_dominates T pl (c : nat -> R) (s : nat -> nat) :
    (1 <= T)%nat ->
    (forall i, (i < ninfos g pl)%nat -> 0 <= c i <= 1 /\ (s i < arity g pl i)%nat) ->
    Rsumn (ninfos g pl) (fun i => c i * dregret_at T pl i (s i)) <= INR T * dbound_pl T pl / 2.
  Proof.
    intros HT Hc. rewrite dbound_pl_eq by assumption.
    assert (HTpos : 0 < INR T) by (apply lt_0_INR; lia).
    unfold Rdiv. rewrite Rmult_assoc, (Rmult_comm (Rsumn _ _)), <- Rmult_assoc.
    rewrite <- Rsumn_scal. apply Rsumn_le. intros i Hi.
    destruct (Hc i Hi) as [Hci Hsi].
    destruct (dstate_at_RInvA T pl i Hi) as (_ & _ & L1 & _ & _).
    rewrite <- L1 in Hsi.
    pose proof (Rmaxl_ge (cum_regret (@ri_get RNum (dstate_at T) pl i)) (s i) Hsi) as Hm.
    unfold dregret_at. tR.
    set (M := Rmaxl _) in *. set (r := nth (s i) _ 0) in *.
    pose proof (Rmax_l M 0). pose proof (Rmax_r M 0).
    replace (INR T * / 2 * (2 * Rmax M 0 * / INR T)) with (Rmax M 0) by (field; lra).
    destruct (Rle_lt_dec 0 r) as [Hr|Hr].
    - assert (c i * r <= 1 * r) by (apply Rmult_le_compat_r; lra). lra.
    - assert (0 <= c i * (- r)) by (apply Rmult_le_pos; lra). lra.
  Qed.

  Lemma dbound_pl_nonneg T pl : (1 <= T)%nat -> 0 <= dbound_pl T pl.
  Proof.
    intros HT. rewrite dbound_pl_eq by assumption. apply Rsumn_nonneg. intros i _.
    assert (HTpos : 0 < INR T) by (apply lt_0_INR; lia).
    pose proof (Rmax_r (Rmaxl (cum_regret (@ri_get RNum (dstate_at T) pl i))) 0).
    unfold Rdiv. apply Rmult_le_pos; [lra|]. left. now apply Rinv_0_lt_compat.
  Qed.
End DTrajDefs.

Lemma state_at_vanilla g draw : state_at g draw = dstate_at g draw (@p_vanilla RNum).
Proof. reflexivity. Qed.
Lemma sigma_at_vanilla g draw : sigma_at g draw = dsigma_at g draw (@p_vanilla RNum).
Proof. reflexivity. Qed.
Lemma avg_vanilla g draw : avg g draw = davg g draw (@p_vanilla RNum).
Proof. reflexivity. Qed.
Lemma regret_at_vanilla g draw : regret_at g draw = dregret_at g draw (@p_vanilla RNum).
Proof. reflexivity. Qed.

Fixpoint dprod (d : nat -> R) (T : nat) : R :=
  match T with
  | O => 1
  | S k => dprod d k * d (S k)
  end.

Lemma dprod_pos d T : (forall t, (1 <= t)%nat -> 0 < d t) -> 0 < dprod d T.
Proof.
  intros Hd. induction T as [|k IH]; cbn [dprod]; [lra|].
  apply Rmult_lt_0_compat; [exact IH|apply Hd; lia].
Qed.

(** ** Params tuples whose discounts are sequences of positive factors: [d] on the
    cumulative regrets (both signs), [e] on the cumulative strategy *)
Section DTraj.
  Context (g : game) (draw : oracle) (p : params) (d e : nat -> R).
  Context (Hd_pos : forall t, (1 <= t)%nat -> 0 < d t).
  Context (Hd_reg : forall t cr, (1 <= t)%nat ->
              @discount_cum_regret RNum p (N.of_nat t) cr = map (fun r => r * d t) cr).
  Context (He_pos : forall t, (1 <= t)%nat -> 0 < e t).
  Context (He_avg : forall t cs, (1 <= t)%nat ->
              @discount_average_strat RNum p (N.of_nat t) cs = map (fun a => a * e t) cs).
  Context (Hpos : arities_pos g).

  Lemma dregret_at_S k pl i a :
    (i < ninfos g pl)%nat -> (a < arity g pl i)%nat ->
    dregret_at g draw p (S k) pl i a =
    (dregret_at g draw p k pl i a + dinc g draw p k pl i a) * d (S k).
  Proof.
    intros Hi Ha. unfold dregret_at at 1.
    destruct (dstate_at_S_cum g draw p Hpos k pl i Hi) as [E _].
    rewrite E, Hd_reg, nth_map_scale by lia. f_equal. now apply dmid_regret.
  Qed.

  Lemma dcstrat_at_S k pl i a :
    (i < ninfos g pl)%nat ->
    dcstrat_at g draw p (S k) pl i a =
    (dcstrat_at g draw p k pl i a
     + dsinc g draw p k pl i * prob (dsigma_at g draw p (S k) pl) i a) * e (S k).
  Proof.
    intros Hi. unfold dcstrat_at at 1.
    destruct (dstate_at_S_cum g draw p Hpos k pl i Hi) as [_ E].
    rewrite E, He_avg, nth_map_scale by lia. f_equal. now apply dmid_cstrat.
  Qed.

  Theorem dregret_at_sum T pl i a :
    (i < ninfos g pl)%nat -> (a < arity g pl i)%nat ->
    dregret_at g draw p T pl i a =
    dprod d T * wreg g draw p (fun t => / dprod d t) T pl i a.
  Proof.
    intros Hi Ha. unfold wreg. induction T as [|T IH].
    - rewrite dregret_at_0, Rsumn_0. lra.
    - rewrite dregret_at_S, Rsumn_S_last, IH by assumption. cbn [dprod].
      pose proof (dprod_pos d T Hd_pos). field. lra.
  Qed.

  Theorem dcstrat_at_sum T pl i a :
    (i < ninfos g pl)%nat ->
    dcstrat_at g draw p T pl i a =
    dprod e T * Rsumn T (fun t => / dprod e t * (dsinc g draw p t pl i
                                                 * prob (dsigma_at g draw p (S t) pl) i a)).
  Proof.
    intros Hi. induction T as [|T IH].
    - rewrite dcstrat_at_0, Rsumn_0. lra.
    - rewrite dcstrat_at_S, Rsumn_S_last, IH by assumption. cbn [dprod].
      pose proof (dprod_pos e T He_pos). field. lra.
  Qed.

  (** with the "best action" fall-back the strategy of iteration [k + 2] is regret
      matching on the (discounted) cumulative regret after iteration [k + 1] *)
  Theorem dstrat_at_S k pl i :
    a_nopos p = PosInf -> (i < ninfos g pl)%nat ->
    rowR (dsigma_at g draw p (S (S k)) pl) i =
    @regret_match RNum p (cum_regret (@ri_get RNum (dstate_at g draw p (S k)) pl i)).
  Proof.
    intros Hp Hi. rewrite (dstrat_at_S_mid g draw p Hpos k pl i Hi).
    destruct (dstate_at_S_cum g draw p Hpos k pl i Hi) as [E _]. rewrite E, Hd_reg by lia.
    symmetry. apply regret_match_scale; [apply Hd_pos; lia|exact Hp].
  Qed.
End DTraj.

Lemma map_scale_1 (l : list R) : map (fun r => r * 1) l = l.
Proof. rewrite <- (map_id l) at 2. apply map_ext. intros r. lra. Qed.

Lemma vanilla_discount_reg t cr :
  (1 <= t)%nat ->
  @discount_cum_regret RNum (@p_vanilla RNum) (N.of_nat t) cr = map (fun r => r * 1) cr.
Proof. intros _. now rewrite discount_cum_regret_vanilla, map_scale_1. Qed.

Lemma vanilla_discount_avg t cs :
  (1 <= t)%nat ->
  @discount_average_strat RNum (@p_vanilla RNum) (N.of_nat t) cs = map (fun a => a * 1) cs.
Proof. intros _. now rewrite discount_average_strat_vanilla, map_scale_1. Qed.

Lemma dprod_one T : dprod (fun _ => 1) T = 1.
Proof. induction T as [|k IH]; cbn [dprod]; [reflexivity|rewrite IH; lra]. Qed.

Definition lcfr_d (t : nat) : R := INR t / INR (S t).

Lemma lcfr_d_pos t : (1 <= t)%nat -> 0 < lcfr_d t.
Proof.
  intros Ht. unfold lcfr_d. assert (0 < INR t) by (apply lt_0_INR; lia).
  assert (0 < INR (S t)) by (apply lt_0_INR; lia).
  unfold Rdiv. apply Rmult_lt_0_compat; [assumption|now apply Rinv_0_lt_compat].
Qed.

Lemma lcfr_d_le_1 t : lcfr_d t <= 1.
Proof.
  unfold lcfr_d. assert (0 < INR (S t)) by (apply lt_0_INR; lia). rewrite S_INR in *.
  apply (Rmult_le_reg_r (INR t + 1)); [assumption|].
  unfold Rdiv. rewrite Rmult_assoc, Rinv_l by lra. lra.
Qed.

Lemma lcfr_gen_discount t :
  (1 <= t)%nat -> @gen_discount RNum (N.of_nat t) (@Fin RNum 1) = lcfr_d t.
Proof.
  intros Ht. change (@Fin RNum 1) with (@Fin RNum (INR 1)).
  rewrite gen_discount_nat by lia. rewrite Nat2N.id. unfold lcfr_d. rewrite S_INR.
  now rewrite pow_1.
Qed.

Lemma lcfr_discount_reg t cr :
  (1 <= t)%nat ->
  @discount_cum_regret RNum (@p_lcfr RNum) (N.of_nat t) cr = map (fun r => r * lcfr_d t) cr.
Proof.
  intros Ht. rewrite discount_cum_regret_spec. unfold p_lcfr. cbn [a_pos a_neg one RNum].
  rewrite lcfr_gen_discount by assumption. apply map_ext. intros r.
  destruct (Rlt_dec 0 r); [reflexivity|]. destruct (Rlt_dec r 0); [reflexivity|].
  assert (r = 0) by lra. subst r. lra.
Qed.

Lemma lcfr_discount_avg t cs :
  (1 <= t)%nat ->
  @discount_average_strat RNum (@p_lcfr RNum) (N.of_nat t) cs = map (fun a => a * lcfr_d t) cs.
Proof.
  intros Ht.
  rewrite (discount_average_strat_pos (@p_lcfr RNum) (N.of_nat t) 1 cs eq_refl) by (lra || lia).
  apply map_ext. intros a. apply f_equal. rewrite Nat2N.id.
  assert (0 < INR t) by (apply lt_0_INR; lia).
  rewrite Rpower_1.
  - unfold lcfr_d. now rewrite S_INR.
  - unfold Rdiv. apply Rmult_lt_0_compat; [assumption|]. apply Rinv_0_lt_compat. lra.
Qed.

Lemma lcfr_dprod T : dprod lcfr_d T = / INR (S T).
Proof.
  induction T as [|k IH]; cbn [dprod]; [cbn [INR]; lra|].
  rewrite IH. unfold lcfr_d.
  assert (0 < INR (S k)) by (apply lt_0_INR; lia).
  assert (0 < INR (S (S k))) by (apply lt_0_INR; lia).
  field. split; lra.
Qed.


Section Lcfr.
  Context (g : game) (draw : oracle) (Hpos : arities_pos g).

  Local Notation p := (@p_lcfr RNum).

  (** [cum_regret] after [T] iterations: iteration number [t + 1] has weight
      [(t + 1) / (T + 1)]; the increment is the counterfactual regret [cfr_inc] under the
      strategies of that iteration *)
  Theorem lcfr_regret_at_sum T pl i a :
    (i < ninfos g pl)%nat -> (a < arity g pl i)%nat ->
    dregret_at g draw p T pl i a =
    Rsumn T (fun t => INR (S t) / INR (S T)
                      * cfr_inc (g_chance g) (strat_view (dstate_at g draw p t)) pl i a (g_root g) 1 1 1).
  Proof.
    intros Hi Ha.
    rewrite (dregret_at_sum g draw p lcfr_d lcfr_d_pos lcfr_discount_reg Hpos T pl i a Hi Ha).
    unfold wreg. rewrite <- Rsumn_scal. apply Rsumn_ext. intros t _.
    rewrite !lcfr_dprod, Rinv_inv. unfold dinc, Rdiv. lra.
  Qed.


  Corollary lcfr_regret_at_sum_incs T pl i a :
    (i < ninfos g pl)%nat -> (a < arity g pl i)%nat ->
    dregret_at g draw p T pl i a =
    Rsumn T (fun t => INR (S t) / INR (S T)
                      * nth a (cfr_incs (g_chance g) (strat_view (dstate_at g draw p t)) pl i
                                        (g_root g) 1 1 1) 0).
  Proof.
    intros Hi Ha. rewrite lcfr_regret_at_sum by assumption. apply Rsumn_ext. intros t _. apply f_equal.
    unfold cfr_incs. symmetry. rewrite nth_map_seq; [reflexivity|].
    destruct (dstate_at_RInvA g draw p Hpos t pl i Hi) as (_ & _ & _ & _ & L3).
    unfold strat_view. tR. lia.
  Qed.

  (** [cum_strat] after [T] iterations: the same weights, on (own reach weight [cs_inc])
      x (strategy of the iteration) *)
  Theorem lcfr_cstrat_at_sum T pl i a :
    (i < ninfos g pl)%nat -> (a < arity g pl i)%nat ->
    dcstrat_at g draw p T pl i a =
    Rsumn T (fun t => INR (S t) / INR (S T)
                      * (cs_inc (g_chance g) (strat_view (dstate_at g draw p t)) pl i (g_root g) 1 1 1
                         * prob (dsigma_at g draw p (S t) pl) i a)).
  Proof.
    intros Hi _.
    rewrite (dcstrat_at_sum g draw p lcfr_d lcfr_d_pos lcfr_discount_avg Hpos T pl i a Hi).
    rewrite <- Rsumn_scal. apply Rsumn_ext. intros t _.
    rewrite !lcfr_dprod, Rinv_inv. unfold dsinc, Rdiv. lra.
  Qed.

  Theorem lcfr_strat_at_S T pl i :
    (i < ninfos g pl)%nat ->
    rowR (dsigma_at g draw p (S (S T)) pl) i =
    @regret_match RNum p (cum_regret (@ri_get RNum (dstate_at g draw p (S T)) pl i)).
  Proof.
    intros Hi.
    exact (dstrat_at_S g draw p lcfr_d lcfr_d_pos lcfr_discount_reg Hpos T pl i eq_refl Hi).
  Qed.
End Lcfr.
