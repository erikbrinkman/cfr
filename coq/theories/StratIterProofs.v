(** * StratIterProofs: the two iterators behind [Strategies::as_named]
    ([NamedStrategyIter], [NamedStrategyActionIter]): exactness of the advertised
    lengths at every state, and a closed form of everything they yield.

    Everything in this file is proved for an arbitrary arithmetic instance [NN : Num]
    (the iterators only use [ltb NN (zero NN)] as an opaque test), hence holds for
    the real instance and for the binary64 instance alike. *)
From Coq Require Import List NArith Bool Arith Lia.
From Cfr.theories Require Import Num Tree Strat.
Import ListNotations.

Section Iter.
  Context {NN : Num}.
  Local Notation T := (T NN).

  Definition posb (ap : N * T) : bool := ltb NN (zero NN) (snd ap).

  Lemma data_next_none (z : list (N * T)) : data_next z = None <-> filter posb z = [].
  Proof.
    induction z as [|[a p] z IH]; cbn [data_next filter]; [tauto|].
    unfold posb at 1; cbn [snd]. destruct (ltb NN (zero NN) p); [split; discriminate|exact IH].
  Qed.

  Lemma data_next_some (z : list (N * T)) x r :
    data_next z = Some (x, r) -> filter posb z = x :: filter posb r.
  Proof.
    induction z as [|[a p] z IH]; cbn [data_next filter]; [discriminate|].
    unfold posb at 1; cbn [snd]. destruct (ltb NN (zero NN) p).
    - intros H; inversion H; subst; reflexivity.
    - exact IH.
  Qed.

  Lemma nsai_len_data (z : list (N * T)) : nsai_len (AData z) = length (filter posb z).
  Proof. reflexivity. Qed.

  Definition nsai_items (it : nsai) : list (N * T) :=
    match it with
    | AData z => filter posb z
    | ASingle (Some a) => [(a, one NN)]
    | ASingle None => []
    end.

  Lemma nsai_items_length (it : @nsai NN) : length (nsai_items it) = nsai_len it.
  Proof. destruct it as [z|[a|]]; reflexivity. Qed.

  Lemma nsai_next_items (it : @nsai NN) :
    match nsai_next it with
    | Some (x, it') => nsai_items it = x :: nsai_items it'
    | None => nsai_items it = []
    end.
  Proof.
    destruct it as [z|[a|]]; cbn [nsai_next nsai_items]; try reflexivity.
    destruct (data_next z) as [[x r]|] eqn:E.
    - now apply data_next_some.
    - now apply data_next_none.
  Qed.

  (** the advertised length is exact: [next] fails exactly at length zero, and each
      [next] shortens by one *)
  Lemma nsai_next_none (it : @nsai NN) : nsai_next it = None <-> nsai_len it = 0.
  Proof.
    rewrite <- nsai_items_length. pose proof (nsai_next_items it) as H.
    destruct (nsai_next it) as [[x it']|]; rewrite H; now split.
  Qed.

  Lemma nsai_next_some (it : @nsai NN) x it' :
    nsai_next it = Some (x, it') -> nsai_len it = S (nsai_len it').
  Proof.
    intros E. pose proof (nsai_next_items it) as H. rewrite E in H.
    now rewrite <- !nsai_items_length, H.
  Qed.

  Lemma nsai_drain_items fuel (it : @nsai NN) : nsai_len it <= fuel -> nsai_drain fuel it = nsai_items it.
  Proof.
    revert it; induction fuel as [|f IH]; intros it H.
    - rewrite <- nsai_items_length in H. destruct (nsai_items it); [reflexivity|cbn in H; lia].
    - cbn [nsai_drain]. pose proof (nsai_next_items it) as Hn.
      destruct (nsai_next it) as [[x it']|] eqn:E; [|now rewrite Hn].
      rewrite Hn. f_equal. apply IH. apply nsai_next_some in E. lia.
  Qed.

  Lemma nsai_drain_length (it : @nsai NN) : length (nsai_drain (S (nsai_len it)) it) = nsai_len it.
  Proof. rewrite nsai_drain_items by lia. apply nsai_items_length. Qed.

  Fixpoint countdown (n : nat) : list nat :=
    match n with O => [O] | S k => S k :: countdown k end.

  Lemma nsai_lens_countdown fuel (it : @nsai NN) :
    nsai_len it < fuel -> nsai_lens fuel it = countdown (nsai_len it).
  Proof.
    revert it; induction fuel as [|f IH]; intros it H; [lia|].
    cbn [nsai_lens]. destruct (nsai_next it) as [[x it']|] eqn:E.
    - pose proof (nsai_next_some _ _ _ E) as Hl. rewrite Hl. cbn [countdown].
      rewrite <- Hl. f_equal. apply IH. lia.
    - apply nsai_next_none in E. rewrite E. reflexivity.
  Qed.

  Definition multi_item (pr : @pinfo * list T) : N * list (N * T) :=
    (pi_name (fst pr), filter posb (combine (pi_actions (fst pr)) (snd pr))).

  Definition single_item (e : N * N) : N * list (N * T) := (fst e, [(snd e, one NN)]).

  Definition nsi_items (it : nsi) : list (N * list (N * T)) :=
    map multi_item
        (combine (ns_info it)
                 (split_by (ns_probs it) (map (fun pi => length (pi_actions pi)) (ns_info it))))
    ++ map single_item (ns_singles it).

  Lemma split_by_len {A} (l : list A) ars : length (split_by l ars) = length ars.
  Proof. revert l; induction ars as [|a ars IH]; intros l; cbn [split_by length]; [reflexivity|now rewrite IH]. Qed.

  Lemma nsi_items_length (it : @nsi NN) : length (nsi_items it) = nsi_len it.
  Proof.
    unfold nsi_items, nsi_len. rewrite app_length, !map_length, combine_length, split_by_len, map_length.
    lia.
  Qed.

  Lemma nsi_next_items (it : @nsi NN) :
    match nsi_next it with
    | Some ((name, ai), it') => nsi_items it = (name, nsai_items ai) :: nsi_items it'
    | None => nsi_items it = []
    end.
  Proof.
    destruct it as [[|pi r] probs [|[i a] s]]; reflexivity.
  Qed.

  Lemma nsi_next_none (it : @nsi NN) : nsi_next it = None <-> nsi_len it = 0.
  Proof.
    rewrite <- nsi_items_length. pose proof (nsi_next_items it) as H.
    destruct (nsi_next it) as [[[name ai] it']|]; rewrite H; now split.
  Qed.

  Lemma nsi_next_some (it : @nsi NN) x it' :
    nsi_next it = Some (x, it') -> nsi_len it = S (nsi_len it').
  Proof.
    intros E. pose proof (nsi_next_items it) as H. rewrite E in H. destruct x as [name ai].
    now rewrite <- !nsi_items_length, H.
  Qed.

  Lemma nsi_drain_items fuel (it : @nsi NN) : nsi_len it <= fuel -> nsi_drain fuel it = nsi_items it.
  Proof.
    revert it; induction fuel as [|f IH]; intros it H.
    - rewrite <- nsi_items_length in H. destruct (nsi_items it); [reflexivity|cbn in H; lia].
    - cbn [nsi_drain]. pose proof (nsi_next_items it) as Hn.
      destruct (nsi_next it) as [[[name ai] it']|] eqn:E; [|now rewrite Hn].
      rewrite Hn. rewrite nsai_drain_items by lia. f_equal. apply IH. apply nsi_next_some in E. lia.
  Qed.

  Lemma nsi_drain_length (it : @nsi NN) : length (nsi_drain (S (nsi_len it)) it) = nsi_len it.
  Proof. rewrite nsi_drain_items by lia. apply nsi_items_length. Qed.

  Fixpoint nsi_lens_spec (n : nat) (items : list (N * list (N * T))) : list (nat * list nat) :=
    match items with
    | [] => [(n, [])]
    | (_, l) :: r => (n, countdown (length l)) :: nsi_lens_spec (pred n) r
    end.

  Lemma nsi_lens_countdown fuel (it : @nsi NN) :
    nsi_len it < fuel -> nsi_lens fuel it = nsi_lens_spec (nsi_len it) (nsi_items it).
  Proof.
    revert it; induction fuel as [|f IH]; intros it H; [lia|].
    cbn [nsi_lens]. pose proof (nsi_next_items it) as Hn.
    destruct (nsi_next it) as [[[name ai] it']|] eqn:E.
    - rewrite Hn. cbn [nsi_lens_spec]. rewrite nsai_lens_countdown by lia.
      rewrite nsai_items_length. f_equal.
      pose proof (nsi_next_some _ _ _ E) as Hl. rewrite Hl. cbn [pred]. apply IH. lia.
    - rewrite Hn. reflexivity.
  Qed.

  Lemma map_fst_combine {A B} (l : list A) : forall (l' : list B),
    length l = length l' -> map fst (combine l l') = l.
  Proof.
    induction l as [|x l IH]; intros [|y l'] H; cbn [length] in H; try lia; [reflexivity|].
    cbn [combine map fst]. rewrite IH by lia. reflexivity.
  Qed.

  Lemma nsi_items_names (it : @nsi NN) :
    map fst (nsi_items it) = map pi_name (ns_info it) ++ map fst (ns_singles it).
  Proof.
    unfold nsi_items. rewrite map_app, !map_map. f_equal.
    cbn [multi_item fst]. rewrite <- map_map with (f := fst) (g := pi_name).
    rewrite map_fst_combine; [reflexivity|]. now rewrite split_by_len, map_length.
  Qed.

  Lemma as_named_view (g : @game NN) pl (flat : list T) :
    as_named g pl flat = nsi_items (nsi_new g pl flat).
  Proof. unfold as_named. now rewrite nsi_drain_items by lia. Qed.

  Lemma as_named_items (g : @game NN) pl (flat : list T) :
    as_named g pl flat =
    map multi_item (combine (g_infos g pl) (split_by flat (arities g pl)))
    ++ map single_item (g_singles g pl).
  Proof. apply as_named_view. Qed.

  Lemma as_named_names (g : @game NN) pl (flat : list T) :
    map fst (as_named g pl flat) = map pi_name (g_infos g pl) ++ map fst (g_singles g pl).
  Proof. rewrite as_named_view. apply nsi_items_names. Qed.
End Iter.
