(** Facts about lists that several files need and the standard library of Coq 8.16 lacks. *)
From Coq Require Import List Arith Lia.
Import ListNotations.

Lemma nth_map_lt {A B} (f : A -> B) (l : list A) i d d' :
  i < length l -> nth i (map f l) d' = f (nth i l d).
Proof.
  intros Hi. rewrite (nth_indep _ d' (f d)) by now rewrite map_length. apply map_nth.
Qed.

Lemma nth_firstn_lt {A} (l : list A) n i d : i < n -> nth i (firstn n l) d = nth i l d.
Proof.
  revert n i; induction l as [|x l IH]; intros n i Hi; [now rewrite firstn_nil|].
  destruct n as [|n]; [lia|]. destruct i as [|i]; cbn [firstn nth]; [reflexivity|].
  apply IH; lia.
Qed.

Lemma Forall2_len {A B} (Q : A -> B -> Prop) la lb : Forall2 Q la lb -> length la = length lb.
Proof. induction 1; cbn [length]; congruence. Qed.

Lemma Forall2_nth {A B} (Q : A -> B -> Prop) la lb i da db :
  Forall2 Q la lb -> i < length la -> Q (nth i la da) (nth i lb db).
Proof.
  intros H; revert i; induction H as [|a b la lb Hab _ IH]; intros [|i] Hi; cbn [length nth] in *;
    try lia; [exact Hab|]. apply IH; lia.
Qed.

Lemma NoDup_app_iff {A} (l1 l2 : list A) :
  NoDup (l1 ++ l2) <-> NoDup l1 /\ NoDup l2 /\ (forall x, In x l1 -> ~ In x l2).
Proof.
  induction l1 as [|a l1 IH]; cbn [app].
  - split; [intros H|now intros (_ & H & _)]. split; [constructor|]. split; [assumption|intros x []].
  - rewrite !NoDup_cons_iff, IH, in_app_iff. split.
    + intros (Hn & I1 & I2 & I3). split; [split; [tauto|assumption]|]. split; [assumption|].
      intros x [<-|Hx]; [tauto|now apply I3].
    + intros ((Hn & I1) & I2 & I3). split; [|split; [assumption|]; split; [assumption|]].
      * intros [C|C]; [contradiction|]. apply (I3 a); [now left|assumption].
      * intros x Hx. apply I3. now right.
Qed.

Lemma Forall_mp {X} (P Q : X -> Prop) l : Forall (fun x => P x -> Q x) l -> Forall P l -> Forall Q l.
Proof. induction 1; inversion 1; constructor; auto. Qed.

Lemma nth_map_seq {A} (f : nat -> A) n j d : j < n -> nth j (map f (seq 0 n)) d = f j.
Proof.
  intros Hj. rewrite (nth_indep _ d (f 0)) by (now rewrite map_length, seq_length).
  now rewrite map_nth, seq_nth.
Qed.
