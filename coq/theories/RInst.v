(** * RInst: the real-number instance of [Num] — the mathematical reading of the
    code; every theorem is about the model instantiated here. *)
From Coq Require Import Reals NArith List Bool Lra.
From Cfr.theories Require Import Num.
Import ListNotations.
Open Scope R_scope.

Definition Rltb (a b : R) : bool := if Rlt_dec a b then true else false.
Definition Rleb (a b : R) : bool := if Rle_dec a b then true else false.
Definition Reqb (a b : R) : bool := if Req_EM_T a b then true else false.

(** [powf] on a non-negative base: [0^y = 0] for [y > 0], [x^0 = 1]. *)
Definition Rpowf (x y : R) : R :=
  if Req_EM_T y 0 then 1
  else if Rlt_dec 0 x then Rpower x y
  else 0.

Definition RNum : Num := {|
  T := R;
  zero := 0; one := 1;
  add := Rplus; sub := Rminus; mul := Rmult; div := Rdiv;
  neg := Ropp; absv := Rabs;
  fmax := Rmax; fmin := Rmin;
  ltb := Rltb; leb := Rleb; eqb := Reqb;
  is_fin := fun _ => true; is_nan := fun _ => false;
  is_pinf := fun _ => false; is_ninf := fun _ => false;
  pinf := 0;                       (* never produced on paths the theorems cover *)
  exp := Rtrigo_def.exp; ln := Rpower.ln;
  pow := Rpowf;
  of_N := fun n => INR (N.to_nat n)
|}.

Lemma Rltb_true a b : Rltb a b = true <-> a < b.
Proof. unfold Rltb; destruct (Rlt_dec a b); split; intros; try easy; lra. Qed.
Lemma Rltb_false a b : Rltb a b = false <-> b <= a.
Proof. unfold Rltb; destruct (Rlt_dec a b); split; intros; try easy; lra. Qed.
Lemma Rleb_true a b : Rleb a b = true <-> a <= b.
Proof. unfold Rleb; destruct (Rle_dec a b); split; intros; try easy; lra. Qed.
Lemma Rleb_false a b : Rleb a b = false <-> b < a.
Proof. unfold Rleb; destruct (Rle_dec a b); split; intros; try easy; lra. Qed.
Lemma Reqb_true a b : Reqb a b = true <-> a = b.
Proof. unfold Reqb; destruct (Req_EM_T a b); split; intros; try easy. Qed.
Lemma Reqb_false a b : Reqb a b = false <-> a <> b.
Proof. unfold Reqb; destruct (Req_EM_T a b); split; intros; try easy. Qed.

(** Sums: [sum] is a left fold; relate it to a right-fold-friendly form. *)
Fixpoint Rsum (l : list R) : R :=
  match l with [] => 0 | x :: r => x + Rsum r end.

Lemma fold_left_Rplus_acc l a : fold_left Rplus l a = a + Rsum l.
Proof.
  revert a; induction l as [|x l IH]; intros a; cbn [fold_left Rsum]; [lra|].
  rewrite IH; lra.
Qed.

Lemma sum_Rsum (l : list R) : @sum RNum l = Rsum l.
Proof. unfold sum; cbn. rewrite fold_left_Rplus_acc; lra. Qed.

Lemma Rsum_app l1 l2 : Rsum (l1 ++ l2) = Rsum l1 + Rsum l2.
Proof. induction l1 as [|x l IH]; cbn [Rsum app]; [lra|rewrite IH; lra]. Qed.

Lemma Rsum_nonneg l : Forall (fun x => 0 <= x) l -> 0 <= Rsum l.
Proof. induction 1; cbn [Rsum]; lra. Qed.

Lemma Rsum_map_mult c l : Rsum (map (fun x => x * c) l) = Rsum l * c.
Proof. induction l as [|x l IH]; cbn [Rsum map]; [lra|rewrite IH; lra]. Qed.

Lemma Rsum_map_div c l : Rsum (map (fun x => x / c) l) = Rsum l / c.
Proof. unfold Rdiv. apply Rsum_map_mult. Qed.

Lemma Rsum_map_Rmult c l : Rsum (map (Rmult c) l) = c * Rsum l.
Proof. induction l as [|x l IH]; cbn [Rsum map]; [lra|rewrite IH; lra]. Qed.

Lemma Rsum_repeat0 n : Rsum (repeat 0 n) = 0.
Proof. induction n as [|n IH]; cbn [repeat Rsum]; lra. Qed.

Lemma Rsum_all_zero (l : list R) : Forall (fun x => x = 0) l -> Rsum l = 0.
Proof. induction 1 as [|x l Hx Hl IH]; cbn [Rsum]; lra. Qed.

Lemma Rsum_pos_nonempty (l : list R) :
  l <> [] -> Forall (fun x => 0 < x) l -> 0 < Rsum l.
Proof.
  intros Hne H. induction H as [|x l Hx Hl IH]; [congruence|].
  cbn [Rsum]. destruct l as [|y l]; [cbn [Rsum]; lra|].
  assert (0 < Rsum (y :: l)) by (apply IH; discriminate). lra.
Qed.

Lemma Rpowf_nonneg x y : 0 <= Rpowf x y.
Proof.
  unfold Rpowf. destruct (Req_EM_T y 0); [lra|]. destruct (Rlt_dec 0 x); [|lra].
  unfold Rpower. left. apply exp_pos.
Qed.

Lemma of_N_INR (n : nat) : of_N RNum (N.of_nat n) = INR n.
Proof. cbn [of_N RNum]. now rewrite Nnat.Nat2N.id. Qed.
