(** * ExternalUnbiased: the external-sampling regret increments are unbiased.

    Fix the strategies [sg] and the active player [me].  Draw one index per chance
    infoset (weights: its chance row) and one action per infoset of the other player
    (weights: its current strategy row), all independently.  If no chance infoset
    repeats on a path ([NoRepeat]) and no infoset of the other player repeats on a path
    ([PNoRepeat], a consequence of perfect recall: [PerfectRecall_PNoRepeat]), the
    expectation of the increment one external pass makes at (infoset, action) of [me]
    is the counterfactual increment [cfr_inc] of the unsampled pass — the
    counterfactual regret *without* the own reach factor ([external_unbiased]).

    Proof: pathwise the increment is [cfr_inc] over one-hot chance rows and one-hot
    rows of the other player ([ExternalRate.ext_reg_sum]); [cfr_inc] of player [me] is
    affine in every chance row ([Unbiased.cfr_inc_affine]) and in every row of the
    other player ([cfr_inc_affine_sg]) separately. *)
From Coq Require Import Reals List Lra Lia Bool Arith NArith.
From Cfr.theories Require Import Num ListAux RInst Tree GameWF Strat Eval Solve Valid TruncProofs
     SolveValidProofs LoopProofs Incr IterChar RmPotential CfMass CfrRate ExtIncr SampledRate
     ExternalRate Unbiased.
Import ListNotations.
Open Scope R_scope.

Local Notation nodeR := (@node RNum).
Local Notation gameR := (@game RNum).
Local Notation pstateR := (@pstate RNum).
Local Notation oracleR := (@oracle RNum).

Inductive LShaped (T : list (list R)) (sg : bool -> nat -> list R) : nodeR -> Prop :=
| LS_Term x : LShaped T sg (@Term RNum x)
| LS_Chance ci kids :
    length kids = length (@row RNum T ci) -> Forall (LShaped T sg) kids ->
    LShaped T sg (@Chance RNum ci kids)
| LS_Player pl i kids :
    length kids = length (sg pl i) -> Forall (LShaped T sg) kids ->
    LShaped T sg (@Player RNum pl i kids).

Lemma ValShaped_LShaped T sg n : ValShaped T sg n -> LShaped T sg n.
Proof.
  induction n as [x|ci kids IH|pl i kids IH] using node_ind'; intros HV;
    inversion HV as [|? ? EL HR HVk|? ? ? EL HR HVk]; subst; constructor;
    try assumption; exact (Forall_mp _ _ _ IH HVk).
Qed.

Lemma LShaped_CShaped T sg n : LShaped T sg n -> CShaped T n.
Proof.
  induction n as [x|ci kids IH|pl i kids IH] using node_ind'; intros HV;
    inversion HV as [|? ? EL HVk|? ? ? EL HVk]; subst; constructor;
    try assumption; exact (Forall_mp _ _ _ IH HVk).
Qed.

Lemma LShaped_lens T sg sg' n :
  (forall pl i, length (sg' pl i) = length (sg pl i)) -> LShaped T sg n -> LShaped T sg' n.
Proof.
  intros HL. induction n as [x|ci kids IH|pl i kids IH] using node_ind'; intros HV;
    inversion HV as [|? ? EL HVk|? ? ? EL HVk]; subst; constructor;
    try exact (Forall_mp _ _ _ IH HVk).
  - exact EL.
  - rewrite HL. exact EL.
Qed.

(** infoset [(pl0, j0)] does not occur below one of its own nodes *)
Inductive PNoRepeat (pl0 : bool) (j0 : nat) : nodeR -> Prop :=
| PN_Term x : PNoRepeat pl0 j0 (@Term RNum x)
| PN_Chance ci kids : Forall (PNoRepeat pl0 j0) kids -> PNoRepeat pl0 j0 (@Chance RNum ci kids)
| PN_Player pl i kids :
    (is_info pl i pl0 j0 = true -> Forall (fun c => occurs pl0 j0 c = false) kids) ->
    Forall (PNoRepeat pl0 j0) kids -> PNoRepeat pl0 j0 (@Player RNum pl i kids).

(** perfect recall: all nodes of the infoset have one own history, so none lies below
    another *)
Lemma GoodH_PNoRepeat pl0 j0 hI n :
  forall h1 h2, GoodH pl0 j0 hI n h1 h2 -> PNoRepeat pl0 j0 n.
Proof.
  induction n as [x|ci kids IH|pl i kids IH] using node_ind'; intros h1 h2 HG.
  - constructor.
  - constructor. rewrite Forall_forall in IH |- *. intros c Hc. apply (IH c Hc h1 h2).
    intros h Hh. apply HG. rewrite CfMass.hists_Chance. eapply In_hists_chance; eauto.
  - constructor.
    + intros Ei. apply is_info_true in Ei as [-> ->].
      apply Forall_forall. intros c Hin.
      destruct (occurs pl0 j0 c) eqn:Ec; [|reflexivity]. exfalso.
      apply In_nth_error in Hin as (k & Hk).
      destruct (occ_hists_own pl0 j0 j0 kids k c h1 h2 Hk Ec) as (suf & Hs).
      apply HG in Hs.
      assert (H0 : hp pl0 h1 h2 = hI).
      { apply HG. rewrite CfMass.hists_Player. left. reflexivity. }
      rewrite <- H0 in Hs. apply (f_equal (@length _)) in Hs.
      rewrite app_length in Hs. cbn [length] in Hs. lia.
    + rewrite Forall_forall in IH |- *. intros c Hc.
      apply In_nth_error in Hc as (k & Hk).
      apply (IH c (nth_error_In _ _ Hk) (ext1 pl i h1 k) (ext2 pl i h2 k)).
      intros h Hh. apply HG. rewrite CfMass.hists_Player. right.
      apply (In_hists_player pl i h1 h2 kids k 0 c); assumption.
Qed.

Lemma PerfectRecall_PNoRepeat (g : gameR) pl0 j0 : PerfectRecall g -> PNoRepeat pl0 j0 (g_root g).
Proof.
  intros (H & HH). apply (GoodH_PNoRepeat pl0 j0 (H pl0 j0) (g_root g) [] []).
  intros h Hh. now apply HH.
Qed.

Section AffineSg.
  Context (T : list (list R)) (sg : bool -> nat -> list R) (sgk : nat -> bool -> nat -> list R)
          (pl0 : bool) (j0 : nat).
  Local Notation r := (sg pl0 j0).
  Context (Hsum : Rsum r = 1)
          (Hk : forall k, sgk k pl0 j0 = hot (length r) k)
          (Ho : forall k pl i, is_info pl i pl0 j0 = false -> sgk k pl i = sg pl i).

  Lemma sgk_ext k n :
    occurs pl0 j0 n = false ->
    forall pl i, occurs pl i n = true -> sgk k pl i = sg pl i.
  Proof.
    intros Hn pl i Hi. apply Ho. destruct (is_info pl i pl0 j0) eqn:E; [|reflexivity].
    apply is_info_true in E as [-> ->]. rewrite Hn in Hi. discriminate.
  Qed.

  Theorem uval_affine_sg n :
    PNoRepeat pl0 j0 n -> LShaped T sg n -> uval T sg n = wsum r (fun k => uval T (sgk k) n).
  Proof.
    induction n as [x|ci kids IH|pl i kids IH] using node_ind'; intros HN HL;
      inversion HN as [|? ? HNk|? ? ? HNo HNk]; subst;
      inversion HL as [|? ? EL HLk|? ? ? EL HLk]; subst.
    - cbn [uval]. rewrite wsum_const, Hsum. lra.
    - rewrite uval_Chance, (wsum_ext r _ _ (fun k _ => uval_Chance T (sgk k) ci kids)).
      apply val_player_wsum; [reflexivity|]. exact (Forall_mp2 _ _ _ _ IH HNk HLk).
    - destruct (is_info pl i pl0 j0) eqn:Ei.
      + specialize (HNo eq_refl). apply is_info_true in Ei as [-> ->].
        apply val_player_hots; try assumption. refine (Forall_impl _ _ HNo). intros c Hc k.
        apply uval_ext; [reflexivity|]. apply sgk_ext. exact Hc.
      + apply val_player_wsum; [intros k; now apply Ho|]. exact (Forall_mp2 _ _ _ _ IH HNk HLk).
  Qed.

  Theorem cfr_inc_affine_sg me i a n :
    pl0 <> me -> PNoRepeat pl0 j0 n -> LShaped T sg n -> AffAt r T sg (fun _ => T) sgk me i a n.
  Proof.
    intros Hne.
    induction n as [x|ci kids IH|pl' i' kids IH] using node_ind'; intros HN HL;
      inversion HN as [|? ? HNk|? ? ? HNo HNk]; subst;
      inversion HL as [|? ? EL HLk|? ? ? EL HLk]; subst.
    - intros pc p1 p2. cbn [cfr_inc]. rewrite wsum_const. lra.
    - apply cfr_inc_Chance_wsum; [reflexivity|]. exact (Forall_mp2 _ _ _ _ IH HNk HLk).
    - destruct (is_info pl' i' pl0 j0) eqn:Ei.
      + specialize (HNo eq_refl). apply is_info_true in Ei as [-> ->].
        intros pc p1 p2. rewrite cfr_inc_Player_opp by assumption.
        rewrite (wsum_ext r _ _ (fun k _ => cfr_inc_Player_opp T (sgk k) pl0 me i a j0 kids pc p1 p2 Hne)).
        apply val_player_hots; try assumption. refine (Forall_impl _ _ HNo). intros c Hc k.
        apply cfr_inc_ext; [reflexivity|]. apply sgk_ext. exact Hc.
      + apply cfr_inc_Player_wsum; [intros k; now apply Ho| |].
        * refine (Forall_mp2 _ _ _ _ _ HNk HLk). apply Forall_forall. intros c _. apply uval_affine_sg.
        * exact (Forall_mp2 _ _ _ _ IH HNk HLk).
  Qed.
End AffineSg.

(** the strategies [sg] with the rows of the player other than [me] read from the table
    [rows] *)
Definition of_rows (me : bool) (rows : list (list R)) (sg : bool -> nat -> list R)
  : bool -> nat -> list R :=
  fun pl i => if Bool.eqb pl me then sg pl i else @row RNum rows i.

Lemma of_rows_opp me rows sg j : of_rows me rows sg (negb me) j = @row RNum rows j.
Proof. unfold of_rows. now destruct me. Qed.

(** the oracle that answers [delta] at chance infosets and [eps] at the infosets of the
    player other than [me] ([noff]: number of infosets of player one, the offset of
    player two's ids) *)
Definition draw2 (me : bool) (noff : nat) (delta eps : list nat) : oracleR :=
  fun kind id _ _ => if kind then nth id delta O
                     else nth (id - (if me then noff else 0))%nat eps O.

(** under [draw2 me noff d e] the infoset [j] of the other player draws entry [j] of [e] *)
Lemma pdraw_draw2 me noff d e ppass sg j :
  pdraw (draw2 me noff d e) ppass noff sg (negb me) j = nth j e O.
Proof. unfold pdraw, draw2, ext_id. f_equal. destruct me; cbn [negb]; lia. Qed.

Section ExtUnbiased.
  Context (chance : list (list R)) (sg : bool -> nat -> list R) (me : bool) (n : nodeR)
          (M noff : nat) (cpass ppass : N).
  Local Notation opp := (negb me).
  Context (Hrows : Forall (fun r => Rsum r = 1) chance)
          (HN : NoRepeat n) (HPN : forall j, PNoRepeat opp j n)
          (HV : ValShaped chance sg n)
          (Hsum : forall j, (j < M)%nat -> Rsum (sg opp j) = 1)
          (Hout : forall j, (M <= j)%nat -> sg opp j = []).
  Local Notation rows := (map (sg opp) (seq 0 M)).

  Lemma not_me pl : Bool.eqb pl me = false -> pl = opp.
  Proof. destruct pl, me; easy. Qed.

  Lemma of_rows_self pl j : of_rows me rows sg pl j = sg pl j.
  Proof.
    unfold of_rows. destruct (Bool.eqb pl me) eqn:E; [reflexivity|].
    rewrite (not_me pl E). now apply row_map_seq.
  Qed.

  Lemma ext_sg_draw2 delta eps pl j :
    length eps = M ->
    ext_sg (draw2 me noff delta eps) ppass noff sg me pl j = of_rows me (hots rows eps) sg pl j.
  Proof.
    intros HL. unfold ext_sg, of_rows. destruct (Bool.eqb pl me) eqn:E; [reflexivity|].
    rewrite (not_me pl E), pdraw_draw2, row_hots by now rewrite map_length, seq_length.
    now rewrite row_map_seq.
  Qed.

  Lemma ext_pathwise delta eps i a :
    length delta = length chance -> length eps = M ->
    reg_sum me i a (map tr (eincs chance (draw2 me noff delta eps) cpass ppass noff me sg n)) =
    cfr_inc (hots chance delta) (of_rows me (hots rows eps) sg) me i a n 1 1 1.
  Proof.
    intros Hd He.
    rewrite (ext_reg_sum chance (draw2 me noff delta eps) cpass ppass noff sg me i a n HV 1 1 1)
      by (unfold oppw; destruct me; lra).
    apply cfr_inc_ext.
    - intros ci _. rewrite row_samp, row_hots by assumption. reflexivity.
    - intros pl j _. now apply ext_sg_draw2.
  Qed.

  (** [cfr_inc] as a quantity of the table of rows of the other player *)
  Lemma cfr_inc_affine_rows i a T Tk j :
    Rsum (@row RNum T j) = 1 ->
    (forall k, @row RNum (Tk k) j = hot (length (@row RNum T j)) k) ->
    (forall k j', j' <> j -> @row RNum (Tk k) j' = @row RNum T j') ->
    LShaped chance (of_rows me T sg) n ->
    cfr_inc chance (of_rows me T sg) me i a n 1 1 1 =
    wsum (@row RNum T j) (fun k => cfr_inc chance (of_rows me (Tk k) sg) me i a n 1 1 1).
  Proof.
    intros Hs Hk Ho HL. rewrite <- (of_rows_opp me T sg j) in *.
    apply (cfr_inc_affine_sg chance (of_rows me T sg) (fun k => of_rows me (Tk k) sg) opp j);
      try assumption; [| |now destruct me|apply HPN].
    - intros k. rewrite of_rows_opp. apply Hk.
    - intros k pl j' E. unfold of_rows. destruct (Bool.eqb pl me) eqn:Epl; [reflexivity|].
      apply Ho. intros ->. rewrite (not_me pl Epl) in E.
      now rewrite (proj2 (is_info_true opp j opp j)) in E.
  Qed.

  Theorem external_unbiased i a :
    expect (map (sg opp) (seq 0 M))
           (fun eps =>
              expect chance
                     (fun delta =>
                        reg_sum me i a
                                (map tr (eincs chance (draw2 me noff delta eps) cpass ppass noff me sg n)))) =
    cfr_inc chance sg me i a n 1 1 1.
  Proof.
    rewrite (expect_ext _ _ (fun eps => cfr_inc chance (of_rows me (hots rows eps) sg) me i a n 1 1 1)).
    - rewrite <- (cfr_inc_ext chance chance sg (of_rows me rows sg) me i a n (fun _ _ => eq_refl)
                              (fun pl j _ => of_rows_self pl j)).
      apply (expect_hots (fun T => cfr_inc chance (of_rows me T sg) me i a n 1 1 1)
                         (fun T => LShaped chance (of_rows me T sg) n)) with (pre := []).
      + intros T T' HL. apply LShaped_lens. intros pl j. unfold of_rows.
        destruct (Bool.eqb pl me); [reflexivity|apply HL].
      + apply cfr_inc_affine_rows.
      + apply Forall_forall. intros r Hr. apply in_map_iff in Hr as (j & <- & Hj).
        apply in_seq in Hj. apply Hsum. lia.
      + apply (LShaped_lens chance sg); [|now apply ValShaped_LShaped].
        intros pl j. now rewrite of_rows_self.
    - intros eps He. rewrite map_length, seq_length in He.
      rewrite (expect_ext _ _ (fun delta => cfr_inc (hots chance delta) (of_rows me (hots rows eps) sg)
                                                    me i a n 1 1 1))
        by (intros delta Hd; now apply ext_pathwise).
      apply expect_cfr_inc; try assumption.
      eapply ValShaped_CShaped; eauto.
  Qed.
End ExtUnbiased.

Theorem external_unbiased_game (g : gameR) (st : pstateR) me cpass ppass i a :
  WFgame g -> PerfectRecall g -> ChanceOK g -> InvA (arities g true) (arities g false) st ->
  NoRepeat (g_root g) ->
  expect (map (strat_view st (negb me)) (seq 0 (length (g_infos g (negb me)))))
         (fun eps =>
            expect (g_chance g)
                   (fun delta =>
                      reg_sum me i a
                              (map tr (eincs (g_chance g)
                                             (draw2 me (length (g_infos1 g)) delta eps)
                                             cpass ppass (length (g_infos1 g)) me
                                             (strat_view st) (g_root g))))) =
  cfr_inc (g_chance g) (strat_view st) me i a (g_root g) 1 1 1.
Proof.
  intros HWF HPR HC HI HN.
  pose proof (Inv_of_InvA _ _ _ HI) as HInv.
  pose proof (IA_len g st (negb me) HI) as HL. unfold NI in HL.
  apply external_unbiased; try assumption.
  - now apply ChanceOK_sums.
  - intros j. now apply PerfectRecall_PNoRepeat.
  - destruct HWF as (HS & _). now apply shaped_ValShaped.
  - intros j Hj. apply Inv_strat_sum; [assumption|lia].
  - intros j Hj. unfold strat_view. rewrite ri_get_oob by lia. reflexivity.
Qed.

(** ** Example: matching pennies, active player one; the expectation is over the single
    infoset of player two *)
Lemma mp_NoRepeat : NoRepeat (g_root mp_game).
Proof. cbn. repeat constructor. Qed.

Example mp_external_unbiased (st : pstateR) cpass ppass i a :
  InvA (arities mp_game true) (arities mp_game false) st ->
  wsum (strat_view st false 0)
       (fun k => reg_sum true i a
                         (map tr (eincs (g_chance mp_game) (draw2 true 1 [] [k]) cpass ppass 1 true
                                        (strat_view st) (g_root mp_game)))) =
  cfr_inc (g_chance mp_game) (strat_view st) true i a (g_root mp_game) 1 1 1.
Proof.
  intros HI.
  rewrite <- (external_unbiased_game mp_game st true cpass ppass i a mp_WF mp_PR mp_ChanceOK HI
                                     mp_NoRepeat).
  reflexivity.
Qed.
