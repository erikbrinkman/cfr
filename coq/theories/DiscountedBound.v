(** * DiscountedBound: the true regret of the profile returned by the unsampled solve with
    the presets [p_cfr_plus], [p_dcfr], [p_dcfr_prune] (property C03, clause 2).

    These presets discount the cumulative regrets by sign ([pf t] on positive entries,
    [nf t <= pf t] on negative ones) and the cumulative strategy by [e t = (t/(t+1))^2]
    (iteration [t] has weight [t^2] in the returned average).  The argument
    (Tammelin et al. for CFR+, Brown & Sandholm 2019 Thm 3 for DCFR, redone for the
    bookkeeping of this code — simultaneous updates, regret matching on the undiscounted
    regrets, discount afterwards):
    - [abel_weighted]: if [R_{k+1} >= pf_{k+1} (R_k + r_k)], [R_k >= - L_k] and the
      weights satisfy [w_{k-1} / pf_k <= w_k], then
      [sum_{k<T} w_k r_k <= w_{T-1} / pf_T * R_T + sum_{1<=k<T} (w_k - w_{k-1}/pf_k) L_k];
    - [Decomposition.wregret_decomposition]: the weighted external regret is the
      reach-weighted sum of these weighted sums ([sexternal_regret_bound]);
    - [BoundDominates.traj_bound_gen]: hence the generic bound [strajectory_bound],
      [sbound_dominates];
    - the three presets. *)
From Coq Require Import Reals List Lra Lia Bool Arith NArith.
From Cfr.theories Require Import Num RInst Tree GameWF Strat Eval Solve Valid
     SolveValidProofs LoopProofs RulesProofs Incr IterChar CfMass CfrRate EvalSpec
     CfrSpec LcfrSpec Decomposition AvgRealisation BoundDominates LcfrBound
     DiscountedSpec.
Import ListNotations.
Open Scope R_scope.

Local Notation game := (@game RNum).
Local Notation oracle := (@oracle RNum).
Local Notation params := (@params RNum).

(** ** The summation-by-parts lemma (pure real analysis).

    Iteration number [k + 1] has weight [w k], increment [r k] and discount [pf (S k)];
    the cumulative value after it is [Rg (S k)]. *)
Section Abel.
  Context (w pf L Rg r : nat -> R) (T : nat).
  Context (Hw : forall k, (k < T)%nat -> 0 <= w k).
  Context (Hpf : forall k, (k < T)%nat -> 0 < pf (S k)).
  Context (H0 : Rg 0%nat = 0).
  Context (Hstep : forall k, (k < T)%nat -> pf (S k) * (Rg k + r k) <= Rg (S k)).
  Context (Hkap : forall k, (S k < T)%nat -> 0 <= w (S k) - w k / pf (S k)).
  Context (HL : forall k, (S k < T)%nat -> - L (S k) <= Rg (S k)).

  Lemma abel_step k : (k < T)%nat -> w k * r k <= w k / pf (S k) * Rg (S k) - w k * Rg k.
  Proof.
    intros Hk. pose proof (Hpf k Hk) as Hp. pose proof (Hstep k Hk) as Hs.
    assert (Hq : 0 <= w k / pf (S k)).
    { apply Rmult_le_pos; [apply Hw, Hk|left; apply Rinv_0_lt_compat, Hp]. }
    pose proof (Rmult_le_compat_l _ _ _ Hq Hs) as Hm.
    replace (w k / pf (S k) * (pf (S k) * (Rg k + r k))) with (w k * (Rg k + r k)) in Hm; [lra|].
    unfold Rdiv. rewrite Rmult_assoc, <- (Rmult_assoc (/ pf (S k))), Rinv_l by lra. lra.
  Qed.

  Lemma abel_weighted n :
    (S n <= T)%nat ->
    Rsumn (S n) (fun k => w k * r k) <=
    w n / pf (S n) * Rg (S n) + Rsumn n (fun j => (w (S j) - w j / pf (S j)) * L (S j)).
  Proof.
    induction n as [|n IH]; intros Hn; rewrite Rsumn_S_last.
    - rewrite !Rsumn_0. pose proof (abel_step 0 ltac:(lia)) as Hs. rewrite H0 in Hs. lra.
    - rewrite (Rsumn_S_last n (fun j => (w (S j) - w j / pf (S j)) * L (S j))).
      specialize (IH ltac:(lia)). pose proof (abel_step (S n) ltac:(lia)) as Hs.
      (* the coefficient of [Rg (S n)] left over is non-negative: use the lower bound *)
      pose proof (Rmult_le_compat_l _ _ _ (Hkap n ltac:(lia)) (HL n ltac:(lia))) as Hl.
      lra.
  Qed.
End Abel.

Section Fdisc.
  Context (p : params) (t : nat).
  Local Notation pf := (@gen_discount RNum (N.of_nat t) (a_pos p)).
  Local Notation nf := (@gen_discount RNum (N.of_nat t) (a_neg p)).

  Lemma fdisc_ge_pf y : nf <= pf -> pf * y <= fdisc p t y.
  Proof.
    intros Hle. unfold fdisc. destruct (Rlt_dec 0 y) as [Hy|Hy]; [lra|].
    destruct (Rlt_dec y 0) as [Hy'|Hy'].
    - assert (0 <= (- y) * (pf - nf)) by (apply Rmult_le_pos; lra). lra.
    - assert (y = 0) by lra. subst y. lra.
  Qed.

  Lemma fdisc_ge_nf y m : 0 <= m -> - m <= y -> - (nf * m) <= fdisc p t y.
  Proof.
    intros Hm Hy. pose proof (gen_discount_range (N.of_nat t) (a_neg p)) as [Hn0 Hn1].
    pose proof (gen_discount_range (N.of_nat t) (a_pos p)) as [Hp0 Hp1].
    assert (0 <= nf * m) by (apply Rmult_le_pos; lra).
    unfold fdisc. destruct (Rlt_dec 0 y) as [Hy0|Hy0].
    - assert (0 <= y * pf) by (apply Rmult_le_pos; lra). lra.
    - destruct (Rlt_dec y 0) as [Hy'|Hy'].
      + assert (nf * (- y) <= nf * m) by (apply Rmult_le_compat_l; lra). lra.
      + lra.
  Qed.
End Fdisc.

(** ** The generic bound: regrets discounted by sign, averaging weights [1 / E t] *)
Section SBound.
  Context (g : game) (Hwf : @WFgame RNum g).
  Context (draw : oracle) (p : params) (e : nat -> R).
  Context (He_pos : forall t, (1 <= t)%nat -> 0 < e t).
  Context (He_avg : forall t cs, (1 <= t)%nat ->
              @discount_average_strat RNum p (N.of_nat t) cs = map (fun a => a * e t) cs).

  Let Hpos : arities_pos g := WFgame_arities_pos g Hwf.

  Local Notation sigma := (dsigma_at g draw p).
  Local Notation w := (dweight e).
  Definition spf (t : nat) : R := @gen_discount RNum (N.of_nat t) (a_pos p).
  Definition snf (t : nat) : R := @gen_discount RNum (N.of_nat t) (a_neg p).
  Local Notation pf := spf.
  Local Notation nf := snf.

  Context (Hpf_pos : forall t, (1 <= t)%nat -> 0 < pf t).
  Context (Hnf_le : forall t, (1 <= t)%nat -> nf t <= pf t).
  (** the weights grow at least as fast as the positive regrets are discounted *)
  Context (Hkap : forall k, 0 <= w (S k) - w k / pf (S k)).
  (** a lower bound on the cumulative regrets *)
  Context (L : nat -> R) (HL0 : forall k, 0 <= L k).
  Context (HL : forall k pl i a, (i < ninfos g pl)%nat -> (a < arity g pl i)%nat ->
                                 - L (S k) <= dregret_at g draw p (S k) pl i a).

  (** the coefficient of the final cumulative regret, and the additive term *)
  Definition sB (T : nat) : R := w (T - 1) / pf T.
  Definition sC (T : nat) : R :=
    Rsumn (T - 1) (fun j => (w (S j) - w j / pf (S j)) * L (S j)).

  Lemma sB_nonneg T : (1 <= T)%nat -> 0 <= sB T.
  Proof.
    intros HT. unfold sB, Rdiv. apply Rmult_le_pos.
    - left. now apply dprod_inv_pos.
    - left. apply Rinv_0_lt_compat. now apply Hpf_pos.
  Qed.


  Lemma sC_nonneg T : 0 <= sC T.
  Proof.
    unfold sC. apply Rsumn_nonneg. intros j _. apply Rmult_le_pos; [apply Hkap|apply HL0].
  Qed.

  Lemma swreg_bound T pl i a :
    (1 <= T)%nat -> (i < ninfos g pl)%nat -> (a < arity g pl i)%nat ->
    wreg g draw p w T pl i a <= sB T * dregret_at g draw p T pl i a + sC T.
  Proof.
    intros HT Hi Ha. destruct T as [|n]; [lia|]. unfold wreg, sB, sC.
    replace (S n - 1)%nat with n by lia.
    apply (abel_weighted w pf L (fun k => dregret_at g draw p k pl i a)
                         (fun k => dinc g draw p k pl i a) (S n)).
    - intros k _. left. now apply dprod_inv_pos.
    - intros k _. apply Hpf_pos. lia.
    - apply dregret_at_0.
    - intros k _. rewrite (sregret_at_S g draw p k pl i a Hpos Hi Ha).
      apply fdisc_ge_pf. apply Hnf_le. lia.
    - intros k _. apply Hkap.
    - intros k _. now apply HL.
    - lia.
  Qed.

  Section Ext.
    Context (H : bool -> nat -> hist) (HPR : PRwit g H).

    Theorem sexternal_regret_bound T pl Sp s :
      (1 <= T)%nat -> IsPure g pl Sp s ->
      wext_regret g draw p w T pl Sp <=
      sB T * (INR T * dbound_pl g draw p T pl / 2) + INR (ninfos g pl) * sC T.
    Proof.
      intros HT HP.
      rewrite (wregret_decomposition g Hwf H HPR draw p w T pl Sp s HP).
      pose proof (sB_nonneg T HT) as HB. pose proof (sC_nonneg T) as HC.
      eapply Rle_trans.
      - apply (Rsumn_le _ _ (fun i => sB T * (reach_s s H pl i * dregret_at g draw p T pl i (s i))
                                      + sC T * 1)).
        intros i Hi. destruct (HP i Hi) as [_ Hsi].
        pose proof (swreg_bound T pl i (s i) HT Hi Hsi) as Hb.
        pose proof (reach_s_01 s H pl i) as Hc.
        assert (reach_s s H pl i * wreg g draw p w T pl i (s i) <=
                reach_s s H pl i * (sB T * dregret_at g draw p T pl i (s i) + sC T))
          by (apply Rmult_le_compat_l; lra).
        assert (reach_s s H pl i * sC T <= 1 * sC T) by (apply Rmult_le_compat_r; lra).
        lra.
      - rewrite Rsumn_plus, !Rsumn_scal, Rsumn_const_one.
        pose proof (dbound_pl_dominates g draw p Hpos T pl (fun i => reach_s s H pl i) s HT) as Hd.
        assert (Hd' : Rsumn (ninfos g pl) (fun i => reach_s s H pl i * dregret_at g draw p T pl i (s i))
                      <= INR T * dbound_pl g draw p T pl / 2).
        { apply Hd. intros i Hi. split; [apply reach_s_01|exact (proj2 (HP i Hi))]. }
        assert (sB T * Rsumn (ninfos g pl) (fun i => reach_s s H pl i * dregret_at g draw p T pl i (s i))
                <= sB T * (INR T * dbound_pl g draw p T pl / 2)) by (apply Rmult_le_compat_l; lra).
        lra.
    Qed.
  End Ext.

  Section Dominate.
    Context (HPR : @PerfectRecall RNum g) (HCh : ChanceOK g).

    Definition sbound (T : nat) (b1 b2 : R) : R :=
      (sB T * (INR T * ((b1 + b2) / 2)) + INR (num_infosets g) * sC T) / dwsum e T.

    Theorem strajectory_bound T :
      (1 <= T)%nat ->
      0 <= avg_gap g draw p T true /\ 0 <= avg_gap g draw p T false /\
      avg_gap g draw p T true + avg_gap g draw p T false <=
      sbound T (dbound_pl g draw p T true) (dbound_pl g draw p T false).
    Proof.
      intros HT.
      destruct (traj_bound_gen g Hwf HPR HCh draw p e He_pos He_avg T
                  (fun pl => sB T * (INR T * dbound_pl g draw p T pl / 2) + INR (ninfos g pl) * sC T) HT)
        as (P1 & P2 & P3).
      - intros pl Sp s HS. destruct HPR as [H HH]. exact (sexternal_regret_bound H HH T pl Sp s HT HS).
      - assert (HW : 0 < dwsum e T) by exact (dprod_inv_sum_pos e T He_pos HT).
        change (Rsumn T (fun t => / dprod e t)) with (dwsum e T) in P3.
        split; [exact P1|]. split; [exact P2|]. eapply Rle_trans; [exact P3|]. right.
        unfold sbound, num_infosets, ninfos. cbn [g_infos]. rewrite plus_INR. field. lra.
    Qed.

    Theorem sbound_dominates budget (stop : R -> bool) strats b1 b2 ran :
      @solve_single RNum g Full draw p budget stop = (strats, Some (b1, b2), ran) ->
      let T := N.to_nat ran in
      (1 <= T <= budget)%nat /\ 0 <= b1 /\ 0 <= b2 /\
      0 <= si_reg1 (@info RNum g strats) /\ 0 <= si_reg2 (@info RNum g strats) /\
      si_reg1 (@info RNum g strats) + si_reg2 (@info RNum g strats) <= sbound T b1 b2.
    Proof.
      intros Hs. cbv zeta.
      destruct (solve_single_gaps g draw p budget stop strats b1 b2 ran Hpos Hs)
        as (HT & Hb1 & Hb2 & <- & <- & -> & ->).
      destruct (strajectory_bound _ (proj1 HT)) as (P1 & P2 & P3).
      rewrite !Rmax_left by assumption. auto 6.
    Qed.


    Corollary sbound_dominates_max budget (stop : R -> bool) strats b1 b2 ran :
      @solve_single RNum g Full draw p budget stop = (strats, Some (b1, b2), ran) ->
      @si_regret RNum (@info RNum g strats) <= sbound (N.to_nat ran) b1 b2.
    Proof.
      intros Hs. destruct (sbound_dominates budget stop strats b1 b2 ran Hs) as (_ & _ & _ & H1 & H2 & H3).
      unfold si_regret. cbn [fmax RNum]. apply Rmax_lub; lra.
    Qed.
  End Dominate.
End SBound.

(** ** The averaging weights of the three presets: [a_strat = Fin 2], weight [t^2] *)
Definition sq_e (t : nat) : R := (INR t / INR (S t)) * (INR t / INR (S t)).

Lemma sq_e_pos t : (1 <= t)%nat -> 0 < sq_e t.
Proof.
  intros Ht. unfold sq_e. assert (0 < INR t) by (apply lt_0_INR; lia).
  assert (0 < INR (S t)) by (apply lt_0_INR; lia).
  assert (0 < INR t / INR (S t))
    by (unfold Rdiv; apply Rmult_lt_0_compat; [assumption|now apply Rinv_0_lt_compat]).
  now apply Rmult_lt_0_compat.
Qed.

Lemma sq_discount_avg (p : params) t cs :
  a_strat p = @Fin RNum (@two RNum) -> (1 <= t)%nat ->
  @discount_average_strat RNum p (N.of_nat t) cs = map (fun a => a * sq_e t) cs.
Proof.
  intros Hp Ht.
  assert (H2 : 0 < @two RNum) by (unfold two; cbn [add one RNum]; lra).
  rewrite (discount_average_strat_pos p (N.of_nat t) (@two RNum) cs Hp H2) by lia.
  apply map_ext. intros a. apply f_equal. rewrite Nat2N.id.
  assert (Ht0 : 0 < INR t) by (apply lt_0_INR; lia).
  assert (Hq : 0 < INR t / (INR t + 1)).
  { unfold Rdiv. apply Rmult_lt_0_compat; [assumption|]. apply Rinv_0_lt_compat. lra. }
  unfold two. cbn [add one RNum]. change (1 + 1) with (INR 2).
  rewrite Rpower_pow by exact Hq. unfold sq_e. rewrite S_INR. cbn [pow]. lra.
Qed.

Lemma sq_dprod T : dprod sq_e T = / (INR (S T) * INR (S T)).
Proof.
  induction T as [|k IH]; cbn [dprod]; [cbn [INR]; field|].
  rewrite IH. unfold sq_e.
  assert (0 < INR (S k)) by (apply lt_0_INR; lia).
  assert (0 < INR (S (S k))) by (apply lt_0_INR; lia).
  field. split; lra.
Qed.

Lemma sq_dweight t : dweight sq_e t = INR (S t) * INR (S t).
Proof. unfold dweight. rewrite sq_dprod. apply Rinv_inv. Qed.

Lemma sq_dwsum T : dwsum sq_e T = INR T * INR (S T) * (2 * INR T + 1) / 6.
Proof.
  unfold dwsum. induction T as [|k IH]; [rewrite Rsumn_0; cbn [INR]; lra|].
  rewrite Rsumn_S_last, IH, sq_dweight. rewrite !S_INR. field.
Qed.

Lemma Rsumn_odd n : Rsumn n (fun j => 2 * INR j + 3) = INR (S n) * INR (S n) - 1.
Proof.
  induction n as [|k IH]; [rewrite Rsumn_0; cbn [INR]; lra|].
  rewrite Rsumn_S_last, IH. rewrite !S_INR. lra.
Qed.

(** ** Generic consequences for a preset with weights [t^2] whose positive-regret discount
    satisfies [1 / pf t <= 1 + 1 / t]: the weights grow at least as fast as the positive
    regrets are discounted, and the coefficient of the final regret is at most [T^2 + T] *)
Section SqPreset.
  Context (g : game) (p : params) (L : nat -> R).
  Context (Hpf : forall t, (1 <= t)%nat -> 0 < spf p t /\ / spf p t <= 1 + / INR t).
  Context (HL0 : forall k, 0 <= L k).

  Lemma sq_over_pf t : (1 <= t)%nat -> INR t * INR t / spf p t <= INR t * INR t + INR t.
  Proof.
    intros Ht. destruct (Hpf t Ht) as [_ H2].
    assert (Hk : 0 < INR t) by (apply lt_0_INR; lia).
    replace (INR t * INR t + INR t) with (INR t * INR t * (1 + / INR t)) by (field; lra).
    apply Rmult_le_compat_l; [apply Rle_0_sqr|exact H2].
  Qed.

  Lemma sq_kap k : 0 <= dweight sq_e (S k) - dweight sq_e k / spf p (S k).
  Proof.
    rewrite !sq_dweight. pose proof (sq_over_pf (S k) ltac:(lia)) as H.
    pose proof (pos_INR (S k)). rewrite (S_INR (S k)). lra.
  Qed.

  Lemma sq_sB T : (1 <= T)%nat -> sB p sq_e T <= INR T * INR T + INR T.
  Proof.
    intros HT. unfold sB. rewrite sq_dweight. replace (S (T - 1)) with T by lia.
    now apply sq_over_pf.
  Qed.

  (** the coefficient [w k - w (k-1) / pf k] is at most [w k - w (k-1)] *)
  Lemma sq_kappa_le j :
    dweight sq_e (S j) - dweight sq_e j / spf p (S j) <= 2 * INR j + 3.
  Proof.
    rewrite !sq_dweight. destruct (Hpf (S j) ltac:(lia)) as [Hp _].
    assert (H1 : 1 <= / spf p (S j)).
    { rewrite <- Rinv_1. apply Rinv_le_contravar; [exact Hp|apply gen_discount_range]. }
    assert (H2 : INR (S j) * INR (S j) * 1 <= INR (S j) * INR (S j) * / spf p (S j)).
    { apply Rmult_le_compat_l; [|exact H1]. apply Rle_0_sqr. }
    unfold Rdiv. rewrite !S_INR in *. nra.
  Qed.

  Lemma sq_sC_le T c :
    (1 <= T)%nat -> (forall j, (S j < T)%nat -> L (S j) <= c) ->
    sC p sq_e L T <= c * (INR T * INR T - 1).
  Proof.
    intros HT Hc. unfold sC.
    eapply Rle_trans.
    - apply (Rsumn_le _ _ (fun j => c * (2 * INR j + 3))). intros j Hj.
      pose proof (sq_kappa_le j) as Hk. pose proof (sq_kap j) as Hk0.
      pose proof (Hc j ltac:(lia)) as Hl. pose proof (HL0 (S j)) as Hl0.
      set (kap := dweight sq_e (S j) - dweight sq_e j / spf p (S j)) in *.
      assert (kap * L (S j) <= kap * c) by (apply Rmult_le_compat_l; lra).
      assert (kap * c <= (2 * INR j + 3) * c) by (apply Rmult_le_compat_r; lra).
      lra.
    - rewrite Rsumn_scal, Rsumn_odd. replace (S (T - 1)) with T by lia. lra.
  Qed.

  (** [3/2] is [(T^2 + T) * T / 2] over the sum of the weights [T (T + 1) (2T + 1) / 6], and
      [3 / T] bounds [T^2 - 1] over the same sum *)
  Lemma sq_sbound_le T b1 b2 c :
    (1 <= T)%nat -> 0 <= b1 + b2 -> 0 <= c -> (forall j, (S j < T)%nat -> L (S j) <= c) ->
    sbound g p sq_e L T b1 b2 <= 3 / 2 * (b1 + b2) + 3 * INR (num_infosets g) * c / INR T.
  Proof.
    intros HT Hb Hc HLc. pose proof (sq_sB T HT) as HB. pose proof (sq_sC_le T c HT HLc) as HC.
    unfold sbound. rewrite sq_dwsum, S_INR.
    assert (Hn : 1 <= INR T) by (change 1 with (INR 1); apply le_INR; lia).
    set (n := INR T) in *. pose proof (pos_INR (num_infosets g)) as HN.
    set (N := INR (num_infosets g)) in *.
    set (B := sB p sq_e T) in *. set (C := sC p sq_e L T) in *.
    assert (HW : 0 < n * (n + 1) * (2 * n + 1) / 6) by nra.
    apply (Rmult_le_reg_r (n * (n + 1) * (2 * n + 1) / 6)); [exact HW|].
    unfold Rdiv at 1. rewrite Rmult_assoc, Rinv_l, Rmult_1_r by lra.
    replace ((3 / 2 * (b1 + b2) + 3 * N * c / n) * (n * (n + 1) * (2 * n + 1) / 6))
      with ((b1 + b2) * (n * (n + 1) * (2 * n + 1) / 4) + N * c * ((n + 1) * (2 * n + 1) / 2))
      by (field; lra).
    assert (H1 : B * (n * ((b1 + b2) / 2)) <= (n * n + n) * (n * ((b1 + b2) / 2))).
    { apply Rmult_le_compat_r; [|exact HB]. apply Rmult_le_pos; lra. }
    assert (H2 : N * C <= N * (c * (n * n - 1))) by (apply Rmult_le_compat_l; lra).
    assert (H3 : (n * n + n) * (n * ((b1 + b2) / 2)) <= (b1 + b2) * (n * (n + 1) * (2 * n + 1) / 4)).
    { assert (0 <= (b1 + b2) * (n * (n + 1))) by (apply Rmult_le_pos; nra). nra. }
    assert (H4 : N * (c * (n * n - 1)) <= N * c * ((n + 1) * (2 * n + 1) / 2)).
    { assert (0 <= N * c) by (apply Rmult_le_pos; lra).
      assert (n * n - 1 <= (n + 1) * (2 * n + 1) / 2) by nra.
      rewrite <- Rmult_assoc. apply Rmult_le_compat_l; assumption. }
    lra.
  Qed.
End SqPreset.

(** the finishing step shared by the three presets: [L] bounds the cumulative regrets from
    below, [c] bounds [L] up to the last iteration *)
Lemma sq_preset_dominates (g : game) (draw : oracle) (p : params) (L : nat -> R) (c : R)
      budget (stop : R -> bool) strats b1 b2 ran :
  @WFgame RNum g -> @PerfectRecall RNum g -> ChanceOK g ->
  a_strat p = @Fin RNum (@two RNum) ->
  (forall t, (1 <= t)%nat -> 0 < spf p t /\ / spf p t <= 1 + / INR t) ->
  (forall t, (1 <= t)%nat -> snf p t <= spf p t) ->
  (forall k, 0 <= L k) ->
  (forall k pl i a, (i < ninfos g pl)%nat -> (a < arity g pl i)%nat ->
                    - L (S k) <= dregret_at g draw p (S k) pl i a) ->
  0 <= c -> (forall j, (S j < N.to_nat ran)%nat -> L (S j) <= c) ->
  @solve_single RNum g Full draw p budget stop = (strats, Some (b1, b2), ran) ->
  (1 <= N.to_nat ran)%nat /\ 0 <= b1 /\ 0 <= b2 /\
  @si_regret RNum (@info RNum g strats) <=
  3 / 2 * (b1 + b2) + 3 * INR (num_infosets g) * c / INR (N.to_nat ran).
Proof.
  intros Hwf HPR HCh Hst Hpf Hnf HL0 HL Hc HLc Hs.
  destruct (sbound_dominates g Hwf draw p sq_e sq_e_pos
              (fun t cs Ht => sq_discount_avg p t cs Hst Ht) (fun t Ht => proj1 (Hpf t Ht)) Hnf
              (sq_kap p Hpf) L HL0 HL HPR HCh
              budget stop strats b1 b2 ran Hs) as (HT & Hb1 & Hb2 & H1 & H2 & H3).
  split; [lia|]. split; [exact Hb1|]. split; [exact Hb2|].
  eapply Rle_trans; [|apply (sq_sbound_le g p L Hpf HL0); [lia|lra|exact Hc|exact HLc]].
  unfold si_regret. cbn [fmax RNum]. apply Rmax_lub; lra.
Qed.

(** ** CFR+ ([p_cfr_plus]): positive regrets kept, negative ones reset to 0 *)
Section CfrPlus.
  Context (g : game) (Hwf : @WFgame RNum g) (draw : oracle).
  Local Notation p := (@p_cfr_plus RNum).

  Let Hpos : arities_pos g := WFgame_arities_pos g Hwf.

  Lemma cfrp_spf t : spf p t = 1.
  Proof. reflexivity. Qed.

  Lemma cfrp_snf t : snf p t = 0.
  Proof. reflexivity. Qed.

  Lemma cfrp_pf t : (1 <= t)%nat -> 0 < spf p t /\ / spf p t <= 1 + / INR t.
  Proof.
    intros Ht. rewrite cfrp_spf, Rinv_1.
    assert (0 < / INR t) by (apply Rinv_0_lt_compat, lt_0_INR; lia). lra.
  Qed.

  Lemma cfrp_regret_nonneg k pl i a :
    (i < ninfos g pl)%nat -> (a < arity g pl i)%nat -> 0 <= dregret_at g draw p (S k) pl i a.
  Proof.
    intros Hi Ha. rewrite (sregret_at_S g draw p k pl i a Hpos Hi Ha).
    set (y := _ + _). unfold fdisc. cbn [p_cfr_plus a_pos a_neg gen_discount one zero RNum].
    destruct (Rlt_dec 0 y); [lra|]. destruct (Rlt_dec y 0); lra.
  Qed.

  Theorem cfr_plus_bound_dominates budget (stop : R -> bool) strats b1 b2 ran :
    @PerfectRecall RNum g -> ChanceOK g ->
    @solve_single RNum g Full draw p budget stop = (strats, Some (b1, b2), ran) ->
    @si_regret RNum (@info RNum g strats) <= 3 / 2 * (b1 + b2) /\ 0 <= b1 /\ 0 <= b2.
  Proof.
    intros HPR HCh Hs.
    destruct (sq_preset_dominates g draw p (fun _ => 0) 0 budget stop strats b1 b2 ran
                Hwf HPR HCh eq_refl) as (HT & Hb1 & Hb2 & Hd); try assumption.
    - exact cfrp_pf.
    - intros t _. rewrite cfrp_spf, cfrp_snf. lra.
    - intros _. lra.
    - intros k pl i a Hi Ha. pose proof (cfrp_regret_nonneg k pl i a Hi Ha). lra.
    - lra.
    - intros j _. lra.
    - split; [|split; assumption]. unfold Rdiv in Hd. rewrite Rmult_0_r, Rmult_0_l, Rplus_0_r in Hd.
      exact Hd.
  Qed.
End CfrPlus.

(** ** Presets whose positive-regret discount is [t^al / (t^al + 1)] with [al >= 1] *)
Lemma spf_alpha (p : params) (al : R) t :
  a_pos p = @Fin RNum al -> 1 <= al -> (1 <= t)%nat ->
  0 < spf p t /\ 1 / 2 <= spf p t /\ / spf p t <= 1 + / INR t.
Proof.
  intros Hp Hal Ht. unfold spf. rewrite Hp, gen_discount_fin, Nat2N.id.
  assert (Ht1 : 1 <= INR t) by (change 1 with (INR 1); apply le_INR; lia).
  set (x := Rpower (INR t) al).
  assert (Hx : INR t <= x).
  { unfold x. rewrite <- (Rpower_1 (INR t)) at 1 by lra. now apply Rle_Rpower. }
  assert (Hxp : 0 < x) by lra.
  assert (Hq : 0 < x / (x + 1)).
  { unfold Rdiv. apply Rmult_lt_0_compat; [assumption|]. apply Rinv_0_lt_compat. lra. }
  split; [exact Hq|]. split.
  - apply (Rmult_le_reg_r (x + 1)); [lra|].
    replace (x / (x + 1) * (x + 1)) with x by (field; lra). lra.
  - replace (/ (x / (x + 1))) with (1 + / x) by (field; lra).
    assert (/ x <= / INR t) by (apply Rinv_le_contravar; lra). lra.
Qed.

Lemma alpha_pf (p : params) (al : R) t :
  a_pos p = @Fin RNum al -> 1 <= al -> (1 <= t)%nat -> 0 < spf p t /\ / spf p t <= 1 + / INR t.
Proof. intros Hp Hal Ht. now destruct (spf_alpha p al t Hp Hal Ht) as (H1 & _ & H2). Qed.

(** ** A lower bound on the cumulative regrets from the negative-regret discount: if
    [nf (k+1) * (L k + D) <= L (k+1)] then [cum_regret_k >= - L k] *)
Section Lower.
  Context (g : game) (draw : oracle) (p : params) (lo hi : R).
  Context (HWF : @WFgame RNum g) (HPR : @PerfectRecall RNum g) (HCO : ChanceOK g)
          (HPay : PayoffsIn lo hi (g_root g)).
  Let Hpos : arities_pos g := WFgame_arities_pos g HWF.
  Local Notation D := (hi - lo).

  Lemma sinc_bounded k pl i a :
    (i < ninfos g pl)%nat -> (a < arity g pl i)%nat ->
    Rabs (dinc g draw p k pl i a) <= D.
  Proof.
    intros Hi Ha. apply cfr_inc_bounded; try assumption.
    - apply (dstate_at_inv g draw p Hpos).
    - destruct (dstate_at_RInvA g draw p Hpos k pl i Hi) as (_ & _ & _ & _ & L3).
      unfold strat_view. tR. lia.
  Qed.


  Context (L : nat -> R) (HL0 : forall k, 0 <= L k).
  Context (HLrec : forall k, snf p (S k) * (L k + D) <= L (S k)).

  Lemma sregret_lower k pl i a :
    (i < ninfos g pl)%nat -> (a < arity g pl i)%nat -> - L k <= dregret_at g draw p k pl i a.
  Proof.
    intros Hi Ha. induction k as [|k IH].
    - rewrite dregret_at_0. pose proof (HL0 0%nat). lra.
    - rewrite (sregret_at_S g draw p k pl i a Hpos Hi Ha).
      pose proof (sinc_bounded k pl i a Hi Ha) as Hr.
      assert (Hr' : - D <= dinc g draw p k pl i a).
      { pose proof (Rle_abs (- dinc g draw p k pl i a)) as Ha'.
        rewrite Rabs_Ropp in Ha'. lra. }
      pose proof (D_nonneg g lo hi HWF HCO HPay) as HD. pose proof (HL0 k) as Hk.
      pose proof (fdisc_ge_nf p (S k) (dregret_at g draw p k pl i a + dinc g draw p k pl i a)
                              (L k + D) ltac:(lra) ltac:(lra)) as Hf.
      pose proof (HLrec k) as Hrec. unfold snf in Hrec. lra.
  Qed.
End Lower.

(** ** DCFR ([p_dcfr]: alpha = 3/2, beta = 0, gamma = 2) and its pruning variant
    ([p_dcfr_prune]: beta = 1/2) *)
Lemma alpha_dcfr : @div RNum (@of_nat_T RNum 3) (@two RNum) = 3 / 2.
Proof.
  unfold of_nat_T, two. cbn [div of_N add one RNum].
  change (N.to_nat (N.of_nat 3)) with 3%nat. cbn [INR]. lra.
Qed.

Lemma alpha_dcfr_ge1 : 1 <= @div RNum (@of_nat_T RNum 3) (@two RNum).
Proof. rewrite alpha_dcfr. lra. Qed.

Lemma frac_mono x y : 0 < y -> y <= x -> y / (y + 1) <= x / (x + 1).
Proof.
  intros Hy Hxy.
  apply (Rmult_le_reg_r ((y + 1) * (x + 1))); [apply Rmult_lt_0_compat; lra|].
  replace (y / (y + 1) * ((y + 1) * (x + 1))) with (y * (x + 1)) by (field; lra).
  replace (x / (x + 1) * ((y + 1) * (x + 1))) with (x * (y + 1)) by (field; lra).
  lra.
Qed.

Section Presets.
  Context (g : game) (draw : oracle) (lo hi : R) (A : nat).
  Context (HWF : @WFgame RNum g) (HPR : @PerfectRecall RNum g) (HCO : ChanceOK g)
          (HPay : PayoffsIn lo hi (g_root g))
          (HA : forall pl, Forall (fun a => (a <= A)%nat) (arities g pl)).
  Local Notation D := (hi - lo).
  Local Notation dcfr := (@p_dcfr RNum).
  Local Notation prune := (@p_dcfr_prune RNum).

  Lemma range_nonneg : 0 <= D.
  Proof. exact (D_nonneg g lo hi HWF HCO HPay). Qed.

  Lemma dcfr_snf t : snf dcfr t = 1 / 2.
  Proof.
    unfold snf. cbn [p_dcfr a_neg]. change (zero RNum) with 0.
    rewrite gen_discount_fin. unfold Rpower. rewrite Rmult_0_l, exp_0. lra.
  Qed.

  Lemma dcfr_nf_le t : (1 <= t)%nat -> snf dcfr t <= spf dcfr t.
  Proof.
    intros Ht. rewrite dcfr_snf.
    now destruct (spf_alpha dcfr _ t eq_refl alpha_dcfr_ge1 Ht) as (_ & H & _).
  Qed.

  Lemma dcfr_regret_lower k pl i a :
    (i < ninfos g pl)%nat -> (a < arity g pl i)%nat -> - D <= dregret_at g draw dcfr k pl i a.
  Proof.
    intros Hi Ha.
    apply (sregret_lower g draw dcfr lo hi HWF HPR HCO HPay (fun _ => D)); try assumption.
    - intros _. exact range_nonneg.
    - intros j. rewrite dcfr_snf. lra.
  Qed.

  Theorem dcfr_bound_dominates budget (stop : R -> bool) strats b1 b2 ran :
    @solve_single RNum g Full draw dcfr budget stop = (strats, Some (b1, b2), ran) ->
    (1 <= N.to_nat ran)%nat /\ 0 <= b1 /\ 0 <= b2 /\
    @si_regret RNum (@info RNum g strats) <=
    3 / 2 * (b1 + b2) + 3 * INR (num_infosets g) * D / INR (N.to_nat ran).
  Proof.
    intros Hs.
    apply (sq_preset_dominates g draw dcfr (fun _ => D) D budget stop strats b1 b2 ran
                               HWF HPR HCO eq_refl); try assumption.
    - exact (fun t => alpha_pf dcfr _ t eq_refl alpha_dcfr_ge1).
    - exact dcfr_nf_le.
    - intros _. exact range_nonneg.
    - intros k pl i a Hi Ha. now apply dcfr_regret_lower.
    - exact range_nonneg.
    - intros j _. lra.
  Qed.

  Lemma prune_snf t : (1 <= t)%nat -> snf prune t = sqrt (INR t) / (sqrt (INR t) + 1).
  Proof.
    intros Ht. unfold snf. cbn [p_dcfr_prune a_neg]. rewrite gen_discount_fin, Nat2N.id.
    assert (Ht0 : 0 < INR t) by (apply lt_0_INR; lia).
    replace (@div RNum (one RNum) (@two RNum)) with (/ 2)
      by (unfold two; cbn [div add one RNum]; lra).
    now rewrite Rpower_sqrt.
  Qed.

  Lemma prune_nf_le t : (1 <= t)%nat -> snf prune t <= spf prune t.
  Proof.
    intros Ht. unfold snf, spf. cbn [p_dcfr_prune a_neg a_pos]. rewrite !gen_discount_fin, Nat2N.id.
    assert (Ht1 : 1 <= INR t) by (change 1 with (INR 1); apply le_INR; lia).
    apply frac_mono.
    - unfold Rpower. apply exp_pos.
    - apply Rle_Rpower; [exact Ht1|]. rewrite alpha_dcfr. unfold two. cbn [div add one RNum]. lra.
  Qed.

  Lemma prune_regret_lower k pl i a :
    (i < ninfos g pl)%nat -> (a < arity g pl i)%nat ->
    - (sqrt (INR k) * D) <= dregret_at g draw prune k pl i a.
  Proof.
    intros Hi Ha.
    apply (sregret_lower g draw prune lo hi HWF HPR HCO HPay (fun k => sqrt (INR k) * D));
      try assumption.
    - intros j. apply Rmult_le_pos; [apply sqrt_pos|exact range_nonneg].
    - intros j. rewrite prune_snf by lia.
      assert (Hj : 0 < INR (S j)) by (apply lt_0_INR; lia).
      pose proof (sqrt_lt_R0 _ Hj) as Hy. pose proof (sqrt_pos (INR j)) as Hz.
      assert (Hle : sqrt (INR j) <= sqrt (INR (S j))).
      { apply sqrt_le_1; [apply pos_INR|lra|]. rewrite S_INR. lra. }
      set (y := sqrt (INR (S j))) in *. set (z := sqrt (INR j)) in *.
      replace (y / (y + 1) * (z * D + D)) with (y * D * ((z + 1) / (y + 1))) by (field; lra).
      assert (H1 : (z + 1) / (y + 1) <= 1).
      { apply (Rmult_le_reg_r (y + 1)); [lra|]. unfold Rdiv. rewrite Rmult_assoc, Rinv_l by lra. lra. }
      assert (H2 : 0 <= y * D) by (apply Rmult_le_pos; [lra|exact range_nonneg]).
      assert (y * D * ((z + 1) / (y + 1)) <= y * D * 1) by (apply Rmult_le_compat_l; assumption).
      lra.
  Qed.

  Theorem dcfr_prune_bound_dominates budget (stop : R -> bool) strats b1 b2 ran :
    @solve_single RNum g Full draw prune budget stop = (strats, Some (b1, b2), ran) ->
    (1 <= N.to_nat ran)%nat /\ 0 <= b1 /\ 0 <= b2 /\
    @si_regret RNum (@info RNum g strats) <=
    3 / 2 * (b1 + b2) + 3 * INR (num_infosets g) * D / sqrt (INR (N.to_nat ran)).
  Proof.
    intros Hs.
    set (T := N.to_nat ran).
    destruct (sq_preset_dominates g draw prune (fun k => sqrt (INR k) * D) (sqrt (INR T) * D)
                                  budget stop strats b1 b2 ran
                                  HWF HPR HCO eq_refl) as (HT & Hb1 & Hb2 & Hd); try assumption.
    - exact (fun t => alpha_pf prune _ t eq_refl alpha_dcfr_ge1).
    - exact prune_nf_le.
    - intros j. apply Rmult_le_pos; [apply sqrt_pos|exact range_nonneg].
    - intros k pl i a Hi Ha. now apply prune_regret_lower.
    - apply Rmult_le_pos; [apply sqrt_pos|exact range_nonneg].
    - intros j Hj. apply Rmult_le_compat_r; [exact range_nonneg|].
      apply sqrt_le_1; [apply pos_INR|apply pos_INR|]. apply le_INR. fold T in Hj. lia.
    - fold T in HT, Hd. split; [exact HT|]. split; [exact Hb1|]. split; [exact Hb2|].
      eapply Rle_trans; [exact Hd|]. apply Rplus_le_compat_l.
      assert (HT0 : 0 < INR T) by (apply lt_0_INR; lia).
      pose proof (sqrt_lt_R0 _ HT0) as Hsq. pose proof (sqrt_sqrt (INR T) ltac:(lra)) as Hss.
      right. rewrite <- Hss at 2. field. lra.
  Qed.


  Theorem cfr_plus_true_regret_rate_sharp budget (stop : R -> bool) strats b1 b2 ran :
    @solve_single RNum g Full draw (@p_cfr_plus RNum) budget stop = (strats, Some (b1, b2), ran) ->
    (1 <= ran)%N /\
    @si_regret RNum (@info RNum g strats) <=
    3 * D * INR (num_infosets g) * sqrt (INR A) / sqrt (INR (N.to_nat ran)).
  Proof.
    intros Hs.
    destruct (cfr_plus_bound_dominates g HWF draw budget stop strats b1 b2 ran HPR HCO Hs) as (Hd & _).
    destruct (rate_of_dominates g draw lo hi A HWF HPR HCO HPay HA _ budget stop strats b1 b2 ran
                                (3 / 2) 0 Hs) as (Hr & H); [lra|lra|].
    split; [exact Hr|lra].
  Qed.

  Theorem dcfr_true_regret_rate_sharp budget (stop : R -> bool) strats b1 b2 ran :
    @solve_single RNum g Full draw dcfr budget stop = (strats, Some (b1, b2), ran) ->
    let T := INR (N.to_nat ran) in
    (1 <= ran)%N /\
    @si_regret RNum (@info RNum g strats) <=
    3 * D * INR (num_infosets g) * (sqrt (INR A) + 1 / sqrt T) / sqrt T.
  Proof.
    intros Hs. cbv zeta.
    destruct (dcfr_bound_dominates budget stop strats b1 b2 ran Hs)
      as (_ & _ & _ & Hd).
    destruct (rate_of_dominates g draw lo hi A HWF HPR HCO HPay HA _ budget stop strats b1 b2 ran
                                (3 / 2) _ Hs ltac:(lra) Hd) as (Hr & H).
    split; [exact Hr|].
    rewrite <- (sqrt_sqrt (INR (N.to_nat ran))) in H at 2 by apply pos_INR.
    unfold Rdiv in *. rewrite Rinv_mult in H. lra.
  Qed.

  Theorem dcfr_prune_true_regret_rate_sharp budget (stop : R -> bool) strats b1 b2 ran :
    @solve_single RNum g Full draw prune budget stop = (strats, Some (b1, b2), ran) ->
    (1 <= ran)%N /\
    @si_regret RNum (@info RNum g strats) <=
    3 * D * INR (num_infosets g) * (sqrt (INR A) + 1) / sqrt (INR (N.to_nat ran)).
  Proof.
    intros Hs.
    destruct (dcfr_prune_bound_dominates budget stop strats b1 b2 ran Hs)
      as (_ & _ & _ & Hd).
    destruct (rate_of_dominates g draw lo hi A HWF HPR HCO HPay HA _ budget stop strats b1 b2 ran
                                (3 / 2) _ Hs ltac:(lra) Hd) as (Hr & H).
    split; [exact Hr|]. unfold Rdiv in *. lra.
  Qed.

  (** property C03, clause 2, for the three presets and every stop predicate *)
  Theorem true_regret_rate_presets (p : params) budget (stop : R -> bool) strats b1 b2 ran :
    In p [@p_cfr_plus RNum; @p_dcfr RNum; @p_dcfr_prune RNum] ->
    @solve_single RNum g Full draw p budget stop = (strats, Some (b1, b2), ran) ->
    let T := INR (N.to_nat ran) in
    @si_regret RNum (@info RNum g strats) <=
    6 * D * INR (num_infosets g) * (sqrt (INR A) + 1 / sqrt T) / sqrt T.
  Proof.
    intros [<-|[<-|[<-|[]]]] Hs; cbv zeta.
    - destruct (cfr_plus_true_regret_rate_sharp budget stop strats b1 b2 ran Hs) as (Hr & H).
      eapply (rate_weaken g lo hi A HWF HCO HPay HA); [exact Hr|exact H|intros; lra].
    - destruct (dcfr_true_regret_rate_sharp budget stop strats b1 b2 ran Hs) as (Hr & H).
      eapply (rate_weaken g lo hi A HWF HCO HPay HA); [exact Hr|exact H|intros; lra].
    - destruct (dcfr_prune_true_regret_rate_sharp budget stop strats b1 b2 ran Hs) as (Hr & H).
      eapply (rate_weaken g lo hi A HWF HCO HPay HA); [exact Hr|exact H|intros; lra].
  Qed.
End Presets.

(** the statement of [Properties/C03.v], literally (it fixes the stop predicate
    [fun _ => false]) *)
Theorem C03_true_regret_rate_presets_proved :
  forall (g : game) draw (p : params) (lo hi : R) (A : nat) budget strats b1 b2 ran,
    In p [@p_cfr_plus RNum; @p_dcfr RNum; @p_dcfr_prune RNum] ->
    WFgame g -> PerfectRecall g -> ChanceOK g -> PayoffsIn lo hi (g_root g) ->
    (forall pl, Forall (fun a => (a <= A)%nat) (arities g pl)) ->
    @solve_single RNum g Full draw p budget (fun _ => false) = (strats, Some (b1, b2), ran) ->
    let T := INR (N.to_nat ran) in
    @si_regret RNum (@info RNum g strats) <=
    6 * (hi - lo) * INR (num_infosets g) * (sqrt (INR A) + 1 / sqrt T) / sqrt T.
Proof.
  intros g draw p lo hi A budget strats b1 b2 ran Hp HWF HPR HCO HPay HA Hs.
  exact (true_regret_rate_presets g draw lo hi A HWF HPR HCO HPay HA p budget _ strats b1 b2 ran Hp Hs).
Qed.

(** ** Non-vacuity: matching pennies ([SolveValidProofs.mp_game], payoffs in [-1, 1], one
    infoset per player, two actions): every solve with a positive budget and one of the
    three presets returns bounds, and the theorems apply *)
Example mp_presets_true_regret_rate (draw : oracle) (p : params) (budget : nat) (stop : R -> bool) :
  In p [@p_cfr_plus RNum; @p_dcfr RNum; @p_dcfr_prune RNum] -> (1 <= budget)%nat ->
  exists strats b1 b2 ran,
    @solve_single RNum SolveValidProofs.mp_game Full draw p budget stop = (strats, Some (b1, b2), ran) /\
    (1 <= ran)%N /\
    let T := INR (N.to_nat ran) in
    @si_regret RNum (@info RNum SolveValidProofs.mp_game strats) <=
    6 * (1 - -1) * INR 2 * (sqrt (INR 2) + 1 / sqrt T) / sqrt T.
Proof.
  intros Hp Hb.
  destruct (@solve_single RNum SolveValidProofs.mp_game Full draw p budget stop) as [[strats regs] ran] eqn:E.
  destruct (budget_never_exceeded SolveValidProofs.mp_game Full draw _ stop budget strats regs ran E)
    as (_ & Hsome & _).
  destruct (Hsome Hb) as (Hran & b1 & b2 & ->).
  exists strats, b1, b2, ran. split; [reflexivity|]. split; [lia|].
  exact (true_regret_rate_presets SolveValidProofs.mp_game draw (-1) 1 2 mp_WF mp_PR
           CfrRate.mp_ChanceOK mp_Payoffs mp_arities p budget stop strats b1 b2 ran Hp E).
Qed.
