(** * BRFloat: the best-response evaluator at binary64 itself (instance [FNum]).

    Property C01 says that each player's reported regret is the largest gain that player
    can obtain by deviating.  Over the reals this is [BestResponseProofs]; this file is
    about the functions that are executed: [@br_value FNum] (model of
    [regret::optimal_deviations] / [next_infoset_search]) and [@info FNum] ([regret::regret]).
    They return finite numbers of bounded magnitude, and, when no reach product underflows
    ([CollOK]), they agree with the real-number model run on the [FR]-image of the same data
    ([gameR], [tblR]) up to a forward error relative to the largest payoff magnitude.

    Evaluation order analysed (see [Eval.v]): [collect] records the own decision nodes with
    their reach (products [fl (p * reach)] down the path, own nodes do not multiply);
    [resolve_from] resolves the infosets from the last index down; [resolve_one] computes,
    for infoset [i], [total = fl-sum of the reaches], for each action the running sum
    [pays_a = fl (pays_a + fl (search(kid_a, 1, 0) * reach))], [m = max_a pays_a] and
    [if total > 0 then fl (m / total) else 0]; [search] is the accumulator evaluation of
    [EvalFloat] stopped at the next own infosets, whose values are read from the table.

    Hypotheses used throughout: tables with [fin01] entries ([TblOK]) whose rows sum (over
    the reals) to at most [(1+2^-53)^c] ([RowSum c]; [rowsumb] checks it: every row has at
    most [c] entries and a binary64 sum [<= 1]); finite payoffs of magnitude [<= B], [1 <= B]
    ([PayOK]).  Shape of the game: [br_D] depth, [br_N] size ([tsz]) of the tree, [br_n]
    number of infosets of the player.  Without the row-sum hypothesis the values can grow
    geometrically with the number of infoset levels and no bound of the shape below holds. *)
From Coq Require Import List ZArith Reals Floats Bool Lia Lra Arith Psatz.
From Flocq Require Import Core IEEE754.BinarySingleNaN IEEE754.PrimFloat Relative.
From Cfr.theories Require Import Num ListAux FInst RInst Tree GameWF Eval
  TruncFloat DistFloat NormFloat EvalFloat ScaleFloat ScaleFloatBR.
From Cfr.theories Require BestResponseProofs.
Import ListNotations.

Local Existing Instance Flocq.IEEE754.PrimFloat.Hprec.
Local Existing Instance Flocq.IEEE754.PrimFloat.Hmax.

Local Open Scope R_scope.
Local Notation float := PrimFloat.float.
Local Notation node := (@node FNum).
Local Notation game := (@game FNum).

Local Instance fexp_valid_brf : Valid_exp (SpecFloat.fexp prec emax) :=
  fexp_correct prec emax Flocq.IEEE754.PrimFloat.Hprec.

(** ** The rounding factor [G m = (1 + 2^-53)^m] *)

Lemma G_bernoulli : forall n, 1 + INR n * u53 <= G n.
Proof.
  assert (Hu := u53_pos).
  induction n as [|n IH]; [rewrite G_0; cbn [INR]; lra|].
  rewrite S_INR, G_S. assert (H0 := pos_INR n). nra.
Qed.

Lemma G_le_2 : forall k, INR k * bpow radix2 (-53) <= / 2 -> G k <= 2.
Proof. intros k Hk. exact (proj1 (G_small k Hk)). Qed.

Lemma G_mul_nonneg : forall j x y, 0 <= x -> x <= G j * y -> 0 <= y.
Proof.
  intros j x y Hx H. assert (HG := G_pos j).
  destruct (Rle_or_lt 0 y) as [Hy|Hy]; [exact Hy|exfalso].
  assert (G j * y < G j * 0) by (apply Rmult_lt_compat_l; assumption).
  lra.
Qed.

Lemma le_mul_SN : forall x (N : nat), 0 <= x -> x <= x * INR (S N).
Proof.
  intros x N Hx. rewrite S_INR. assert (H := pos_INR N).
  apply Rle_trans with (x * 1); [lra | apply Rmult_le_compat_l; lra].
Qed.

(** ** [search] (next-infoset search) against its exact value

    [sV]: exact value of the subtree up to the next own infosets, whose values are the real
    values of the binary64 numbers [mu i]; [aV]: the same with absolute values (the mass);
    [sdep] / [snl]: depth and number of leaves of the searched part (own decision nodes are
    leaves of the search). *)
Fixpoint sV (chance so : list (list float)) (me : bool) (mu : nat -> float) (n : node) : R :=
  match n with
  | Term x => if me then FR x else - FR x
  | Chance ci kids => wsum (sV chance so me mu) (@row FNum chance ci) kids
  | Player pl i kids =>
      if Bool.eqb pl me then FR (mu i)
      else wsum (sV chance so me mu) (@row FNum so i) kids
  end.

Fixpoint aV (chance so : list (list float)) (me : bool) (mu : nat -> float) (n : node) : R :=
  match n with
  | Term x => Rabs (FR x)
  | Chance ci kids => wsum (aV chance so me mu) (@row FNum chance ci) kids
  | Player pl i kids =>
      if Bool.eqb pl me then Rabs (FR (mu i))
      else wsum (aV chance so me mu) (@row FNum so i) kids
  end.

Fixpoint sdep (me : bool) (n : node) : nat :=
  match n with
  | Term _ => O
  | Chance _ kids => S (list_max (map (sdep me) kids))
  | Player pl _ kids => if Bool.eqb pl me then O else S (list_max (map (sdep me) kids))
  end.

Fixpoint snl (me : bool) (n : node) : nat :=
  match n with
  | Term _ => 1%nat
  | Chance _ kids => list_sum (map (snl me) kids)
  | Player pl _ kids => if Bool.eqb pl me then 1%nat else list_sum (map (snl me) kids)
  end.

Section SearchAnalysis.
  Context (chance so : list (list float)) (mu : nat -> float) (H : R).
  Context (Hchance : TblOK chance) (Hso : TblOK so) (HH : 1 <= H).
  Context (Hmu : forall i, Ffin (mu i) /\ Rabs (FR (mu i)) <= H).

  Lemma aV_nonneg : forall me n, 0 <= aV chance so me mu n.
  Proof.
    intros me.
    induction n as [x|ci kids IH|pl i kids IH] using node_ind'; cbn [aV].
    - apply Rabs_pos.
    - apply wsum_nonneg; [exact IH | apply row_fin01; exact Hchance].
    - destruct (Bool.eqb pl me); [apply Rabs_pos|].
      apply wsum_nonneg; [exact IH | apply row_fin01; exact Hso].
  Qed.

  Theorem search_spec : forall me n, PayOK H n ->
    GSp (sV chance so me mu) (aV chance so me mu) (sdep me) (snl me) (om1022 * H)
        (@search FNum chance so me mu) n.
  Proof.
    intros me. apply PayOK_ind'.
    - intros x Hxf HxB.
      assert (Ht : forall r, fin01 r -> Ffin (x * r)%float /\ FR (x * r)%float = rnd (FR r * FR x))
        by (intros r Hr; exact (proj2 (mul_leaf r x Hr Hxf))).
      destruct me.
      + apply (GSp_leaf _ _ _ _ H HH _ _ (FR x) (fun r => (x * r)%float));
          try reflexivity; assumption.
      + apply (GSp_leaf_sub _ _ _ _ H HH _ _ (FR x) (fun r => (x * r)%float));
          try reflexivity; assumption.
    - intros ci kids _ IH.
      apply (GSp_node _ _ _ _ H (aV_nonneg me) HH _ (fun _ => true) (@row FNum chance ci) kids);
        try reflexivity; [intros p _ E; discriminate E | exact IH | apply row_fin01; exact Hchance].
    - intros pl i kids _ IH. destruct (Bool.eqb pl me) eqn:E.
      + (* an own decision node: its value is read from the table *)
        destruct (Hmu i) as [Hmf HmB].
        apply (GSp_leaf _ _ _ _ H HH _ _ (FR (mu i)) (fun r => (mu i * r)%float));
          cbn [sdep snl sV aV]; try (rewrite E; reflexivity); [exact HmB | |].
        * intros r Hr. exact (proj2 (mul_leaf r (mu i) Hr Hmf)).
        * intros r a. rewrite search_Player, E. reflexivity.
      + apply (GSp_node _ _ _ _ H (aV_nonneg me) HH _ (fun p => PrimFloat.ltb 0 p)
                 (@row FNum so i) kids);
          cbn [sdep snl sV aV]; try (rewrite E; reflexivity);
          [exact ltb0_false_zero | exact IH | apply row_fin01; exact Hso |].
        intros r a. rewrite search_Player, E. reflexivity.
  Qed.
End SearchAnalysis.

(** ** Row sums: the rows of the tables sum to at most [(1 + 2^-53)^c] (over the reals) *)
Definition RowSum (c : nat) (t : list (list float)) : Prop := Forall (fun r => RS r <= G c) t.

Lemma row_RS : forall c t i, RowSum c t -> RS (@row FNum t i) <= G c.
Proof.
  intros c t i Ht. unfold row. apply nth_Forall; [exact Ht|].
  change (0 <= G c). left. apply G_pos.
Qed.

Lemma list_max_In_le : forall (l : list nat) x, In x l -> (x <= list_max l)%nat.
Proof.
  intros l x Hx. assert (H := proj1 (list_max_le l (list_max l)) (Nat.le_refl _)).
  rewrite Forall_forall in H. apply H. exact Hx.
Qed.

Lemma list_sum_In_le : forall (l : list nat) x, In x l -> (x <= list_sum l)%nat.
Proof.
  induction l as [|y l IH]; intros x Hx; [destruct Hx|].
  cbn [list_sum fold_right]. destruct Hx as [<-|Hx]; [lia|]. specialize (IH x Hx).
  unfold list_sum in IH. lia.
Qed.

Lemma PayOK_mono : forall B B' n, B <= B' -> PayOK B n -> PayOK B' n.
Proof.
  intros B B' n HB. revert n. apply PayOK_ind'.
  - intros x Hxf HxB. constructor; [exact Hxf | lra].
  - intros ci kids _ IH. constructor. exact IH.
  - intros pl i kids _ IH. constructor. exact IH.
Qed.

Lemma wsum_abs_le : forall (v : node -> R) (X : R) ks ps,
  0 <= X -> Forall (fun k => Rabs (v k) <= X) ks -> Forall fin01 ps ->
  Rabs (wsum v ps ks) <= RS ps * X.
Proof.
  intros v X ks ps HX Hk. revert ps.
  induction Hk as [|k ks Hk _ IH]; intros [|p ps] Hps; cbn [wsum];
    try (rewrite Rabs_R0; apply Rmult_le_pos; [apply RS_nonneg; exact Hps | exact HX]).
  inversion Hps as [|? ? [_ [Hp0 Hp1]] Hps']; subst.
  rewrite RS_cons, Rmult_plus_distr_r. specialize (IH ps Hps').
  apply Rle_trans with (1 := Rabs_triang _ _).
  rewrite Rabs_mult, (Rabs_pos_eq _ Hp0).
  assert (FR p * Rabs (v k) <= FR p * X) by (apply Rmult_le_compat_l; assumption). lra.
Qed.

Lemma wsum_G_step : forall (v : node -> R) (X : R) (c : nat) (d : node -> nat) ks ps,
  0 <= X -> Forall (fun k => Rabs (v k) <= G (c * d k) * X) ks ->
  Forall fin01 ps -> RS ps <= G c ->
  Rabs (wsum v ps ks) <= G (c * S (list_max (map d ks))) * X.
Proof.
  intros v X c d ks ps HX Hks Hps HRS.
  set (Y := G (c * list_max (map d ks)) * X).
  assert (HY : 0 <= Y) by (apply Rmult_le_pos; [left; apply G_pos | exact HX]).
  apply Rle_trans with (RS ps * Y).
  - apply wsum_abs_le; [exact HY | | exact Hps].
    rewrite Forall_forall in Hks |- *. intros k Hk.
    apply Rle_trans with (1 := Hks k Hk). apply Rmult_le_compat_r; [exact HX|].
    apply G_mono, Nat.mul_le_mono_l, list_max_In_le, in_map, Hk.
  - rewrite Nat.mul_succ_r, Nat.add_comm, G_add, Rmult_assoc.
    apply Rmult_le_compat_r; [exact HY | exact HRS].
Qed.

Section ValueBound.
  Context (chance so : list (list float)) (mu : nat -> float) (H : R) (c : nat).
  Context (Hchance : TblOK chance) (Hso : TblOK so) (HH : 1 <= H).
  Context (Rchance : RowSum c chance) (Rso : RowSum c so).
  Context (Hmu : forall i, Ffin (mu i) /\ Rabs (FR (mu i)) <= H).

  Lemma aV_le : forall me n, PayOK H n ->
    aV chance so me mu n <= G (c * sdep me n) * H.
  Proof.
    intros me n Hpay. apply Rle_trans with (1 := Rle_abs _). revert n Hpay.
    apply PayOK_ind'; cbn [aV sdep].
    - intros x _ HxB. rewrite Nat.mul_0_r, G_0, Rabs_Rabsolu. lra.
    - intros ci kids _ IH.
      apply wsum_G_step; [lra | exact IH | apply row_fin01; exact Hchance | apply row_RS; exact Rchance].
    - intros pl i kids _ IH. destruct (Bool.eqb pl me).
      + rewrite Nat.mul_0_r, G_0, Rabs_Rabsolu. destruct (Hmu i) as [_ Hb]. lra.
      + apply wsum_G_step; [lra | exact IH | apply row_fin01; exact Hso | apply row_RS; exact Rso].
  Qed.

  Lemma sV_le_aV : forall me n, Rabs (sV chance so me mu n) <= aV chance so me mu n.
  Proof.
    intros me.
    induction n as [x|ci kids IH|pl i kids IH] using node_ind'; cbn [sV aV].
    - destruct me; [|rewrite Rabs_Ropp]; lra.
    - apply wsum_Rabs_le; [apply row_fin01; exact Hchance | exact IH].
    - destruct (Bool.eqb pl me); [lra|].
      apply wsum_Rabs_le; [apply row_fin01; exact Hso | exact IH].
  Qed.

  Lemma search_root_acc : forall me (D L : nat) kid,
    PayOK H kid -> (sdep me kid <= D)%nat -> (snl me kid <= L)%nat ->
    INR L * om1022 <= u53 ->
    G (D + 1 + L) * (G (c * D + 1) * H) < Omax ->
    accOK (@search FNum chance so me mu kid 1%float 0%float)
          (sV chance so me mu kid) (G (c * D + 1) * H) (D + 1 + L).
  Proof.
    intros me D L kid Hpay Hd Hl HL Hov.
    assert (Hu := u53_pos). assert (Hw := om1022_pos).
    assert (Hspec := search_spec chance so mu H Hchance Hso HH Hmu me kid Hpay
                       1%float 1 0%nat 0%float 0 0 0%nat reachOK_one accOK_zero).
    cbv zeta in Hspec.
    set (m' := (Nat.max 0 (0 + sdep me kid + 1) + snl me kid)%nat) in *.
    set (M' := 0 + 1 * aV chance so me mu kid + INR (snl me kid) * (om1022 * H)) in *.
    assert (Hm' : (m' <= D + 1 + L)%nat) by (unfold m'; lia).
    assert (HaV0 := aV_nonneg chance so mu Hchance Hso me kid).
    assert (HaV : aV chance so me mu kid <= G (c * D) * H).
    { apply Rle_trans with (1 := aV_le me kid Hpay). apply Rmult_le_compat_r; [lra|].
      apply G_mono, Nat.mul_le_mono_l, Hd. }
    assert (Hnl0 := pos_INR (snl me kid)).
    assert (Hnl : INR (snl me kid) * om1022 <= u53).
    { apply Rle_trans with (2 := HL). apply Rmult_le_compat_r; [lra | apply le_INR; exact Hl]. }
    assert (HM' : 0 <= M' <= G (c * D + 1) * H).
    { unfold M'. rewrite Nat.add_1_r, G_S.
      assert (E0 : 0 <= INR (snl me kid) * om1022) by (apply Rmult_le_pos; lra).
      assert (E1 : 0 <= INR (snl me kid) * om1022 * H <= u53 * H)
        by (split; [apply Rmult_le_pos | apply Rmult_le_compat_r]; lra).
      assert (E2 := G_le_mul (c * D) H ltac:(lra)).
      assert (E3 : u53 * H <= u53 * (G (c * D) * H)) by (apply Rmult_le_compat_l; lra).
      lra. }
    assert (Hov' : G m' * M' < Omax) by (apply (ov_mono m' (D + 1 + L) M' _ Hm' HM' Hov)).
    apply (accOK_weaken _ _ _ _ _ _ _ (Hspec Hov')); [lra | exact (proj2 HM') | exact Hm'].
  Qed.
End ValueBound.

(** ** [resolve_one]: the value of one infoset *)

Lemma rnd_abs_G : forall k X x, 1 <= X -> Rabs x <= G k * X -> Rabs (rnd x) <= G (S k) * X.
Proof.
  intros k X x HX Hx. assert (HY : 1 <= G k * X) by (generalize (G_le_mul k X); lra).
  assert (H3 := rnd_rel_ge1 _ HY). apply Rabs_le_inv in Hx.
  assert (H1 := rnd_le _ _ (proj2 Hx)). assert (H2 := rnd_le _ _ (proj1 Hx)).
  rewrite rnd_opp in H2. rewrite G_S. apply Rabs_le. lra.
Qed.

(** a reach probability is "good" for the slack [sl] when its products cannot lose
    relative accuracy by underflow: it is zero or a normal number -- or the slack is
    [1/2] and pays for the underflow *)
Definition Tgood (sl : R) (p : float) : Prop := FR p = 0 \/ om1022 <= FR p \/ / 2 <= sl.

Lemma tprod_bound : forall (V p : float) (Hv sl : R),
  fin01 p -> Ffin V -> Rabs (FR V) <= Hv -> 1 <= Hv -> 0 <= sl -> Tgood sl p ->
  Ffin (V * p)%float /\ Rabs (FR (V * p)%float) <= G 2 * (Hv + sl) * FR p.
Proof.
  intros V p Hv sl Hp HVf HVb HHv Hsl Hg.
  destruct (proj2 (mul_leaf p V Hp HVf)) as [Hf He]. split; [exact Hf|]. rewrite He.
  destruct Hp as [Hpf [Hp0 Hp1]].
  assert (Hu := u53_pos). assert (Hw := om1022_pos).
  destruct (Rle_lt_or_eq_dec _ _ Hp0) as [Hpos|Hz].
  2: { rewrite <- Hz, Rmult_0_l, (rnd_fmt 0 fmt_0), Rabs_R0. lra. }
  set (a := FR p * Hv). set (b := FR p * sl).
  assert (Ha : 0 <= a) by (apply Rmult_le_pos; lra).
  assert (Hb : 0 <= b) by (apply Rmult_le_pos; lra).
  assert (Hx : Rabs (FR p * FR V) <= a).
  { rewrite Rabs_mult, (Rabs_pos_eq _ Hp0). apply Rmult_le_compat_l; assumption. }
  (* the underflow term of the rounding error is paid for by the reach or by the slack *)
  assert (Hua : 0 <= u53 * a) by (apply Rmult_le_pos; lra).
  assert (Hun : u53 * om1022 <= u53 * a + b).
  { destruct Hg as [Hz | [Hn | Hs]]; [lra | |].
    - assert (u53 * om1022 <= u53 * a); [|lra].
      apply Rmult_le_compat_l; [lra|]. apply Rle_trans with (FR p * 1); [lra|].
      apply Rmult_le_compat_l; assumption.
    - assert (He1 := fmt_pos_ge_eta (FR p) (fmt_FR p) Hpos).
      rewrite u53_om1022. change eta1075 with (bpow radix2 (-1074 - 1)).
      rewrite <- half_bpow, Rmult_comm. apply Rle_trans with b; [|lra].
      apply Rmult_le_compat; [apply bpow_ge_0 | lra | exact He1 | exact Hs]. }
  assert (Hr : Rabs (rnd (FR p * FR V)) <= (1 + u53) * a + (u53 * a + b)).
  { replace (rnd (FR p * FR V)) with (FR p * FR V + (rnd (FR p * FR V) - FR p * FR V)) by lra.
    apply Rle_trans with (1 := Rabs_triang _ _).
    assert (He' := mul_err (FR p * FR V)).
    assert (u53 * Rabs (FR p * FR V) <= u53 * a) by (apply Rmult_le_compat_l; lra).
    lra. }
  apply Rle_trans with (1 := Hr).
  replace (G 2 * (Hv + sl) * FR p) with ((1 + u53) * (1 + u53) * (a + b))
    by (unfold G, a, b; simpl; lra).
  assert (0 <= u53 * u53 * (a + b)) by (repeat apply Rmult_le_pos; lra).
  assert (0 <= u53 * b) by (apply Rmult_le_pos; lra).
  lra.
Qed.

Definition PBd (C : R) (n : nat) (Sm : R) (y : float) : Prop :=
  Ffin y /\ Rabs (FR y) <= G n * (C * Sm).

Lemma PBd_step : forall C n Sm y t p, 0 <= C -> 0 <= Sm -> 0 <= p ->
  PBd C n Sm y -> Ffin t -> Rabs (FR t) <= C * p ->
  G (S n) * (C * (Sm + p)) < Omax -> PBd C (S n) (Sm + p) (y + t)%float.
Proof.
  intros C n Sm y t p HC HS Hp [Hyf Hyb] Htf Htb Hov.
  assert (Hu := u53_pos).
  assert (Hadd := add_rel (FR y) (FR t) (fmt_FR _) (fmt_FR _)).
  assert (Hsum : Rabs (FR y + FR t) <= G n * (C * (Sm + p))).
  { apply Rle_trans with (1 := Rabs_triang _ _).
    assert (H := G_le_mul n (C * p) ltac:(apply Rmult_le_pos; assumption)). lra. }
  assert (Hr : Rabs (rnd (FR y + FR t)) <= G (S n) * (C * (Sm + p))).
  { replace (rnd (FR y + FR t)) with ((FR y + FR t) + (rnd (FR y + FR t) - (FR y + FR t))) by lra.
    apply Rle_trans with (1 := Rabs_triang _ _). rewrite G_S.
    assert (u53 * Rabs (FR y + FR t) <= u53 * (G n * (C * (Sm + p))))
      by (apply Rmult_le_compat_l; lra).
    lra. }
  destruct (add_ok y t Hyf Htf (Rle_lt_trans _ _ _ Hr Hov)) as [Hf He].
  split; [exact Hf | rewrite He; exact Hr].
Qed.

Lemma RS_le_len : forall l : list float, Forall fin01 l -> RS l <= INR (length l).
Proof.
  intros l Hl. induction Hl as [|x l [_ [_ Hx]] _ IH]; [rewrite RS_nil; cbn; lra|].
  rewrite RS_cons. change (length (x :: l)) with (S (length l)). rewrite S_INR. lra.
Qed.

Lemma fsum_le_G : forall (l : list float) (acc : float) (n : Z),
  Forall fin01 l -> Ffin acc -> 0 <= FR acc <= IZR n -> (0 <= n)%Z ->
  (n + Z.of_nat (length l) < 2 ^ 53)%Z ->
  FR (fold_left PrimFloat.add l acc) <= G (length l) * (FR acc + RS l).
Proof.
  induction l as [|p l IH]; intros acc n Hl Ha Hb Hn0 Hn.
  - cbn [fold_left length]. rewrite RS_nil, G_0. lra.
  - inversion Hl as [|p' l' Hp Hl']; subst.
    change (length (p :: l)) with (S (length l)) in *. rewrite Nat2Z.inj_succ in Hn.
    cbn [fold_left]. rewrite RS_cons.
    destruct (add_step acc p n Ha Hp Hb Hn0 ltac:(lia)) as [Hf [He [H1 [H2 H3]]]].
    assert (Hb' : 0 <= FR (acc + p)%float <= IZR (n + 1)) by (split; [lra | exact H3]).
    specialize (IH (acc + p)%float (n + 1)%Z Hl' Hf Hb' ltac:(lia) ltac:(lia)).
    apply Rle_trans with (1 := IH).
    assert (Hadd := add_rel (FR acc) (FR p) (fmt_FR acc) (fmt_FR p)).
    rewrite <- He in Hadd. destruct Hp as [_ [Hp0 _]].
    rewrite (Rabs_pos_eq (FR acc + FR p)) in Hadd by lra.
    apply Rabs_le_inv in Hadd.
    assert (HG := G_pos (length l)). assert (HR := RS_nonneg l Hl').
    rewrite G_S.
    assert (FR (acc + p)%float + RS l <= (1 + u53) * (FR acc + (FR p + RS l))).
    { assert (Hu := u53_pos). assert (0 <= u53 * RS l) by (apply Rmult_le_pos; lra). lra. }
    replace ((1 + u53) * G (length l) * (FR acc + (FR p + RS l)))
      with (G (length l) * ((1 + u53) * (FR acc + (FR p + RS l)))) by lra.
    apply Rmult_le_compat_l; lra.
Qed.

Lemma RS_le_G_sum : forall l : list float, Forall fin01 l ->
  (Z.of_nat (length l) < 2 ^ 53)%Z ->
  Ffin (@sum FNum l) /\ 0 <= FR (@sum FNum l) /\
  RS l <= G (length l) * FR (@sum FNum l) /\ FR (@sum FNum l) <= G (length l) * RS l.
Proof.
  intros l Hl Hn. rewrite sum_FNum.
  assert (H0 : 0 <= FR 0%float <= IZR 0) by (rewrite FR_zero; lra).
  destruct (fsum_inv l 0%float 0%Z Hl Ffin_zero H0 (Z.le_refl 0) ltac:(lia)) as [Hf [Hge _]].
  assert (He := fsum_err l 0%float 0%Z Hl Ffin_zero H0 (Z.le_refl 0) ltac:(lia)).
  assert (Hle := fsum_le_G l 0%float 0%Z Hl Ffin_zero H0 (Z.le_refl 0) ltac:(lia)).
  rewrite FR_zero in Hge, He, Hle. rewrite Rplus_0_l in Hle.
  split; [exact Hf|]. split; [exact Hge|]. split; [|exact Hle].
  set (T := FR (fold_left PrimFloat.add l 0%float)) in *.
  apply Rabs_le_inv in He.
  assert (Hb := G_bernoulli (length l)).
  assert ((1 + INR (length l) * u53) * T <= G (length l) * T)
    by (apply Rmult_le_compat_r; assumption).
  lra.
Qed.

Definition reaches (mine : list centry) : list float :=
  map (fun en : centry => snd (snd en)) mine.

Section ResolveOne.
  Context (chance so : list (list float)) (me : bool) (mu : nat -> float) (Hv sl : R).
  Context (HHv : 1 <= Hv) (Hsl : 0 <= sl).
  Local Notation srch := (@search FNum chance so me).
  Local Notation C := (G 2 * (Hv + sl)).

  Definition Vok (kid : node) : Prop :=
    Ffin (srch mu kid 1%float 0%float) /\ Rabs (FR (srch mu kid 1%float 0%float)) <= Hv.

  Definition EntOK (en : centry) : Prop :=
    fin01 (snd (snd en)) /\ Forall Vok (fst (snd en)) /\ Tgood sl (snd (snd en)).

  Lemma C_nonneg : 0 <= C.
  Proof. apply Rmult_le_pos; [left; apply G_pos | lra]. Qed.

  Lemma paystep_PBd : forall n Sm pays (en : centry),
    0 <= Sm -> Forall (PBd C n Sm) pays -> EntOK en ->
    G (S n) * (C * (Sm + FR (snd (snd en)))) < Omax ->
    Forall (PBd C (S n) (Sm + FR (snd (snd en)))) (paystep chance so me mu pays en).
  Proof.
    intros n Sm pays [i0 [kids p]] HS Hpays [Hp [Hk Hg]] Hov. cbn [fst snd] in *.
    unfold paystep. revert kids Hk.
    induction Hpays as [|y pays Hy _ IH]; intros kids Hk; [constructor|].
    destruct kids as [|kid kids]; [constructor|].
    inversion Hk as [|? ? [HVf HVb] Hk']; subst.
    cbn [combine map fst snd]. constructor; [|apply IH; exact Hk'].
    destruct (tprod_bound _ p Hv sl Hp HVf HVb HHv Hsl Hg) as [Htf Htb].
    apply PBd_step; try assumption; [apply C_nonneg | destruct Hp as [_ [H0 _]]; exact H0].
  Qed.

  Lemma EntOK_reaches : forall mine, Forall EntOK mine -> Forall fin01 (reaches mine).
  Proof.
    intros mine H. induction H as [|en mine [Hp _] _ IH]; [constructor|].
    unfold reaches. cbn [map]. constructor; [exact Hp | exact IH].
  Qed.

  Lemma payfold_PBd : forall mine, Forall EntOK mine ->
    forall n Sm pays, 0 <= Sm -> Forall (PBd C n Sm) pays ->
    G (n + length mine) * (C * (Sm + RS (reaches mine))) < Omax ->
    Forall (PBd C (n + length mine) (Sm + RS (reaches mine)))
           (fold_left (paystep chance so me mu) mine pays).
  Proof.
    intros mine Hm. induction Hm as [|en mine Hen Hm IH]; intros n Sm pays HS Hpays Hov.
    - cbn [fold_left length reaches map]. rewrite RS_nil, Nat.add_0_r, Rplus_0_r. exact Hpays.
    - assert (Hrest := RS_nonneg _ (EntOK_reaches mine Hm)).
      assert (Hp0 : 0 <= FR (snd (snd en))) by (destruct Hen as [[_ [H0 _]] _]; exact H0).
      assert (ES : Sm + RS (reaches (en :: mine))
                   = Sm + FR (snd (snd en)) + RS (reaches mine)).
      { unfold reaches. cbn [map]. rewrite RS_cons. lra. }
      assert (EN : (n + length (en :: mine) = S n + length mine)%nat) by (cbn [length]; lia).
      rewrite ES, EN in Hov |- *. cbn [fold_left].
      assert (HC := C_nonneg).
      apply IH; [lra | | exact Hov].
      apply paystep_PBd; try assumption.
      apply (ov_mono (S n) (S n + length mine) _ (C * (Sm + FR (snd (snd en)) + RS (reaches mine))));
        [lia | | exact Hov].
      split; [apply Rmult_le_pos; lra | apply Rmult_le_compat_l; lra].
  Qed.

  Lemma repeat_zero_PBd : forall k, Forall (PBd C 0 0) (@repeatT FNum 0%float k).
  Proof.
    induction k as [|k IH]; cbn [repeatT]; constructor; [|exact IH].
    split; [apply Ffin_zero|]. rewrite FR_zero, Rabs_R0, Rmult_0_r, Rmult_0_r. lra.
  Qed.

  (** The repaired D16 guard [if total_reach > 0] is used here: the division is performed
      only when the total reach is a finite positive number, so [0 / 0] cannot occur. *)
  Theorem resolve_one_bound : forall nodes arity i (Nn : nat),
    Forall EntOK nodes -> (length nodes <= Nn)%nat -> (Z.of_nat Nn < 2 ^ 53)%Z ->
    G (Nn + 2) * ((Hv + sl) * INR Nn) < Omax ->
    G (2 * Nn + 3) * (Hv + sl) < Omax ->
    Ffin (@resolve_one FNum chance so me nodes arity mu i) /\
    Rabs (FR (@resolve_one FNum chance so me nodes arity mu i)) <= G (2 * Nn + 3) * (Hv + sl).
  Proof.
    intros nodes arity i Nn Hnodes Hlen HN Hov1 Hov2.
    assert (HC := C_nonneg).
    assert (Hzero : Ffin 0%float /\ Rabs (FR 0%float) <= G (2 * Nn + 3) * (Hv + sl)).
    { split; [apply Ffin_zero|]. rewrite FR_zero, Rabs_R0.
      apply Rmult_le_pos; [left; apply G_pos | lra]. }
    rewrite resolve_one_FNum.
    assert (Hmine : Forall EntOK (rmine nodes i)) by (apply Forall_filter; exact Hnodes).
    assert (Hml : (length (rmine nodes i) <= Nn)%nat)
      by (apply Nat.le_trans with (2 := Hlen), filter_length_le).
    destruct (rmine nodes i) as [|en0 mine0] eqn:Em; [exact Hzero|].
    set (mine := en0 :: mine0) in *. set (n := length mine) in *.
    assert (Hre := EntOK_reaches mine Hmine).
    assert (Hlr : length (reaches mine) = n) by apply map_length.
    assert (HS0 := RS_nonneg _ Hre).
    assert (HSn : RS (reaches mine) <= INR Nn).
    { apply Rle_trans with (1 := RS_le_len _ Hre). rewrite Hlr. apply le_INR. exact Hml. }
    destruct (RS_le_G_sum (reaches mine) Hre ltac:(rewrite Hlr; lia)) as [HTf [HT0 [HTS _]]].
    rewrite Hlr in HTS.
    assert (Hovf : G (0 + n) * (C * (0 + RS (reaches mine))) < Omax).
    { apply Rle_lt_trans with (2 := Hov1). rewrite Rplus_0_l.
      replace (G (Nn + 2) * ((Hv + sl) * INR Nn)) with (G Nn * (C * INR Nn)) by (rewrite G_add; lra).
      apply Gx_mono; [exact Hml|].
      split; [apply Rmult_le_pos | apply Rmult_le_compat_l]; assumption. }
    assert (Hpay := payfold_PBd mine Hmine 0%nat 0 _ (Rle_refl 0) (repeat_zero_PBd arity) Hovf).
    rewrite Nat.add_0_l, Rplus_0_l in Hpay.
    change (fold_left (paystep chance so me mu) mine (@repeatT FNum 0%float arity))
      with (payoffs chance so me mu mine arity) in Hpay.
    destruct (payoffs chance so me mu mine arity) as [|x rest]; [exact Hzero|].
    cbn [reduce_max]. change (fmax FNum) with f_max.
    inversion Hpay as [|? ? Hx Hrest]; subst.
    assert (HrF : Forall Ffin rest) by (apply Forall_impl with (2 := Hrest); intros y Hy; apply Hy).
    destruct (fold_fmax rest x HrF (proj1 Hx)) as [_ [_ [_ Hin]]].
    set (m := fold_left f_max rest x) in *.
    assert (Hm : PBd C n (RS (reaches mine)) m).
    { destruct Hin as [-> | Hin]; [exact Hx|]. rewrite Forall_forall in Hrest. apply Hrest, Hin. }
    destruct Hm as [Hmf Hmb].
    change (rtotal mine) with (@sum FNum (reaches mine)).
    set (T := @sum FNum (reaches mine)) in *.
    change (ltb FNum (zero FNum) T) with (PrimFloat.ltb 0 T).
    destruct (PrimFloat.ltb 0 T) eqn:Hpos; [|exact Hzero].
    apply (ltb_zero_pos T HTf) in Hpos.
    assert (Hq : Rabs (FR m / FR T) <= G (n + n + 2) * (Hv + sl)).
    { unfold Rdiv. rewrite Rabs_mult, Rabs_inv, (Rabs_pos_eq (FR T)) by lra.
      apply Rmult_le_reg_r with (FR T); [exact Hpos|].
      rewrite Rmult_assoc, Rinv_l, Rmult_1_r by lra.
      apply Rle_trans with (1 := Hmb). apply Rle_trans with (G n * (C * (G n * FR T))).
      - apply Rmult_le_compat_l; [left; apply G_pos | apply Rmult_le_compat_l; assumption].
      - rewrite !G_add. right. lra. }
    assert (Hrq : Rabs (rnd (FR m / FR T)) <= G (2 * Nn + 3) * (Hv + sl)).
    { apply Rle_trans with (1 := rnd_abs_G _ (Hv + sl) _ ltac:(lra) Hq).
      apply Rmult_le_compat_r; [lra | apply G_mono; lia]. }
    destruct (div_ok m T Hmf ltac:(lra) (Rle_lt_trans _ _ _ Hrq Hov2)) as [Hf He].
    change (Ffin (m / T)%float /\ Rabs (FR (m / T)%float) <= G (2 * Nn + 3) * (Hv + sl)).
    split; [exact Hf | rewrite He; exact Hrq].
  Qed.
End ResolveOne.

(** ** [collect]: the recorded decision nodes *)

Lemma sdep_le_depth : forall me (n : node), (sdep me n <= depth n)%nat.
Proof.
  intros me.
  assert (Hl : forall kids, Forall (fun k => (sdep me k <= depth k)%nat) kids ->
               (list_max (map (sdep me) kids) <= list_max (map depth kids))%nat).
  { intros kids H. induction H as [|k ks Hk _ IH]; [apply Nat.le_refl|].
    change (list_max (map (sdep me) (k :: ks)))
      with (Nat.max (sdep me k) (list_max (map (sdep me) ks))).
    change (list_max (map depth (k :: ks))) with (Nat.max (depth k) (list_max (map depth ks))).
    lia. }
  induction n as [x|ci kids IH|pl i kids IH] using node_ind'; cbn [sdep depth]; [lia| |].
  - apply le_n_S, Hl, IH.
  - destruct (Bool.eqb pl me); [lia|]. apply le_n_S, Hl, IH.
Qed.

Lemma snl_le_tsz : forall me (n : node), (snl me n <= tsz n)%nat.
Proof.
  intros me.
  induction n as [x|ci kids IH|pl i kids IH] using node_ind'; cbn [snl tsz]; [lia| |].
  - apply list_sum_map_le. exact IH.
  - destruct (Bool.eqb pl me); [lia|].
    apply Nat.le_trans with (list_sum (map tsz kids)); [|lia].
    apply list_sum_map_le. exact IH.
Qed.

Definition Shape (B : R) (D N : nat) (k : node) : Prop :=
  PayOK B k /\ (depth k <= D)%nat /\ (tsz k <= N)%nat.

Lemma Shape_kids : forall B D N kids, Forall (PayOK B) kids ->
  (S (list_max (map depth kids)) <= D)%nat -> (list_sum (map tsz kids) <= N)%nat ->
  Forall (Shape B D N) kids.
Proof.
  intros B D N kids Hkids Hd Hn. rewrite Forall_forall in Hkids |- *. intros k Hk.
  split; [apply Hkids; exact Hk|]. split.
  - assert (H := list_max_In_le (map depth kids) (depth k) (in_map depth _ _ Hk)). lia.
  - assert (H := list_sum_In_le (map tsz kids) (tsz k) (in_map tsz _ _ Hk)). lia.
Qed.

Lemma Shape_Chance : forall B D N ci kids, Shape B D N (Chance ci kids) -> Forall (Shape B D N) kids.
Proof. intros B D N ci kids [Hp [Hd Hn]]. inversion Hp; subst. apply Shape_kids; assumption. Qed.

Lemma Shape_Player : forall B D N pl i kids, Shape B D N (Player pl i kids) -> Forall (Shape B D N) kids.
Proof.
  intros B D N pl i kids [Hp [Hd Hn]]. inversion Hp; subst. cbn [tsz] in Hn.
  apply Shape_kids; [assumption | assumption | lia].
Qed.

Section CollectProps.
  Context (chance so : list (list float)) (me : bool) (B : R) (D N : nat).
  Context (Hchance : TblOK chance) (Hso : TblOK so).
  Local Notation col := (@collect FNum chance so me).

  Definition CEnt (en : centry) : Prop :=
    fin01 (snd (snd en)) /\ Forall (Shape B D N) (fst (snd en)).

  Definition CInv (l : list centry) (b : nat) : Prop := Forall CEnt l /\ (length l <= b)%nat.

  Definition CSp (k : node) : Prop := forall reach acc b,
    Shape B D N k -> fin01 reach -> CInv acc b -> CInv (col k reach acc) (b + tsz k).

  Lemma pgo_CInv : forall (tst : float -> bool) ks, Forall CSp ks ->
    forall ps reach acc b, Forall (Shape B D N) ks -> Forall fin01 ps -> fin01 reach ->
    CInv acc b -> CInv (pgo col tst reach ps ks acc) (b + list_sum (map tsz ks)).
  Proof.
    intros tst ks Hks. induction Hks as [|k ks Hk _ IH]; intros ps reach acc b Hsh Hps Hr Hi.
    - destruct ps; cbn [pgo map list_sum fold_right]; rewrite Nat.add_0_r; exact Hi.
    - change (list_sum (map tsz (k :: ks))) with (tsz k + list_sum (map tsz ks))%nat.
      inversion Hsh as [|? ? Hsk Hsh']; subst.
      destruct ps as [|p ps].
      + cbn [pgo]. destruct Hi as [H1 H2]. split; [exact H1 | lia].
      + inversion Hps as [|? ? Hp Hps']; subst.
        assert (H1 := IH ps reach acc b Hsh' Hps' Hr Hi).
        cbn [pgo]. destruct (tst p).
        * assert (H2 := Hk (p * reach)%float _ _ Hsk (proj1 (mul_reach p reach Hp Hr)) H1).
          destruct H2 as [H2 H3]. split; [exact H2 | lia].
        * destruct H1 as [H1 H2]. split; [exact H1 | lia].
  Qed.

  Lemma ogo_CInv : forall ks, Forall CSp ks ->
    forall reach acc b, Forall (Shape B D N) ks -> fin01 reach ->
    CInv acc b -> CInv (ogo col reach ks acc) (b + list_sum (map tsz ks)).
  Proof.
    intros ks Hks. induction Hks as [|k ks Hk _ IH]; intros reach acc b Hsh Hr Hi.
    - cbn [ogo map list_sum fold_right]. rewrite Nat.add_0_r. exact Hi.
    - change (list_sum (map tsz (k :: ks))) with (tsz k + list_sum (map tsz ks))%nat.
      inversion Hsh as [|? ? Hsk Hsh']; subst.
      assert (H1 := IH reach acc b Hsh' Hr Hi).
      cbn [ogo]. destruct (Hk reach _ _ Hsk Hr H1) as [H2 H3]. split; [exact H2 | lia].
  Qed.

  Theorem collect_CInv : forall n, CSp n.
  Proof.
    induction n as [x|ci kids IH|pl i kids IH] using node_ind'; intros reach acc b Hsh Hr Hi.
    - cbn [collect tsz]. destruct Hi as [H1 H2]. split; [exact H1 | lia].
    - rewrite collect_Chance. cbn [tsz].
      apply pgo_CInv; try assumption;
        [apply (Shape_Chance _ _ _ ci); exact Hsh | apply row_fin01; exact Hchance].
    - rewrite collect_Player. cbn [tsz].
      assert (Hk := Shape_Player _ _ _ _ _ _ Hsh).
      destruct (Bool.eqb pl me).
      + replace (b + S (list_sum (map tsz kids)))%nat with (S b + list_sum (map tsz kids))%nat by lia.
        apply ogo_CInv; try assumption.
        destruct Hi as [H1 H2]. split.
        * apply Forall_app. split; [exact H1|]. constructor; [|constructor].
          split; [exact Hr | exact Hk].
        * rewrite app_length. cbn [length].
          apply Nat.le_trans with (b + 1)%nat; [apply Nat.add_le_mono_r; exact H2 | lia].
      + assert (H1 := pgo_CInv (fun p => PrimFloat.ltb 0 p) kids IH (@row FNum so i) reach acc b
                        Hk (row_fin01 so i Hso) Hr Hi).
        destruct H1 as [H1 H2]. split; [exact H1 | lia].
  Qed.
End CollectProps.

(** the underflow allowances of fewer than [2^53] leaves add up to at most one rounding *)
Lemma N_om1022 : forall N : nat, (Z.of_nat N < 2 ^ 53)%Z -> INR N * om1022 <= u53.
Proof.
  intros N HN. apply Rle_trans with (bpow radix2 53 * om1022).
  - apply Rmult_le_compat_r; [left; apply om1022_pos|].
    rewrite INR_IZR_INZ. change (bpow radix2 53) with (IZR (2 ^ 53)). apply IZR_le. lia.
  - unfold om1022, u53. rewrite <- bpow_plus. apply bpow_le. lia.
Qed.

(** ** [resolve_from]: all infoset values *)

Section ResolveFrom.
  Context (chance so : list (list float)) (me : bool) (B sl : R) (c D N : nat).
  Context (Hchance : TblOK chance) (Hso : TblOK so).
  Context (Rchance : RowSum c chance) (Rso : RowSum c so).
  Context (HB : 1 <= B) (Hsl : 0 <= sl) (HN : (Z.of_nat N < 2 ^ 53)%Z).

  (** roundings per infoset level: [D + 1 + N] on a mass [G (c * D + 1)] times the values
      below ([search_root_acc]), and [2 * N + 3] for [resolve_one] ([resolve_one_bound]) *)
  Definition Kv : nat := (D + 1 + N + c * D + 1)%nat.
  Definition Ks : nat := (2 * N + 3 + Kv)%nat.
  Definition Xs (k : nat) : R := G (k * Ks) * (B + INR k * sl).

  Lemma Xs_ge : forall k, B <= Xs k.
  Proof.
    intros k. assert (0 <= INR k * sl) by (apply Rmult_le_pos; [apply pos_INR | exact Hsl]).
    apply Rle_trans with (B + INR k * sl); [lra | apply G_le_mul; lra].
  Qed.

  Lemma Xs_step : forall k, G Ks * (Xs k + sl) <= Xs (S k).
  Proof.
    intros k. unfold Xs. assert (HG := G_ge_1 (k * Ks)). assert (HG' := G_ge_1 Ks).
    assert (Hk : 0 <= INR k * sl) by (apply Rmult_le_pos; [apply pos_INR | exact Hsl]).
    change (S k * Ks)%nat with (Ks + k * Ks)%nat. rewrite G_add, S_INR, Rmult_assoc.
    apply Rmult_le_compat_l; [lra|].
    assert (H := G_le_mul (k * Ks) sl Hsl). lra.
  Qed.

  Lemma Xs_S_le : forall k, Xs k <= Xs (S k).
  Proof.
    intros k. apply Rle_trans with (2 := Xs_step k). assert (H1 := Xs_ge k).
    apply Rle_trans with (Xs k + sl); [lra | apply G_le_mul; lra].
  Qed.

  Lemma Xs_mono : forall k k', (k <= k')%nat -> Xs k <= Xs k'.
  Proof.
    intros k k' H. induction H as [|k' _ IH]; [lra|].
    apply Rle_trans with (1 := IH). apply Xs_S_le.
  Qed.

  (** all the "no overflow" side conditions at level [k] follow from one global bound *)
  Lemma conds : forall k nmax, (k <= nmax)%nat ->
    Xs (S nmax) * INR (S N) < Omax ->
    let H := Xs k in
    G (D + 1 + N) * (G (c * D + 1) * H) < Omax /\
    G (N + 2) * ((G Kv * H + sl) * INR N) < Omax /\
    G (2 * N + 3) * (G Kv * H + sl) < Omax /\
    G (2 * N + 3) * (G Kv * H + sl) <= Xs (S k).
  Proof.
    intros k nmax Hk Hglob H.
    assert (HH : 1 <= H) by (apply Rle_trans with (1 := HB); apply Xs_ge).
    assert (G1 := G_ge_1 (2 * N + 3)). assert (G2 := G_ge_1 Kv).
    assert (HN0 := pos_INR N). assert (HSN := S_INR N).
    (* every left-hand side is at most [G (2N+3) * T' * (N+1)], which the global bound caps *)
    set (T := G Kv * H + sl). set (T' := G Kv * (H + sl)).
    assert (HT : 0 <= T <= T').
    { unfold T, T'. assert (E := G_le_mul Kv sl Hsl).
      assert (0 <= G Kv * H) by (apply Rmult_le_pos; lra). lra. }
    assert (HTS : T' <= T' * INR (S N)) by (apply le_mul_SN; lra).
    assert (EW : G (2 * N + 3) * T' = G Ks * (H + sl)) by (unfold T', Ks; rewrite (G_add (2 * N + 3) Kv); lra).
    assert (HW : G (2 * N + 3) * (T' * INR (S N)) < Omax).
    { rewrite <- Rmult_assoc, EW. apply Rle_lt_trans with (2 := Hglob).
      apply Rmult_le_compat_r; [apply pos_INR|].
      apply Rle_trans with (1 := Xs_step k). apply Xs_mono. lia. }
    split; [|split; [|split]].
    - apply Rle_lt_trans with (2 := HW). rewrite <- Rmult_assoc, <- G_add.
      replace (D + 1 + N + (c * D + 1))%nat with Kv by (unfold Kv; lia).
      apply Rle_trans with T'; [unfold T'; apply Rmult_le_compat_l; lra|].
      apply Rle_trans with (1 := HTS). apply G_le_mul. lra.
    - apply Rle_lt_trans with (2 := HW). apply Gx_mono; [lia|].
      split; [apply Rmult_le_pos; lra | apply Rmult_le_compat; lra].
    - apply Rle_lt_trans with (2 := HW). apply Rmult_le_compat_l; lra.
    - apply Rle_trans with (G (2 * N + 3) * T'); [apply Rmult_le_compat_l; lra|].
      rewrite EW. exact (Xs_step k).
  Qed.

  Definition ValB (X : R) (y : float) : Prop := Ffin y /\ Rabs (FR y) <= X.

  Lemma ValB_zero : forall X, 0 <= X -> ValB X 0%float.
  Proof. intros X HX. split; [apply Ffin_zero|]. rewrite FR_zero, Rabs_R0. exact HX. Qed.

  Lemma kids_Vok : forall (mu : nat -> float) (H : R),
    1 <= H -> B <= H -> (forall i, ValB H (mu i)) ->
    G (D + 1 + N) * (G (c * D + 1) * H) < Omax ->
    forall kid, Shape B D N kid -> Vok chance so me mu (G Kv * H) kid.
  Proof.
    intros mu H HH HBH Hmu Hov kid [Hp [Hd Hn]].
    assert (HNom := N_om1022 N HN).
    assert (Hacc := search_root_acc chance so mu H c Hchance Hso HH Rchance Rso Hmu me D N kid
                      (PayOK_mono B H kid HBH Hp)
                      (Nat.le_trans _ _ _ (sdep_le_depth me kid) Hd)
                      (Nat.le_trans _ _ _ (snl_le_tsz me kid) Hn) HNom Hov).
    split; [exact (proj1 Hacc)|].
    apply Rle_trans with (1 := accOK_bound _ _ _ _ Hacc).
    unfold Kv. replace (D + 1 + N + c * D + 1)%nat with ((D + 1 + N) + (c * D + 1))%nat by lia.
    rewrite (G_add (D + 1 + N) (c * D + 1)). right. lra.
  Qed.

  Theorem resolve_from_bound : forall nodes ars nmax,
    Forall (CEnt B D N) nodes -> Forall (fun en : centry => Tgood sl (snd (snd en))) nodes ->
    (length nodes <= N)%nat ->
    Xs (S nmax) * INR (S N) < Omax ->
    forall k i, (k <= nmax)%nat ->
    Forall (ValB (Xs k)) (@resolve_from FNum chance so me nodes ars i k).
  Proof.
    intros nodes ars nmax Hnodes Hgood Hlen Hglob.
    induction k as [|k IH]; intros i Hk; [constructor|].
    rewrite resolve_from_S.
    assert (Hrest := IH (S i) ltac:(lia)).
    set (rest := @resolve_from FNum chance so me nodes ars (S i) k) in *.
    set (mu := fun j : nat => nth (j - S i) rest 0%float).
    pose proof (conds k nmax ltac:(lia) Hglob) as Hc. cbv zeta in Hc.
    destruct Hc as [C1 [C2 [C3 C4]]].
    set (H := Xs k) in *.
    assert (HBH : B <= H) by apply Xs_ge.
    assert (HH : 1 <= H) by lra.
    assert (Hmu : forall j, ValB H (mu j)).
    { intros j. unfold mu. apply nth_Forall; [exact Hrest | apply ValB_zero; lra]. }
    assert (HHv : 1 <= G Kv * H).
    { apply Rle_trans with (1 := HH). apply G_le_mul. lra. }
    assert (Hents : Forall (EntOK chance so me mu (G Kv * H) sl) nodes).
    { rewrite Forall_forall in Hnodes, Hgood |- *. intros en Hen.
      destruct (Hnodes en Hen) as [Hp Hkids]. split; [exact Hp|]. split; [|exact (Hgood en Hen)].
      apply Forall_impl with (2 := Hkids). apply kids_Vok; assumption. }
    destruct (resolve_one_bound chance so me mu (G Kv * H) sl HHv Hsl nodes (nth i ars O) i N
                Hents Hlen HN C2 C3) as [Hf Hb].
    constructor.
    - split; [exact Hf | lra].
    - apply Forall_impl with (2 := Hrest). intros y [Hy1 Hy2]. split; [exact Hy1|].
      apply Rle_trans with (1 := Hy2). apply Xs_S_le.
  Qed.
End ResolveFrom.

(** ** [br_value] at binary64 *)

Definition br_D (g : game) : nat := depth (g_root g).
Definition br_N (g : game) : nat := tsz (g_root g).
Definition br_n (g : game) (me : bool) : nat := length (arities g me).
Definition br_Ks (g : game) (c : nat) : nat := Ks c (br_D g) (br_N g).
Definition br_ops (g : game) (me : bool) (c : nat) : nat :=
  (Kv c (br_D g) (br_N g) + br_n g me * br_Ks g c)%nat.

Definition br_nodes (g : game) (me : bool) (so : list (list float)) : list centry :=
  @collect FNum (g_chance g) so me (g_root g) 1%float [].

(** "no underflow of a recorded reach": every reach probability with which an own decision
    node is recorded is zero or a normal binary64 number *)
Definition NoUF (g : game) (me : bool) (so : list (list float)) : Prop :=
  Forall (fun en : centry => FR (snd (snd en)) = 0 \/ om1022 <= FR (snd (snd en)))
         (br_nodes g me so).

Lemma br_nodes_CInv : forall (g : game) (me : bool) (so : list (list float)) (B : R),
  TblOK (g_chance g) -> TblOK so -> PayOK B (g_root g) ->
  Shape B (br_D g) (br_N g) (g_root g) /\
  Forall (CEnt B (br_D g) (br_N g)) (br_nodes g me so) /\
  (length (br_nodes g me so) <= br_N g)%nat.
Proof.
  intros g me so B Hc Hso Hpay.
  assert (Hroot : Shape B (br_D g) (br_N g) (g_root g))
    by (split; [exact Hpay | split; apply Nat.le_refl]).
  split; [exact Hroot|].
  exact (collect_CInv (g_chance g) so me B _ _ Hc Hso (g_root g) 1%float [] 0%nat
           Hroot fin01_one (conj (Forall_nil _) (Nat.le_refl 0))).
Qed.

Theorem br_value_float_gen :
  forall (g : game) (me : bool) (so : list (list float)) (B sl : R) (c : nat),
  TblOK (g_chance g) -> TblOK so -> RowSum c (g_chance g) -> RowSum c so ->
  1 <= B -> PayOK B (g_root g) -> 0 <= sl ->
  Forall (fun en : centry => Tgood sl (snd (snd en))) (br_nodes g me so) ->
  (Z.of_nat (br_N g) < 2 ^ 53)%Z ->
  G (S (br_n g me) * br_Ks g c) * (B + INR (S (br_n g me)) * sl) * INR (S (br_N g)) < Omax ->
  Ffin (@br_value FNum g me so) /\
  Rabs (FR (@br_value FNum g me so)) <= G (br_ops g me c) * (B + INR (br_n g me) * sl).
Proof.
  intros g me so B sl c Hc Hso Rc Rso HB Hpay Hsl Hgood HN Hglob.
  destruct (br_nodes_CInv g me so B Hc Hso Hpay) as [Hroot [Hents Hlen]].
  set (D := br_D g) in *. set (N := br_N g) in *. set (n := br_n g me) in *.
  change (G (S n * br_Ks g c) * (B + INR (S n) * sl)) with (Xs B sl c D N (S n)) in Hglob.
  rewrite br_value_FNum.
  fold (br_nodes g me so). set (nodes := br_nodes g me so) in *.
  assert (Htbl := resolve_from_bound (g_chance g) so me B sl c D N Hc Hso Rc Rso HB Hsl HN
                    nodes (arities g me) n Hents Hgood Hlen Hglob n O (Nat.le_refl n)).
  fold (br_n g me) in Htbl |- *. fold n in Htbl |- *.
  set (tbl := @resolve_from FNum (g_chance g) so me nodes (arities g me) 0 n) in *.
  pose proof (conds B sl c D N HB Hsl n n (Nat.le_refl n) Hglob) as Hcd. cbv zeta in Hcd.
  destruct Hcd as [C1 _].
  assert (HBH : B <= Xs B sl c D N n) by (apply Xs_ge; assumption).
  assert (Hmu : forall j, ValB (Xs B sl c D N n) (nth j tbl 0%float)).
  { intros j. apply nth_Forall; [exact Htbl | apply ValB_zero; lra]. }
  destruct (kids_Vok (g_chance g) so me B c D N Hc Hso Rc Rso HN _ (Xs B sl c D N n)
              ltac:(lra) HBH Hmu C1 (g_root g) Hroot) as [Hf Hb].
  split; [exact Hf|]. apply Rle_trans with (1 := Hb).
  unfold br_ops, Xs. fold D N n. unfold br_Ks. fold D N.
  rewrite (G_add (Kv c D N) (n * Ks c D N)). right. lra.
Qed.

Lemma bpow_1001_lt : 2 * bpow radix2 1000 < Omax.
Proof. rewrite <- (bpow_plus_1 radix2). apply bp_lt_Omax. reflexivity. Qed.

Lemma br_value_float_slack :
  forall (g : game) (me : bool) (so : list (list float)) (B sl : R) (c : nat),
  TblOK (g_chance g) -> TblOK so -> RowSum c (g_chance g) -> RowSum c so ->
  1 <= B -> PayOK B (g_root g) -> 0 <= sl ->
  Forall (fun en : centry => Tgood sl (snd (snd en))) (br_nodes g me so) ->
  (Z.of_nat (br_N g) < 2 ^ 53)%Z ->
  INR (S (br_n g me) * br_Ks g c) * bpow radix2 (-53) <= / 2 ->
  (B + INR (S (br_n g me)) * sl) * INR (S (br_N g)) <= bpow radix2 1000 ->
  Ffin (@br_value FNum g me so) /\
  Rabs (FR (@br_value FNum g me so)) <= G (br_ops g me c) * (B + INR (br_n g me) * sl) /\
  Rabs (FR (@br_value FNum g me so)) <= 2 * (B + INR (br_n g me) * sl).
Proof.
  intros g me so B sl c Hc Hso Rc Rso HB Hpay Hsl Hgood HN Hk Hsz.
  assert (HG := G_le_2 _ Hk). assert (HG1 := G_ge_1 (S (br_n g me) * br_Ks g c)).
  assert (Hn0 : 0 <= B + INR (br_n g me) * sl).
  { assert (0 <= INR (br_n g me) * sl) by (apply Rmult_le_pos; [apply pos_INR | exact Hsl]). lra. }
  assert (Hn1 : 0 <= (B + INR (S (br_n g me)) * sl) * INR (S (br_N g))).
  { apply Rmult_le_pos; [|apply pos_INR].
    assert (0 <= INR (S (br_n g me)) * sl) by (apply Rmult_le_pos; [apply pos_INR | exact Hsl]). lra. }
  assert (Hglob : G (S (br_n g me) * br_Ks g c) * (B + INR (S (br_n g me)) * sl)
                  * INR (S (br_N g)) < Omax).
  { apply Rle_lt_trans with (2 := bpow_1001_lt). rewrite Rmult_assoc.
    apply Rmult_le_compat; lra. }
  destruct (br_value_float_gen g me so B sl c Hc Hso Rc Rso HB Hpay Hsl Hgood HN Hglob) as [Hf Hb].
  split; [exact Hf|]. split; [exact Hb|].
  apply Rle_trans with (1 := Hb). apply Rmult_le_compat_r; [exact Hn0|].
  apply Rle_trans with (2 := HG). apply G_mono. unfold br_ops, br_Ks, Ks. cbn [Nat.mul]. lia.
Qed.

(** *** No NaN, no infinity -- without any hypothesis on underflow.

    The price of a reach probability that underflowed is an additive slack of one half per
    infoset level (a product [value * reach] with a subnormal [reach] can be off by half
    a unit of [reach]). *)
Theorem br_value_float_finite :
  forall (g : game) (me : bool) (so : list (list float)) (B : R) (c : nat),
  TblOK (g_chance g) -> TblOK so -> RowSum c (g_chance g) -> RowSum c so ->
  1 <= B -> PayOK B (g_root g) ->
  (Z.of_nat (br_N g) < 2 ^ 53)%Z ->
  INR (S (br_n g me) * br_Ks g c) * bpow radix2 (-53) <= / 2 ->
  (B + INR (S (br_n g me)) * / 2) * INR (S (br_N g)) <= bpow radix2 1000 ->
  Ffin (@br_value FNum g me so) /\
  Rabs (FR (@br_value FNum g me so))
    <= (1 + bpow radix2 (-53)) ^ br_ops g me c * (B + INR (br_n g me) * / 2) /\
  Rabs (FR (@br_value FNum g me so)) <= 2 * (B + INR (br_n g me) * / 2).
Proof.
  intros g me so B c Hc Hso Rc Rso HB Hpay HN Hk Hsz.
  apply (br_value_float_slack g me so B (/ 2) c); try assumption; [lra|].
  apply Forall_forall. intros en _. right. right. lra.
Qed.

(** *** Boundedness: when no recorded reach underflowed, the best-response value is the
    largest payoff magnitude up to [br_ops] roundings. *)
Theorem br_value_float_bounded :
  forall (g : game) (me : bool) (so : list (list float)) (B : R) (c : nat),
  TblOK (g_chance g) -> TblOK so -> RowSum c (g_chance g) -> RowSum c so ->
  1 <= B -> PayOK B (g_root g) -> NoUF g me so ->
  (Z.of_nat (br_N g) < 2 ^ 53)%Z ->
  INR (S (br_n g me) * br_Ks g c) * bpow radix2 (-53) <= / 2 ->
  B * INR (S (br_N g)) <= bpow radix2 1000 ->
  Ffin (@br_value FNum g me so) /\
  Rabs (FR (@br_value FNum g me so)) <= (1 + bpow radix2 (-53)) ^ br_ops g me c * B /\
  Rabs (FR (@br_value FNum g me so)) <= 2 * B.
Proof.
  intros g me so B c Hc Hso Rc Rso HB Hpay Hnu HN Hk Hsz.
  pose proof (br_value_float_slack g me so B 0 c Hc Hso Rc Rso HB Hpay (Rle_refl 0)) as H.
  rewrite !Rmult_0_r, !Rplus_0_r in H. apply H; try assumption.
  apply Forall_impl with (2 := Hnu). intros en [E|E]; [left; exact E | right; left; exact E].
Qed.

(** ** [info] ([regret::regret]): utility, both regrets and their maximum *)

Lemma fmax0_ok : forall a, Ffin a ->
  Ffin (f_max a 0) /\ 0 <= FR (f_max a 0) /\ FR a <= FR (f_max a 0) /\
  FR (f_max a 0) <= Rabs (FR a).
Proof.
  intros a Ha. destruct (fmax_fin a 0%float Ha Ffin_zero) as [Hf [H1 [H2 H3]]].
  rewrite FR_zero in H2. split; [exact Hf|]. split; [exact H2|]. split; [exact H1|].
  destruct H3 as [-> | ->]; [apply Rle_abs | rewrite FR_zero; apply Rabs_pos].
Qed.

Lemma add_sub_small : forall (k : Z) (b e : float), (-1074 <= k < 1024)%Z ->
  Ffin b -> Ffin e -> Rabs (FR b) + Rabs (FR e) <= bpow radix2 k ->
  (Ffin (b + e)%float /\ FR (b + e)%float = rnd (FR b + FR e) /\
   Rabs (FR (b + e)%float) <= bpow radix2 k) /\
  (Ffin (b - e)%float /\ FR (b - e)%float = rnd (FR b - FR e) /\
   Rabs (FR (b - e)%float) <= bpow radix2 k).
Proof.
  intros k b e Hk Hb He Hs.
  assert (Hov := bp_lt_Omax k (proj2 Hk)).
  assert (Hp : Rabs (rnd (FR b + FR e)) <= bpow radix2 k).
  { apply rnd_abs_le; [apply fmt_bpow; lia|]. apply Rle_trans with (2 := Hs). apply Rabs_triang. }
  assert (Hm : Rabs (rnd (FR b - FR e)) <= bpow radix2 k).
  { apply rnd_abs_le; [apply fmt_bpow; lia|]. apply Rle_trans with (2 := Hs).
    unfold Rminus. apply Rle_trans with (1 := Rabs_triang _ _). rewrite Rabs_Ropp. lra. }
  destruct (add_ok b e Hb He (Rle_lt_trans _ _ _ Hp Hov)) as [F1 E1].
  destruct (sub_ok b e Hb He (Rle_lt_trans _ _ _ Hm Hov)) as [F2 E2].
  rewrite <- E1 in Hp. rewrite <- E2 in Hm.
  split; (split; [|split]); assumption.
Qed.

Lemma k_ops_le_Ks : forall (g : game) (c : nat), (k_ops g <= br_Ks g c)%nat.
Proof.
  intros g c. unfold k_ops, br_Ks, Ks, Kv, br_D, br_N.
  assert (H := nleaves_le_tsz (g_root g)). lia.
Qed.

Lemma ops_le : forall (a b : nat), (a <= b)%nat ->
  INR b * bpow radix2 (-53) <= / 2 -> INR a * bpow radix2 (-53) <= / 2.
Proof.
  intros a b Hab Hb. apply Rle_trans with (2 := Hb).
  apply Rmult_le_compat_r; [apply bpow_ge_0 | apply le_INR; exact Hab].
Qed.

(** [2^1003]: each of [|b1|], [|b2|], [|ev|] is at most [4 * 2^1000] *)
Lemma info_parts :
  forall (g : game) (s1 s2 : list (list float)) (B : R) (c : nat) (ev b1 b2 : float),
  ev = @expected FNum g s1 s2 ->
  b1 = @br_value FNum g true s2 -> b2 = @br_value FNum g false s1 ->
  TblOK (g_chance g) -> TblOK s1 -> TblOK s2 ->
  RowSum c (g_chance g) -> RowSum c s1 -> RowSum c s2 ->
  1 <= B -> PayOK B (g_root g) ->
  (Z.of_nat (br_N g) < 2 ^ 53)%Z ->
  (forall me, INR (S (br_n g me) * br_Ks g c) * bpow radix2 (-53) <= / 2) ->
  (forall me, (B + INR (S (br_n g me)) * / 2) * INR (S (br_N g)) <= bpow radix2 1000) ->
  B * INR (S (br_N g)) <= bpow radix2 1000 /\
  Ffin ev /\
  Rabs (FR ev - U_exact g s1 s2) <= INR (k_ops g) * bpow radix2 (-52) * mass g s1 s2 B /\
  (Ffin (b1 - ev)%float /\ FR (b1 - ev)%float = rnd (FR b1 - FR ev) /\
   Rabs (FR (b1 - ev)%float) <= bpow radix2 1003) /\
  (Ffin (b2 + ev)%float /\ FR (b2 + ev)%float = rnd (FR b2 + FR ev) /\
   Rabs (FR (b2 + ev)%float) <= bpow radix2 1003).
Proof.
  intros g s1 s2 B c ev b1 b2 Eev Eb1 Eb2 Hc H1 H2 Rc R1 R2 HB Hpay HN Hk Hz.
  assert (Hn : forall me, 0 <= INR (br_n g me)) by (intros me; apply pos_INR).
  assert (HBN : B * INR (S (br_N g)) <= bpow radix2 1000).
  { apply Rle_trans with (2 := Hz true). apply Rmult_le_compat_r; [apply pos_INR|].
    rewrite S_INR. generalize (Hn true). lra. }
  assert (Hke : INR (k_ops g) * bpow radix2 (-53) <= / 2).
  { apply (ops_le _ _ (Nat.le_trans _ _ _ (k_ops_le_Ks g c) (Nat.le_add_r _ _)) (Hk true)). }
  assert (HLB : INR (n_leaves g) * B <= bpow radix2 1000).
  { apply Rle_trans with (2 := HBN). rewrite Rmult_comm.
    apply Rmult_le_compat_l; [lra|]. apply le_INR.
    apply Nat.le_trans with (1 := nleaves_le_tsz (g_root g)). apply Nat.le_succ_diag_r. }
  destruct (expected_float_bound g s1 s2 B Hc H1 H2 HB Hpay Hke HLB)
    as [Hef [_ [Hee [Heb Hmass]]]].
  rewrite <- Eev in Hef, Hee, Heb.
  assert (Hbr : forall me so, TblOK so -> RowSum c so ->
            Ffin (@br_value FNum g me so) /\
            Rabs (FR (@br_value FNum g me so)) + Rabs (FR ev) <= bpow radix2 1003).
  { intros me so Hso Rso.
    destruct (br_value_float_finite g me so B c Hc Hso Rc Rso HB Hpay HN (Hk me) (Hz me))
      as [Hf [_ Hb]].
    split; [exact Hf|].
    assert (B + INR (br_n g me) * / 2 <= bpow radix2 1000).
    { apply Rle_trans with (2 := Hz me).
      apply Rle_trans with (B + INR (S (br_n g me)) * / 2); [rewrite S_INR; lra|].
      apply le_mul_SN. generalize (pos_INR (S (br_n g me))). lra. }
    replace (bpow radix2 1003) with (2 * (2 * (2 * bpow radix2 1000)))
      by (rewrite <- !(bpow_plus_1 radix2); reflexivity).
    assert (0 < bpow radix2 1000) by apply bpow_gt_0. lra. }
  destruct (Hbr true s2 H2 R2) as [Hb1f Hb1]. destruct (Hbr false s1 H1 R1) as [Hb2f Hb2].
  rewrite <- Eb1 in Hb1f, Hb1. rewrite <- Eb2 in Hb2f, Hb2.
  destruct (add_sub_small 1003 b1 ev ltac:(lia) Hb1f Hef Hb1) as [_ D1].
  destruct (add_sub_small 1003 b2 ev ltac:(lia) Hb2f Hef Hb2) as [D2 _].
  split; [exact HBN|]. split; [exact Hef|]. split; [exact Hee|]. split; [exact D1 | exact D2].
Qed.

(** *** The reported numbers are finite and the regrets non-negative. *)
Theorem info_float_finite :
  forall (g : game) (prof : list float * list float) (B : R) (c : nat),
  let s1 := split_by (fst prof) (arities g true) in
  let s2 := split_by (snd prof) (arities g false) in
  TblOK (g_chance g) -> Forall fin01 (fst prof) -> Forall fin01 (snd prof) ->
  RowSum c (g_chance g) -> RowSum c s1 -> RowSum c s2 ->
  1 <= B -> PayOK B (g_root g) ->
  (Z.of_nat (br_N g) < 2 ^ 53)%Z ->
  INR (S (br_n g true) * br_Ks g c) * bpow radix2 (-53) <= / 2 ->
  INR (S (br_n g false) * br_Ks g c) * bpow radix2 (-53) <= / 2 ->
  (B + INR (S (br_n g true)) * / 2) * INR (S (br_N g)) <= bpow radix2 1000 ->
  (B + INR (S (br_n g false)) * / 2) * INR (S (br_N g)) <= bpow radix2 1000 ->
  let I := @info FNum g prof in
  Ffin (si_util I) /\
  Ffin (si_reg1 I) /\ 0 <= FR (si_reg1 I) /\
  Ffin (si_reg2 I) /\ 0 <= FR (si_reg2 I) /\
  Ffin (@si_regret FNum I) /\ 0 <= FR (@si_regret FNum I) /\
  FR (si_reg1 I) <= FR (@si_regret FNum I) /\ FR (si_reg2 I) <= FR (@si_regret FNum I) /\
  FR (@si_regret FNum I) <= bpow radix2 1003.
Proof.
  intros g prof B c s1 s2 Hc Hp1 Hp2 Rc R1 R2 HB Hpay HN Hk1 Hk2 Hz1 Hz2 I.
  assert (Hk : forall me, INR (S (br_n g me) * br_Ks g c) * bpow radix2 (-53) <= / 2)
    by (intros [|]; assumption).
  assert (Hz : forall me, (B + INR (S (br_n g me)) * / 2) * INR (S (br_N g)) <= bpow radix2 1000)
    by (intros [|]; assumption).
  set (ev := @expected FNum g s1 s2).
  set (b1 := @br_value FNum g true s2). set (b2 := @br_value FNum g false s1).
  destruct (info_parts g s1 s2 B c ev b1 b2 eq_refl eq_refl eq_refl Hc
              (TblOK_split_by _ _ Hp1) (TblOK_split_by _ _ Hp2) Rc R1 R2 HB Hpay HN Hk Hz)
    as [_ [Hef [_ [[Hd1f [_ Hd1b]] [Hd2f [_ Hd2b]]]]]].
  destruct (fmax0_ok _ Hd1f) as [Hr1f [Hr10 [_ Hr1b]]].
  destruct (fmax0_ok _ Hd2f) as [Hr2f [Hr20 [_ Hr2b]]].
  change I with (@mkSinfo FNum ev (f_max (b1 - ev) 0) (f_max (b2 + ev) 0)). clear I.
  unfold si_regret. cbn [si_util si_reg1 si_reg2]. change (fmax FNum) with f_max.
  destruct (fmax_fin _ _ Hr1f Hr2f) as [Hmf [Hm1 [Hm2 Hm3]]].
  split; [exact Hef|]. split; [exact Hr1f|]. split; [exact Hr10|].
  split; [exact Hr2f|]. split; [exact Hr20|]. split; [exact Hmf|].
  split; [lra|]. split; [exact Hm1|]. split; [exact Hm2|].
  destruct Hm3 as [-> | ->]; lra.
Qed.

(** ** Boolean checkers for the hypotheses *)

Definition rowsumb (c : nat) (t : list (list float)) : bool :=
  forallb (fun r => forallb fin01b r && (length r <=? c)%nat && PrimFloat.leb (@sum FNum r) 1) t.

Lemma rowsumb_spec : forall c t, (Z.of_nat c < 2 ^ 53)%Z -> rowsumb c t = true -> RowSum c t.
Proof.
  intros c t Hc H. unfold rowsumb in H. rewrite forallb_forall in H.
  apply Forall_forall. intros r Hr. specialize (H r Hr).
  apply andb_true_iff in H. destruct H as [H H3].
  apply andb_true_iff in H. destruct H as [H1 H2].
  apply forallb_fin01b in H1. apply Nat.leb_le in H2.
  destruct (RS_le_G_sum r H1 ltac:(lia)) as [Hf [H0 [HS _]]].
  rewrite (leb_fin _ _ Hf Ffin_one), FR_one in H3.
  destruct (Rle_bool_spec (FR (@sum FNum r)) 1) as [Hle|Hle]; [|discriminate].
  apply Rle_trans with (1 := HS).
  apply Rle_trans with (G (length r) * 1).
  - apply Rmult_le_compat_l; [left; apply G_pos | exact Hle].
  - rewrite Rmult_1_r. apply G_mono. exact H2.
Qed.

Definition noufb (g : game) (me : bool) (so : list (list float)) : bool :=
  forallb (fun en : centry =>
             f_is_fin (snd (snd en)) &&
             (PrimFloat.eqb (snd (snd en)) 0 || PrimFloat.leb (pow2 (-1022)) (snd (snd en))))
          (br_nodes g me so).

Lemma noufb_spec : forall g me so, noufb g me so = true -> NoUF g me so.
Proof.
  intros g me so H. unfold noufb in H. rewrite forallb_forall in H.
  apply Forall_forall. intros en Hen. specialize (H en Hen).
  apply andb_true_iff in H. destruct H as [Hf H].
  apply NormFloat.f_is_fin_true in Hf.
  apply orb_true_iff in H. destruct H as [H|H].
  - left. apply (eqb_zero_fin _ Hf). exact H.
  - right. destruct (pow2_IsPow2 (-1022) ltac:(lia)) as [Gf Gr].
    apply (leb_true_R _ _ Gf Hf) in H. rewrite Gr in H. exact H.
Qed.

Lemma small_ops : forall k : nat, (Z.of_nat k <= 2 ^ 52)%Z -> INR k * bpow radix2 (-53) <= / 2.
Proof.
  intros k Hk. apply Rle_trans with (bpow radix2 52 * bpow radix2 (-53)).
  - apply Rmult_le_compat_r; [apply bpow_ge_0|].
    rewrite INR_IZR_INZ. change (bpow radix2 52) with (IZR (2 ^ 52)). apply IZR_le. exact Hk.
  - rewrite <- bpow_plus. right. change (bpow radix2 (52 + -53)) with (/ IZR (Z.pow_pos 2 1)).
    reflexivity.
Qed.

Lemma le_1024_bpow1000 : forall x, x <= 1024 -> x <= bpow radix2 1000.
Proof.
  intros x Hx. apply Rle_trans with (1 := Hx).
  apply Rle_trans with (bpow radix2 10); [|apply bpow_le; lia].
  right. change (bpow radix2 10) with (IZR (Z.pow_pos 2 10)). reflexivity.
Qed.

(** * Forward error against the real-number model on the same data *)

(** ** Rounding of a normal number: relative error in both directions *)

Definition Nrm (x : R) : Prop := x = 0 \/ om1022 <= x.

Lemma rnd_normal : forall x, om1022 <= x ->
  rnd x <= (1 + u53) * x /\ x <= (1 + u53) * rnd x /\ om1022 <= rnd x.
Proof.
  intros x Hx. assert (Hw := om1022_pos).
  assert (H1 := relative_error_N_FLT radix2 (SpecFloat.emin prec emax) prec eq_refl
                  (fun n => negb (Z.even n)) x).
  assert (H2 := relative_error_N_FLT_round radix2 (SpecFloat.emin prec emax) prec eq_refl
                  (fun n => negb (Z.even n)) x).
  change (round radix2 (FLT_exp (SpecFloat.emin prec emax) prec)
            (Znearest (fun n => negb (Z.even n))) x) with (rnd x) in H1, H2.
  rewrite half_bpow in H1, H2.
  change (bpow radix2 (- prec + 1 - 1)) with u53 in H1, H2.
  assert (Hb : bpow radix2 (SpecFloat.emin prec emax + prec - 1) <= Rabs x).
  { rewrite Rabs_pos_eq by lra. exact Hx. }
  specialize (H1 Hb). specialize (H2 Hb).
  assert (Hr : om1022 <= rnd x) by (apply rnd_ge_fmt; [apply fmt_bpow; lia | exact Hx]).
  rewrite (Rabs_pos_eq x) in H1 by lra. rewrite (Rabs_pos_eq (rnd x)) in H2 by lra.
  apply Rabs_le_inv in H1. apply Rabs_le_inv in H2.
  split; [lra|]. split; [lra | exact Hr].
Qed.

(** ** The exact value of a search, for real infoset values [muR] *)
Fixpoint vR (chance so : list (list float)) (me : bool) (muR : nat -> R) (n : node) : R :=
  match n with
  | Term x => if me then FR x else - FR x
  | Chance ci kids => wsum (vR chance so me muR) (@row FNum chance ci) kids
  | Player pl i kids =>
      if Bool.eqb pl me then muR i
      else wsum (vR chance so me muR) (@row FNum so i) kids
  end.

Lemma sV_vR : forall chance so me mu n,
  sV chance so me mu n = vR chance so me (fun i => FR (mu i)) n.
Proof.
  intros chance so me mu.
  induction n as [x|ci kids IH|pl i kids IH] using node_ind'.
  - reflexivity.
  - cbn [sV vR]. apply wsum_ext. exact IH.
  - cbn [sV vR]. destruct (Bool.eqb pl me); [reflexivity|]. apply wsum_ext. exact IH.
Qed.

Lemma wsum_sub : forall (v1 v2 : node -> R) ks ps,
  wsum (fun k => v1 k - v2 k) ps ks = wsum v1 ps ks - wsum v2 ps ks.
Proof.
  intros v1 v2. induction ks as [|k ks IH]; intros [|p ps]; cbn [wsum]; try lra.
  rewrite IH. lra.
Qed.

Section RealSearch.
  Context (chance so : list (list float)) (me : bool) (c : nat).
  Context (Hchance : TblOK chance) (Hso : TblOK so).
  Context (Rchance : RowSum c chance) (Rso : RowSum c so).

  Lemma vR_lip : forall (mu1 mu2 : nat -> R) (dl : R), 0 <= dl ->
    (forall i, Rabs (mu1 i - mu2 i) <= dl) ->
    forall n, Rabs (vR chance so me mu1 n - vR chance so me mu2 n) <= G (c * sdep me n) * dl.
  Proof.
    intros mu1 mu2 dl Hdl Hmu.
    induction n as [x|ci kids IH|pl i kids IH] using node_ind'; cbn [vR sdep].
    - rewrite Nat.mul_0_r, G_0, Rminus_diag_eq, Rabs_R0 by reflexivity. lra.
    - rewrite <- wsum_sub.
      apply wsum_G_step; [exact Hdl | exact IH | apply row_fin01; exact Hchance | apply row_RS; exact Rchance].
    - destruct (Bool.eqb pl me).
      + rewrite Nat.mul_0_r, G_0, Rmult_1_l. apply Hmu.
      + rewrite <- wsum_sub.
        apply wsum_G_step; [exact Hdl | exact IH | apply row_fin01; exact Hso | apply row_RS; exact Rso].
  Qed.

  Lemma vR_bound : forall (muR : nat -> R) (H : R), 0 <= H ->
    (forall i, Rabs (muR i) <= H) ->
    forall n, PayOK H n -> Rabs (vR chance so me muR n) <= G (c * sdep me n) * H.
  Proof.
    intros muR H HH Hmu. apply PayOK_ind'; cbn [vR sdep].
    - intros x _ HxB. rewrite Nat.mul_0_r, G_0, Rmult_1_l.
      destruct me; [|rewrite Rabs_Ropp]; exact HxB.
    - intros ci kids _ IH.
      apply wsum_G_step; [exact HH | exact IH | apply row_fin01; exact Hchance | apply row_RS; exact Rchance].
    - intros pl i kids _ IH. destruct (Bool.eqb pl me).
      + rewrite Nat.mul_0_r, G_0, Rmult_1_l. apply Hmu.
      + apply wsum_G_step; [exact HH | exact IH | apply row_fin01; exact Hso | apply row_RS; exact Rso].
  Qed.
End RealSearch.

(** ** The real-number model on the image of the game: [search] is affine *)
Module BR := BestResponseProofs.

Section RealModelSearch.
  Context (chance so : list (list float)) (me : bool) (muR : nat -> R).
  Context (Hchance : TblOK chance) (Hso : TblOK so).
  Local Notation srchR := (@search RNum (tblR chance) (tblR so) me muR).
  Local Notation v := (vR chance so me muR).

  Definition LinSp (k : node) : Prop :=
    forall rho A : R, srchR (nodeR k) rho A = A + rho * v k.

  Lemma lgo_lin : forall (keep : R -> bool) ks, Forall LinSp ks -> forall ps (rho A : R),
    Forall (fun p => keep (FR p) = false -> FR p = 0) ps ->
    BR.lgo keep srchR rho (map FR ps) (map nodeR ks) A = A + rho * wsum v ps ks.
  Proof.
    intros keep ks Hks. induction Hks as [|k ks Hk _ IH]; intros [|p ps] rho A Hps;
      cbn [map BR.lgo wsum]; try lra.
    inversion Hps as [|? ? Hp Hps']; subst. rewrite (IH ps rho A Hps').
    destruct (keep (FR p)); [rewrite Hk | rewrite (Hp eq_refl)]; lra.
  Qed.

  Theorem searchR_lin : forall n, LinSp n.
  Proof.
    induction n as [x|ci kids IH|pl i kids IH] using node_ind'; intros rho A.
    - cbn [nodeR]. rewrite BR.search_Term. cbn [vR]. destruct me; lra.
    - cbn [nodeR]. rewrite BR.search_Chance, rowR_tblR. cbn [vR].
      apply (lgo_lin (fun _ => true)); [exact IH|]. apply Forall_forall. intros p _ E. discriminate E.
    - cbn [nodeR]. rewrite BR.search_Player, rowR_tblR. cbn [vR].
      destruct (Bool.eqb pl me); [lra|].
      apply (lgo_lin (Rltb 0)); [exact IH|]. apply Forall_impl with (2 := row_fin01 so i Hso).
      intros p [_ [Hp0 _]] E. apply Rltb_false in E. lra.
  Qed.
End RealModelSearch.

(** ** Reach probabilities without underflow: relative accuracy in both directions *)

Definition RelR (r : float) (rho : R) (j : nat) : Prop :=
  fin01 r /\ Nrm (FR r) /\ rho <= G j * FR r /\ FR r <= G j * rho.

Lemma RelR_one : RelR 1%float 1 0.
Proof.
  split; [apply fin01_one|]. rewrite FR_one, G_0. split; [|lra].
  right. apply om1022_le_1.
Qed.

Lemma RelR_nonneg : forall r rho j, RelR r rho j -> 0 <= rho.
Proof.
  intros r rho j [[_ [H0 _]] [_ [_ H2]]]. exact (G_mul_nonneg j _ _ H0 H2).
Qed.

Lemma RelR_mono : forall r rho j j', RelR r rho j -> (j <= j')%nat -> RelR r rho j'.
Proof.
  intros r rho j j' Hr Hj. assert (H0 := RelR_nonneg _ _ _ Hr).
  destruct Hr as [Hf [Hn [H1 H2]]]. assert (Hr0 : 0 <= FR r) by (destruct Hf as [_ [H _]]; exact H).
  assert (HG := G_mono j j' Hj). assert (HG0 := G_pos j).
  split; [exact Hf|]. split; [exact Hn|]. split.
  - apply Rle_trans with (1 := H1). apply Rmult_le_compat_r; assumption.
  - apply Rle_trans with (1 := H2). apply Rmult_le_compat_r; assumption.
Qed.

Lemma RelR_step : forall p r rho j, fin01 p -> RelR r rho j -> Nrm (FR p * FR r) ->
  RelR (p * r)%float (FR p * rho) (S j).
Proof.
  intros p r rho j Hp Hr Hn. assert (Hrho := RelR_nonneg _ _ _ Hr).
  destruct Hr as [Hrf [_ [H1 H2]]].
  destruct (mul_reach p r Hp Hrf) as [Hf He].
  destruct Hp as [_ [Hp0 Hp1]]. assert (Hr0 : 0 <= FR r) by (destruct Hrf as [_ [H _]]; exact H).
  assert (Hu := u53_pos). assert (HG := G_ge_1 j).
  split; [exact Hf|]. rewrite He, G_S.
  destruct Hn as [Hz|Hn].
  - rewrite Hz, (rnd_fmt 0 fmt_0). split; [left; reflexivity|].
    assert (Hz' : FR p * rho = 0).
    { destruct (Rmult_integral _ _ Hz) as [E|E]; [rewrite E; lra|].
      rewrite E in H1. assert (rho = 0) by lra. subst rho. lra. }
    rewrite Hz'. lra.
  - destruct (rnd_normal _ Hn) as [R1 [R2 R3]].
    split; [right; exact R3|].
    assert (E1 : FR p * rho <= G j * (FR p * FR r)).
    { replace (G j * (FR p * FR r)) with (FR p * (G j * FR r)) by lra.
      apply Rmult_le_compat_l; assumption. }
    assert (E2 : FR p * FR r <= G j * (FR p * rho)).
    { replace (G j * (FR p * rho)) with (FR p * (G j * rho)) by lra.
      apply Rmult_le_compat_l; assumption. }
    assert (E3 : G j * (FR p * FR r) <= G j * ((1 + u53) * rnd (FR p * FR r)))
      by (apply Rmult_le_compat_l; lra).
    assert (E4 : (1 + u53) * (FR p * FR r) <= (1 + u53) * (G j * (FR p * rho)))
      by (apply Rmult_le_compat_l; lra).
    split; lra.
Qed.

(** ** "No underflow of a reach probability" along [collect] *)
Section CLoop.
  Context (P : node -> float -> Prop) (tst : float -> bool) (reach : float).
  Fixpoint cgo (ps : list float) (ks : list node) {struct ks} : Prop :=
    match ps, ks with
    | p :: ps', k :: ks' =>
        (if tst p then Nrm (FR p * FR reach) /\ P k (p * reach)%float else True) /\ cgo ps' ks'
    | _, _ => True
    end.
  Fixpoint cgo_me (ks : list node) : Prop :=
    match ks with
    | [] => True
    | k :: r => P k reach /\ cgo_me r
    end.
End CLoop.

(** every product [p * reach] formed while collecting the own decision nodes is zero or a
    normal number (exactly, before rounding) *)
Fixpoint CollOK (chance so : list (list float)) (me : bool) (n : node) (reach : float)
  {struct n} : Prop :=
  match n with
  | Term _ => True
  | Chance ci kids =>
      (fix go (ps : list float) (ks : list node) {struct ks} : Prop :=
         match ps, ks with
         | p :: ps', k :: ks' =>
             (Nrm (FR p * FR reach) /\ CollOK chance so me k (p * reach)%float) /\ go ps' ks'
         | _, _ => True
         end) (@row FNum chance ci) kids
  | Player pl i kids =>
      if Bool.eqb pl me then
        (fix go (ks : list node) : Prop :=
           match ks with
           | [] => True
           | k :: r => CollOK chance so me k reach /\ go r
           end) kids
      else
        (fix go (ps : list float) (ks : list node) {struct ks} : Prop :=
           match ps, ks with
           | p :: ps', k :: ks' =>
               (if PrimFloat.ltb 0 p
                then Nrm (FR p * FR reach) /\ CollOK chance so me k (p * reach)%float
                else True) /\ go ps' ks'
           | _, _ => True
           end) (@row FNum so i) kids
  end.

Lemma CollOK_Chance : forall chance so me ci kids r,
  CollOK chance so me (Chance ci kids) r =
  cgo (CollOK chance so me) (fun _ => true) r (@row FNum chance ci) kids.
Proof. reflexivity. Qed.

Lemma CollOK_Player : forall chance so me pl i kids r,
  CollOK chance so me (Player pl i kids) r =
  if Bool.eqb pl me then cgo_me (CollOK chance so me) r kids
  else cgo (CollOK chance so me) (fun p => PrimFloat.ltb 0 p) r (@row FNum so i) kids.
Proof. reflexivity. Qed.

Lemma ltb0_Rltb : forall p, Ffin p -> PrimFloat.ltb 0 p = Rltb 0 (FR p).
Proof.
  intros p Hp. rewrite (ltb_fin 0 p Ffin_zero Hp), FR_zero.
  destruct (Rlt_bool_spec 0 (FR p)) as [H|H].
  - symmetry. apply Rltb_true. exact H.
  - symmetry. apply Rltb_false. exact H.
Qed.

(** ** [collect] at binary64 against [collect] of the real model *)
Definition ERel (D : nat) (eF : centry) (eR : BR.centry) : Prop :=
  fst eF = fst eR /\ fst (snd eR) = map nodeR (fst (snd eF)) /\
  RelR (snd (snd eF)) (snd (snd eR)) D.

Section CollectRel.
  Context (chance so : list (list float)) (me : bool) (D : nat).
  Context (Hchance : TblOK chance) (Hso : TblOK so).
  Local Notation colF := (@collect FNum chance so me).
  Local Notation colR := (@collect RNum (tblR chance) (tblR so) me).
  Local Notation COK := (CollOK chance so me).

  Definition CRSp (k : node) : Prop := forall r rho j accF accR,
    COK k r -> RelR r rho j -> (j + depth k <= D)%nat ->
    Forall2 (ERel D) accF accR ->
    Forall2 (ERel D) (colF k r accF) (colR (nodeR k) rho accR).

  Lemma pgo_rel : forall (tst : float -> bool) (keep : R -> bool),
    (forall p, fin01 p -> tst p = keep (FR p)) ->
    forall ks, Forall CRSp ks ->
    forall ps r rho j accF accR, Forall fin01 ps ->
    cgo COK tst r ps ks -> RelR r rho j ->
    (S j + list_max (map depth ks) <= D)%nat ->
    Forall2 (ERel D) accF accR ->
    Forall2 (ERel D) (pgo colF tst r ps ks accF)
                     (BR.lgo keep colR rho (map FR ps) (map nodeR ks) accR).
  Proof.
    intros tst keep Htst ks Hks.
    induction Hks as [|k ks Hk _ IH]; intros ps r rho j accF accR Hps Hok Hr Hd Hacc.
    - destruct ps; exact Hacc.
    - destruct ps as [|p ps]; [exact Hacc|].
      inversion Hps as [|? ? Hp Hps']; subst.
      change (list_max (map depth (k :: ks))) with (Nat.max (depth k) (list_max (map depth ks))) in Hd.
      cbn [cgo] in Hok. destruct Hok as [Hk1 Hok'].
      cbn [pgo map BR.lgo]. rewrite <- (Htst p Hp).
      assert (Hrest := IH ps r rho j accF accR Hps' Hok' Hr ltac:(lia) Hacc).
      destruct (tst p); [|exact Hrest].
      destruct Hk1 as [Hn Hk1].
      apply (Hk (p * r)%float (FR p * rho) (S j)); [exact Hk1 | | lia | exact Hrest].
      apply RelR_step; assumption.
  Qed.

  Lemma ogo_rel : forall ks, Forall CRSp ks ->
    forall r rho j accF accR,
    cgo_me COK r ks -> RelR r rho j ->
    (S j + list_max (map depth ks) <= D)%nat ->
    Forall2 (ERel D) accF accR ->
    Forall2 (ERel D) (ogo colF r ks accF) (BR.lgo_me colR rho (map nodeR ks) accR).
  Proof.
    intros ks Hks. induction Hks as [|k ks Hk _ IH]; intros r rho j accF accR Hok Hr Hd Hacc.
    - exact Hacc.
    - change (list_max (map depth (k :: ks))) with (Nat.max (depth k) (list_max (map depth ks))) in Hd.
      cbn [cgo_me] in Hok. destruct Hok as [Hk1 Hok'].
      cbn [ogo map BR.lgo_me].
      apply (Hk r rho j); [exact Hk1 | exact Hr | lia |].
      apply (IH r rho j); try assumption. lia.
  Qed.

  Theorem collect_rel : forall n, CRSp n.
  Proof.
    induction n as [x|ci kids IH|pl i kids IH] using node_ind'; intros r rho j accF accR Hok Hr Hd Hacc.
    - exact Hacc.
    - rewrite CollOK_Chance in Hok. cbn [nodeR depth] in Hd |- *.
      rewrite collect_Chance, BR.collect_Chance, rowR_tblR.
      apply (pgo_rel (fun _ => true) (fun _ => true) (fun _ _ => eq_refl) kids IH _ r rho j);
        try assumption; [apply row_fin01; exact Hchance | lia].
    - rewrite CollOK_Player in Hok. cbn [nodeR depth] in Hd |- *.
      rewrite collect_Player, BR.collect_Player, rowR_tblR.
      destruct (Bool.eqb pl me).
      + apply (ogo_rel kids IH r rho j); try assumption; [lia|].
        apply Forall2_app; [exact Hacc|]. constructor; [|constructor].
        split; [reflexivity|]. split; [reflexivity|]. cbn [fst snd].
        apply (RelR_mono r rho j D Hr). lia.
      + apply (pgo_rel (fun p => PrimFloat.ltb 0 p) (Rltb 0) (fun p Hp => ltb0_Rltb p (proj1 Hp))
                 kids IH _ r rho j); try assumption; [apply row_fin01; exact Hso | lia].
  Qed.
End CollectRel.

(** ** [resolve_one] at binary64 against [resolve_one] of the real model *)

(** A rounded product [x * w] against [xR * wR]: [x] is within [(G a - 1) * Hx] of [xR], the
    weights [w], [wR] are within a factor [G s] of each other, and the underflow term of the
    rounding error is below the bound itself.  Both the product [value * reach] and the
    division by the total reach are instances. *)
Lemma wprod_err : forall (x xR w wR Hx : R) (a s : nat),
  0 <= Hx -> Rabs xR <= Hx -> Rabs (x - xR) <= (G a - 1) * Hx ->
  0 <= w -> 0 <= wR -> wR <= G s * w -> w <= G s * wR ->
  om1022 <= G a * G s * (Hx * wR) ->
  Rabs (rnd (x * w) - xR * wR) <= (G (a + s + 2) - 1) * (Hx * wR).
Proof.
  intros x xR w wR Hx a s HHx HxR Hd Hw HwR H1 H2 Hom.
  assert (Hu := u53_pos). assert (Ha := G_ge_1 a). assert (Hs := G_ge_1 s).
  set (d := Hx * wR) in *.
  assert (Hd0 : 0 <= d) by (apply Rmult_le_pos; assumption).
  assert (Hwd : Hx * w <= G s * d).
  { unfold d. replace (G s * (Hx * wR)) with (Hx * (G s * wR)) by lra.
    apply Rmult_le_compat_l; assumption. }
  assert (Hx0 : Rabs x <= G a * Hx).
  { replace x with (xR + (x - xR)) by lra. apply Rle_trans with (1 := Rabs_triang _ _). lra. }
  assert (Hp : Rabs (x * w) <= G a * G s * d).
  { rewrite Rabs_mult, (Rabs_pos_eq w Hw). apply Rle_trans with (G a * Hx * w).
    - apply Rmult_le_compat_r; assumption.
    - rewrite !Rmult_assoc. apply Rmult_le_compat_l; lra. }
  assert (E1 : Rabs (rnd (x * w) - x * w) <= 2 * u53 * (G a * G s * d)).
  { apply Rle_trans with (1 := mul_err _).
    apply Rle_trans with (u53 * (G a * G s * d + G a * G s * d)); [apply Rmult_le_compat_l|]; lra. }
  assert (E2 : Rabs (x * w - xR * w) <= (G a - 1) * (G s * d)).
  { replace (x * w - xR * w) with ((x - xR) * w) by lra.
    rewrite Rabs_mult, (Rabs_pos_eq w Hw). apply Rle_trans with ((G a - 1) * Hx * w).
    - apply Rmult_le_compat_r; assumption.
    - rewrite Rmult_assoc. apply Rmult_le_compat_l; lra. }
  assert (E3 : Rabs (xR * w - xR * wR) <= (G s - 1) * d).
  { replace (xR * w - xR * wR) with (xR * (w - wR)) by lra. rewrite Rabs_mult.
    replace ((G s - 1) * d) with (Hx * ((G s - 1) * wR)) by (unfold d; lra).
    apply Rmult_le_compat; try apply Rabs_pos; [exact HxR|].
    apply Rabs_le. split; [|lra].
    assert (0 <= (G s - 1) * wR) by (apply Rmult_le_pos; lra).
    destruct (Rle_or_lt w wR) as [Hc|Hc]; [|lra].
    assert ((G s - 1) * w <= (G s - 1) * wR) by (apply Rmult_le_compat_l; lra). lra. }
  replace (rnd (x * w) - xR * wR)
    with ((rnd (x * w) - x * w) + ((x * w - xR * w) + (xR * w - xR * wR))) by lra.
  apply Rle_trans with (1 := Rabs_triang _ _).
  apply Rle_trans with (2 * u53 * (G a * G s * d) + ((G a - 1) * (G s * d) + (G s - 1) * d)).
  { apply Rplus_le_compat; [exact E1|]. apply Rle_trans with (1 := Rabs_triang _ _). lra. }
  replace (G (a + s + 2)) with (G a * G s * ((1 + u53) * (1 + u53)))
    by (rewrite !G_add; unfold G; simpl; lra).
  assert (0 <= u53 * u53 * (G a * G s * d)) by (repeat apply Rmult_le_pos; lra).
  lra.
Qed.

Lemma tprod_err : forall (vF vR r rho Hv : R) (mv j : nat),
  1 <= Hv -> Rabs vR <= Hv -> Rabs (vF - vR) <= (G mv - 1) * Hv ->
  0 <= r -> Nrm r -> rho <= G j * r -> r <= G j * rho ->
  Rabs (rnd (r * vF) - vR * rho) <= (G (mv + j + 2) - 1) * (Hv * rho).
Proof.
  intros vF vR r rho Hv mv j HHv HvR Hd Hr0 Hn H1 H2.
  assert (HGj := G_ge_1 j). assert (HGm := G_ge_1 mv).
  assert (Hrho := G_mul_nonneg j r rho Hr0 H2).
  destruct Hn as [Hz|Hn].
  - subst r. assert (rho = 0) by lra. subst rho.
    rewrite Rmult_0_l, (rnd_fmt 0 fmt_0), !Rmult_0_r, Rminus_diag_eq, Rabs_R0 by reflexivity. lra.
  - rewrite (Rmult_comm r). apply wprod_err; try assumption; [lra|].
    (* a normal reach: the underflow term is below [Hv * r] *)
    apply Rle_trans with (1 := Hn), Rle_trans with (1 := H2).
    rewrite Rmult_assoc. apply Rle_trans with (G j * (Hv * rho)).
    + apply Rmult_le_compat_l; [lra|].
      apply Rle_trans with (1 * rho); [lra | apply Rmult_le_compat_r; lra].
    + apply G_le_mul. repeat apply Rmult_le_pos; lra.
Qed.

Lemma Rmax_lip : forall a b A B e, Rabs (a - A) <= e -> Rabs (b - B) <= e ->
  Rabs (Rmax a b - Rmax A B) <= e.
Proof.
  intros a b A B e H1 H2. apply Rabs_le_inv in H1. apply Rabs_le_inv in H2. apply Rabs_le.
  unfold Rmax. destruct (Rle_dec a b); destruct (Rle_dec A B); lra.
Qed.

Lemma FR_fmax : forall a b, Ffin a -> Ffin b -> FR (f_max a b) = Rmax (FR a) (FR b).
Proof.
  intros a b Ha Hb. unfold f_max. rewrite (ltb_fin a b Ha Hb), (f_is_nan_fin a Ha).
  unfold Rmax. destruct (Rlt_bool_spec (FR a) (FR b)); destruct (Rle_dec (FR a) (FR b)); lra.
Qed.

Lemma fmax_acc : forall a b A B M m, accOK a A M m -> accOK b B M m ->
  accOK (f_max a b) (Rmax A B) M m.
Proof.
  intros a b A B M m [Ha [HA Hea]] [Hb [HB Heb]].
  split; [exact (proj1 (fmax_fin a b Ha Hb))|]. split.
  - unfold Rmax. destruct (Rle_dec A B); assumption.
  - rewrite (FR_fmax a b Ha Hb). apply Rmax_lip; assumption.
Qed.

Lemma fold_fmax_acc : forall M m l L, Forall2 (fun y Y => accOK y Y M m) l L ->
  forall x X, accOK x X M m -> accOK (fold_left f_max l x) (fold_left Rmax L X) M m.
Proof.
  intros M m l L H. induction H as [|y Y l L Hy _ IH]; intros x X Hx; [exact Hx|].
  cbn [fold_left]. apply IH. apply fmax_acc; assumption.
Qed.

Lemma Rinv_G_le : forall (s : nat) x y, 0 < x -> 0 < y -> x <= G s * y -> / y <= G s * / x.
Proof.
  intros s x y Hx Hy H. apply Rmult_le_reg_r with (x * y); [apply Rmult_lt_0_compat; assumption|].
  replace (/ y * (x * y)) with (x * (/ y * y)) by lra.
  replace (G s * / x * (x * y)) with (G s * y * (/ x * x)) by lra.
  rewrite !Rinv_l by lra. lra.
Qed.

Lemma div_err_rel : forall (m mR TF TR Hv : R) (a s : nat),
  1 <= Hv -> 0 < TF -> 0 < TR -> TR <= G s * TF -> TF <= G s * TR ->
  Rabs mR <= Hv * TR -> Rabs (m - mR) <= (G a - 1) * (Hv * TR) ->
  Rabs (mR / TR) <= Hv /\
  Rabs (rnd (m / TF) - mR / TR) <= (G (a + s + 2) - 1) * Hv /\
  Rabs (rnd (m / TF)) <= G (a + s + 2) * Hv.
Proof.
  intros m mR TF TR Hv a s HHv HTF HTR H1 H2 HmR Hm.
  assert (HiF := Rinv_0_lt_compat _ HTF). assert (HiR := Rinv_0_lt_compat _ HTR).
  assert (HQ : Rabs (mR / TR) <= Hv).
  { unfold Rdiv. rewrite Rabs_mult, (Rabs_pos_eq (/ TR)) by lra.
    apply Rmult_le_reg_r with TR; [exact HTR|].
    rewrite Rmult_assoc, Rinv_l, Rmult_1_r by lra. exact HmR. }
  assert (EH : Hv * TR * / TR = Hv)
    by (rewrite Rmult_assoc, Rinv_r, Rmult_1_r by lra; reflexivity).
  assert (E : Rabs (rnd (m / TF) - mR / TR) <= (G (a + s + 2) - 1) * (Hv * TR * / TR)).
  { apply (wprod_err m mR (/ TF) (/ TR) (Hv * TR) a s); try assumption; try lra;
      try (apply Rinv_G_le; assumption); [apply Rmult_le_pos; lra|].
    rewrite EH.
    assert (Ha := G_ge_1 a). assert (Hs := G_ge_1 s).
    apply Rle_trans with (1 := om1022_le_1). apply Rle_trans with (1 * 1 * 1); [lra|].
    repeat apply Rmult_le_compat; lra. }
  rewrite EH in E.
  split; [exact HQ|]. split; [exact E|].
  replace (rnd (m / TF)) with (mR / TR + (rnd (m / TF) - mR / TR)) by lra.
  apply Rle_trans with (1 := Rabs_triang _ _). lra.
Qed.

Lemma Forall2_filter_key : forall (D : nat) (i : nat) lF lR,
  Forall2 (ERel D) lF lR ->
  Forall2 (ERel D) (filter (fun en : centry => Nat.eqb (fst en) i) lF)
                   (filter (fun en : BR.centry => Nat.eqb (fst en) i) lR).
Proof.
  intros D i lF lR H. induction H as [|eF eR lF lR He _ IH]; [constructor|].
  cbn [filter]. destruct He as [Hk He]. rewrite <- Hk.
  destruct (Nat.eqb (fst eF) i); [constructor; [split; assumption | exact IH] | exact IH].
Qed.

Lemma Forall2_length' : forall (A B : Type) (P : A -> B -> Prop) l l',
  Forall2 P l l' -> length l = length l'.
Proof. intros A B. apply Forall2_len. Qed.

Section ResolveRel.
  Context (chance so : list (list float)) (me : bool) (D N mv : nat).
  Context (muF : nat -> float) (muR : nat -> R) (Hv : R).
  Context (Hchance : TblOK chance) (Hso : TblOK so) (HHv : 1 <= Hv).
  Local Notation srchF := (@search FNum chance so me muF).
  Local Notation srchR := (@search RNum (tblR chance) (tblR so) me muR).
  Local Notation mt := (mv + D + 2)%nat.

  Definition VRel (kid : node) : Prop :=
    Ffin (srchF kid 1%float 0%float) /\
    Rabs (vR chance so me muR kid) <= Hv /\
    Rabs (FR (srchF kid 1%float 0%float) - vR chance so me muR kid) <= (G mv - 1) * Hv.

  Definition paystepR (pays : list R) (en : BR.centry) : list R :=
    let '(_, (kids, p)) := en in
    map (fun pk => fst pk + srchR (snd pk) 1 0 * p) (combine pays kids).

  Definition rhos (mine : list BR.centry) : list R :=
    map (fun en : BR.centry => snd (snd en)) mine.

  Lemma resolve_one_RNum : forall nodes arity i,
    @resolve_one RNum (tblR chance) (tblR so) me nodes arity muR i =
    match filter (fun en : BR.centry => Nat.eqb (fst en) i) nodes with
    | [] => 0
    | _ :: _ =>
        let mine := filter (fun en : BR.centry => Nat.eqb (fst en) i) nodes in
        match @reduce_max RNum (fold_left paystepR mine (@repeatT RNum 0 arity)) with
        | Some m => if Rltb 0 (@sum RNum (rhos mine)) then m / @sum RNum (rhos mine) else 0
        | None => 0
        end
    end.
  Proof. reflexivity. Qed.

  Lemma paystep_rel : forall m S0 paysF paysR eF eR,
    (mt <= m)%nat -> 0 <= S0 ->
    Forall2 (fun y Y => accOK y Y (Hv * S0) m) paysF paysR ->
    ERel D eF eR -> Forall VRel (fst (snd eF)) ->
    G (S m) * (Hv * (S0 + snd (snd eR))) < Omax ->
    Forall2 (fun y Y => accOK y Y (Hv * (S0 + snd (snd eR))) (S m))
            (paystep chance so me muF paysF eF) (paystepR paysR eR).
  Proof.
    intros m S0 paysF paysR [iF [kidsF r]] [iR [kidsR rho]] Hm HS0 Hpays [_ [Hk Hr]] HV Hov.
    cbn [fst snd] in *. subst kidsR. unfold paystep, paystepR.
    assert (Hrho := RelR_nonneg _ _ _ Hr). destruct Hr as [Hrf [Hn [H1 H2]]].
    assert (Hr0 : 0 <= FR r) by (destruct Hrf as [_ [H _]]; exact H).
    revert kidsF HV. induction Hpays as [|y Y paysF paysR Hy _ IH]; intros kidsF HV; [constructor|].
    destruct kidsF as [|kid kidsF]; [constructor|].
    inversion HV as [|? ? [HVf [HVb HVe]] HV']; subst.
    cbn [map combine fst snd]. constructor; [|apply IH; exact HV'].
    rewrite (searchR_lin chance so me muR Hso kid 1 0).
    replace (0 + 1 * vR chance so me muR kid) with (vR chance so me muR kid) by lra.
    set (V := srchF kid 1%float 0%float) in *. set (vr := vR chance so me muR kid) in *.
    destruct (proj2 (mul_leaf r V Hrf HVf)) as [Htf Hte].
    assert (Ht : Rabs (FR (V * r)%float - vr * rho) <= (G m - 1) * (Hv * rho)).
    { rewrite Hte. apply Rle_trans with (1 := tprod_err (FR V) vr (FR r) rho Hv mv D HHv HVb HVe Hr0 Hn H1 H2).
      apply Rmult_le_compat_r; [apply Rmult_le_pos; lra|].
      assert (HG := G_mono (mv + D + 2) m Hm). lra. }
    destruct Hy as [Hyf [HYb Hye]].
    assert (Hg : 0 <= G m - 1) by (generalize (G_ge_1 m); lra).
    assert (Htau : Rabs (vr * rho) <= Hv * rho).
    { rewrite Rabs_mult, (Rabs_pos_eq rho Hrho). apply Rmult_le_compat_r; assumption. }
    assert (Hadd := add_rel (FR y) (FR (V * r)%float) (fmt_FR _) (fmt_FR _)).
    destruct (acc_step_R (FR y) Y (Hv * S0) (FR (V * r)%float) (vr * rho) (Hv * rho)
                (rnd (FR y + FR (V * r)%float)) (G m - 1) Hg HYb Htau Hye Ht Hadd)
      as [R1 [R2 R3]].
    replace ((1 + u53) * (1 + (G m - 1))) with (G (S m)) in R2, R3 by (rewrite G_S; lra).
    replace (Hv * S0 + Hv * rho) with (Hv * (S0 + rho)) in R1, R2, R3 by lra.
    assert (Hb : Rabs (rnd (FR y + FR (V * r)%float)) < bpow radix2 emax)
      by (apply Rle_lt_trans with (1 := R3); exact Hov).
    destruct (add_ok y (V * r)%float Hyf Htf Hb) as [Hf He].
    split; [exact Hf|]. rewrite He. split; assumption.
  Qed.

  Lemma rhos_nonneg : forall mineF mineR, Forall2 (ERel D) mineF mineR ->
    Forall (fun x => 0 <= x) (rhos mineR).
  Proof.
    intros mineF mineR H. induction H as [|eF eR lF lR [_ [_ Hr]] _ IH]; [constructor|].
    unfold rhos. cbn [map]. constructor; [exact (RelR_nonneg _ _ _ Hr) | exact IH].
  Qed.

  Lemma payfold_rel : forall mineF mineR, Forall2 (ERel D) mineF mineR ->
    Forall (fun en : centry => Forall VRel (fst (snd en))) mineF ->
    forall m S0 paysF paysR, (mt <= m)%nat -> 0 <= S0 ->
    Forall2 (fun y Y => accOK y Y (Hv * S0) m) paysF paysR ->
    G (m + length mineF) * (Hv * (S0 + Rsum (rhos mineR))) < Omax ->
    Forall2 (fun y Y => accOK y Y (Hv * (S0 + Rsum (rhos mineR))) (m + length mineF))
            (fold_left (paystep chance so me muF) mineF paysF)
            (fold_left paystepR mineR paysR).
  Proof.
    intros mineF mineR Hm. induction Hm as [|eF eR lF lR He Hl IH];
      intros HV m S0 paysF paysR Hmt HS0 Hpays Hov.
    - cbn [fold_left length rhos map Rsum]. rewrite Nat.add_0_r, Rplus_0_r. exact Hpays.
    - inversion HV as [|? ? HV1 HV']; subst.
      assert (Hrest := Rsum_nonneg _ (rhos_nonneg _ _ Hl)).
      assert (Hrho : 0 <= snd (snd eR)) by (destruct He as [_ [_ Hr]]; exact (RelR_nonneg _ _ _ Hr)).
      assert (ES : S0 + Rsum (rhos (eR :: lR)) = S0 + snd (snd eR) + Rsum (rhos lR)).
      { unfold rhos. cbn [map Rsum]. lra. }
      assert (EN : (m + length (eF :: lF) = S m + length lF)%nat) by (cbn [length]; lia).
      rewrite ES, EN in Hov |- *. cbn [fold_left].
      apply IH; [exact HV' | lia | lra | | exact Hov].
      apply paystep_rel; try assumption.
      apply (ov_mono (S m) (S m + length lF) _ (Hv * (S0 + snd (snd eR) + Rsum (rhos lR))));
        [lia | | exact Hov].
      split; [apply Rmult_le_pos; lra | apply Rmult_le_compat_l; lra].
  Qed.

  Lemma repeat_zero_acc : forall k m,
    Forall2 (fun y Y => accOK y Y (Hv * 0) m) (@repeatT FNum 0%float k) (@repeatT RNum 0 k).
  Proof.
    intros k m. induction k as [|k IH]; cbn [repeatT]; constructor; [|exact IH].
    split; [apply Ffin_zero|]. rewrite FR_zero, Rmult_0_r, Rabs_R0.
    split; [lra|]. replace (0 - 0) with 0 by lra. rewrite Rabs_R0. lra.
  Qed.

  Lemma reach_sums : forall mineF mineR, Forall2 (ERel D) mineF mineR ->
    Forall fin01 (reaches mineF) /\
    Rsum (rhos mineR) <= G D * RS (reaches mineF) /\
    RS (reaches mineF) <= G D * Rsum (rhos mineR).
  Proof.
    intros mineF mineR H. induction H as [|eF eR lF lR [_ [_ Hr]] _ [IH1 [IH2 IH3]]].
    - unfold reaches, rhos. cbn [map Rsum]. rewrite RS_nil. split; [constructor|]. lra.
    - destruct Hr as [Hf [_ [H1 H2]]].
      unfold reaches, rhos in *. cbn [map Rsum]. rewrite RS_cons.
      split; [constructor; assumption|]. rewrite !Rmult_plus_distr_l. lra.
  Qed.

  Theorem resolve_one_rel : forall nodesF nodesR arity i,
    Forall2 (ERel D) nodesF nodesR -> (length nodesF <= N)%nat -> (Z.of_nat N < 2 ^ 53)%Z ->
    Forall (fun en : centry => Forall VRel (fst (snd en))) nodesF ->
    G (mt + N) * (Hv * (G D * INR N)) < Omax ->
    G (mv + 2 * D + 2 * N + 4) * Hv < Omax ->
    accOK (@resolve_one FNum chance so me nodesF arity muF i)
          (@resolve_one RNum (tblR chance) (tblR so) me nodesR arity muR i)
          Hv (mv + 2 * D + 2 * N + 4).
  Proof.
    intros nodesF nodesR arity i Hnodes Hlen HN HV Hov1 Hov2.
    assert (Hzero : accOK 0%float 0 Hv (mv + 2 * D + 2 * N + 4)) by (apply accOK_zero_any; lra).
    rewrite resolve_one_FNum, resolve_one_RNum.
    assert (Hmine := Forall2_filter_key D i _ _ Hnodes).
    assert (HVm : Forall (fun en : centry => Forall VRel (fst (snd en))) (rmine nodesF i))
      by (apply Forall_filter; exact HV).
    assert (Hml : (length (rmine nodesF i) <= N)%nat)
      by (apply Nat.le_trans with (2 := Hlen), filter_length_le).
    change (filter (fun en : centry => Nat.eqb (fst en) i) nodesF) with (rmine nodesF i) in Hmine.
    set (mineF := rmine nodesF i) in *.
    set (mineR := filter (fun en : BR.centry => Nat.eqb (fst en) i) nodesR) in *.
    destruct Hmine as [|eF eR lF lR He Hl]; [exact Hzero|].
    assert (Hmine : Forall2 (ERel D) (eF :: lF) (eR :: lR)) by (constructor; assumption).
    set (mF := eF :: lF) in *. set (mR := eR :: lR) in *. cbv zeta.
    set (n := length mF) in *.
    (* the total reach in both models: within [G (D + n)] of each other *)
    destruct (reach_sums mF mR Hmine) as [Hre [HS1 HS2]].
    assert (Hlr : length (reaches mF) = n) by apply map_length.
    destruct (RS_le_G_sum (reaches mF) Hre ltac:(rewrite Hlr; lia)) as [HTf [HT0 [HTS HTle]]].
    rewrite Hlr in HTS, HTle.
    set (TF := FR (@sum FNum (reaches mF))) in *.
    rewrite sum_Rsum. set (TR := Rsum (rhos mR)) in *.
    assert (HTR0 : 0 <= TR) by (apply Rsum_nonneg, (rhos_nonneg mF), Hmine).
    assert (HGD := G_ge_1 D). assert (HGn := G_ge_1 n).
    assert (HRS0 := RS_nonneg _ Hre).
    assert (HRSn : RS (reaches mF) <= INR N).
    { apply Rle_trans with (1 := RS_le_len _ Hre). rewrite Hlr. apply le_INR. exact Hml. }
    assert (Hs1 : TR <= G (D + n) * TF).
    { rewrite G_add, Rmult_assoc. apply Rle_trans with (1 := HS1). apply Rmult_le_compat_l; lra. }
    assert (Hs2 : TF <= G (D + n) * TR).
    { rewrite G_add, (Rmult_comm (G D)), Rmult_assoc. apply Rle_trans with (1 := HTle).
      apply Rmult_le_compat_l; lra. }
    assert (Hovf : G (mt + n) * (Hv * (0 + TR)) < Omax).
    { apply ov_mono with (3 := Hov1); [lia|]. rewrite Rplus_0_l.
      split; [apply Rmult_le_pos; lra|]. apply Rmult_le_compat_l; [lra|].
      apply Rle_trans with (1 := HS1). apply Rmult_le_compat_l; lra. }
    assert (Hpay := payfold_rel mF mR Hmine HVm mt 0 _ _ (Nat.le_refl _) (Rle_refl 0)
                      (repeat_zero_acc arity mt) Hovf).
    fold n in Hpay. rewrite Rplus_0_l in Hpay. fold TR in Hpay.
    change (fold_left (paystep chance so me muF) mF (@repeatT FNum 0%float arity))
      with (payoffs chance so me muF mF arity) in Hpay.
    destruct Hpay as [|x X rest Rest Hx Hrest]; [exact Hzero|].
    cbn [reduce_max]. change (fmax FNum) with f_max. change (fmax RNum) with Rmax.
    destruct (fold_fmax_acc _ _ _ _ Hrest x X Hx) as [Hmf [HmR Hme]].
    set (m := fold_left f_max rest x) in *. set (mRv := fold_left Rmax Rest X) in *.
    (* the guards agree; then the division *)
    change (rtotal mF) with (@sum FNum (reaches mF)).
    change (ltb FNum (zero FNum) (@sum FNum (reaches mF)))
      with (PrimFloat.ltb 0 (@sum FNum (reaches mF))).
    rewrite (ltb0_Rltb _ HTf). fold TF.
    destruct (Rltb 0 TF) eqn:EF; destruct (Rltb 0 TR) eqn:ER.
    - apply Rltb_true in EF. apply Rltb_true in ER.
      destruct (div_err_rel (FR m) mRv TF TR Hv (mt + n) (D + n) HHv EF ER Hs1 Hs2 HmR Hme)
        as [Q1 [Q2 Q3]].
      assert (Ek : (mt + n + (D + n) + 2 <= mv + 2 * D + 2 * N + 4)%nat) by lia.
      assert (Hb : Rabs (rnd (FR m / TF)) < bpow radix2 emax).
      { apply Rle_lt_trans with (1 := Q3). apply ov_mono with (3 := Hov2); [exact Ek | lra]. }
      change (div FNum m (@sum FNum (reaches mF))) with (m / @sum FNum (reaches mF))%float.
      destruct (div_ok m (@sum FNum (reaches mF)) Hmf ltac:(fold TF; lra) Hb) as [Hf Hdv].
      fold TF in Hdv.
      assert (Hacc : accOK (m / @sum FNum (reaches mF))%float (mRv / TR) Hv (mt + n + (D + n) + 2))
        by (split; [exact Hf | rewrite Hdv; split; assumption]).
      apply (accOK_weaken _ _ _ _ _ _ _ Hacc); [reflexivity | lra | exact Ek].
    - exfalso. apply Rltb_true in EF. apply Rltb_false in ER.
      replace TR with 0 in Hs2 by lra. lra.
    - exfalso. apply Rltb_false in EF. apply Rltb_true in ER.
      replace TF with 0 in Hs1 by lra. lra.
    - exact Hzero.
  Qed.
End ResolveRel.

(** ** [resolve_from] and [br_value] against the real model *)

Lemma Forall2_imp : forall (A B : Type) (P Q : A -> B -> Prop),
  (forall a b, P a b -> Q a b) -> forall l l', Forall2 P l l' -> Forall2 Q l l'.
Proof. intros A B P Q H l l' H2. induction H2; constructor; auto. Qed.

Section BRRel.
  Context (chance so : list (list float)) (me : bool) (B : R) (c D N : nat).
  Context (Hchance : TblOK chance) (Hso : TblOK so).
  Context (Rchance : RowSum c chance) (Rso : RowSum c so).
  Context (HB : 1 <= B) (HN : (Z.of_nat N < 2 ^ 53)%Z).

  (** per infoset level: [Ke] more roundings ([D + N + 2] in [VRel_from_mu], then
      [2 * D + 2 * N + 4] in [resolve_one_rel]), the values grow by at most [G (c * D)] *)
  Definition Ke : nat := (3 * D + 3 * N + 6)%nat.
  Definition Hs (k : nat) : R := G (k * (c * D)) * B.
  Definition ms (k : nat) : nat := (k * Ke)%nat.

  Lemma Hs_S : forall k, Hs (S k) = G (c * D) * Hs k.
  Proof. intros k. unfold Hs. change (S k * (c * D))%nat with (c * D + k * (c * D))%nat.
         rewrite G_add. lra. Qed.

  Lemma Hs_ge : forall k, B <= Hs k.
  Proof.
    intros k. apply G_le_mul. lra.
  Qed.

  Lemma Hs_mono : forall k k', (k <= k')%nat -> Hs k <= Hs k'.
  Proof.
    intros k k' H. unfold Hs. apply Rmult_le_compat_r; [lra|]. apply G_mono.
    apply Nat.mul_le_mono_r. exact H.
  Qed.

  Definition Cap (k : nat) : R := G (ms k) * (Hs k * INR (S N)).

  Lemma Cap_mono : forall k k', (k <= k')%nat -> Cap k <= Cap k'.
  Proof.
    intros k k' H. unfold Cap. assert (H1 := Hs_mono k k' H). assert (H2 := Hs_ge k).
    assert (H3 : G (ms k) <= G (ms k')) by (apply G_mono; unfold ms; apply Nat.mul_le_mono_r; exact H).
    assert (H4 := G_ge_1 (ms k)). assert (H5 := pos_INR (S N)).
    apply Rmult_le_compat; try lra.
    - apply Rmult_le_pos; lra.
    - apply Rmult_le_compat_r; lra.
  Qed.

  Lemma VRel_from_mu : forall (muF : nat -> float) (muR : nat -> R) (k : nat),
    (forall j, accOK (muF j) (muR j) (Hs k) (ms k)) ->
    Cap (S k) < Omax ->
    forall kid, Shape B D N kid ->
    VRel chance so me (ms k + D + N + 2) muF muR (Hs (S k)) kid.
  Proof.
    intros muF muR k Hmu Hcap kid [Hp [Hd Hn]].
    set (H := Hs k) in *. set (m := ms k) in *.
    assert (HBH : B <= H) by apply Hs_ge. assert (HH : 1 <= H) by lra.
    assert (HGm := G_ge_1 m). assert (HGcd := G_ge_1 (c * D)).
    set (Hf := G m * H).
    assert (HHf : H <= Hf) by (apply G_le_mul; lra).
    assert (HmuF : forall i, Ffin (muF i) /\ Rabs (FR (muF i)) <= Hf).
    { intros i. split; [exact (proj1 (Hmu i)) | exact (accOK_bound _ _ _ _ (Hmu i))]. }
    assert (HSN : 1 <= INR (S N)) by (rewrite S_INR; generalize (pos_INR N); lra).
    set (X := G (c * D) * H). assert (HX : 0 <= X) by (apply Rmult_le_pos; lra).
    assert (EX : G (c * D + 1) * Hf = G (m + 1) * X) by (unfold Hf, X; rewrite !G_add; lra).
    assert (Hov : G (D + 1 + N) * (G (c * D + 1) * Hf) < Omax).
    { apply Rle_lt_trans with (2 := Hcap). unfold Cap. rewrite Hs_S. fold H X.
      rewrite EX, <- Rmult_assoc, <- G_add.
      apply Gx_mono; [unfold m, ms, Ke; lia | split; [exact HX | apply le_mul_SN; exact HX]]. }
    destruct (search_root_acc chance so muF Hf c Hchance Hso ltac:(lra) Rchance Rso HmuF me D N kid
                (PayOK_mono B Hf kid ltac:(lra) Hp)
                (Nat.le_trans _ _ _ (sdep_le_depth me kid) Hd)
                (Nat.le_trans _ _ _ (snl_le_tsz me kid) Hn) (N_om1022 N HN) Hov) as [HVf [_ HVe]].
    rewrite sV_vR, EX in HVe.
    assert (Hsd : G (c * sdep me kid) <= G (c * D)).
    { apply G_mono, Nat.mul_le_mono_l, Nat.le_trans with (1 := sdep_le_depth me kid), Hd. }
    split; [exact HVf|]. rewrite Hs_S. fold H X. split.
    - apply Rle_trans with (G (c * sdep me kid) * H); [|apply Rmult_le_compat_r; lra].
      apply (vR_bound chance so me c Hchance Hso Rchance Rso muR H); [lra | | exact (PayOK_mono B H kid HBH Hp)].
      intros i. apply (Hmu i).
    - (* the error of the search, plus the error of the infoset values through the exact search *)
      set (dl := (G m - 1) * H).
      assert (Hdl : 0 <= dl) by (apply Rmult_le_pos; lra).
      assert (Hl := vR_lip chance so me c Hchance Hso Rchance Rso (fun i => FR (muF i)) muR dl Hdl
                      (fun i => proj2 (proj2 (Hmu i))) kid).
      apply Rle_trans with (1 := R_dist_tri _ _ (vR chance so me (fun i => FR (muF i)) kid)).
      apply Rle_trans with ((G (D + 1 + N) - 1) * (G (m + 1) * X) + (G (m + 1) - 1) * X).
      + apply Rplus_le_compat; [exact HVe|]. apply Rle_trans with (1 := Hl).
        apply Rle_trans with (G (c * D) * dl); [apply Rmult_le_compat_r; assumption|].
        replace (G (c * D) * dl) with ((G m - 1) * X) by (unfold dl, X; lra).
        apply Gm1_mono; [lia | lra].
      + right. replace (m + D + N + 2)%nat with (D + 1 + N + (m + 1))%nat by lia.
        rewrite (G_add (D + 1 + N)). lra.
  Qed.

  Theorem resolve_from_rel : forall nodesF nodesR ars nmax,
    Forall2 (ERel D) nodesF nodesR -> (length nodesF <= N)%nat ->
    Forall (CEnt B D N) nodesF ->
    Cap (S nmax) < Omax ->
    forall k i, (k <= nmax)%nat ->
    Forall2 (fun y Y => accOK y Y (Hs k) (ms k))
            (@resolve_from FNum chance so me nodesF ars i k)
            (@resolve_from RNum (tblR chance) (tblR so) me nodesR ars i k).
  Proof.
    intros nodesF nodesR ars nmax Hnodes Hlen Hents Hcap.
    induction k as [|k IH]; intros i Hk; [constructor|].
    cbn [resolve_from].
    assert (Hrest := IH (S i) ltac:(lia)).
    set (restF := @resolve_from FNum chance so me nodesF ars (S i) k) in *.
    set (restR := @resolve_from RNum (tblR chance) (tblR so) me nodesR ars (S i) k) in *.
    set (muF := fun j : nat => nth (j - S i) restF _).
    set (muR := fun j : nat => nth (j - S i) restR _).
    assert (HBk := Hs_ge k). assert (HBS := Hs_ge (S k)). assert (HGcd := G_ge_1 (c * D)).
    assert (Hmu : forall j, accOK (muF j) (muR j) (Hs k) (ms k)).
    { intros j. apply (Forall2_nth _ _ (fun y Y => accOK y Y (Hs k) (ms k))); [exact Hrest|].
      apply accOK_zero_any. lra. }
    assert (Hcapk : Cap (S k) < Omax).
    { apply Rle_lt_trans with (2 := Hcap). apply Cap_mono. lia. }
    assert (HV : Forall (fun en : centry =>
                   Forall (VRel chance so me (ms k + D + N + 2) muF muR (Hs (S k))) (fst (snd en)))
                   nodesF).
    { apply Forall_impl with (2 := Hents). intros en [_ Hkids].
      apply Forall_impl with (2 := Hkids). apply VRel_from_mu; assumption. }
    assert (EK : (ms (S k) = ms k + Ke)%nat) by (unfold ms; cbn [Nat.mul]; lia).
    assert (HN0 := pos_INR N). assert (HSN := S_INR N).
    (* the two side conditions of [resolve_one_rel] are below the cap of this level *)
    assert (Hov1 : G (ms k + D + N + 2 + D + 2 + N) * (Hs (S k) * (G D * INR N)) < Omax).
    { replace (G (ms k + D + N + 2 + D + 2 + N) * (Hs (S k) * (G D * INR N)))
        with (G (ms k + D + N + 2 + D + 2 + N + D) * (Hs (S k) * INR N)) by (rewrite (G_add _ D); lra).
      apply ov_mono with (3 := Hcapk); [rewrite EK; unfold Ke; lia|].
      split; [apply Rmult_le_pos; lra | apply Rmult_le_compat_l; lra]. }
    assert (Hov2 : G (ms k + D + N + 2 + 2 * D + 2 * N + 4) * Hs (S k) < Omax).
    { apply ov_mono with (3 := Hcapk); [rewrite EK; unfold Ke; lia|].
      split; [lra | apply le_mul_SN; lra]. }
    assert (Hone := resolve_one_rel chance so me D N (ms k + D + N + 2) muF muR (Hs (S k)) Hso
                      ltac:(lra) nodesF nodesR (nth i ars O) i Hnodes Hlen HN HV Hov1 Hov2).
    constructor.
    - apply (accOK_weaken _ _ _ _ _ _ _ Hone); [reflexivity | lra | rewrite EK; unfold Ke; lia].
    - apply (Forall2_imp _ _ (fun y Y => accOK y Y (Hs k) (ms k))); [|exact Hrest].
      intros y Y Hy. apply (accOK_weaken _ _ _ _ _ _ _ Hy);
        [reflexivity | apply Hs_mono, Nat.le_succ_diag_r | rewrite EK; lia].
  Qed.
End BRRel.

(** ** Forward error of [br_value] *)

Lemma br_value_RNum_image : forall (g : game) (me : bool) (so : list (list float)),
  @br_value RNum (gameR g) me (tblR so) =
  @search RNum (tblR (g_chance g)) (tblR so) me
    (fun j => nth j (@resolve_from RNum (tblR (g_chance g)) (tblR so) me
                       (@collect RNum (tblR (g_chance g)) (tblR so) me (nodeR (g_root g)) 1 [])
                       (arities g me) O (length (arities g me))) 0)
    (nodeR (g_root g)) 1 0.
Proof. intros g me so. destruct me; reflexivity. Qed.

(** roundings per infoset level, total number of roundings, and the mass against which the
    error is relative: [B] times the largest possible growth [(1+2^-53)^(c*D)] per level of
    rows that sum to slightly more than one *)
Definition br_Ke (g : game) : nat := Ke (br_D g) (br_N g).
Definition br_err_ops (g : game) (me : bool) : nat :=
  (br_n g me * br_Ke g + br_D g + br_N g + 2)%nat.
Definition br_mass (g : game) (me : bool) (B : R) (c : nat) : R :=
  G (S (br_n g me) * (c * br_D g)) * B.

Theorem br_value_float_error :
  forall (g : game) (me : bool) (so : list (list float)) (B : R) (c : nat),
  TblOK (g_chance g) -> TblOK so -> RowSum c (g_chance g) -> RowSum c so ->
  1 <= B -> PayOK B (g_root g) ->
  CollOK (g_chance g) so me (g_root g) 1%float ->
  (Z.of_nat (br_N g) < 2 ^ 53)%Z ->
  G (S (br_n g me) * br_Ke g) * (br_mass g me B c * INR (S (br_N g))) < Omax ->
  Ffin (@br_value FNum g me so) /\
  Rabs (FR (@br_value FNum g me so) - @br_value RNum (gameR g) me (tblR so))
    <= (G (br_err_ops g me) - 1) * br_mass g me B c /\
  Rabs (@br_value RNum (gameR g) me (tblR so)) <= br_mass g me B c.
Proof.
  intros g me so B c Hc Hso Rc Rso HB Hpay Hcoll HN Hcap.
  destruct (br_nodes_CInv g me so B Hc Hso Hpay) as [Hroot [Hents Hlen]].
  set (D := br_D g) in *. set (N := br_N g) in *. set (n := br_n g me) in *.
  change (G (S n * br_Ke g) * (br_mass g me B c * INR (S N))) with (Cap B c D N (S n)) in Hcap.
  rewrite br_value_FNum, br_value_RNum_image.
  fold (br_nodes g me so). set (nodesF := br_nodes g me so) in *.
  set (nodesR := @collect RNum (tblR (g_chance g)) (tblR so) me (nodeR (g_root g)) 1 []).
  assert (Hrel : Forall2 (ERel D) nodesF nodesR).
  { apply (collect_rel (g_chance g) so me D Hc Hso (g_root g) 1%float 1 0%nat [] []);
      [exact Hcoll | exact RelR_one | apply Nat.le_refl | constructor]. }
  assert (Htbl := resolve_from_rel (g_chance g) so me B c D N Hc Hso Rc Rso HB HN
                    nodesF nodesR (arities g me) n Hrel Hlen Hents Hcap n O (Nat.le_refl n)).
  fold (br_n g me) in Htbl |- *. fold n in Htbl |- *.
  set (tblF := @resolve_from FNum (g_chance g) so me nodesF (arities g me) 0 n) in *.
  set (tblRr := @resolve_from RNum (tblR (g_chance g)) (tblR so) me nodesR (arities g me) 0 n) in *.
  assert (HBn := Hs_ge B c D HB n).
  assert (Hmu : forall j, accOK (nth j tblF 0%float) (nth j tblRr 0) (Hs B c D n) (ms D N n)).
  { intros j. apply (Forall2_nth _ _ (fun y Y => accOK y Y (Hs B c D n) (ms D N n))); [exact Htbl|].
    apply accOK_zero_any. lra. }
  destruct (VRel_from_mu (g_chance g) so me B c D N Hc Hso Rc Rso HB HN _ _ n Hmu Hcap
              (g_root g) Hroot) as [Hf [Hb He]].
  rewrite (searchR_lin (g_chance g) so me _ Hso (g_root g) 1 0).
  replace (0 + 1 * vR (g_chance g) so me (fun j : nat => nth j tblRr 0) (g_root g))
    with (vR (g_chance g) so me (fun j : nat => nth j tblRr 0) (g_root g)) by lra.
  split; [exact Hf|]. split; [|exact Hb].
  exact He.
Qed.

Theorem br_value_float_error_simple :
  forall (g : game) (me : bool) (so : list (list float)) (B : R) (c : nat),
  TblOK (g_chance g) -> TblOK so -> RowSum c (g_chance g) -> RowSum c so ->
  1 <= B -> PayOK B (g_root g) ->
  CollOK (g_chance g) so me (g_root g) 1%float ->
  (Z.of_nat (br_N g) < 2 ^ 53)%Z ->
  INR (S (br_n g me) * br_Ke g) * bpow radix2 (-53) <= / 2 ->
  INR (S (br_n g me) * (c * br_D g)) * bpow radix2 (-53) <= / 2 ->
  B * INR (S (br_N g)) <= bpow radix2 1000 ->
  Ffin (@br_value FNum g me so) /\
  Rabs (FR (@br_value FNum g me so) - @br_value RNum (gameR g) me (tblR so))
    <= ((1 + bpow radix2 (-53)) ^ br_err_ops g me - 1) * br_mass g me B c /\
  Rabs (FR (@br_value FNum g me so) - @br_value RNum (gameR g) me (tblR so))
    <= INR (br_err_ops g me) * bpow radix2 (-52) * (2 * B) /\
  Rabs (@br_value RNum (gameR g) me (tblR so)) <= 2 * B.
Proof.
  intros g me so B c Hc Hso Rc Rso HB Hpay Hcoll HN Hk1 Hk2 Hsz.
  assert (HG1 := G_le_2 _ Hk1). assert (HG2 := G_le_2 _ Hk2).
  assert (HN0 := pos_INR (S (br_N g))).
  assert (Hmass : br_mass g me B c <= 2 * B).
  { unfold br_mass. apply Rmult_le_compat_r; lra. }
  assert (Hmass0 : 0 <= br_mass g me B c).
  { unfold br_mass. apply Rmult_le_pos; [left; apply G_pos | lra]. }
  assert (Hcap : G (S (br_n g me) * br_Ke g) * (br_mass g me B c * INR (S (br_N g))) < Omax).
  { apply Rle_lt_trans with (2 * (2 * bpow radix2 1000)).
    - assert (HGp := G_ge_1 (S (br_n g me) * br_Ke g)).
      apply Rmult_le_compat; try lra; [apply Rmult_le_pos; lra|].
      apply Rle_trans with (2 * B * INR (S (br_N g))); [apply Rmult_le_compat_r; lra | lra].
    - unfold Omax. change 2 with (bpow radix2 1). rewrite <- !bpow_plus. apply bpow_lt. reflexivity. }
  destruct (br_value_float_error g me so B c Hc Hso Rc Rso HB Hpay Hcoll HN Hcap) as [Hf [He Hb]].
  split; [exact Hf|]. split; [exact He|]. split; [|lra].
  apply Rle_trans with (1 := He).
  assert (Hops : (br_err_ops g me <= S (br_n g me) * br_Ke g)%nat).
  { unfold br_err_ops, br_Ke, Ke. cbn [Nat.mul]. lia. }
  assert (Hk3 : INR (br_err_ops g me) * u53 <= / 2).
  { apply Rle_trans with (2 := Hk1). apply Rmult_le_compat_r; [apply bpow_ge_0 | apply le_INR; exact Hops]. }
  destruct (G_small _ Hk3) as [_ HGk].
  assert (HGe := G_ge_1 (br_err_ops g me)).
  apply Rle_trans with ((G (br_err_ops g me) - 1) * (2 * B)).
  - apply Rmult_le_compat_l; lra.
  - apply Rmult_le_compat_r; [lra|]. apply Rle_trans with (1 := HGk).
    replace (bpow radix2 (-52)) with (2 * u53); [lra|].
    unfold u53. change 2 with (bpow radix2 1). rewrite <- bpow_plus. reflexivity.
Qed.

(** ** The reported regrets against the real model *)

Lemma tblR_split_by : forall (ars : list nat) (l : list float),
  tblR (split_by l ars) = split_by (map FR l) ars.
Proof.
  induction ars as [|n ars IH]; intros l; [reflexivity|].
  cbn [split_by]. unfold tblR in *. cbn [map]. rewrite IH, firstn_map, skipn_map. reflexivity.
Qed.

(** the real-number model run on the real values of the same binary64 data *)
Definition infoR (g : game) (prof : list float * list float) : @sinfo RNum :=
  @info RNum (gameR g) (map FR (fst prof), map FR (snd prof)).

Lemma infoR_unfold : forall (g : game) (prof : list float * list float),
  let s1 := split_by (fst prof) (arities g true) in
  let s2 := split_by (snd prof) (arities g false) in
  let eR := @expected RNum (gameR g) (tblR s1) (tblR s2) in
  let b1R := @br_value RNum (gameR g) true (tblR s2) in
  let b2R := @br_value RNum (gameR g) false (tblR s1) in
  infoR g prof = @mkSinfo RNum eR (Rmax (b1R - eR) 0) (Rmax (b2R + eR) 0).
Proof.
  intros g prof s1 s2 eR b1R b2R. unfold infoR, info. cbn [fst snd].
  change (arities (gameR g) true) with (arities g true).
  change (arities (gameR g) false) with (arities g false).
  rewrite <- !tblR_split_by. reflexivity.
Qed.

(** one combination [b + e] followed by [max(., 0)]; [b - e] is the case of [- e] *)
Lemma reg_err : forall (x : float) (b e bR eR Eb Ee Bb Be : R),
  Ffin x -> fmt b -> fmt e -> FR x = rnd (b + e) ->
  Rabs (b - bR) <= Eb -> Rabs (e - eR) <= Ee -> Rabs bR <= Bb -> Rabs eR <= Be ->
  Rabs (FR (f_max x 0) - Rmax (bR + eR) 0) <= (Eb + Ee) + u53 * (Bb + Be + (Eb + Ee)).
Proof.
  intros x b e bR eR Eb Ee Bb Be Hx Hb He Hxe Hdb Hde HbR HeR.
  rewrite (FR_fmax x 0%float Hx Ffin_zero), FR_zero, Hxe.
  assert (Hu := u53_pos). assert (Hr := add_rel b e Hb He).
  assert (Hd : Rabs ((b + e) - (bR + eR)) <= Eb + Ee).
  { replace ((b + e) - (bR + eR)) with ((b - bR) + (e - eR)) by lra.
    apply Rle_trans with (1 := Rabs_triang _ _). lra. }
  assert (Hy : Rabs (b + e) <= Bb + Be + (Eb + Ee)).
  { replace (b + e) with ((bR + eR) + ((b + e) - (bR + eR))) by lra.
    apply Rle_trans with (1 := Rabs_triang _ _). generalize (Rabs_triang bR eR). lra. }
  assert (Hd0 := Rabs_pos ((b + e) - (bR + eR))).
  assert (Hy0 : 0 <= u53 * Rabs (b + e)) by (apply Rmult_le_pos; [lra | apply Rabs_pos]).
  assert (Hy1 : u53 * Rabs (b + e) <= u53 * (Bb + Be + (Eb + Ee)))
    by (apply Rmult_le_compat_l; lra).
  apply Rmax_lip.
  - replace (rnd (b + e) - (bR + eR)) with ((rnd (b + e) - (b + e)) + ((b + e) - (bR + eR))) by lra.
    apply Rle_trans with (1 := Rabs_triang _ _). lra.
  - rewrite Rminus_diag_eq, Rabs_R0 by reflexivity. lra.
Qed.

(** one bound on the number of roundings per infoset level that covers all the analyses *)
Definition br_Kall (g : game) (c : nat) : nat :=
  (3 * br_D g + 3 * br_N g + c * br_D g + 6)%nat.

Lemma Kall_ge : forall g c,
  (br_Ks g c <= br_Kall g c)%nat /\ (br_Ke g <= br_Kall g c)%nat /\
  (c * br_D g <= br_Kall g c)%nat.
Proof. intros g c. unfold br_Ks, Ks, Kv, br_Ke, Ke, br_Kall. lia. Qed.

Theorem info_float_error :
  forall (g : game) (prof : list float * list float) (B : R) (c : nat),
  let s1 := split_by (fst prof) (arities g true) in
  let s2 := split_by (snd prof) (arities g false) in
  TblOK (g_chance g) -> Forall fin01 (fst prof) -> Forall fin01 (snd prof) ->
  RowSum c (g_chance g) -> RowSum c s1 -> RowSum c s2 ->
  1 <= B -> PayOK B (g_root g) ->
  CollOK (g_chance g) s2 true (g_root g) 1%float ->
  CollOK (g_chance g) s1 false (g_root g) 1%float ->
  (Z.of_nat (br_N g) < 2 ^ 53)%Z ->
  (forall me, INR (S (br_n g me) * br_Kall g c) * bpow radix2 (-53) <= / 2) ->
  (forall me, (B + INR (S (br_n g me)) * / 2) * INR (S (br_N g)) <= bpow radix2 1000) ->
  let I := @info FNum g prof in
  let IR := infoR g prof in
  let Eu := INR (k_ops g) * bpow radix2 (-52) * mass g s1 s2 B in
  let Eb1 := INR (br_err_ops g true) * bpow radix2 (-52) * (2 * B) in
  let Eb2 := INR (br_err_ops g false) * bpow radix2 (-52) * (2 * B) in
  let Yb := 2 * B + mass g s1 s2 B in
  let E1 := (Eb1 + Eu) + bpow radix2 (-53) * (Yb + (Eb1 + Eu)) in
  let E2 := (Eb2 + Eu) + bpow radix2 (-53) * (Yb + (Eb2 + Eu)) in
  Rabs (FR (si_util I) - si_util IR) <= Eu /\
  Rabs (FR (si_reg1 I) - si_reg1 IR) <= E1 /\
  Rabs (FR (si_reg2 I) - si_reg2 IR) <= E2 /\
  Rabs (FR (@si_regret FNum I) - @si_regret RNum IR) <= Rmax E1 E2.
Proof.
  intros g prof B c s1 s2 Hc Hp1 Hp2 Rc R1 R2 HB Hpay Hco1 Hco2 HN Hk Hz I IR Eu Eb1 Eb2 Yb E1 E2.
  destruct (Kall_ge g c) as [K1 [K2 K3]].
  assert (HKs : forall me, INR (S (br_n g me) * br_Ks g c) * bpow radix2 (-53) <= / 2).
  { intros me. apply (ops_le _ _ (Nat.mul_le_mono_l _ _ _ K1) (Hk me)). }
  assert (HKe : forall me, INR (S (br_n g me) * br_Ke g) * bpow radix2 (-53) <= / 2).
  { intros me. apply (ops_le _ _ (Nat.mul_le_mono_l _ _ _ K2) (Hk me)). }
  assert (HKc : forall me, INR (S (br_n g me) * (c * br_D g)) * bpow radix2 (-53) <= / 2).
  { intros me. apply (ops_le _ _ (Nat.mul_le_mono_l _ _ _ K3) (Hk me)). }
  assert (H1 : TblOK s1) by (apply TblOK_split_by; exact Hp1).
  assert (H2 : TblOK s2) by (apply TblOK_split_by; exact Hp2).
  set (ev := @expected FNum g s1 s2).
  set (b1 := @br_value FNum g true s2). set (b2 := @br_value FNum g false s1).
  destruct (info_parts g s1 s2 B c ev b1 b2 eq_refl eq_refl eq_refl Hc H1 H2 Rc R1 R2 HB Hpay
              HN HKs Hz) as [HBN [Hef [Hee [[Hd1f [Hd1e _]] [Hd2f [Hd2e _]]]]]].
  rewrite (U_exact_model g s1 s2 H1 H2) in Hee.
  set (eR := @expected RNum (gameR g) (tblR s1) (tblR s2)) in *.
  assert (HeRb : Rabs eR <= mass g s1 s2 B).
  { unfold eR. rewrite <- (U_exact_model g s1 s2 H1 H2).
    apply Rle_trans with (S_abs g s1 s2); [apply uR_le_aR; assumption|].
    unfold mass. assert (0 <= INR (n_leaves g) * B * bpow radix2 (-1022)).
    { apply Rmult_le_pos; [apply Rmult_le_pos; [apply pos_INR | lra] | apply bpow_ge_0]. }
    lra. }
  destruct (br_value_float_error_simple g true s2 B c Hc H2 Rc R2 HB Hpay Hco1 HN
              (HKe true) (HKc true) HBN) as [_ [_ [He1 Hb1R]]].
  destruct (br_value_float_error_simple g false s1 B c Hc H1 Rc R1 HB Hpay Hco2 HN
              (HKe false) (HKc false) HBN) as [_ [_ [He2 Hb2R]]].
  set (b1R := @br_value RNum (gameR g) true (tblR s2)) in *.
  set (b2R := @br_value RNum (gameR g) false (tblR s1)) in *.
  (* the two combinations; [b1 - ev] is [b1 + - ev] *)
  assert (Hee' : Rabs (- FR ev - - eR) <= Eu).
  { replace (- FR ev - - eR) with (- (FR ev - eR)) by lra. rewrite Rabs_Ropp. exact Hee. }
  assert (HeRb' : Rabs (- eR) <= mass g s1 s2 B) by (rewrite Rabs_Ropp; exact HeRb).
  assert (G1 := reg_err _ (FR b1) (- FR ev) b1R (- eR) Eb1 Eu (2 * B) _ Hd1f (fmt_FR _)
                  (fmt_opp _ (fmt_FR _)) Hd1e He1 Hee' Hb1R HeRb').
  assert (G2 := reg_err _ (FR b2) (FR ev) b2R eR Eb2 Eu (2 * B) _ Hd2f (fmt_FR _) (fmt_FR _)
                  Hd2e He2 Hee Hb2R HeRb).
  destruct (fmax0_ok _ Hd1f) as [Hr1f _]. destruct (fmax0_ok _ Hd2f) as [Hr2f _].
  assert (EIR : IR = @mkSinfo RNum eR (Rmax (b1R - eR) 0) (Rmax (b2R + eR) 0))
    by (apply infoR_unfold).
  change I with (@mkSinfo FNum ev (f_max (b1 - ev) 0) (f_max (b2 + ev) 0)). clear I.
  rewrite EIR. unfold si_regret. cbn [si_util si_reg1 si_reg2].
  change (fmax FNum) with f_max. change (fmax RNum) with Rmax.
  split; [exact Hee|]. split; [exact G1|]. split; [exact G2|].
  rewrite (FR_fmax _ _ Hr1f Hr2f).
  apply Rmax_lip.
  - apply Rle_trans with (1 := G1). apply Rmax_l.
  - apply Rle_trans with (1 := G2). apply Rmax_r.
Qed.

(** ** A boolean checker for [CollOK] (sufficient, with one binade of margin) *)

Definition nrmb (p r : float) : bool :=
  PrimFloat.eqb p 0 || PrimFloat.eqb r 0 || PrimFloat.leb (pow2 (-1021)) (p * r).

Lemma nrmb_spec : forall p r, fin01 p -> fin01 r -> nrmb p r = true -> Nrm (FR p * FR r).
Proof.
  intros p r Hp Hr H. unfold nrmb in H.
  apply orb_true_iff in H. destruct H as [H|H].
  - apply orb_true_iff in H. destruct H as [H|H].
    + apply (eqb_zero_fin p (proj1 Hp)) in H. left. rewrite H. lra.
    + apply (eqb_zero_fin r (proj1 Hr)) in H. left. rewrite H. lra.
  - destruct (mul_reach p r Hp Hr) as [[Hf _] He].
    destruct (pow2_IsPow2 (-1021) ltac:(lia)) as [Gf Gr].
    apply (leb_true_R _ _ Gf Hf) in H. rewrite Gr, He in H. rename H into Hle.
    right. destruct (Rle_or_lt om1022 (FR p * FR r)) as [Hc|Hc]; [exact Hc|exfalso].
    assert (Hup : rnd (FR p * FR r) <= om1022).
    { apply rnd_le_fmt; [apply fmt_bpow; lia | lra]. }
    assert (om1022 < bpow radix2 (-1021)) by (apply bpow_lt; lia). lra.
Qed.

Section CLoopB.
  Context (P : node -> float -> bool) (tst : float -> bool) (reach : float).
  Fixpoint cgob (ps : list float) (ks : list node) {struct ks} : bool :=
    match ps, ks with
    | p :: ps', k :: ks' =>
        (if tst p then nrmb p reach && P k (p * reach)%float else true) && cgob ps' ks'
    | _, _ => true
    end.
  Fixpoint cgob_me (ks : list node) : bool :=
    match ks with
    | [] => true
    | k :: r => P k reach && cgob_me r
    end.
End CLoopB.

Fixpoint collokb (chance so : list (list float)) (me : bool) (n : node) (reach : float)
  {struct n} : bool :=
  match n with
  | Term _ => true
  | Chance ci kids =>
      (fix go (ps : list float) (ks : list node) {struct ks} : bool :=
         match ps, ks with
         | p :: ps', k :: ks' =>
             (nrmb p reach && collokb chance so me k (p * reach)%float) && go ps' ks'
         | _, _ => true
         end) (@row FNum chance ci) kids
  | Player pl i kids =>
      if Bool.eqb pl me then
        (fix go (ks : list node) : bool :=
           match ks with
           | [] => true
           | k :: r => collokb chance so me k reach && go r
           end) kids
      else
        (fix go (ps : list float) (ks : list node) {struct ks} : bool :=
           match ps, ks with
           | p :: ps', k :: ks' =>
               (if PrimFloat.ltb 0 p
                then nrmb p reach && collokb chance so me k (p * reach)%float
                else true) && go ps' ks'
           | _, _ => true
           end) (@row FNum so i) kids
  end.

Lemma collokb_Chance : forall chance so me ci kids r,
  collokb chance so me (Chance ci kids) r =
  cgob (collokb chance so me) (fun _ => true) r (@row FNum chance ci) kids.
Proof. reflexivity. Qed.

Lemma collokb_Player : forall chance so me pl i kids r,
  collokb chance so me (Player pl i kids) r =
  if Bool.eqb pl me then cgob_me (collokb chance so me) r kids
  else cgob (collokb chance so me) (fun p => PrimFloat.ltb 0 p) r (@row FNum so i) kids.
Proof. reflexivity. Qed.

Section CollOKb.
  Context (chance so : list (list float)) (me : bool).
  Context (Hchance : TblOK chance) (Hso : TblOK so).

  Definition CBSp (k : node) : Prop :=
    forall r, fin01 r -> collokb chance so me k r = true -> CollOK chance so me k r.

  Lemma cgob_spec : forall (tst : float -> bool) ks, Forall CBSp ks ->
    forall ps r, Forall fin01 ps -> fin01 r ->
    cgob (collokb chance so me) tst r ps ks = true ->
    cgo (CollOK chance so me) tst r ps ks.
  Proof.
    intros tst ks Hks. induction Hks as [|k ks Hk _ IH]; intros ps r Hps Hr H.
    - destruct ps; exact I.
    - destruct ps as [|p ps]; [exact I|].
      inversion Hps as [|? ? Hp Hps']; subst.
      cbn [cgob] in H. apply andb_true_iff in H. destruct H as [H1 H2].
      cbn [cgo]. split; [|apply IH; assumption].
      destruct (tst p); [|exact I].
      apply andb_true_iff in H1. destruct H1 as [H1 H3].
      split; [apply nrmb_spec; assumption|].
      apply Hk; [exact (proj1 (mul_reach p r Hp Hr)) | exact H3].
  Qed.

  Lemma cgob_me_spec : forall ks, Forall CBSp ks ->
    forall r, fin01 r -> cgob_me (collokb chance so me) r ks = true ->
    cgo_me (CollOK chance so me) r ks.
  Proof.
    intros ks Hks. induction Hks as [|k ks Hk _ IH]; intros r Hr H; [exact I|].
    cbn [cgob_me] in H. apply andb_true_iff in H. destruct H as [H1 H2].
    cbn [cgo_me]. split; [apply Hk; assumption | apply IH; assumption].
  Qed.

  Theorem collokb_spec : forall n, CBSp n.
  Proof.
    induction n as [x|ci kids IH|pl i kids IH] using node_ind'; intros r Hr H.
    - exact I.
    - rewrite collokb_Chance in H. rewrite CollOK_Chance.
      apply cgob_spec; try assumption. apply row_fin01; exact Hchance.
    - rewrite collokb_Player in H. rewrite CollOK_Player.
      destruct (Bool.eqb pl me).
      + apply cgob_me_spec; assumption.
      + apply cgob_spec; try assumption. apply row_fin01; exact Hso.
  Qed.
End CollOKb.

(** ** Example: the game [bx_g] of [ScaleFloatBR] (one infoset per player, a chance move) *)

Definition bx_s1 : list (list float) := split_by (fst bx_prof) (arities bx_g true).
Definition bx_s2 : list (list float) := split_by (snd bx_prof) (arities bx_g false).

Example bx_shape :
  br_D bx_g = 3%nat /\ br_N bx_g = 8%nat /\ br_n bx_g true = 1%nat /\
  br_Ks bx_g 2 = 38%nat /\ br_ops bx_g true 2 = 57%nat /\ br_ops bx_g false 2 = 57%nat.
Proof. repeat split; reflexivity. Qed.

(** what is computed: the best responses are 1.2375 and 0.1875 up to rounding *)
Example bx_br_values :
  @br_value FNum bx_g true bx_s2 = 0x1.3ccccccccccccp+0%float /\
  @br_value FNum bx_g false bx_s1 = 0x1.7fffffffffffcp-3%float.
Proof. split; vm_compute; reflexivity. Qed.

Lemma bx_hyps :
  TblOK (g_chance bx_g) /\ TblOK bx_s1 /\ TblOK bx_s2 /\
  RowSum 2 (g_chance bx_g) /\ RowSum 2 bx_s1 /\ RowSum 2 bx_s2 /\
  PayOK 3 (g_root bx_g) /\ NoUF bx_g true bx_s2 /\ NoUF bx_g false bx_s1.
Proof.
  destruct FR_three as [H3f H3].
  repeat split.
  - apply tblokb_spec; vm_compute; reflexivity.
  - apply tblokb_spec; vm_compute; reflexivity.
  - apply tblokb_spec; vm_compute; reflexivity.
  - apply rowsumb_spec; [lia | vm_compute; reflexivity].
  - apply rowsumb_spec; [lia | vm_compute; reflexivity].
  - apply rowsumb_spec; [lia | vm_compute; reflexivity].
  - rewrite <- H3. apply payokb_spec; [exact H3f | vm_compute; reflexivity].
  - apply noufb_spec; vm_compute; reflexivity.
  - apply noufb_spec; vm_compute; reflexivity.
Qed.

Example bx_err_shape :
  br_Kall bx_g 2 = 45%nat /\ br_err_ops bx_g true = 52%nat /\ br_err_ops bx_g false = 52%nat /\
  k_ops bx_g = 9%nat.
Proof. repeat split; reflexivity. Qed.

Lemma bx_sizes :
  Forall fin01 (fst bx_prof) /\ Forall fin01 (snd bx_prof) /\
  (Z.of_nat (br_N bx_g) < 2 ^ 53)%Z /\
  (forall me, INR (S (br_n bx_g me) * br_Kall bx_g 2) * bpow radix2 (-53) <= / 2) /\
  (forall me, (3 + INR (S (br_n bx_g me)) * / 2) * INR (S (br_N bx_g)) <= bpow radix2 1000).
Proof.
  split; [apply forallb_fin01b; vm_compute; reflexivity|].
  split; [apply forallb_fin01b; vm_compute; reflexivity|].
  split; [vm_compute; reflexivity|]. split; intros me.
  - apply small_ops. destruct me; vm_compute; discriminate.
  - apply le_1024_bpow1000. change (br_N bx_g) with 8%nat.
    replace (br_n bx_g me) with 1%nat by (destruct me; reflexivity). cbn [INR]. lra.
Qed.

Lemma bx_sizes_Ks : forall me,
  INR (S (br_n bx_g me) * br_Ks bx_g 2) * bpow radix2 (-53) <= / 2.
Proof.
  intros me. destruct bx_sizes as [_ [_ [_ [Hk _]]]].
  apply (ops_le _ _ (Nat.mul_le_mono_l _ _ _ (proj1 (Kall_ge bx_g 2))) (Hk me)).
Qed.

(** the hypotheses of [br_value_float_bounded] hold with [B = 3], [c = 2]: both best-response
    values are finite and of magnitude at most [(1 + 2^-53)^57 * 3] *)
Example bx_br_bounded :
  Ffin (@br_value FNum bx_g true bx_s2) /\
  Rabs (FR (@br_value FNum bx_g true bx_s2)) <= (1 + bpow radix2 (-53)) ^ 57 * 3 /\
  Ffin (@br_value FNum bx_g false bx_s1) /\
  Rabs (FR (@br_value FNum bx_g false bx_s1)) <= (1 + bpow radix2 (-53)) ^ 57 * 3.
Proof.
  destruct bx_hyps as [Hc [H1 [H2 [Rc [R1 [R2 [Hpay [N1 N2]]]]]]]].
  destruct bx_sizes as [_ [_ [HN _]]].
  assert (Hsz : 3 * INR (S (br_N bx_g)) <= bpow radix2 1000).
  { apply le_1024_bpow1000. change (br_N bx_g) with 8%nat. cbn [INR]. lra. }
  destruct (br_value_float_bounded bx_g true bx_s2 3 2 Hc H2 Rc R2 ltac:(lra) Hpay N1 HN
              (bx_sizes_Ks true) Hsz) as [F1 [B1 _]].
  destruct (br_value_float_bounded bx_g false bx_s1 3 2 Hc H1 Rc R1 ltac:(lra) Hpay N2 HN
              (bx_sizes_Ks false) Hsz) as [F2 [B2 _]].
  change (br_ops bx_g true 2) with 57%nat in B1. change (br_ops bx_g false 2) with 57%nat in B2.
  exact (conj F1 (conj B1 (conj F2 B2))).
Qed.

Example bx_info_finite :
  let I := @info FNum bx_g bx_prof in
  Ffin (si_util I) /\
  Ffin (si_reg1 I) /\ 0 <= FR (si_reg1 I) /\
  Ffin (si_reg2 I) /\ 0 <= FR (si_reg2 I) /\
  Ffin (@si_regret FNum I) /\ 0 <= FR (@si_regret FNum I).
Proof.
  destruct bx_hyps as [Hc [H1 [H2 [Rc [R1 [R2 [Hpay _]]]]]]].
  destruct bx_sizes as [Hp1 [Hp2 [HN [_ Hsz]]]].
  destruct (info_float_finite bx_g bx_prof 3 2 Hc Hp1 Hp2 Rc R1 R2 ltac:(lra) Hpay HN
              (bx_sizes_Ks true) (bx_sizes_Ks false) (Hsz true) (Hsz false))
    as [A1 [A2 [A3 [A4 [A5 [A6 [A7 _]]]]]]].
  cbv zeta. exact (conj A1 (conj A2 (conj A3 (conj A4 (conj A5 (conj A6 A7)))))).
Qed.

Lemma bx_collok :
  CollOK (g_chance bx_g) bx_s2 true (g_root bx_g) 1%float /\
  CollOK (g_chance bx_g) bx_s1 false (g_root bx_g) 1%float.
Proof.
  destruct bx_hyps as [Hc [H1 [H2 _]]].
  split.
  - apply (collokb_spec _ _ _ Hc H2); [apply fin01_one | vm_compute; reflexivity].
  - apply (collokb_spec _ _ _ Hc H1); [apply fin01_one | vm_compute; reflexivity].
Qed.

Lemma INR_9 : INR 9 = 9. Proof. cbn [INR]. lra. Qed.
Lemma INR_52 : INR 52 = 52.
Proof. change 52%nat with (4 * 13)%nat. rewrite mult_INR. cbn [INR]. lra. Qed.

(** the binary64 utility, regrets and exploitability of the example against the real-number
    model run on the same data: within about [60 * 2^-52 * 7] of each other *)
Example bx_info_error :
  let I := @info FNum bx_g bx_prof in
  let IR := infoR bx_g bx_prof in
  let Eu := 9 * bpow radix2 (-52) * mass bx_g bx_s1 bx_s2 3 in
  let Eb := 52 * bpow radix2 (-52) * (2 * 3) in
  let E := (Eb + Eu) + bpow radix2 (-53) * (2 * 3 + mass bx_g bx_s1 bx_s2 3 + (Eb + Eu)) in
  Rabs (FR (si_util I) - si_util IR) <= Eu /\
  Rabs (FR (si_reg1 I) - si_reg1 IR) <= E /\
  Rabs (FR (si_reg2 I) - si_reg2 IR) <= E /\
  Rabs (FR (@si_regret FNum I) - @si_regret RNum IR) <= E.
Proof.
  intros I IR Eu Eb E.
  destruct bx_hyps as [Hc [H1 [H2 [Rc [R1 [R2 [Hpay _]]]]]]].
  destruct bx_collok as [C1 C2].
  destruct bx_sizes as [Hp1 [Hp2 [HN [Hk Hsz]]]].
  assert (E9 : INR (k_ops bx_g) = 9) by exact INR_9.
  assert (E52 : forall me, INR (br_err_ops bx_g me) = 52) by (intros [|]; exact INR_52).
  pose proof (info_float_error bx_g bx_prof 3 2 Hc Hp1 Hp2 Rc R1 R2 ltac:(lra) Hpay C1 C2 HN Hk Hsz)
    as HE.
  cbv zeta in HE. rewrite E9, !E52, Rmax_left in HE by apply Rle_refl.
  exact HE.
Qed.
