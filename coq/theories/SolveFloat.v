(** * SolveFloat: the solver's accumulators stay finite at binary64 (instance [FNum]).

    Property C05 at binary64, positive counterpart of the finding D13 (payoffs of
    magnitude 1e308 overflow the accumulated regret: bound [inf], then NaN strategies).
    For the unsampled and the chance-sampled method ([vrec], every sampling oracle, every
    stopping predicate) and every parameter set whose discount factors are numbers in
    [0,1] and whose regret-matching fallback is not the softmax (vanilla, CFR+):

    if the payoffs are finite with [|payoff| <= 2^e] and
    [reg_cap g T = max (leaves, 2 * max(1, #infosets of a player) * T * rcount(tree))]
    satisfies [reg_cap g T < 2^53] and [reg_cap g T * 2^e < 2^1024] (for instance
    [e <= 971]), [T * scount(tree) < 2^53], [T < 2^53], then in [T] iterations no NaN and
    no infinity arises anywhere: every value returned by a traversal, every cumulative
    regret, every cumulative strategy entry is a finite float with an explicit bound,
    every strategy row is a row of finite numbers in [0,1], the returned profile consists
    of finite numbers in [0,1] and the reported bounds are finite and non-negative.

    The analysis has no [(1+eps)^k] factors: all bounds are of the form [m * 2^e] with [m]
    a natural number below [2^53].  Such numbers are binary64 numbers, rounding to nearest
    is monotone and fixes them, hence [|x| <= m1 * 2^e], [|y| <= m2 * 2^e] gives
    [|fl (x + y)| <= (m1 + m2) * 2^e] exactly, and multiplying by a probability cannot
    increase a bound.  No assumption on the shape of the tree or of the state is needed
    (infoset indices out of range, rows of the wrong length, imperfect recall: all covered;
    strategy rows need not sum to one).

    [ExternalFloat] does the same for the external-sampling method. *)
From Coq Require Import List ZArith NArith Reals Floats Bool Lia Lra Arith.
From Flocq Require Import Core IEEE754.BinarySingleNaN IEEE754.PrimFloat.
From Cfr.theories Require Import Num FInst Tree GameWF Strat Eval Solve
  LoopCore StratAgreeProofs TruncFloat DistFloat NormFloat EvalFloat ScaleFloat.
Import ListNotations.

Local Existing Instance Flocq.IEEE754.PrimFloat.Hprec.
Local Existing Instance Flocq.IEEE754.PrimFloat.Hmax.

Local Open Scope R_scope.
Local Notation float := PrimFloat.float.
Local Notation Hp := Flocq.IEEE754.PrimFloat.Hprec.
Local Notation Hm := Flocq.IEEE754.PrimFloat.Hmax.
Local Notation node := (@node FNum).
Local Notation game := (@game FNum).
Local Notation rinfo := (@rinfo FNum).
Local Notation pstate := (@pstate FNum).

Local Instance fexp_valid3 : Valid_exp (SpecFloat.fexp prec emax) := fexp_correct prec emax Hp.

Definition fin11 (x : float) : Prop := Ffin x /\ Rabs (FR x) <= 1.

Lemma fin01_fin11 : forall x, fin01 x -> fin11 x.
Proof. intros x [Hf [H0 H1]]. split; [exact Hf|]. rewrite Rabs_pos_eq; assumption. Qed.

Lemma Ffin_opp : forall x, Ffin x -> Ffin (- x)%float.
Proof. intros x Hx. unfold Ffin. rewrite opp_equiv, is_finite_Bopp. exact Hx. Qed.

Lemma FR_opp : forall x, FR (- x)%float = - FR x.
Proof. intros x. unfold FR. rewrite opp_equiv. apply B2R_Bopp. Qed.

Lemma fin11_opp : forall x, fin11 x -> fin11 (- x)%float.
Proof.
  intros x [Hf H1]. split; [apply Ffin_opp; exact Hf|]. rewrite FR_opp, Rabs_Ropp. exact H1.
Qed.

Lemma fin11_mul : forall a b, fin11 a -> fin11 b -> fin11 (a * b)%float.
Proof.
  intros a b [Ha Ha1] [Hb Hb1].
  assert (Hab : Rabs (FR a * FR b) <= 1).
  { rewrite Rabs_mult, <- (Rmult_1_r 1).
    apply Rmult_le_compat; try apply Rabs_pos; assumption. }
  assert (Hr := rnd_abs_le _ 1 fmt_1 Hab).
  assert (Hlt : Rabs (rnd (FR a * FR b)) < bpow radix2 emax).
  { apply Rle_lt_trans with (1 := Hr). apply (bpow_lt radix2 0 emax). reflexivity. }
  destruct (mul_ok a b Ha Hb Hlt) as [Hf He].
  split; [exact Hf | rewrite He; exact Hr].
Qed.

Section InnerLoopsF.
  Context (rec : node -> float -> float -> float -> pstate -> float * pstate).

  Definition fpick (pc p1 p2 : float) (st : pstate) :=
    fix pick (ks : list node) (k : nat) {struct ks} : float * pstate :=
      match ks with
      | [] => (0%float, st)
      | c :: r =>
          match k with
          | O => let (pay, st') := rec c (pc * 1)%float p1 p2 st in ((0 + 1 * pay)%float, st')
          | S k' => pick r k'
          end
      end.

  Definition fgo_chance (pc p1 p2 : float) :=
    fix go (ps : list float) (ks : list node) (expected : float) (st : pstate) {struct ks}
      : float * pstate :=
      match ps, ks with
      | p :: ps', c :: ks' =>
          let (pay, st') := rec c (pc * p)%float p1 p2 st in
          go ps' ks' (expected + p * pay)%float st'
      | _, _ => (expected, st)
      end.

  Definition fgo_player (pl : bool) (i : nat) (pc p1 p2 mult : float) :=
    fix go (ks : list node) (ss : list float) (ai : nat) (e1 e : float) (st : pstate)
           {struct ks} : float * float * pstate :=
      match ks, ss with
      | c :: ks', prob :: ss' =>
          let '(q1, q2) := if pl then ((p1 * prob)%float, p2) else (p1, (p2 * prob)%float) in
          let (util_one, st') := rec c pc q1 q2 st in
          let util := (util_one * mult)%float in
          let ri' := @ri_get FNum st' pl i in
          let cr := cum_regret ri' in
          let st'' := @ri_set FNum st' pl i
                             (@mkRinfo FNum (upd cr ai (nth ai cr 0 + util)%float)
                                      (cum_strat ri') (strat ri')) in
          go ks' ss' (S ai) (e1 + prob * util_one)%float (e + util * prob)%float st''
      | _, _ => (e1, e, st)
      end.
End InnerLoopsF.

Lemma fvrec_Term chance sampled draw pass x pc p1 p2 st :
  @vrec FNum chance sampled draw pass (Term x) pc p1 p2 st = (x, st).
Proof. reflexivity. Qed.

Lemma fvrec_Chance chance sampled draw pass ci kids pc p1 p2 st :
  @vrec FNum chance sampled draw pass (Chance ci kids) pc p1 p2 st =
  if sampled
  then fpick (@vrec FNum chance sampled draw pass) pc p1 p2 st kids
             (draw true ci pass (@row FNum chance ci))
  else fgo_chance (@vrec FNum chance sampled draw pass) pc p1 p2 (@row FNum chance ci) kids
                  0%float st.
Proof. reflexivity. Qed.

Lemma fvrec_Player chance sampled draw pass pl i kids pc p1 p2 st :
  @vrec FNum chance sampled draw pass (Player pl i kids) pc p1 p2 st =
  let ri := @ri_get FNum st pl i in
  let mine := if pl then p1 else p2 in
  let cs := map (fun vc : float * float => (snd vc + mine * fst vc)%float)
                (combine (strat ri) (cum_strat ri)) in
  let st0 := @ri_set FNum st pl i (@mkRinfo FNum (cum_regret ri) cs (strat ri)) in
  let mult := if pl then (pc * p2)%float else (- p1 * pc)%float in
  let '(e1, e, st2) := fgo_player (@vrec FNum chance sampled draw pass) pl i pc p1 p2 mult
                                  kids (strat ri) O 0%float 0%float st0 in
  let ri2 := @ri_get FNum st2 pl i in
  (e1, @ri_set FNum st2 pl i (@mkRinfo FNum (map (fun v => (v - e)%float) (cum_regret ri2))
                                      (cum_strat ri2) (strat ri2))).
Proof. reflexivity. Qed.

(** total regret increment a traversal can add to one cell, in units of [2^e]:
    every decision node adds at most [leaves(child)] to a cell (the action's utility)
    and subtracts the node's expected utility, at most [leaves(node)] *)
Fixpoint rcount (n : node) : nat :=
  match n with
  | Term _ => O
  | Chance _ kids => list_sum (map rcount kids)
  | Player _ _ kids => (list_sum (map rcount kids) + 2 * list_sum (map nleaves kids))%nat
  end.

(** number of decision nodes: every visit adds at most 1 to a cumulative-strategy cell *)
Fixpoint scount (n : node) : nat :=
  match n with
  | Term _ => O
  | Chance _ kids => list_sum (map scount kids)
  | Player _ _ kids => S (list_sum (map scount kids))
  end.

Local Notation Lsum ks := (list_sum (map nleaves ks)).
Local Notation Rsum ks := (list_sum (map rcount ks)).
Local Notation Ssum ks := (list_sum (map scount ks)).

Lemma list_sum_map_cons : forall (A : Type) (f : A -> nat) (c : A) (ks : list A),
  list_sum (map f (c :: ks)) = (f c + list_sum (map f ks))%nat.
Proof. reflexivity. Qed.

Lemma Forall_upd : forall (A : Type) (P : A -> Prop) (l : list A) (i : nat) (v : A),
  Forall P l -> P v -> Forall P (upd l i v).
Proof.
  intros A P l i v Hl Hv. revert i.
  induction Hl as [|x l Hx Hl IH]; intros i; destruct i; cbn [upd]; constructor; auto.
Qed.

Definition small (l : list float) : Prop := (Z.of_nat (length l) < 2 ^ 53)%Z.

Lemma small_le : forall l l' : list float, (length l' <= length l)%nat -> small l -> small l'.
Proof. unfold small. intros l l' Hle Hl. lia. Qed.

Definition cs_ok (ms : nat) (x : float) : Prop := Ffin x /\ 0 <= FR x <= IZR (Z.of_nat ms).

Lemma cs_ok_weaken : forall ms ms' x, cs_ok ms x -> (ms <= ms')%nat -> cs_ok ms' x.
Proof.
  intros ms ms' x [Hf [H0 H1]] Hm. split; [exact Hf|]. split; [exact H0|].
  apply Rle_trans with (1 := H1). apply IZR_le. lia.
Qed.

Lemma cs_ok_finnn : forall ms x, cs_ok ms x -> finnn x.
Proof. intros ms x [Hf [H0 _]]. split; assumption. Qed.

Lemma cs_ok_add : forall ms x y, cs_ok ms x -> fin01 y -> (Z.of_nat ms + 1 < 2 ^ 53)%Z ->
  cs_ok (S ms) (x + y)%float.
Proof.
  intros ms x y [Hx Hx01] Hy Hm.
  destruct (add_step x y (Z.of_nat ms) Hx Hy Hx01 ltac:(lia) Hm) as [Hf [_ [H1 [_ H3]]]].
  split; [exact Hf|]. split; [lra|]. rewrite Nat2Z.inj_succ. exact H3.
Qed.

Lemma cs_ok_mul : forall ms a r, cs_ok ms a -> fin01 r -> (Z.of_nat ms < 2 ^ 53)%Z ->
  cs_ok ms (a * r)%float.
Proof.
  intros ms a r [Ha [Ha0 Ha1]] [Hr [Hr0 Hr1]] Hms.
  assert (Hb : 0 <= FR a * FR r <= IZR (Z.of_nat ms)) by nra.
  apply (rnd_between 0 _ _ fmt_0 (fmt_IZR (Z.of_nat ms) ltac:(lia))) in Hb.
  destruct (mul_ok a r Ha Hr (nonneg_lt_emax _ _ Hb ltac:(lia))) as [Hf He].
  split; [exact Hf | rewrite He; exact Hb].
Qed.

Lemma advance_FNum : forall (p : @params FNum) (it ia : N) (ri : rinfo),
  @advance FNum p it ia ri =
  let cr := @discount_cum_regret FNum p it (cum_regret ri) in
  (@mkRinfo FNum cr (@discount_average_strat FNum p ia (cum_strat ri))
            (@regret_match FNum p (cum_regret ri)),
   @cum_regret_bound FNum it cr).
Proof. reflexivity. Qed.

Lemma discount_cum_regret_FNum : forall (p : @params FNum) (it : N) (cr : list float),
  @discount_cum_regret FNum p it cr =
  map (fun r => if PrimFloat.ltb 0 r then (r * @gen_discount FNum it (a_pos p))%float
                else if PrimFloat.ltb r 0 then (r * @gen_discount FNum it (a_neg p))%float
                else r) cr.
Proof. reflexivity. Qed.

Lemma cum_regret_bound_FNum : forall (it : N) (cr : list float),
  @cum_regret_bound FNum it cr =
  (2 * f_max (match cr with [] => 0%float | x :: r => fold_left f_max r x end) 0 / f_of_N it)%float.
Proof. intros it cr. destruct cr; reflexivity. Qed.

(** regret matching never takes the softmax branch: the fallback is the uniform row
    ([Fin 0], vanilla) or a one-hot row ([+-inf]) *)
Definition nosoftmax (p : @params FNum) : Prop :=
  match a_nopos p with Fin w => PrimFloat.eqb w 0 = true | _ => True end.

Definition strat_factor_ok (p : @params FNum) (ia : N) : Prop :=
  match a_strat p with
  | Fin gm => PrimFloat.ltb 0 gm = true ->
              fin01 (fpow (f_of_N ia / (f_of_N ia + 1))%float gm)
  | _ => True
  end.

Definition disc_ok (p : @params FNum) (it ia : N) : Prop :=
  fin01 (@gen_discount FNum it (a_pos p)) /\ fin01 (@gen_discount FNum it (a_neg p)) /\
  strat_factor_ok p ia.

Lemma discount_average_strat_ok : forall (p : @params FNum) (ia : N) (cs : list float) (ms : nat),
  strat_factor_ok p ia -> Forall (cs_ok ms) cs -> (Z.of_nat ms < 2 ^ 53)%Z ->
  Forall (cs_ok ms) (@discount_average_strat FNum p ia cs) /\
  length (@discount_average_strat FNum p ia cs) = length cs.
Proof.
  intros p ia cs ms Hsf Hcs Hms. unfold discount_average_strat, strat_factor_ok in *.
  destruct (a_strat p) as [|gm|].
  - split; [exact Hcs | reflexivity].
  - cbn [ltb zero FNum]. destruct (PrimFloat.ltb 0 gm) eqn:Hgm; [|split; [exact Hcs | reflexivity]].
    split; [|apply map_length]. apply Forall_map. apply Forall_impl with (2 := Hcs).
    intros a Ha. exact (cs_ok_mul ms a _ Ha (Hsf eq_refl) Hms).
  - split; [|apply map_length]. apply Forall_map. apply Forall_impl with (2 := Hcs).
    intros a _. split; [apply Ffin_zero|]. change (zero FNum) with 0%float. rewrite FR_zero.
    split; [lra | apply IZR_le; lia].
Qed.

Lemma f_of_N_pos : forall it : N, (1 <= it)%N -> (Z.of_N it < 2 ^ 53)%Z ->
  Ffin (f_of_N it) /\ 1 <= FR (f_of_N it).
Proof.
  intros it H1 H2. rewrite <- (N2Nat.id it).
  destruct (of_N_ok (N.to_nat it)) as [Hf Hv]; [rewrite N_nat_Z; exact H2|].
  split; [exact Hf|]. rewrite Hv. change 1 with (INR 1). apply le_INR. lia.
Qed.

Section Bnd.
  Context (e : Z) (He : (-1074 <= e)%Z).
  Context (Mx : nat) (HMx : (Z.of_nat Mx < 2 ^ 53)%Z).
  Context (Hov : INR Mx * bpow radix2 e < bpow radix2 emax).

  Definition bnd (m : nat) (x : float) : Prop :=
    Ffin x /\ Rabs (FR x) <= INR m * bpow radix2 e.

  Lemma fmt_mB : forall m : nat, (m <= Mx)%nat -> fmt (INR m * bpow radix2 e).
  Proof.
    intros m Hm. unfold fmt.
    apply (generic_format_FLT radix2 (SpecFloat.emin prec emax) prec).
    apply (FLT_spec radix2 (SpecFloat.emin prec emax) prec _ (Float radix2 (Z.of_nat m) e)).
    - unfold F2R. cbn [Fnum Fexp]. rewrite INR_IZR_INZ. reflexivity.
    - cbn [Fnum]. change (radix2 ^ prec)%Z with (2 ^ 53)%Z. lia.
    - cbn [Fexp]. change (SpecFloat.emin prec emax) with (-1074)%Z. exact He.
  Qed.

  Lemma mB_lt_emax : forall m : nat, (m <= Mx)%nat -> INR m * bpow radix2 e < bpow radix2 emax.
  Proof.
    intros m Hm. apply Rle_lt_trans with (2 := Hov).
    apply Rmult_le_compat_r; [apply bpow_ge_0 | apply le_INR; exact Hm].
  Qed.

  Lemma mB_nonneg : forall m : nat, 0 <= INR m * bpow radix2 e.
  Proof. intros m. apply Rmult_le_pos; [apply pos_INR | apply bpow_ge_0]. Qed.

  Lemma bnd_weaken : forall m m' x, bnd m x -> (m <= m')%nat -> bnd m' x.
  Proof.
    intros m m' x [Hf Hb] Hm. split; [exact Hf|].
    apply Rle_trans with (1 := Hb).
    apply Rmult_le_compat_r; [apply bpow_ge_0 | apply le_INR; exact Hm].
  Qed.

  Lemma bnd_zero : forall m, bnd m 0%float.
  Proof. intros m. split; [apply Ffin_zero|]. rewrite FR_zero, Rabs_R0. apply mB_nonneg. Qed.

  Lemma bnd_Ffin : forall m x, bnd m x -> Ffin x.
  Proof. intros m x [H _]. exact H. Qed.

  (** [m * 2^e] with [m <= Mx] is a binary64 number below the overflow threshold, and
      rounding to nearest is monotone: a real bounded by it rounds to a float bounded by it *)
  Lemma bnd_rnd : forall (m : nat) (v : R), (m <= Mx)%nat -> Rabs v <= INR m * bpow radix2 e ->
    Rabs (rnd v) <= INR m * bpow radix2 e /\ Rabs (rnd v) < bpow radix2 emax.
  Proof.
    intros m v Hm Hv. assert (Hr := rnd_abs_le _ _ (fmt_mB m Hm) Hv).
    split; [exact Hr|]. apply Rle_lt_trans with (1 := Hr). apply mB_lt_emax. exact Hm.
  Qed.

  Lemma bnd_op : forall (m : nat) (v : R) (z : float),
    (m <= Mx)%nat -> Rabs v <= INR m * bpow radix2 e ->
    (Rabs (rnd v) < bpow radix2 emax -> Ffin z /\ FR z = rnd v) -> bnd m z.
  Proof.
    intros m v z Hm Hv Hop. destruct (bnd_rnd m v Hm Hv) as [Hr Hlt].
    destruct (Hop Hlt) as [Hf Heq]. split; [exact Hf | rewrite Heq; exact Hr].
  Qed.

  Lemma bnd_add : forall m1 m2 x y, bnd m1 x -> bnd m2 y -> (m1 + m2 <= Mx)%nat ->
    bnd (m1 + m2) (x + y)%float.
  Proof.
    intros m1 m2 x y [Hx Hbx] [Hy Hby] Hm.
    apply (bnd_op _ (FR x + FR y)); [exact Hm | | apply add_ok; assumption].
    rewrite plus_INR. pose proof (Rabs_triang (FR x) (FR y)). lra.
  Qed.

  Lemma bnd_sub : forall m1 m2 x y, bnd m1 x -> bnd m2 y -> (m1 + m2 <= Mx)%nat ->
    bnd (m1 + m2) (x - y)%float.
  Proof.
    intros m1 m2 x y [Hx Hbx] [Hy Hby] Hm.
    apply (bnd_op _ (FR x - FR y)); [exact Hm | | apply sub_ok; assumption].
    rewrite plus_INR. pose proof (Rabs_triang (FR x) (- FR y)) as Ht.
    rewrite Rabs_Ropp in Ht. unfold Rminus. lra.
  Qed.

  Lemma bnd_mul_l : forall m p x, fin11 p -> bnd m x -> (m <= Mx)%nat -> bnd m (p * x)%float.
  Proof.
    intros m p x [Hp Hp1] [Hx Hbx] Hm.
    apply (bnd_op _ (FR p * FR x)); [exact Hm | | apply mul_ok; assumption].
    rewrite Rabs_mult. pose proof (Rabs_pos (FR x)). nra.
  Qed.

  Lemma bnd_mul_r : forall m p x, bnd m x -> fin11 p -> (m <= Mx)%nat -> bnd m (x * p)%float.
  Proof.
    intros m p x [Hx Hbx] [Hp Hp1] Hm.
    apply (bnd_op _ (FR x * FR p)); [exact Hm | | apply mul_ok; assumption].
    rewrite Rabs_mult. pose proof (Rabs_pos (FR x)). nra.
  Qed.

  Definition RiOK (mr ms : nat) (ri : rinfo) : Prop :=
    Forall fin01 (strat ri) /\ Forall (bnd mr) (cum_regret ri) /\
    Forall (cs_ok ms) (cum_strat ri) /\ small (cum_regret ri) /\ small (cum_strat ri).

  Definition StOK (mr ms : nat) (st : pstate) : Prop :=
    Forall (RiOK mr ms) (fst st) /\ Forall (RiOK mr ms) (snd st).

  Lemma RiOK_default : forall mr ms, RiOK mr ms (@mkRinfo FNum [] [] []).
  Proof.
    intros mr ms. unfold RiOK, small. cbn [strat cum_regret cum_strat length].
    repeat split; try constructor.
  Qed.

  Lemma RiOK_set_regret : forall mr mr' ms ri cr',
    RiOK mr ms ri -> Forall (bnd mr') cr' -> length cr' = length (cum_regret ri) ->
    RiOK mr' ms (@mkRinfo FNum cr' (cum_strat ri) (strat ri)).
  Proof.
    intros mr mr' ms ri cr' (H1 & _ & H3 & H4 & H5) Hcr Hlen.
    split; [exact H1|]. split; [exact Hcr|]. split; [exact H3|]. split; [|exact H5].
    apply (small_le (cum_regret ri)); [cbn [cum_regret]; rewrite Hlen; apply le_n | exact H4].
  Qed.

  Lemma RiOK_set_cstrat : forall mr ms ms' ri cs',
    RiOK mr ms ri -> Forall (cs_ok ms') cs' -> (length cs' <= length (cum_strat ri))%nat ->
    RiOK mr ms' (@mkRinfo FNum (cum_regret ri) cs' (strat ri)).
  Proof.
    intros mr ms ms' ri cs' (H1 & H2 & _ & H4 & H5) Hcs Hlen.
    split; [exact H1|]. split; [exact H2|]. split; [exact Hcs|]. split; [exact H4|].
    apply (small_le (cum_strat ri)); assumption.
  Qed.

  Lemma RiOK_weaken : forall mr ms mr' ms' ri,
    RiOK mr ms ri -> (mr <= mr')%nat -> (ms <= ms')%nat -> RiOK mr' ms' ri.
  Proof.
    intros mr ms mr' ms' ri (H1 & H2 & H3 & H4 & H5) Hr Hs.
    split; [exact H1|]. split; [|split; [|split; assumption]].
    - apply Forall_impl with (2 := H2). intros x Hx. apply (bnd_weaken mr mr' x Hx Hr).
    - apply Forall_impl with (2 := H3). intros x Hx. apply (cs_ok_weaken ms ms' x Hx Hs).
  Qed.

  Lemma StOK_weaken : forall mr ms mr' ms' st,
    StOK mr ms st -> (mr <= mr')%nat -> (ms <= ms')%nat -> StOK mr' ms' st.
  Proof.
    intros mr ms mr' ms' st [H1 H2] Hr Hs.
    split; [apply Forall_impl with (2 := H1) | apply Forall_impl with (2 := H2)];
      intros ri Hri; apply (RiOK_weaken mr ms mr' ms' ri Hri Hr Hs).
  Qed.

  Lemma StOK_get : forall mr ms st pl i, StOK mr ms st -> RiOK mr ms (@ri_get FNum st pl i).
  Proof.
    intros mr ms st pl i [H1 H2]. unfold ri_get, ps_get.
    destruct pl; apply nth_Forall; try assumption; apply RiOK_default.
  Qed.

  Lemma StOK_set : forall mr ms st pl i ri,
    StOK mr ms st -> RiOK mr ms ri -> StOK mr ms (@ri_set FNum st pl i ri).
  Proof.
    intros mr ms st pl i ri [H1 H2] Hri. unfold ri_set, ps_set, ps_get, StOK.
    destruct pl; cbn [fst snd]; split; try assumption; apply Forall_upd; assumption.
  Qed.

  Lemma bnd_StOK_weaken : forall a mr ms a' mr' ms' x st,
    bnd a x -> StOK mr ms st -> (a <= a' /\ mr <= mr' /\ ms <= ms')%nat ->
    bnd a' x /\ StOK mr' ms' st.
  Proof.
    intros a mr ms a' mr' ms' x st Hx Hst (Ha & Hr & Hs).
    split; [exact (bnd_weaken a a' x Hx Ha) | exact (StOK_weaken mr ms mr' ms' st Hst Hr Hs)].
  Qed.

  (** [cum_strat[a] = f strat[a] cum_strat[a]] where [f] adds at most one:
      [c + mine * s] in [vrec], [c + s] in [erec] *)
  Lemma RiOK_cum_strat : forall (f : float -> float -> float) mr ms ri,
    (forall s c, fin01 s -> cs_ok ms c -> cs_ok (S ms) (f s c)) ->
    RiOK mr ms ri ->
    RiOK mr (S ms)
         (@mkRinfo FNum (cum_regret ri)
            (map (fun vc : float * float => f (fst vc) (snd vc))
                 (combine (strat ri) (cum_strat ri)))
            (strat ri)).
  Proof.
    intros f mr ms ri Hf Hri. pose proof Hri as (H1 & _ & H3 & _).
    apply (RiOK_set_cstrat mr ms); [exact Hri | |].
    - apply Forall_map. apply Forall_forall. intros [s c] Hin.
      rewrite Forall_forall in H1, H3.
      apply Hf; [exact (H1 s (in_combine_l _ _ _ _ Hin)) | exact (H3 c (in_combine_r _ _ _ _ Hin))].
    - rewrite map_length, combine_length. apply Nat.le_min_r.
  Qed.

  (** [cum_regret[ai] += util] *)
  Lemma RiOK_reg_add : forall mr ms ri ai util m,
    RiOK mr ms ri -> bnd m util -> (mr + m <= Mx)%nat ->
    RiOK (mr + m) ms
         (@mkRinfo FNum (upd (cum_regret ri) ai (nth ai (cum_regret ri) 0 + util)%float)
                   (cum_strat ri) (strat ri)).
  Proof.
    intros mr ms ri ai util m Hri Hu Hm. pose proof Hri as (_ & H2 & _).
    apply (RiOK_set_regret mr); [exact Hri | | apply upd_length].
    apply Forall_upd.
    - apply Forall_impl with (2 := H2). intros x Hx. apply (bnd_weaken mr _ x Hx). lia.
    - apply bnd_add; [|exact Hu|exact Hm]. apply nth_Forall; [exact H2 | apply bnd_zero].
  Qed.

  (** every cell of [cum_regret] [-= x] *)
  Lemma RiOK_reg_sub : forall mr ms ri x m,
    RiOK mr ms ri -> bnd m x -> (mr + m <= Mx)%nat ->
    RiOK (mr + m) ms
         (@mkRinfo FNum (map (fun v => (v - x)%float) (cum_regret ri)) (cum_strat ri) (strat ri)).
  Proof.
    intros mr ms ri x m Hri Hx Hm. pose proof Hri as (_ & H2 & _).
    apply (RiOK_set_regret mr); [exact Hri | | apply map_length].
    apply Forall_map. apply Forall_impl with (2 := H2).
    intros v Hv. apply bnd_sub; assumption.
  Qed.

  Definition bnn (m : nat) (x : float) : Prop := bnd m x /\ 0 <= FR x.

  Lemma bnn_finnn : forall m x, bnn m x -> finnn x.
  Proof. intros m x [[Hf _] H0]. split; assumption. Qed.

  Lemma bnn_range : forall m x, bnn m x -> Ffin x /\ 0 <= FR x <= INR m * bpow radix2 e.
  Proof.
    intros m x [[Hf Hb] H0]. rewrite Rabs_pos_eq in Hb by exact H0. split; [exact Hf | split; assumption].
  Qed.

  Lemma bnn_weaken : forall m m' x, bnn m x -> (m <= m')%nat -> bnn m' x.
  Proof. intros m m' x [Hb H0] Hm. split; [exact (bnd_weaken m m' x Hb Hm) | exact H0]. Qed.

  Lemma bnn_zero : forall m, bnn m 0%float.
  Proof. intros m. split; [apply bnd_zero | rewrite FR_zero; lra]. Qed.

  Lemma bnn_add : forall m1 m2 x y, bnn m1 x -> bnn m2 y -> (m1 + m2 <= Mx)%nat ->
    bnn (m1 + m2) (x + y)%float.
  Proof.
    intros m1 m2 x y [Hx Hx0] [Hy Hy0] Hm.
    assert (Hb := bnd_add m1 m2 x y Hx Hy Hm).
    split; [exact Hb|].
    destruct (add_nn x y (conj (proj1 Hx) Hx0) (conj (proj1 Hy) Hy0)) as [[_ [_ [H1 _]]]|Hi].
    - lra.
    - exfalso. exact (Fpinf_not_fin _ Hi (proj1 Hb)).
  Qed.

  Lemma bnd_fold_fmax : forall m (r : list float) x,
    Forall (bnd m) r -> bnd m x -> bnd m (fold_left f_max r x).
  Proof.
    intros m r x Hr Hx.
    assert (HrF : Forall Ffin r) by (apply Forall_impl with (2 := Hr); intros a Ha; apply Ha).
    destruct (fold_fmax r x HrF (proj1 Hx)) as [_ [_ [_ [Heq|Hin]]]].
    - rewrite Heq. exact Hx.
    - rewrite Forall_forall in Hr. apply Hr. exact Hin.
  Qed.

  Lemma bnn_fmax_0 : forall m x, bnd m x -> bnn m (f_max x 0).
  Proof.
    intros m x Hx. destruct (fmax_fin x 0%float (proj1 Hx) Ffin_zero) as [_ [_ [H0 Hc]]].
    rewrite FR_zero in H0. split; [|exact H0].
    destruct Hc as [Hc|Hc]; rewrite Hc; [exact Hx | apply bnd_zero].
  Qed.

  Lemma bnn_double : forall m y, bnn m y -> (2 * m <= Mx)%nat -> bnn (2 * m) (2 * y)%float.
  Proof.
    intros m y [[Hyf Hyb] Hy0] Hm. destruct FR_two as [H2f H2e].
    assert (Hv : Rabs (FR 2%float * FR y) <= INR (2 * m) * bpow radix2 e).
    { rewrite H2e, Rabs_mult, (Rabs_pos_eq 2), mult_INR by lra. cbn [INR]. lra. }
    destruct (bnd_rnd (2 * m) _ Hm Hv) as [Hr Hlt].
    destruct (mul_ok 2%float y H2f Hyf Hlt) as [Hf Heq].
    split; [split; [exact Hf | rewrite Heq; exact Hr]|].
    rewrite Heq. apply rnd_ge_fmt; [apply fmt_0 | rewrite H2e; lra].
  Qed.

  Lemma bnn_div_ge1 : forall m z d, bnn m z -> (m <= Mx)%nat -> Ffin d -> 1 <= FR d ->
    bnn m (z / d)%float.
  Proof.
    intros m z d [[Hzf Hzb] Hz0] Hm Hd Hd1.
    assert (Hq0 : 0 <= FR z / FR d).
    { apply Rmult_le_pos; [exact Hz0 | left; apply Rinv_0_lt_compat; lra]. }
    assert (Hq1 : FR z / FR d <= FR z).
    { apply Rmult_le_reg_r with (FR d); [lra|].
      unfold Rdiv. rewrite Rmult_assoc, Rinv_l, Rmult_1_r by lra. nra. }
    assert (Hqb : Rabs (FR z / FR d) <= INR m * bpow radix2 e).
    { rewrite Rabs_pos_eq by exact Hq0. rewrite Rabs_pos_eq in Hzb by exact Hz0. lra. }
    destruct (bnd_rnd m _ Hm Hqb) as [Hr Hlt].
    destruct (div_ok z d Hzf ltac:(lra) Hlt) as [Hf Heq].
    split; [split; [exact Hf | rewrite Heq; exact Hr]|].
    rewrite Heq. apply rnd_ge_fmt; [apply fmt_0 | exact Hq0].
  Qed.

  Lemma crb_ok : forall (it : N) (cr : list float) (mr : nat),
    Forall (bnd mr) cr -> (2 * mr <= Mx)%nat -> (1 <= it)%N -> (Z.of_N it < 2 ^ 53)%Z ->
    bnn (2 * mr) (@cum_regret_bound FNum it cr).
  Proof.
    intros it cr mr Hcr Hm Hit1 Hit2. rewrite cum_regret_bound_FNum.
    destruct (f_of_N_pos it Hit1 Hit2) as [Hnf Hn1].
    apply bnn_div_ge1; [|exact Hm|exact Hnf|exact Hn1].
    apply bnn_double; [|exact Hm]. apply bnn_fmax_0.
    destruct Hcr as [|x r Hx Hr]; [apply bnd_zero | apply bnd_fold_fmax; assumption].
  Qed.

  Section Advance.
    Context (p : @params FNum) (it ia : N) (mr ms : nat).
    Context (Hns : nosoftmax p) (Hd : disc_ok p it ia) (Hms : (Z.of_nat ms < 2 ^ 53)%Z).
    Context (Hit1 : (1 <= it)%N) (Hit2 : (Z.of_N it < 2 ^ 53)%Z).

    Lemma advance_ok : forall ri : rinfo, RiOK mr ms ri -> (2 * mr <= Mx)%nat ->
      RiOK mr ms (fst (@advance FNum p it ia ri)) /\
      bnn (2 * mr) (snd (@advance FNum p it ia ri)).
    Proof.
      intros ri (H1 & H2 & H3 & H4 & H5) Hm. destruct Hd as (Hpos & Hneg & Hsf).
      rewrite advance_FNum. cbv zeta. cbn [fst snd].
      set (cr := @discount_cum_regret FNum p it (cum_regret ri)).
      assert (Hcr : Forall (bnd mr) cr).
      { unfold cr. rewrite discount_cum_regret_FNum.
        apply Forall_map. apply Forall_impl with (2 := H2). intros r Hr.
        destruct (PrimFloat.ltb 0 r); [|destruct (PrimFloat.ltb r 0); [|exact Hr]];
          (apply bnd_mul_r; [exact Hr | apply fin01_fin11; assumption | lia]). }
      destruct (discount_average_strat_ok p ia (cum_strat ri) ms Hsf H3 Hms) as [Hcs Hcsl].
      split; [|apply crb_ok; assumption].
      split; [|split; [exact Hcr|split; [exact Hcs|split]]].
      - apply regret_match_float_valid.
        + apply Forall_impl with (2 := H2). intros a Ha. apply Ha.
        + exact H4.
        + right. exact Hns.
      - apply (small_le (cum_regret ri)); [|exact H4].
        cbn [cum_regret]. unfold cr. rewrite discount_cum_regret_FNum, map_length. apply le_n.
      - apply (small_le (cum_strat ri)); [|exact H5]. apply Nat.eq_le_incl. exact Hcsl.
    Qed.

    Lemma advance_all_ok : forall (l : list rinfo) (acc : float) (a : nat),
      Forall (RiOK mr ms) l -> bnn a acc -> (a + length l * (2 * mr) <= Mx)%nat ->
      Forall (RiOK mr ms) (fst (@advance_all FNum p it ia l acc)) /\
      length (fst (@advance_all FNum p it ia l acc)) = length l /\
      bnn (a + length l * (2 * mr)) (snd (@advance_all FNum p it ia l acc)).
    Proof.
      induction l as [|ri l IH]; intros acc a Hl Hacc Ha.
      - cbn [advance_all fst snd length]. split; [constructor|]. split; [reflexivity|].
        apply (bnn_weaken a); [exact Hacc | lia].
      - inversion Hl as [|? ? Hri Hl']; subst.
        cbn [advance_all]. cbn [length] in Ha |- *.
        destruct (advance_ok ri Hri ltac:(lia)) as [G1 G2].
        destruct (@advance FNum p it ia ri) as [ri' b]. cbn [fst snd] in G1, G2.
        assert (Hacc' : bnn (a + 2 * mr) (acc + b)%float) by (apply bnn_add; [exact Hacc | exact G2 | lia]).
        destruct (IH (acc + b)%float (a + 2 * mr)%nat Hl' Hacc' ltac:(lia)) as [K1 [K2 K3]].
        change (add FNum acc b) with (acc + b)%float.
        destruct (@advance_all FNum p it ia l (acc + b)%float) as [r' acc''].
        cbn [fst snd] in K1, K2, K3 |- *.
        split; [constructor; assumption|]. split; [cbn [length]; rewrite K2; reflexivity|].
        apply (bnn_weaken _ _ _ K3). lia.
    Qed.
  End Advance.

  Section Traversal.
    Context (Ms : nat) (HMs : (Z.of_nat Ms < 2 ^ 53)%Z).

    Definition VPf (rec : node -> float -> float -> float -> pstate -> float * pstate)
               (c : node) : Prop :=
      forall pc p1 p2 st mr ms,
        fin01 pc -> fin01 p1 -> fin01 p2 -> StOK mr ms st ->
        (nleaves c <= Mx)%nat -> (mr + rcount c <= Mx)%nat -> (ms + scount c <= Ms)%nat ->
        bnd (nleaves c) (fst (rec c pc p1 p2 st)) /\
        StOK (mr + rcount c) (ms + scount c) (snd (rec c pc p1 p2 st)).

    Context (rec : node -> float -> float -> float -> pstate -> float * pstate).

    (** The inner loops are specified with free result indices [a'], [mr'], [ms'] between
        what the children need and the caps, so that the induction hypothesis applies as it
        stands; each case settles its arithmetic once. *)

    Lemma fgo_chance_ok : forall pc p1 p2 ks,
      Forall (VPf rec) ks -> fin01 pc -> fin01 p1 -> fin01 p2 ->
      forall ps ex st a mr ms a' mr' ms',
      Forall fin01 ps -> bnd a ex -> StOK mr ms st ->
      (a + Lsum ks <= a' <= Mx /\ mr + Rsum ks <= mr' <= Mx /\ ms + Ssum ks <= ms' <= Ms)%nat ->
      bnd a' (fst (fgo_chance rec pc p1 p2 ps ks ex st)) /\
      StOK mr' ms' (snd (fgo_chance rec pc p1 p2 ps ks ex st)).
    Proof.
      intros pc p1 p2 ks HK Hpc Hp1 Hp2.
      induction HK as [|c ks Hc HK IH]; intros ps ex st a mr ms a' mr' ms' Hps Hex Hst Hcap.
      - destruct ps; cbn [fgo_chance fst snd]; apply (bnd_StOK_weaken a mr ms); (assumption || lia).
      - rewrite !list_sum_map_cons in Hcap.
        destruct Hps as [|p ps Hp Hps]; cbn [fgo_chance].
        + apply (bnd_StOK_weaken a mr ms); (assumption || lia).
        + assert (nleaves c <= Mx /\ mr + rcount c <= Mx /\ ms + scount c <= Ms /\
                  a + nleaves c <= Mx)%nat as (Nl & Nr & Ns & Na) by lia.
          assert (Hpc' : fin01 (pc * p)%float) by (apply mul_reach; assumption).
          pose proof (Hc (pc * p)%float p1 p2 st mr ms Hpc' Hp1 Hp2 Hst Nl Nr Ns) as [Hv Hs'].
          destruct (rec c (pc * p)%float p1 p2 st) as [pay st']. cbn [fst snd] in Hv, Hs'.
          apply (IH ps _ st' (a + nleaves c)%nat (mr + rcount c)%nat (ms + scount c)%nat);
            [exact Hps | | exact Hs' | lia].
          apply bnd_add; [exact Hex | | exact Na].
          apply bnd_mul_l; [apply fin01_fin11; exact Hp | exact Hv | exact Nl].
    Qed.

    Lemma fpick_ok : forall pc p1 p2 st mr ms ks,
      Forall (VPf rec) ks -> fin01 pc -> fin01 p1 -> fin01 p2 -> StOK mr ms st ->
      forall k a' mr' ms',
      (Lsum ks <= a' <= Mx /\ mr + Rsum ks <= mr' <= Mx /\ ms + Ssum ks <= ms' <= Ms)%nat ->
      bnd a' (fst (fpick rec pc p1 p2 st ks k)) /\ StOK mr' ms' (snd (fpick rec pc p1 p2 st ks k)).
    Proof.
      intros pc p1 p2 st mr ms ks HK Hpc Hp1 Hp2 Hst.
      induction HK as [|c ks Hc HK IH]; intros k a' mr' ms' Hcap; cbn [fpick].
      - apply (bnd_StOK_weaken 0 mr ms); [apply bnd_zero | exact Hst | lia].
      - rewrite !list_sum_map_cons in Hcap. destruct k as [|k]; [|apply IH; lia].
        (* the sampled child is visited as by the loop over that child alone, with
           probability one *)
        apply (fgo_chance_ok pc p1 p2 [c] (Forall_cons _ Hc (Forall_nil _)) Hpc Hp1 Hp2
                 [1%float] 0%float st O mr ms);
          [exact (Forall_cons _ fin01_one (Forall_nil _)) | apply bnd_zero | exact Hst |].
        cbn [map list_sum fold_right]. lia.
    Qed.

    Lemma fgo_player_ok : forall pl i pc p1 p2 mult ks,
      Forall (VPf rec) ks -> fin01 pc -> fin01 p1 -> fin01 p2 -> fin11 mult ->
      forall ss ai e1 ee st a1 a mr ms a1' a' mr' ms',
      Forall fin01 ss -> bnd a1 e1 -> bnd a ee -> StOK mr ms st ->
      (a1 + Lsum ks <= a1' <= Mx /\ a + Lsum ks <= a' <= Mx /\
       mr + Rsum ks + Lsum ks <= mr' <= Mx /\ ms + Ssum ks <= ms' <= Ms)%nat ->
      let r := fgo_player rec pl i pc p1 p2 mult ks ss ai e1 ee st in
      bnd a1' (fst (fst r)) /\ bnd a' (snd (fst r)) /\ StOK mr' ms' (snd r).
    Proof.
      intros pl i pc p1 p2 mult ks HK Hpc Hp1 Hp2 Hmult.
      induction HK as [|c ks Hc HK IH];
        intros ss ai e1 ee st a1 a mr ms a1' a' mr' ms' Hss He1 Hee Hst Hcap r; unfold r; clear r.
      - cbn [fgo_player fst snd]. split; [apply (bnd_weaken a1); [exact He1 | lia]|].
        apply (bnd_StOK_weaken a mr ms); (assumption || lia).
      - rewrite !list_sum_map_cons in Hcap.
        destruct Hss as [|prob ss Hprob Hss]; cbn [fgo_player].
        + cbn [fst snd]. split; [apply (bnd_weaken a1); [exact He1 | lia]|].
          apply (bnd_StOK_weaken a mr ms); (assumption || lia).
        + assert (nleaves c <= Mx /\ mr + rcount c <= Mx /\ ms + scount c <= Ms /\
                  a1 + nleaves c <= Mx /\ a + nleaves c <= Mx /\
                  mr + rcount c <= mr + rcount c + nleaves c <= Mx)%nat
            as (Nl & Nr & Ns & Na1 & Na & Nw & Nu) by lia.
          set (q := if pl then ((p1 * prob)%float, p2) else (p1, (p2 * prob)%float)).
          assert (Hq : fin01 (fst q) /\ fin01 (snd q)).
          { unfold q. destruct pl; cbn [fst snd]; split; try assumption; apply mul_reach; assumption. }
          destruct q as [q1 q2]. cbn [fst snd] in Hq. destruct Hq as [Hq1 Hq2].
          pose proof (Hc pc q1 q2 st mr ms Hpc Hq1 Hq2 Hst Nl Nr Ns) as [Hv Hs'].
          destruct (rec c pc q1 q2 st) as [u st']. cbn [fst snd] in Hv, Hs'. cbv zeta.
          assert (Hutil : bnd (nleaves c) (u * mult)%float).
          { apply bnd_mul_r; [exact Hv | exact Hmult | exact Nl]. }
          apply (IH ss (S ai) _ _ _ (a1 + nleaves c)%nat (a + nleaves c)%nat
                    (mr + rcount c + nleaves c)%nat (ms + scount c)%nat);
            [exact Hss | | | | lia].
          * apply bnd_add; [exact He1 | | exact Na1].
            apply bnd_mul_l; [apply fin01_fin11; exact Hprob | exact Hv | exact Nl].
          * apply bnd_add; [exact Hee | | exact Na].
            apply bnd_mul_r; [exact Hutil | apply fin01_fin11; exact Hprob | exact Nl].
          * apply StOK_set; [exact (StOK_weaken _ _ _ _ _ Hs' Nw (le_n _))|].
            apply RiOK_reg_add; [apply StOK_get; exact Hs' | exact Hutil | exact Nu].
    Qed.
  End Traversal.
End Bnd.

(** One traversal, unsampled or chance-sampled, every oracle, from any state [StOK]. *)
Theorem vrec_float_ok : forall (e : Z) (Mx Ms : nat),
  (-1074 <= e)%Z ->
  (Z.of_nat Mx < 2 ^ 53)%Z -> INR Mx * bpow radix2 e < bpow radix2 emax ->
  (Z.of_nat Ms < 2 ^ 53)%Z ->
  forall (chance : list (list float)) (sampled : bool) (draw : @oracle FNum) (pass : N),
  TblOK chance ->
  forall n : node, PayOK (bpow radix2 e) n ->
  VPf e Mx Ms (@vrec FNum chance sampled draw pass) n.
Proof.
  intros e Mx Ms He HMx Hov HMs chance sampled draw pass Hch. apply PayOK_ind'.
  - intros x Hxf HxB pc p1 p2 st mr ms Hpc Hp1 Hp2 Hst HL HR HS.
    rewrite fvrec_Term. cbn [fst snd nleaves rcount scount].
    apply (bnd_StOK_weaken e 1 mr ms); [|exact Hst|lia].
    split; [exact Hxf|]. cbn [INR]. rewrite Rmult_1_l. exact HxB.
  - intros ci kids _ HK pc p1 p2 st mr ms Hpc Hp1 Hp2 Hst HL HR HS.
    rewrite fvrec_Chance. cbn [nleaves rcount scount] in HL, HR, HS |- *.
    destruct sampled.
    + apply (fpick_ok e He Mx HMx Hov Ms _ pc p1 p2 st mr ms kids); (assumption || lia).
    + apply (fgo_chance_ok e He Mx HMx Hov Ms _ pc p1 p2 kids HK Hpc Hp1 Hp2
               (@row FNum chance ci) 0%float st O mr ms);
        [apply row_fin01; exact Hch | apply bnd_zero | exact Hst | lia].
  - intros pl i kids _ HK pc p1 p2 st mr ms Hpc Hp1 Hp2 Hst HL HR HS.
    rewrite fvrec_Player. cbv zeta.
    cbn [nleaves rcount scount] in HL, HR, HS |- *.
    set (ri := @ri_get FNum st pl i).
    assert (Hri : RiOK e mr ms ri) by (apply StOK_get; exact Hst).
    set (mine := if pl then p1 else p2).
    assert (Hmine : fin01 mine) by (unfold mine; destruct pl; assumption).
    set (mult := if pl then (pc * p2)%float else (- p1 * pc)%float).
    assert (Hmult : fin11 mult).
    { unfold mult. destruct pl.
      - apply fin01_fin11. apply mul_reach; assumption.
      - apply fin11_mul; [apply fin11_opp|]; apply fin01_fin11; assumption. }
    set (st0 := @ri_set FNum st pl i _).
    assert (Hst0 : StOK e mr (S ms) st0).
    { apply StOK_set; [exact (StOK_weaken e _ _ _ _ _ Hst (le_n _) (le_S _ _ (le_n _)))|].
      apply (RiOK_cum_strat e (fun s c => (c + mine * s)%float)); [|exact Hri].
      intros s c Hs Hc. apply cs_ok_add; [exact Hc | apply mul_reach; assumption | lia]. }
    assert (Nw : (mr + Rsum kids + Lsum kids <= mr + Rsum kids + Lsum kids + Lsum kids <= Mx)%nat) by lia.
    destruct (fgo_player_ok e He Mx HMx Hov Ms _ pl i pc p1 p2 mult kids HK Hpc Hp1 Hp2 Hmult
                (strat ri) O 0%float 0%float st0 O O mr (S ms)
                (Lsum kids) (Lsum kids) (mr + Rsum kids + Lsum kids)%nat (S ms + Ssum kids)%nat
                (proj1 Hri) (bnd_zero e O) (bnd_zero e O) Hst0 ltac:(lia))
      as [G1 [G2 G3]].
    destruct (fgo_player _ _ _ _ _ _ _ _ _ _ _ _ _) as [[e1 ee] st2].
    cbn [fst snd] in G1, G2, G3 |- *.
    apply (bnd_StOK_weaken e (Lsum kids) (mr + Rsum kids + Lsum kids + Lsum kids) (S ms + Ssum kids));
      [exact G1 | | lia].
    apply StOK_set; [exact (StOK_weaken e _ _ _ _ _ G3 (proj1 Nw) (le_n _))|].
    apply (RiOK_reg_sub e He Mx HMx Hov); [apply StOK_get; exact G3 | exact G2 | exact (proj2 Nw)].
Qed.

(** ** The traversal keeps the number of infosets of either player, for every number type

    [vrec] writes the state through [ri_set] only, which replaces one element of one of the
    two lists (and nothing at all when the index is out of range).  Nothing is assumed about
    the arithmetic of [NN], about the tree or about the state. *)

Section Shape.
  Context {NN : Num}.
  Definition lens2 (st : @Solve.pstate NN) : nat * nat := (length (fst st), length (snd st)).

  Lemma ri_set_lens2 : forall (st : @Solve.pstate NN) pl i ri, lens2 (ri_set st pl i ri) = lens2 st.
  Proof.
    intros [l1 l2] pl i ri. unfold lens2, ri_set, ps_set, ps_get.
    destruct pl; cbn [fst snd]; rewrite upd_length; reflexivity.
  Qed.

  Lemma vrec_lens2 : forall chance sampled draw pass n pc p1 p2 (st : @Solve.pstate NN),
    lens2 (snd (vrec chance sampled draw pass n pc p1 p2 st)) = lens2 st.
  Proof.
    intros chance sampled draw pass.
    induction n as [x|ci kids IH|pl i kids IH] using node_ind'; intros pc p1 p2 st; cbn [vrec].
    - reflexivity.
    - destruct sampled.
      + generalize (draw true ci pass (row chance ci)).
        induction IH as [|c ks Hc _ IHks]; intros [|k]; try reflexivity; [|apply IHks].
        specialize (Hc (mul NN pc (one NN)) p1 p2 st).
        destruct (vrec _ _ _ _ c _ _ _ _). exact Hc.
      + generalize (row chance ci) (zero NN). revert st.
        induction IH as [|c ks Hc _ IHks]; intros st [|p ps] ex; try reflexivity.
        specialize (Hc (mul NN pc p) p1 p2 st).
        destruct (vrec _ _ _ _ c _ _ _ _) as [pay st']. rewrite IHks. exact Hc.
    - cbv zeta. set (st0 := ri_set st pl i _).
      match goal with |- context [?go kids _ O _ _ st0] =>
        assert (Hgo : forall ss ai e1 e s, lens2 (snd (go kids ss ai e1 e s)) = lens2 s)
      end.
      { induction IH as [|c ks Hc _ IHks]; intros [|prob ss] ai e1 e s; try reflexivity.
        destruct (if pl then _ else _) as [q1 q2].
        specialize (Hc pc q1 q2 s). destruct (vrec _ _ _ _ c _ _ _ _) as [u s'].
        rewrite IHks, ri_set_lens2. exact Hc. }
      specialize (Hgo (strat (ri_get st pl i)) O (zero NN) (zero NN) st0).
      destruct (_ kids _ O _ _ st0) as [[e1 e] st2].
      cbn [snd] in Hgo |- *. rewrite ri_set_lens2, Hgo. apply ri_set_lens2.
  Qed.
End Shape.

Lemma vanilla_iter_F_eq : forall (g : game) sampled draw p it st,
  @vanilla_iter FNum g sampled draw p it st =
  let st1 := snd (@vrec FNum (g_chance g) sampled draw (it - 1)%N (g_root g)
                        1%float 1%float 1%float st) in
  let A1 := @advance_all FNum p it it (fst st1) 0%float in
  let A2 := @advance_all FNum p it it (snd st1) 0%float in
  ((fst A1, fst A2), (snd A1, snd A2)).
Proof.
  intros g sampled draw p it st. unfold vanilla_iter. cbn [one zero FNum].
  destruct (vrec _ _ _ _ _ _ _ _ _) as [x st1]. cbn [snd].
  destruct (advance_all p it it (fst st1) 0%float), (advance_all p it it (snd st1) 0%float).
  reflexivity.
Qed.

Section Loop.
  Context (e : Z) (Mx : nat) (g : game) (N1 N2 : nat).

  Definition SInv (k : nat) (st : pstate) : Prop :=
    StOK e (k * rcount (g_root g)) (k * scount (g_root g)) st /\ lens2 st = (N1, N2).

  Definition regs_ok (regs : option (float * float)) : Prop :=
    match regs with
    | None => True
    | Some (r1, r2) => bnn e Mx r1 /\ bnn e Mx r2
    end.

  Context (m : method) (draw : @oracle FNum) (p : @params FNum) (Tb : nat).

  (** each of the first [Tb] iterations takes the state after [k] iterations to the state
      after [k + 1] and reports bounds that are finite, non-negative, at most [Mx * 2^e] *)
  Definition IterOK : Prop :=
    forall k st, (k < Tb)%nat -> SInv k st ->
    let res := @one_iter FNum g m draw p (N.of_nat (S k)) st in
    SInv (S k) (fst res) /\ bnn e Mx (fst (snd res)) /\ bnn e Mx (snd (snd res)).
End Loop.

Section Iter.
  Context (e : Z) (He : (-1074 <= e)%Z).
  Context (Mx : nat) (HMx : (Z.of_nat Mx < 2 ^ 53)%Z).
  Context (Hov : INR Mx * bpow radix2 e < bpow radix2 emax).
  Context (Ms : nat) (HMs : (Z.of_nat Ms < 2 ^ 53)%Z).
  Context (g : game) (Hch : TblOK (g_chance g)) (Hpay : PayOK (bpow radix2 e) (g_root g)).
  Context (draw : @oracle FNum).
  Context (Tb : nat) (HTb : (Z.of_nat Tb < 2 ^ 53)%Z).
  Context (p : @params FNum) (Hns : nosoftmax p).
  Context (Hdisc : forall k : nat, (k < Tb)%nat -> disc_ok p (N.of_nat (S k)) (N.of_nat (S k))).

  (** either player has at most [Nm >= 1] infosets *)
  Context (N1 N2 Nm : nat) (HNm : (1 <= Nm)%nat) (HN1 : (N1 <= Nm)%nat) (HN2 : (N2 <= Nm)%nat).

  Local Notation Rr := (rcount (g_root g)).
  Local Notation Sr := (scount (g_root g)).

  Context (HcapL : (nleaves (g_root g) <= Mx)%nat).
  Context (HcapR : (2 * Nm * (Tb * Rr) <= Mx)%nat).
  Context (HcapS : (Tb * Sr <= Ms)%nat).

  Local Notation SInv := (SInv e g N1 N2).

  Lemma iter_caps : forall k, (k < Tb)%nat ->
    (k * Rr + Rr <= S k * Rr <= Mx /\ k * Sr + Sr <= S k * Sr <= Ms)%nat /\
    (Z.of_nat (k * Sr) < 2 ^ 53 /\ Z.of_nat (S k * Sr) < 2 ^ 53)%Z.
  Proof.
    intros k Hk.
    assert (1 * (S k * Rr) <= Nm * (Tb * Rr))%nat
      by (apply Nat.mul_le_mono; [exact HNm | apply Nat.mul_le_mono_r; exact Hk]).
    assert (S k * Sr <= Tb * Sr)%nat by (apply Nat.mul_le_mono_r; exact Hk).
    lia.
  Qed.

  (** [advance_all] over the at most [Nm] infosets of one player in iteration [k + 1]:
      each contributes at most [2 * (k+1) * Rr * 2^e] to the reported bound *)
  Lemma advance_all_iter : forall k ia (l : list rinfo) ms,
    (k < Tb)%nat -> disc_ok p (N.of_nat (S k)) ia -> Forall (RiOK e (S k * Rr) ms) l ->
    (length l <= Nm)%nat -> (Z.of_nat ms < 2 ^ 53)%Z ->
    let A := @advance_all FNum p (N.of_nat (S k)) ia l 0%float in
    Forall (RiOK e (S k * Rr) ms) (fst A) /\ length (fst A) = length l /\ bnn e Mx (snd A).
  Proof.
    intros k ia l ms Hk Hd Hl HN Hms A.
    assert (Hcap : (0 + length l * (2 * (S k * Rr)) <= Mx)%nat).
    { assert (length l * (S k * Rr) <= Nm * (Tb * Rr))%nat
        by (apply Nat.mul_le_mono; [exact HN | apply Nat.mul_le_mono_r; exact Hk]).
      lia. }
    destruct (advance_all_ok e He Mx HMx Hov p (N.of_nat (S k)) ia _ ms Hns Hd Hms ltac:(lia)
                ltac:(rewrite nat_N_Z; lia) l 0%float O Hl (bnn_zero e O) Hcap) as [A1 [A2 A3]].
    split; [exact A1|]. split; [exact A2|]. exact (bnn_weaken e _ _ _ A3 Hcap).
  Qed.

  Lemma vanilla_iter_ok : forall sampled k st,
    (k < Tb)%nat -> SInv k st ->
    let res := @vanilla_iter FNum g sampled draw p (N.of_nat (S k)) st in
    SInv (S k) (fst res) /\ bnn e Mx (fst (snd res)) /\ bnn e Mx (snd (snd res)).
  Proof.
    intros sampled k st Hk [Hst Hlen] res. unfold res. clear res.
    rewrite vanilla_iter_F_eq. cbv zeta. cbn [fst snd].
    generalize (N.of_nat (S k) - 1)%N. intros pass.
    destruct (iter_caps k Hk) as [[[Nr Nr'] [Ns Ns']] [_ Hms]].
    pose proof (vrec_float_ok e Mx Ms He HMx Hov HMs (g_chance g) sampled draw pass Hch
                  (g_root g) Hpay 1%float 1%float 1%float st (k * Rr)%nat (k * Sr)%nat
                  fin01_one fin01_one fin01_one Hst HcapL
                  (Nat.le_trans _ _ _ Nr Nr') (Nat.le_trans _ _ _ Ns Ns')) as [_ Hst1].
    pose proof (vrec_lens2 (g_chance g) sampled draw pass (g_root g)
                  1%float 1%float 1%float st) as Hlen1.
    rewrite Hlen in Hlen1. unfold lens2 in Hlen1. injection Hlen1 as HL1 HL2.
    destruct (StOK_weaken e _ _ (S k * Rr) (S k * Sr) _ Hst1 Nr Ns) as [HA HB].
    destruct (advance_all_iter k _ _ _ Hk (Hdisc k Hk) HA ltac:(rewrite HL1; exact HN1) Hms)
      as [A1 [A2 A3]].
    destruct (advance_all_iter k _ _ _ Hk (Hdisc k Hk) HB ltac:(rewrite HL2; exact HN2) Hms)
      as [B1 [B2 B3]].
    split; [split; [split; assumption|] | split; assumption].
    unfold lens2. cbn [fst snd]. exact (f_equal2 pair (eq_trans A2 HL1) (eq_trans B2 HL2)).
  Qed.

  Lemma one_iter_ok : forall m, m <> External -> IterOK e Mx g N1 N2 m draw p Tb.
  Proof.
    intros m Hm k st Hk Hst.
    destruct m; [apply vanilla_iter_ok; assumption | apply vanilla_iter_ok; assumption | contradiction].
  Qed.
End Iter.

Definition arity_small (pi : pinfo) : Prop := (Z.of_nat (length (pi_actions pi)) < 2 ^ 53)%Z.

Definition arities_small (g : game) : Prop :=
  Forall arity_small (g_infos1 g) /\ Forall arity_small (g_infos2 g).

Lemma rinfo_new_ok : forall (e : Z) (n : nat), (Z.of_nat n < 2 ^ 53)%Z ->
  RiOK e 0 0 (@rinfo_new FNum n).
Proof.
  intros e n Hn. unfold RiOK, rinfo_new, small. cbn [strat cum_regret cum_strat].
  rewrite !repeatT_length.
  split; [|split; [|split; [|split; exact Hn]]].
  - destruct n as [|n]; [constructor|]. apply Forall_repeatT.
    change (fin01 (1 / f_of_N (N.of_nat (S n)))%float).
    destruct (of_N_ok (S n) Hn) as [Hf Hv].
    assert (H1 : 1 <= INR (S n)) by (rewrite S_INR; assert (H := pos_INR n); lra).
    apply (div_part_ok 1%float _ Ffin_one Hf); rewrite ?FR_one, ?Hv; lra.
  - apply Forall_repeatT. apply bnd_zero.
  - apply Forall_repeatT. split; [apply Ffin_zero|]. change (zero FNum) with 0%float.
    rewrite FR_zero. cbn. lra.
Qed.

Lemma init_state_ok : forall (e : Z) (g : game), arities_small g ->
  StOK e 0 0 (@init_state FNum g) /\
  lens2 (@init_state FNum g) = (length (g_infos1 g), length (g_infos2 g)).
Proof.
  intros e g [H1 H2]. unfold init_state, StOK, lens2. cbn [fst snd]. rewrite !map_length.
  split; [|reflexivity].
  split; apply Forall_map; [apply Forall_impl with (2 := H1) | apply Forall_impl with (2 := H2)];
    intros pi Hpi; apply rinfo_new_ok; exact Hpi.
Qed.

Lemma avg_strats_ok : forall (e : Z) (mr ms : nat) (l : list rinfo),
  Forall (RiOK e mr ms) l ->
  Forall fin01 (concat (map (fun ri => @avg_strat FNum (cum_strat ri)) l)).
Proof.
  intros e mr ms l Hl. apply Forall_concat, Forall_map. apply Forall_impl with (2 := Hl).
  intros ri (_ & _ & K3 & _ & K5). apply avg_strat_float_valid; [|exact K5].
  apply Forall_impl with (2 := K3). intros a Ha. apply (cs_ok_finnn ms a Ha).
Qed.

Lemma final_strats_ok : forall (e : Z) (mr ms : nat) (st : pstate),
  StOK e mr ms st ->
  Forall fin01 (fst (@final_strats FNum st)) /\ Forall fin01 (snd (@final_strats FNum st)).
Proof.
  intros e mr ms st [H1 H2].
  split; [exact (avg_strats_ok e mr ms _ H1) | exact (avg_strats_ok e mr ms _ H2)].
Qed.

(** the number that has to stay below [2^53] and, times [2^e], below [2^1024]:
    [max (leaves, 2 * max(1, #infosets of a player) * budget * rcount)] *)
Definition reg_cap (g : game) (budget : nat) : nat :=
  Nat.max (nleaves (g_root g))
          (2 * Nat.max 1 (Nat.max (length (g_infos1 g)) (length (g_infos2 g)))
           * (budget * rcount (g_root g))).

Definition res_ok (e : Z) (cap : nat)
           (res : (list float * list float) * option (float * float) * N) : Prop :=
  Forall fin01 (fst (fst (fst res))) /\
  Forall fin01 (snd (fst (fst res))) /\
  match snd (fst res) with
  | None => True
  | Some (r1, r2) =>
      (Ffin r1 /\ 0 <= FR r1 <= INR cap * bpow radix2 e) /\
      (Ffin r2 /\ 0 <= FR r2 <= INR cap * bpow radix2 e)
  end.

(** The whole solve, for any method whose iterations keep the invariant with the cap
    [reg_cap g budget]: from the initial state the loop ends in the state after some
    [k <= budget] iterations. *)
Section Solve.
  Context (g : game) (m : method) (draw : @oracle FNum) (p : @params FNum).
  Context (budget : nat) (stop : float -> bool) (e : Z).
  Context (Har : arities_small g).
  Context (Hiter : IterOK e (reg_cap g budget) g (length (g_infos1 g)) (length (g_infos2 g))
                          m draw p budget).

  Local Notation L := (@solve_loop FNum g m draw p stop budget 1%N (@init_state FNum g) None 0%N).

  Lemma solve_loop_inv :
    (exists k : nat, (k <= budget)%nat /\
       StOK e (k * rcount (g_root g)) (k * scount (g_root g)) (fst (fst L))) /\
    regs_ok e (reg_cap g budget) (snd (fst L)).
  Proof.
    destruct L as [[st regs] ran] eqn:E. cbn [fst snd].
    (* iteration number [j = k + 1] starts in the state after [k] iterations *)
    apply (Lloop_inv g m draw p
             (fun j s => exists k, j = N.of_nat (S k) /\
                                   SInv e g (length (g_infos1 g)) (length (g_infos2 g)) k s)
             (fun _ r1 r2 => bnn e (reg_cap g budget) r1 /\ bnn e (reg_cap g budget) r2)) in E.
    - destruct E as [(_ & -> & -> & _)|(b1 & b2 & -> & Hr & (k & Hk & [Hst _]) & HQ & _)].
      + split; [exists O; split; [lia | apply init_state_ok, Har] | exact I].
      + split; [exists k; split; [lia | exact Hst] | exact HQ].
    - intros j s s1 r1 r2 Hj (k & -> & HI) E1.
      pose proof (Hiter k s ltac:(lia) HI) as H. rewrite E1 in H.
      destruct H as [H1 H23]. split; [exists (S k); split; [lia | exact H1] | exact H23].
    - exists O. split; [reflexivity | apply init_state_ok, Har].
  Qed.

  Lemma solve_single_res_ok :
    res_ok e (reg_cap g budget) (@solve_single FNum g m draw p budget stop).
  Proof.
    destruct solve_loop_inv as [[k [_ Hst]] Hregs]. unfold res_ok, solve_single.
    destruct L as [[st regs] ran]. cbn [fst snd] in Hst, Hregs |- *.
    destruct (final_strats_ok e _ _ st Hst) as [F1 F2].
    split; [exact F1|]. split; [exact F2|].
    destruct regs as [[r1 r2]|]; [|exact I].
    destruct Hregs as [R1 R2]. split; apply bnn_range; assumption.
  Qed.

  Lemma solve_loop_state :
    exists k : nat, (k <= budget)%nat /\
      forall (pl : bool) (i : nat),
        let ri := @ri_get FNum (fst (fst L)) pl i in
        Forall fin01 (strat ri) /\
        Forall (fun x => Ffin x /\ Rabs (FR x) <= INR (k * rcount (g_root g)) * bpow radix2 e)
               (cum_regret ri) /\
        Forall (fun x => Ffin x /\ 0 <= FR x <= INR (k * scount (g_root g))) (cum_strat ri).
  Proof.
    destruct solve_loop_inv as [[k [Hk Hst]] _].
    exists k. split; [exact Hk|]. intros pl i ri.
    destruct (StOK_get e _ _ _ pl i Hst) as (K1 & K2 & K3 & _ & _).
    split; [exact K1|]. split; [exact K2|].
    apply Forall_impl with (2 := K3). intros x [Hf Hx]. split; [exact Hf|].
    rewrite INR_IZR_INZ. exact Hx.
  Qed.
End Solve.

Lemma one_iter_ok_cap :
  forall (g : game) (m : method) (draw : @oracle FNum) (p : @params FNum) (budget : nat) (e : Z),
  m <> External ->
  nosoftmax p ->
  (forall k : nat, (k < budget)%nat -> disc_ok p (N.of_nat (S k)) (N.of_nat (S k))) ->
  TblOK (g_chance g) ->
  (-1074 <= e)%Z ->
  PayOK (bpow radix2 e) (g_root g) ->
  (Z.of_nat budget < 2 ^ 53)%Z ->
  (Z.of_nat (budget * scount (g_root g)) < 2 ^ 53)%Z ->
  (Z.of_nat (reg_cap g budget) < 2 ^ 53)%Z ->
  INR (reg_cap g budget) * bpow radix2 e < bpow radix2 emax ->
  IterOK e (reg_cap g budget) g (length (g_infos1 g)) (length (g_infos2 g)) m draw p budget.
Proof.
  intros g m draw p budget e Hm Hns Hdisc Hch He Hpay HT HS HMx Hov.
  apply (one_iter_ok e He _ HMx Hov _ HS g Hch Hpay draw budget HT p Hns Hdisc _ _
           (Nat.max 1 (Nat.max (length (g_infos1 g)) (length (g_infos2 g)))));
    [lia | lia | lia | apply Nat.le_max_l | apply Nat.le_max_r | apply le_n | exact Hm].
Qed.

Theorem solve_single_float_valid_params :
  forall (g : @Tree.game FNum) (m : method) (draw : @oracle FNum) (p : @params FNum)
         (budget : nat) (stop : float -> bool) (e : Z),
  m <> External ->
  nosoftmax p ->
  (forall k : nat, (k < budget)%nat -> disc_ok p (N.of_nat (S k)) (N.of_nat (S k))) ->
  TblOK (g_chance g) ->
  arities_small g ->
  (-1074 <= e)%Z ->
  PayOK (bpow radix2 e) (g_root g) ->
  (Z.of_nat budget < 2 ^ 53)%Z ->
  (Z.of_nat (budget * scount (g_root g)) < 2 ^ 53)%Z ->
  (Z.of_nat (reg_cap g budget) < 2 ^ 53)%Z ->
  INR (reg_cap g budget) * bpow radix2 e < bpow radix2 emax ->
  res_ok e (reg_cap g budget) (@solve_single FNum g m draw p budget stop).
Proof.
  intros g m draw p budget stop e Hm Hns Hdisc Hch Har He Hpay HT HS HMx Hov.
  apply solve_single_res_ok; [exact Har | apply one_iter_ok_cap; assumption].
Qed.

Lemma nosoftmax_vanilla : nosoftmax (@p_vanilla FNum).
Proof. reflexivity. Qed.

Lemma disc_ok_vanilla : forall it ia : N, disc_ok (@p_vanilla FNum) it ia.
Proof.
  intros it ia. split; [exact fin01_one|]. split; [exact fin01_one|].
  unfold strat_factor_ok. cbn [a_strat p_vanilla]. intros H.
  assert (E : PrimFloat.ltb 0 (zero FNum) = false) by reflexivity.
  rewrite E in H. discriminate H.
Qed.

(** The vanilla parameters.  [reg_cap g budget * 2^e < 2^1024] (with [reg_cap g budget < 2^53])
    is the explicit form of "T * c(tree) * B is within range". *)
Theorem solve_single_float_valid :
  forall (g : @Tree.game FNum) (m : method) (draw : @oracle FNum) (budget : nat)
         (stop : float -> bool) (e : Z),
  m <> External ->
  TblOK (g_chance g) ->
  arities_small g ->
  (-1074 <= e)%Z ->
  PayOK (bpow radix2 e) (g_root g) ->
  (Z.of_nat budget < 2 ^ 53)%Z ->
  (Z.of_nat (budget * scount (g_root g)) < 2 ^ 53)%Z ->
  (Z.of_nat (reg_cap g budget) < 2 ^ 53)%Z ->
  INR (reg_cap g budget) * bpow radix2 e < bpow radix2 emax ->
  res_ok e (reg_cap g budget) (@solve_single FNum g m draw (@p_vanilla FNum) budget stop).
Proof.
  intros g m draw budget stop e Hm.
  apply (solve_single_float_valid_params g m draw (@p_vanilla FNum) budget stop e Hm
           nosoftmax_vanilla).
  intros k _. apply disc_ok_vanilla.
Qed.

(** CFR+: factors 1 (positive regrets), 0 (negative regrets), (t/(t+1))^2, one-hot
    fallback: closed form, no transcendental function *)

Lemma fpow_2_fin01 : forall x : float, fin01 x -> fin01 (fpow x 2).
Proof.
  intros x Hx. assert (Hx' := Hx). destruct Hx' as [Hf [H0 H1]].
  rewrite fpow_unfold.
  change (PrimFloat.eqb 2 0) with false.
  destruct (PrimFloat.eqb x 1); [exact fin01_one|].
  rewrite (f_is_nan_fin x Hf). change (f_is_nan 2) with false. cbn [orb].
  destruct (PrimFloat.eqb x 0).
  - change (PrimFloat.ltb 0 2) with true. exact fin01_zero.
  - rewrite (ltb_fin x 0 Hf Ffin_zero), FR_zero, Rlt_bool_false by exact H0.
    change (PrimFloat.eqb 2 1) with false. change (PrimFloat.eqb 2 2) with true.
    apply mul_reach; exact Hx.
Qed.

Lemma strat_ratio_fin01 : forall it : N, (Z.of_N it + 1 < 2 ^ 53)%Z ->
  fin01 (f_of_N it / (f_of_N it + 1))%float.
Proof.
  intros it Hit.
  assert (Hk : it = N.of_nat (N.to_nat it)) by (rewrite N2Nat.id; reflexivity).
  rewrite Hk.
  assert (Hn : (Z.of_nat (N.to_nat it) < 2 ^ 53)%Z) by (rewrite N_nat_Z; lia).
  destruct (of_N_ok (N.to_nat it) Hn) as [Hf Hv].
  set (f := f_of_N (N.of_nat (N.to_nat it))) in *.
  assert (Hb : 0 <= FR f <= IZR (Z.of_nat (N.to_nat it))).
  { rewrite Hv, INR_IZR_INZ. split; [apply IZR_le; lia | lra]. }
  destruct (add_step f 1%float (Z.of_nat (N.to_nat it)) Hf fin01_one Hb ltac:(lia)
              ltac:(rewrite N_nat_Z; lia)) as [Hsf [_ [H1 [H2 _]]]].
  rewrite FR_one in H2.
  apply (div_part_ok f (f + 1)%float Hf Hsf); [split; [apply Hb | exact H1] | lra].
Qed.

Lemma nosoftmax_cfr_plus : nosoftmax (@p_cfr_plus FNum).
Proof. exact I. Qed.

Lemma disc_ok_cfr_plus : forall it ia : N, (Z.of_N ia + 1 < 2 ^ 53)%Z ->
  disc_ok (@p_cfr_plus FNum) it ia.
Proof.
  intros it ia Hia. split; [exact fin01_one|]. split; [exact fin01_zero|].
  unfold strat_factor_ok. cbn [a_strat p_cfr_plus]. intros _.
  change (@two FNum) with 2%float.
  apply fpow_2_fin01. apply strat_ratio_fin01. exact Hia.
Qed.

Theorem solve_single_float_valid_cfr_plus :
  forall (g : @Tree.game FNum) (m : method) (draw : @oracle FNum) (budget : nat)
         (stop : float -> bool) (e : Z),
  m <> External ->
  TblOK (g_chance g) ->
  arities_small g ->
  (-1074 <= e)%Z ->
  PayOK (bpow radix2 e) (g_root g) ->
  (Z.of_nat budget + 1 < 2 ^ 53)%Z ->
  (Z.of_nat (budget * scount (g_root g)) < 2 ^ 53)%Z ->
  (Z.of_nat (reg_cap g budget) < 2 ^ 53)%Z ->
  INR (reg_cap g budget) * bpow radix2 e < bpow radix2 emax ->
  res_ok e (reg_cap g budget) (@solve_single FNum g m draw (@p_cfr_plus FNum) budget stop).
Proof.
  intros g m draw budget stop e Hm Hch Har He Hpay HT.
  apply (solve_single_float_valid_params g m draw (@p_cfr_plus FNum) budget stop e Hm
           nosoftmax_cfr_plus); try assumption; [|lia].
  intros k Hk. apply disc_ok_cfr_plus. rewrite nat_N_Z. lia.
Qed.

Corollary vrec_float_finite : forall (e : Z) (Mx Ms : nat),
  (-1074 <= e)%Z ->
  (Z.of_nat Mx < 2 ^ 53)%Z -> INR Mx * bpow radix2 e < bpow radix2 emax ->
  (Z.of_nat Ms < 2 ^ 53)%Z ->
  forall (chance : list (list float)) (sampled : bool) (draw : @oracle FNum) (pass : N),
  TblOK chance ->
  forall n : node, PayOK (bpow radix2 e) n ->
  forall (pc p1 p2 : float) (st : pstate) (mr ms : nat),
  fin01 pc -> fin01 p1 -> fin01 p2 -> StOK e mr ms st ->
  (nleaves n <= Mx)%nat -> (mr + rcount n <= Mx)%nat -> (ms + scount n <= Ms)%nat ->
  let r := @vrec FNum chance sampled draw pass n pc p1 p2 st in
  Ffin (fst r) /\ Rabs (FR (fst r)) <= INR (nleaves n) * bpow radix2 e /\
  StOK e (mr + rcount n) (ms + scount n) (snd r).
Proof.
  intros e Mx Ms He HMx Hov HMs chance sampled draw pass Hch n Hpay pc p1 p2 st mr ms
         Hpc Hp1 Hp2 Hst HL HR HS r.
  destruct (vrec_float_ok e Mx Ms He HMx Hov HMs chance sampled draw pass Hch n Hpay
              pc p1 p2 st mr ms Hpc Hp1 Hp2 Hst HL HR HS) as [[Hf Hb] Hs].
  split; [exact Hf|]. split; [exact Hb | exact Hs].
Qed.

Theorem solve_loop_float_state :
  forall (g : @Tree.game FNum) (m : method) (draw : @oracle FNum) (p : @params FNum)
         (budget : nat) (stop : float -> bool) (e : Z),
  m <> External ->
  nosoftmax p ->
  (forall k : nat, (k < budget)%nat -> disc_ok p (N.of_nat (S k)) (N.of_nat (S k))) ->
  TblOK (g_chance g) ->
  arities_small g ->
  (-1074 <= e)%Z ->
  PayOK (bpow radix2 e) (g_root g) ->
  (Z.of_nat budget < 2 ^ 53)%Z ->
  (Z.of_nat (budget * scount (g_root g)) < 2 ^ 53)%Z ->
  (Z.of_nat (reg_cap g budget) < 2 ^ 53)%Z ->
  INR (reg_cap g budget) * bpow radix2 e < bpow radix2 emax ->
  let st := fst (fst (@solve_loop FNum g m draw p stop budget 1%N (@init_state FNum g) None 0%N)) in
  exists k : nat, (k <= budget)%nat /\
    forall (pl : bool) (i : nat),
      let ri := @ri_get FNum st pl i in
      Forall fin01 (strat ri) /\
      Forall (fun x => Ffin x /\ Rabs (FR x) <= INR (k * rcount (g_root g)) * bpow radix2 e)
             (cum_regret ri) /\
      Forall (fun x => Ffin x /\ 0 <= FR x <= INR (k * scount (g_root g))) (cum_strat ri).
Proof.
  intros g m draw p budget stop e Hm Hns Hdisc Hch Har He Hpay HT HS HMx Hov.
  apply solve_loop_state; [exact Har | apply one_iter_ok_cap; assumption].
Qed.

(** [e <= 971 = 1024 - 53] suffices for the overflow condition *)
Lemma cap_no_overflow : forall (m : nat) (e : Z),
  (Z.of_nat m < 2 ^ 53)%Z -> (e <= 971)%Z -> INR m * bpow radix2 e < bpow radix2 emax.
Proof.
  intros m e Hm He.
  apply Rlt_le_trans with (bpow radix2 53 * bpow radix2 e).
  - apply Rmult_lt_compat_r; [apply bpow_gt_0|].
    rewrite INR_IZR_INZ. change (bpow radix2 53) with (IZR (2 ^ 53)). apply IZR_lt. exact Hm.
  - rewrite <- bpow_plus. apply bpow_le. change emax with 1024%Z. lia.
Qed.

Lemma res_ok_finnn : forall e cap res, res_ok e cap res ->
  Forall fin01 (fst (fst (fst res))) /\
  Forall fin01 (snd (fst (fst res))) /\
  match snd (fst res) with
  | None => True
  | Some (r1, r2) => finnn r1 /\ finnn r2
  end.
Proof.
  intros e cap res (F1 & F2 & F3). split; [exact F1|]. split; [exact F2|].
  destruct (snd (fst res)) as [[r1 r2]|]; [|exact I].
  destruct F3 as [[A1 [A2 _]] [B1 [B2 _]]]. split; split; assumption.
Qed.

(** chance (1/2, 1/2): a 2x2 matrix game (payoffs 2, -1, -1, 1) or the payoff 3 *)
Definition exs_root : node :=
  @Chance FNum 0
    [ @Player FNum true 0
        [ @Player FNum false 0 [ @Term FNum 2%float; @Term FNum (-1)%float ];
          @Player FNum false 0 [ @Term FNum (-1)%float; @Term FNum 1%float ] ];
      @Term FNum 3%float ].
Definition exs_g : game :=
  @mkGame FNum [[0.5; 0.5]%float] [mkPinfo 0%N [0%N; 1%N] None] [mkPinfo 0%N [0%N; 1%N] None]
          [] [] exs_root.
Definition exs_draw : @oracle FNum := fun _ _ _ _ => O.

Example exs_shape :
  nleaves exs_root = 5%nat /\ rcount exs_root = 16%nat /\ scount exs_root = 3%nat /\
  reg_cap exs_g 10 = 320%nat.
Proof. repeat split; reflexivity. Qed.

Example exs_run :
  @solve_single FNum exs_g Full exs_draw (@p_vanilla FNum) 10 (fun _ => false) =
  (* = ([0.4036...; 0.5963...], [0.5833...; 0.4166...], Some (0.3932..., 0.1639...), 10) *)
  (([0x1.9d505b9c2bc46p-2; 0x1.3157d231ea1dep-1]%float,
    [0x1.2aaaaaaaaaaaap-1; 0x1.aaaaaaaaaaaabp-2]%float),
   Some (0x1.92b997d6275d6p-2, 0x1.4fce3ec460568p-3)%float, 10%N).
Proof. vm_compute. reflexivity. Qed.

Lemma FR_four : Ffin 4%float /\ FR 4%float = bpow radix2 2.
Proof.
  replace 4%float with (f_of_N (N.of_nat 4)) by (vm_compute; reflexivity).
  destruct (of_N_ok 4 ltac:(cbv; reflexivity)) as [Hf Hv].
  split; [exact Hf|]. rewrite Hv. change (bpow radix2 2) with (IZR (Z.pow_pos 2 2)).
  rewrite INR_IZR_INZ. reflexivity.
Qed.

Lemma exs_TblOK : TblOK (g_chance exs_g).
Proof. apply tblokb_spec. vm_compute. reflexivity. Qed.

Lemma exs_arities : arities_small exs_g.
Proof. split; repeat constructor; unfold arity_small; cbn; lia. Qed.

Lemma exs_PayOK : PayOK (bpow radix2 2) (g_root exs_g).
Proof.
  destruct FR_four as [H4f H4]. rewrite <- H4.
  apply payokb_spec; [exact H4f | vm_compute; reflexivity].
Qed.

Lemma exs_caps :
  (Z.of_nat (10 * scount (g_root exs_g)) < 2 ^ 53)%Z /\ (Z.of_nat (reg_cap exs_g 10) < 2 ^ 53)%Z /\
  INR (reg_cap exs_g 10) * bpow radix2 2 < bpow radix2 emax.
Proof.
  split; [reflexivity|]. split; [reflexivity|]. apply cap_no_overflow; [reflexivity | lia].
Qed.

Example exs_valid :
  let res := @solve_single FNum exs_g Full exs_draw (@p_vanilla FNum) 10 (fun _ => false) in
  Forall fin01 (fst (fst (fst res))) /\ Forall fin01 (snd (fst (fst res))) /\
  match snd (fst res) with None => True | Some (r1, r2) => finnn r1 /\ finnn r2 end.
Proof.
  apply (res_ok_finnn 2 (reg_cap exs_g 10)).
  apply solve_single_float_valid;
    [discriminate | exact exs_TblOK | exact exs_arities | lia | exact exs_PayOK | lia
    | apply exs_caps..].
Qed.

(** The range condition cannot be dropped (finding D13): with payoffs of magnitude [2^1023]
    the cumulative regret overflows, [inf - inf] follows, and after six iterations the
    strategy of player one is NaN. *)
Definition exs_big : float := 0x1p+1023%float.
Definition exs_root_big : node :=
  @Player FNum true 0
    [ @Player FNum false 0 [ @Term FNum exs_big; @Term FNum (- exs_big)%float ];
      @Player FNum false 0 [ @Term FNum (- exs_big)%float; @Term FNum (exs_big / 2)%float ] ].
Definition exs_g_big : game :=
  @mkGame FNum [] [mkPinfo 0%N [0%N; 1%N] None] [mkPinfo 0%N [0%N; 1%N] None] [] [] exs_root_big.

Example exs_overflow :
  fst (fst (fst (@solve_single FNum exs_g_big Full exs_draw (@p_vanilla FNum) 6 (fun _ => false))))
  = [nan; nan]%float.
Proof. vm_compute. reflexivity. Qed.

