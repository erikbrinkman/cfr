(** * ExternalProofs: the multi-threaded external-sampling solver equals the
    single-threaded one under pinned draws (property C07).  [ext_cut_lemma_gen]: any
    antichain of the sampled tree may be cut off as tasks; [ext_frontier_ok],
    [ext_frontier_terminates]: [thread_threshold] returns one and its loop exits;
    hence [ext_multi_pass_eq], [solve_ext_multi_eq_single].  [unique_visit],
    [multi_unique_visit]: each active infoset is entered at most once per pass;
    [one_draw_per_cell]: a pass consults the oracle once per cell. *)
From Coq Require Import Reals List Lra Lia Bool Arith NArith Permutation.
From Cfr.theories Require Import Num ListAux RInst Tree GameWF Strat Eval Solve SolveValidProofs
     ExtIncr ExternalMulti.
Import ListNotations.

Local Notation nodeR := (@node RNum).
Local Notation gameR := (@game RNum).
Local Notation pstateR := (@pstate RNum).
Local Notation rinfoR := (@rinfo RNum).
Local Notation oracleR := (@oracle RNum).

Lemma gotr_NoDup {E} (f : nat -> nodeR -> list E) ks ss a :
  (forall j c, nth_error ks j = Some c -> NoDup (f (a + j)%nat c)) ->
  (forall j j' c c' x, j <> j' -> nth_error ks j = Some c -> nth_error ks j' = Some c' ->
                       In x (f (a + j)%nat c) -> In x (f (a + j')%nat c') -> False) ->
  NoDup (gotr f ks ss a).
Proof.
  revert ss a; induction ks as [|c ks IH]; intros [|p ss] a H1 H2; cbn [gotr]; try constructor.
  apply NoDup_app_iff. split; [|split].
  - specialize (H1 O c eq_refl). now rewrite Nat.add_0_r in H1.
  - apply IH.
    + intros j c' Hj. specialize (H1 (S j) c' Hj). now rewrite Nat.add_succ_r in H1.
    + intros j j' c1 c2 x Hne Hj Hj' Hx Hx'.
      apply (H2 (S j) (S j') c1 c2 x); try assumption; try congruence;
        now rewrite Nat.add_succ_r.
  - intros x Hx Hg. apply gotr_In in Hg. destruct Hg as (j & c' & Hj & _ & Hx').
    apply (H2 O (S j) c c' x); try assumption; try reflexivity; try congruence.
    + now rewrite Nat.add_0_r.
    + now rewrite Nat.add_succ_r.
Qed.

Definition hist := list (nat * nat)%type.

Definition hgo (pl : bool) (i : nat) (h1 h2 : hist) :=
  fix go (ks : list nodeR) (a : nat) {struct ks} : list (bool * nat * hist)%type :=
    match ks with
    | [] => []
    | k :: r =>
        @hists RNum k (if pl then h1 ++ [(i, a)] else h1) (if pl then h2 else h2 ++ [(i, a)])
        ++ go r (S a)
    end.

Lemma hists_Term x h1 h2 : @hists RNum (Term x) h1 h2 = [].
Proof. reflexivity. Qed.

Lemma hists_Chance ci kids h1 h2 :
  @hists RNum (Chance ci kids) h1 h2 = flat_map (fun k => @hists RNum k h1 h2) kids.
Proof. cbn [hists]. induction kids as [|k r IH]; cbn [flat_map]; [reflexivity|]. now rewrite IH. Qed.

Lemma hists_Player pl i kids h1 h2 :
  @hists RNum (Player pl i kids) h1 h2 = (pl, i, if pl then h1 else h2) :: hgo pl i h1 h2 kids O.
Proof. reflexivity. Qed.

Lemma hgo_In (pl : bool) i (h1 h2 : hist) ks a j c x :
  nth_error ks j = Some c ->
  In x (@hists RNum c (if pl then h1 ++ [(i, (a + j)%nat)] else h1)
               (if pl then h2 else h2 ++ [(i, (a + j)%nat)])) ->
  In x (hgo pl i h1 h2 ks a).
Proof.
  revert a j; induction ks as [|k r IH]; intros a [|j] Hj Hx; cbn [nth_error] in Hj; try discriminate;
    cbn [hgo]; apply in_or_app.
  - injection Hj as ->. rewrite Nat.add_0_r in Hx. now left.
  - right. apply (IH (S a) j); [assumption|]. now rewrite Nat.add_succ_r in Hx.
Qed.

Lemma subtree_kid (n : nodeR) k c q :
  nth_error (e_kids_of n) k = Some c -> subtree n (k :: q) = subtree c q.
Proof. intros H. cbn [subtree]. now rewrite H. Qed.

Lemma subtree_app (n : nodeR) p q c :
  subtree n p = Some c -> subtree n (p ++ q) = subtree c q.
Proof.
  revert n; induction p as [|a p IH]; intros n H; cbn [subtree app] in *.
  - now injection H as <-.
  - destruct (nth_error (e_kids_of n) a) as [c0|]; [now apply IH|discriminate].
Qed.

Lemma flat_map_consp {F} (f : nodeR -> list F) a (L : list pnode) :
  flat_map (fun x : pnode => f (snd x)) (map (consp a) L) = flat_map (fun x : pnode => f (snd x)) L.
Proof. induction L as [|x L IH]; cbn [map flat_map consp snd]; [reflexivity|]. now rewrite IH. Qed.

Lemma In_consp a (L : list pnode) q c :
  In (q, c) (map (consp a) L) <-> exists q', q = a :: q' /\ In (q', c) L.
Proof.
  rewrite in_map_iff. split.
  - intros ([q' c'] & [= <- <-] & Hin). now exists q'.
  - intros (q' & -> & Hin). now exists (q', c).
Qed.

Lemma In_consp_pickf (f : nodeR -> list pnode) ks k q c :
  In (q, c) (map (consp k) (pickf f [] ks k)) <->
  exists q' c0, q = k :: q' /\ nth_error ks k = Some c0 /\ In (q', c) (f c0).
Proof.
  rewrite In_consp. split.
  - intros (q' & -> & Hin). apply In_pickf in Hin as (c0 & Hc & Hin). eauto.
  - intros (q' & c0 & -> & Hc & Hin). exists q'. split; [reflexivity|]. apply In_pickf. eauto.
Qed.

Lemma NoDup_map_consp a (L : list pnode) : NoDup L -> NoDup (map (consp a) L).
Proof.
  apply FinFun.Injective_map_NoDup. intros [q c] [q' c'] [= -> ->]. reflexivity.
Qed.

Lemma mapi_kids_In a ks q (c : nodeR) :
  In (q, c) (mapi_kids a ks) <-> exists j, q = [(a + j)%nat] /\ nth_error ks j = Some c.
Proof.
  revert a; induction ks as [|k r IH]; intros a; cbn [mapi_kids In].
  - split; [intros []|]. intros (j & _ & Hj). destruct j; discriminate.
  - rewrite IH. split.
    + intros [[= <- <-]|(j & -> & Hj)].
      * exists O. now rewrite Nat.add_0_r.
      * exists (S j). now rewrite Nat.add_succ_r.
    + intros ([|j] & -> & Hj); cbn [nth_error] in Hj.
      * left. injection Hj as <-. now rewrite Nat.add_0_r.
      * right. exists j. now rewrite Nat.add_succ_r.
Qed.

Lemma mapi_kids_fst a (ks : list nodeR) :
  map fst (mapi_kids a ks) = map (fun j => [j]) (seq a (length ks)).
Proof.
  revert a; induction ks as [|k r IH]; intros a; cbn [mapi_kids map fst length seq]; [reflexivity|].
  now rewrite IH.
Qed.

Section Pass.
  Context (chance : list (list R)) (draw : oracleR) (cpass ppass : N) (noff : nat) (me : bool)
          (sg : bool -> nat -> list R).

  Local Notation cdraw := (cdraw chance draw cpass).
  Local Notation pdraw := (pdraw draw ppass noff sg).
  Local Notation eval := (eval chance draw cpass ppass noff me sg).
  Local Notation etr := (etr chance draw cpass ppass noff me sg).
  Local Notation erec_cached := (erec_cached chance draw cpass ppass noff me).
  Local Notation evalc := (evalc chance draw cpass ppass noff me sg).
  Local Notation etrc := (etrc chance draw cpass ppass noff me sg).
  Local Notation efront := (efront chance draw cpass ppass noff me sg).
  Local Notation esamp := (esamp chance draw cpass ppass noff me sg).
  Local Notation next_rel := (next_rel chance draw cpass ppass noff me sg).
  Local Notation next_nodes := (next_nodes chance draw cpass ppass noff me sg).
  Local Notation tt_loop := (tt_loop chance draw cpass ppass noff me sg).

  Section Unique.
  Local Notation evisits := (evisits chance draw cpass ppass noff me sg).

  (** if [H] gives the own history of every infoset of [me] below a node, the infosets a
      pass enters below it are pairwise different, and their histories extend the own
      history the node was reached with: the pass follows every action at the nodes of
      [me] (which lengthens the own history) and one child elsewhere (which does not) *)
  Lemma evisits_hist (H : nat -> hist) n :
    forall h1 h2,
      (forall i h, In (me, i, h) (@hists RNum n h1 h2) -> h = H i) ->
      NoDup (evisits n) /\
      forall i, In i (evisits n) -> exists t, H i = (if me then h1 else h2) ++ t.
  Proof.
    assert (Hnil : forall h : hist, NoDup (@nil nat) /\ forall i, In i [] -> exists t, H i = h ++ t).
    { intros h. split; [constructor|intros i []]. }
    induction n as [x|ci kids IH|pl i kids IH] using node_nth_ind; intros h1 h2 HH;
      unfold ExtIncr.evisits; cbn [ExtIncr.etr app]; fold evisits.
    - apply Hnil.
    - rewrite pickf_nth. destruct (nth_error kids _) as [c|] eqn:Ek; [|apply Hnil].
      apply (IH _ c Ek). intros i h Hin. apply HH. rewrite hists_Chance. apply in_flat_map.
      exists c. split; [eapply nth_error_In; eauto|exact Hin].
    - rewrite hists_Player in HH.
      assert (HK : forall j c, nth_error kids j = Some c -> forall i' h,
                   In (me, i', h) (@hists RNum c (if pl then h1 ++ [(i, j)] else h1)
                                          (if pl then h2 else h2 ++ [(i, j)])) -> h = H i').
      { intros j c Hj i' h Hin. apply HH. right. exact (hgo_In pl i h1 h2 kids O j c _ Hj Hin). }
      destruct (Bool.eqb pl me) eqn:Epl.
      + apply eqb_prop in Epl. subst pl. rewrite app_nil_r.
        assert (HC : forall j c i', nth_error kids j = Some c -> In i' (evisits c ++ []) ->
                       exists t, H i' = (if me then h1 else h2) ++ [(i, j)] ++ t).
        { intros j c i' Hj Hin. rewrite app_nil_r in Hin.
          destruct (proj2 (IH j c Hj _ _ (HK j c Hj)) i' Hin) as [t Ht]. exists t.
          rewrite Ht. destruct me; rewrite <- app_assoc; reflexivity. }
        split.
        * constructor.
          -- intros Hin. apply gotr_In in Hin as (j & c & Hj & _ & Hin).
             destruct (HC j c i Hj Hin) as [t Ht]. rewrite <- (HH i _ (or_introl eq_refl)) in Ht.
             apply (f_equal (@length _)) in Ht. rewrite !app_length in Ht. cbn [length] in Ht. lia.
          -- apply gotr_NoDup.
             ++ intros j c Hj. rewrite app_nil_r. apply (IH j c Hj _ _ (HK j c Hj)).
             ++ intros j j' c c' i' Hne Hj Hj' Hx Hx'.
                destruct (HC _ _ _ Hj Hx) as [t Ht], (HC _ _ _ Hj' Hx') as [t' Ht'].
                rewrite Ht in Ht'. apply app_inv_head in Ht'. injection Ht' as Ht' _. lia.
        * intros i' [<-|Hin]; [exists []; rewrite app_nil_r; symmetry; apply HH; left; reflexivity|].
          apply gotr_In in Hin as (j & c & Hj & _ & Hin). destruct (HC j c i' Hj Hin) as [t Ht]. eauto.
      + rewrite pickf_nth. destruct (nth_error kids _) as [c|] eqn:Ek; [|apply Hnil].
        destruct (IH _ c Ek _ _ (HK _ c Ek)) as [Hnd HP]. split; [exact Hnd|].
        intros i' Hin. destruct (HP i' Hin) as [t Ht]. exists t.
        apply eqb_false_iff in Epl. destruct pl, me; try congruence; exact Ht.
  Qed.

  (** [unique_visit]: with perfect recall, each active infoset is entered at most once
      per pass.  This is why the [try_lock().unwrap()] of [ActiveRecurse for Mutex]
      cannot fire and why no infoset is re-entered below itself. *)
  Theorem unique_visit (g : gameR) :
    PerfectRecall g -> NoDup (evisits (g_root g)).
  Proof.
    intros [H HH]. apply (evisits_hist (H me) (g_root g) [] []). intros i h. apply HH.
  Qed.
  End Unique.

  Section CachedSpec.
  Local Notation eincsc := (eincsc chance draw cpass ppass noff me sg).

  Lemma erec_cached_incs_sv (n : nodeR) :
    forall cache st, SV sg st ->
      erec_cached n cache st = (evalc n cache, fold_left e_apply_incr (eincsc n cache) st).
  Proof.
    induction n as [x|ci kids IH|pl i kids IH] using node_nth_ind;
      intros cache st Hst; unfold ExternalMulti.eincsc;
      cbn [ExternalMulti.erec_cached ExternalMulti.evalc ExternalMulti.etrc];
      fold eincsc; destruct (cache []) as [v|]; try reflexivity.
    - rewrite !pickf_nth. destruct (nth_error kids _) as [c|] eqn:Ek; [|reflexivity].
      exact (IH _ c Ek _ st Hst).
    - pose proof (Hst pl i) as Hs. unfold e_strat_view in Hs. rewrite Hs.
      destruct (Bool.eqb pl me).
      + rewrite (egoi_spec sg (fun a c => erec_cached c (cshift a cache)) pl i
                           (fun a c => evalc c (cshift a cache))
                           (fun a c => eincsc c (cshift a cache)) kids (sg pl i) O 0%R st).
        * cbn [app]. rewrite fold_left_app. reflexivity.
        * intros j c st' Hj. exact (IH j c Hj _ st').
        * assumption.
      + cbn [app fold_left]. unfold ExtIncr.pdraw. rewrite !pickf_nth.
        destruct (nth_error kids _) as [c|] eqn:Ek; [|reflexivity].
        apply (IH _ c Ek). now apply SV_apply.
  Qed.
  End CachedSpec.

  Definition CacheOK (cache : cachet) (n : nodeR) : Prop :=
    forall q v c, cache q = Some v -> subtree n q = Some c -> v = eval c.

  Lemma CacheOK_kid cache n :
    CacheOK cache n -> forall k c, nth_error (e_kids_of n) k = Some c -> CacheOK (cshift k cache) c.
  Proof.
    intros H k c Hk q v c' Hq Hs. apply (H (k :: q) v c' Hq). now rewrite (subtree_kid n k c).
  Qed.

  Lemma evalc_eval (n : nodeR) : forall cache, CacheOK cache n -> evalc n cache = eval n.
  Proof.
    induction n as [x|ci kids IH|pl i kids IH] using node_nth_ind;
      intros cache Hok; cbn [ExternalMulti.evalc ExtIncr.eval];
      (destruct (cache []) as [v|] eqn:E0; [exact (Hok [] v _ E0 eq_refl)|]);
      pose proof (CacheOK_kid _ _ Hok) as HK; cbn [e_kids_of] in HK.
    - reflexivity.
    - apply pickf_ext. intros c Hc. exact (IH _ c Hc _ (HK _ c Hc)).
    - destruct (Bool.eqb pl me).
      + apply goval_ext. intros j c Hc. exact (IH _ c Hc _ (HK _ c Hc)).
      + apply pickf_ext. intros c Hc. exact (IH _ c Hc _ (HK _ c Hc)).
  Qed.

  (** events of the cached traversal + events of the traversals of the cached nodes it
      runs into = events of the plain traversal, up to order *)
  Lemma cut_trace {E : Type}
        (ePre : bool -> nat -> list E) (eChild : bool -> nat -> nat -> R -> list E)
        (ePost : bool -> nat -> R -> list E) (eExt : bool -> nat -> list E) (n : nodeR) :
    forall cache, CacheOK cache n ->
      Permutation (etrc ePre eChild ePost eExt n cache
                   ++ flat_map (fun x : pnode => etr ePre eChild ePost eExt (snd x)) (efront n cache))
                  (etr ePre eChild ePost eExt n).
  Proof.
    induction n as [x|ci kids IH|pl i kids IH] using node_nth_ind;
      intros cache Hok; cbn [ExternalMulti.etrc ExternalMulti.efront];
      (destruct (cache []) as [v|] eqn:E0;
       [cbn [app flat_map snd]; rewrite app_nil_r; apply Permutation_refl|]);
      pose proof (CacheOK_kid _ _ Hok) as HK; cbn [e_kids_of] in HK.
    - apply Permutation_refl.
    - cbn [ExtIncr.etr]. rewrite flat_map_consp, !pickf_nth.
      destruct (nth_error kids _) as [c|] eqn:Ek; [|apply Permutation_refl].
      exact (IH _ c Ek _ (HK _ c Ek)).
    - cbn [ExtIncr.etr ExtIncr.eval]. destruct (Bool.eqb pl me).
      + rewrite gotr_flat_map.
        rewrite (goval_ext (fun a c => evalc c (cshift a cache)) (fun _ c => eval c))
          by (intros j c Hj; exact (evalc_eval c _ (HK _ c Hj))).
        rewrite <- !app_assoc. apply Permutation_app_head.
        rewrite (Permutation_app_comm (ePost _ _ _)), app_assoc.
        apply Permutation_app_tail, gotr_perm. intros j c Hj. cbn [Nat.add].
        rewrite flat_map_consp, (evalc_eval c _ (HK _ c Hj)), <- app_assoc.
        rewrite (Permutation_app_comm (eChild _ _ _ _)), app_assoc.
        apply Permutation_app_tail. exact (IH _ c Hj _ (HK _ c Hj)).
      + rewrite <- app_assoc. apply Permutation_app_head.
        rewrite flat_map_consp, !pickf_nth.
        destruct (nth_error kids _) as [c|] eqn:Ek; [|apply Permutation_refl].
        exact (IH _ c Ek _ (HK _ c Ek)).
  Qed.

  Lemma efront_sound (n : nodeR) :
    forall cache q c, In (q, c) (efront n cache) -> cache q <> None /\ subtree n q = Some c.
  Proof.
    induction n as [x|ci kids IH|pl i kids IH] using node_nth_ind;
      intros cache q c Hin; cbn [ExternalMulti.efront] in Hin;
      (destruct (cache []) as [v|] eqn:E0;
       [destruct Hin as [[= <- <-]|[]]; split; [congruence|reflexivity]|]).
    - destruct Hin.
    - apply In_consp_pickf in Hin as (q' & c0 & -> & Hc & Hin).
      rewrite (subtree_kid (Chance ci kids) _ c0 _ Hc). exact (IH _ c0 Hc _ _ _ Hin).
    - destruct (Bool.eqb pl me).
      + apply gotr_In in Hin as (j & c0 & Hc & _ & Hin). apply In_consp in Hin as (q' & -> & Hin).
        rewrite (subtree_kid (Player pl i kids) _ c0 _ Hc). exact (IH _ c0 Hc _ _ _ Hin).
      + apply In_consp_pickf in Hin as (q' & c0 & -> & Hc & Hin).
        rewrite (subtree_kid (Player pl i kids) _ c0 _ Hc). exact (IH _ c0 Hc _ _ _ Hin).
  Qed.

  Lemma efront_complete (q : epath) :
    forall (n : nodeR) cache c,
      esamp q n -> subtree n q = Some c -> cache q <> None ->
      (forall q1 q2, q = q1 ++ q2 -> q2 <> [] -> cache q1 = None) ->
      In (q, c) (efront n cache).
  Proof.
    induction q as [|a q IH]; intros n cache c Hs Ht Hc Hpre.
    - cbn [subtree] in Ht. injection Ht as <-.
      destruct n; cbn [ExternalMulti.efront]; (destruct (cache []); [left; reflexivity|congruence]).
    - assert (E0 : cache [] = None) by (apply (Hpre [] (a :: q)); [reflexivity|discriminate]).
      cbn [ExternalMulti.esamp] in Hs. destruct Hs as [Ha Hk]. cbn [subtree] in Ht.
      destruct (nth_error (e_kids_of n) a) as [c0|] eqn:Ek; [|discriminate].
      assert (Hin : In (q, c) (efront c0 (cshift a cache))).
      { apply IH; try assumption. intros q1 q2 Hq Hq2. unfold cshift.
        apply (Hpre (a :: q1) q2); [rewrite Hq; reflexivity|assumption]. }
      destruct n as [x|ci kids|pl i kids]; cbn [ExternalMulti.efront e_kids_of] in *; rewrite E0.
      + destruct Ha.
      + subst a. apply In_consp_pickf. eauto.
      + destruct (Bool.eqb pl me).
        * apply gotr_In. exists a, c0. cbn [Nat.add]. repeat split; try assumption.
          apply In_consp. exists q; auto.
        * subst a. apply In_consp_pickf. eauto.
  Qed.

  Lemma efront_NoDup (n : nodeR) : forall cache, NoDup (efront n cache).
  Proof.
    induction n as [x|ci kids IH|pl i kids IH] using node_nth_ind;
      intros cache; cbn [ExternalMulti.efront];
      (destruct (cache []) as [v|]; [constructor; [intros []|constructor]|]).
    - constructor.
    - apply NoDup_map_consp, (pickf_prop (@NoDup pnode)); [constructor|]. intros c Hc. exact (IH _ c Hc _).
    - destruct (Bool.eqb pl me).
      + apply gotr_NoDup.
        * intros j c0 Hj. apply NoDup_map_consp. exact (IH _ c0 Hj _).
        * intros j j' c1 c2 [q c] Hne _ _ H1 H2. cbn [Nat.add] in *.
          apply In_consp in H1 as (q1 & E1 & _). apply In_consp in H2 as (q2 & E2 & _). congruence.
      + apply NoDup_map_consp, (pickf_prop (@NoDup pnode)); [constructor|]. intros c Hc. exact (IH _ c Hc _).
  Qed.

  (** [Front n Q]: the paths of [Q] are pairwise different, lead to the recorded nodes,
      belong to the sampled tree, and none is a proper prefix of another *)
  Definition Front (n : nodeR) (Q : list pnode) : Prop :=
    NoDup (map fst Q) /\
    (forall x, In x Q -> subtree n (fst x) = Some (snd x) /\ esamp (fst x) n) /\
    (forall x y t, In x Q -> In y Q -> fst x = fst y ++ t -> t = []).

  Definition payoffs_of (Q : list pnode) : list (epath * R) :=
    map (fun x : pnode => (fst x, eval (snd x))) Q.

  Lemma cache_of_In Q q v :
    cache_of (payoffs_of Q) q = Some v -> exists c, In (q, c) Q /\ v = eval c.
  Proof.
    induction Q as [|[p c] Q IH]; cbn [payoffs_of map cache_of fst snd]; [discriminate|].
    destruct (epath_eq_dec p q) as [->|Hne].
    - intros [= <-]. exists c. split; [now left|reflexivity].
    - intros H. destruct (IH H) as (c' & Hin & Hv). exists c'. split; [now right|assumption].
  Qed.

  Lemma cache_of_dom Q q : In q (map fst Q) -> cache_of (payoffs_of Q) q <> None.
  Proof.
    induction Q as [|[p c] Q IH]; cbn [payoffs_of map cache_of fst snd]; [intros []|].
    destruct (epath_eq_dec p q) as [->|Hne]; [discriminate|].
    intros [Heq|Hin]; [contradiction|]. now apply IH.
  Qed.

  Lemma Front_CacheOK n Q : Front n Q -> CacheOK (cache_of (payoffs_of Q)) n.
  Proof.
    intros (_ & Hsub & _) q v c Hq Hs. apply cache_of_In in Hq as (c' & Hin & ->).
    apply Hsub in Hin as [Hs' _]. cbn [fst snd] in Hs'. congruence.
  Qed.

  Lemma Front_efront n Q :
    Front n Q -> Permutation Q (efront n (cache_of (payoffs_of Q))).
  Proof.
    intros (Hnd & Hsub & Hanti). apply NoDup_Permutation.
    - eapply NoDup_map_inv; eassumption.
    - apply efront_NoDup.
    - intros [q c]. split.
      + intros Hin. destruct (Hsub _ Hin) as [Hs He]. cbn [fst snd] in Hs, He.
        apply efront_complete; try assumption.
        * apply cache_of_dom. apply in_map_iff. now exists (q, c).
        * intros q1 q2 Hq Hq2.
          destruct (cache_of (payoffs_of Q) q1) as [v|] eqn:Ec; [|reflexivity].
          apply cache_of_In in Ec as (c1 & Hin1 & _).
          destruct Hq2. exact (Hanti (q, c) (q1, c1) q2 Hin Hin1 Hq).
      + intros Hin. apply efront_sound in Hin as [Hc Hs].
        destruct (cache_of (payoffs_of Q) q) as [v|] eqn:Ec; [|congruence].
        apply cache_of_In in Ec as (c1 & Hin1 & _).
        destruct (Hsub _ Hin1) as [Hs1 _]. cbn [fst snd] in Hs1.
        assert (c1 = c) by congruence. now subst.
  Qed.

  (** [ext_cut_lemma]: for an antichain [Q] of nodes of the sampled tree, the cached
      traversal returns the value of the plain one, and its events together with the
      events of the tasks of [Q] are a permutation of the events of the plain traversal
      (for every kind of event: instances below for increments and infosets entered) *)
  Theorem ext_cut_lemma_gen {E : Type}
          (ePre : bool -> nat -> list E) (eChild : bool -> nat -> nat -> R -> list E)
          (ePost : bool -> nat -> R -> list E) (eExt : bool -> nat -> list E) n Q :
    Front n Q ->
    let cache := cache_of (payoffs_of Q) in
    evalc n cache = eval n /\
    Permutation
      (etrc ePre eChild ePost eExt n cache
       ++ flat_map (fun x : pnode => etr ePre eChild ePost eExt (snd x)) Q)
      (etr ePre eChild ePost eExt n).
  Proof.
    intros HF cache. pose proof (Front_CacheOK n Q HF) as Hok. split.
    - now apply evalc_eval.
    - etransitivity; [|apply cut_trace; exact Hok].
      apply Permutation_app_head. apply Permutation_flat_map. now apply Front_efront.
  Qed.

  Theorem ext_cut_lemma n Q :
    Front n Q ->
    let cache := cache_of (payoffs_of Q) in
    evalc n cache = eval n /\
    Permutation
      (eincsc chance draw cpass ppass noff me sg n cache
       ++ flat_map (fun x : pnode => eincs chance draw cpass ppass noff me sg (snd x)) Q)
      (eincs chance draw cpass ppass noff me sg n).
  Proof. apply ext_cut_lemma_gen. Qed.

  Theorem ext_cut_visits n Q :
    Front n Q ->
    Permutation
      (evisitsc chance draw cpass ppass noff me sg n (cache_of (payoffs_of Q))
       ++ flat_map (fun x : pnode => evisits chance draw cpass ppass noff me sg (snd x)) Q)
      (evisits chance draw cpass ppass noff me sg n).
  Proof. intros HF. apply (ext_cut_lemma_gen _ _ _ _ n Q HF). Qed.

  (** every infoset has as many strategy entries as its nodes have actions *)
  Definition Fits (n : nodeR) : Prop :=
    forall q pl i kids, subtree n q = Some (Player pl i kids) -> length (sg pl i) = length kids.

  Lemma Fits_subtree n p c : Fits n -> subtree n p = Some c -> Fits c.
  Proof. intros H Hp q pl i kids Hs. apply (H (p ++ q)). now rewrite (subtree_app n p q c). Qed.

  Lemma Fits_node (n : nodeR) :
    match n with Player pl i kids => length (sg pl i) = length kids | _ => True end ->
    Forall Fits (e_kids_of n) -> Fits n.
  Proof.
    intros H0 HK [|k q] pl i kids Hs; cbn [subtree] in Hs.
    - now injection Hs as ->.
    - destruct (nth_error (e_kids_of n) k) as [c|] eqn:Ek; [|discriminate].
      rewrite Forall_forall in HK. exact (HK c (nth_error_In _ _ Ek) q pl i kids Hs).
  Qed.

  Lemma esamp_app p : forall (n c : nodeR) q,
    esamp p n -> subtree n p = Some c -> esamp q c -> esamp (p ++ q) n.
  Proof.
    induction p as [|a p IH]; intros n c q Hp Hs Hq; cbn [app subtree] in *.
    - now injection Hs as <-.
    - cbn [ExternalMulti.esamp] in *. destruct Hp as [Ha Hk]. split; [exact Ha|].
      destruct (nth_error (e_kids_of n) a) as [c0|]; [|exact Hk]. eapply IH; eauto.
  Qed.

  Lemma Front_perm n Q Q' : Permutation Q Q' -> Front n Q -> Front n Q'.
  Proof.
    intros HP (Hnd & Hsub & Hanti). symmetry in HP. split; [|split].
    - eapply Permutation_NoDup; [|exact Hnd]. symmetry. now apply Permutation_map.
    - intros x Hx. apply Hsub. exact (Permutation_in _ HP Hx).
    - intros x y t Hx Hy. apply Hanti; eapply Permutation_in; eassumption.
  Qed.

  Lemma Front_app_l n Q1 Q2 : Front n (Q1 ++ Q2) -> Front n Q1.
  Proof.
    intros (Hnd & Hsub & Hanti). split; [|split].
    - rewrite map_app in Hnd. now apply NoDup_app_iff in Hnd.
    - intros x Hx. apply Hsub. apply in_or_app. now left.
    - intros x y t Hx Hy. apply Hanti; apply in_or_app; now left.
  Qed.

  Lemma Front_nil n : Front n [].
  Proof. split; [apply NoDup_nil|split; [intros ? []|intros ? ? ? []]]. Qed.

  Lemma Front_one n p c : subtree n p = Some c -> esamp p n -> Front n [(p, c)].
  Proof.
    intros Hs He. split; [|split].
    - repeat constructor. intros [].
    - intros x [<-|[]]. now split.
    - intros x y t [<-|[]] [<-|[]] Heq. cbn [fst] in Heq.
      rewrite <- (app_nil_r p) in Heq at 1. now apply app_inv_head in Heq.
  Qed.

  Lemma Front_replace n x L0 D :
    Front n (x :: L0) -> Front (snd x) D ->
    Front n (L0 ++ map (fun y => (fst x ++ fst y, snd y)) D).
  Proof.
    intros (Hnd & Hsub & Hanti) (HndD & HsubD & HantiD). cbn [map] in Hnd.
    inversion Hnd as [|p ps Hxp Hnd0]; subst.
    destruct (Hsub x (or_introl eq_refl)) as [Hsx Hex].
    (* no path of [L0] is a prefix or an extension of the path of [x] *)
    assert (Hx : forall z s t, In z L0 -> fst x ++ s = fst z ++ t -> False).
    { intros z s t Hz Heq. apply Hxp.
      assert (E : fst x = fst z); [|rewrite E; apply in_map; assumption].
      apply app_eq_app in Heq as [l [[Hl _]|[Hl _]]].
      - rewrite (Hanti x z l (or_introl eq_refl) (or_intror Hz) Hl), app_nil_r in Hl. exact Hl.
      - rewrite (Hanti z x l (or_intror Hz) (or_introl eq_refl) Hl), app_nil_r in Hl. symmetry; exact Hl. }
    set (D' := map (fun y => (fst x ++ fst y, snd y)) D).
    assert (HD' : forall y, In y D' -> exists d, In d D /\ y = (fst x ++ fst d, snd d)).
    { intros y Hy. apply in_map_iff in Hy as (d & <- & Hd). eauto. }
    split; [|split].
    - rewrite map_app. apply NoDup_app_iff. split; [exact Hnd0|split].
      + unfold D'. rewrite map_map. cbn [fst]. rewrite <- (map_map fst (fun q => fst x ++ q)).
        apply FinFun.Injective_map_NoDup; [intros a b; apply app_inv_head|exact HndD].
      + intros p Hp1 Hp2. apply in_map_iff in Hp1 as (y & <- & Hy).
        apply in_map_iff in Hp2 as (z & Hz & Hzin). apply HD' in Hzin as (d & Hd & ->).
        apply (Hx y (fst d) [] Hy). rewrite app_nil_r; assumption.
    - intros y Hy. apply in_app_or in Hy as [Hy|Hy]; [apply Hsub; right; assumption|].
      apply HD' in Hy as (d & Hd & ->). destruct (HsubD d Hd) as [Hs He]. cbn [fst snd].
      split; [rewrite (subtree_app n _ _ _ Hsx); assumption|]. eapply esamp_app; eauto.
    - intros y z t Hy Hz Heq. apply in_app_or in Hy, Hz. destruct Hy as [Hy|Hy], Hz as [Hz|Hz].
      + apply (Hanti y z t); [right; assumption|right; assumption|assumption].
      + apply HD' in Hz as (d & Hd & ->). cbn [fst] in Heq.
        destruct (Hx y (fst d ++ t) [] Hy). now rewrite app_nil_r, app_assoc.
      + apply HD' in Hy as (d & Hd & ->). destruct (Hx z (fst d) t Hz Heq).
      + apply HD' in Hy as (d1 & Hd1 & ->). apply HD' in Hz as (d2 & Hd2 & ->). cbn [fst] in Heq.
        rewrite <- app_assoc in Heq. apply app_inv_head in Heq. exact (HantiD d1 d2 t Hd1 Hd2 Heq).
  Qed.

  Lemma next_rel_Front (n : nodeR) : Fits n -> Front n (next_rel n).
  Proof.
    assert (Hpick : forall (n : nodeR) k,
               (forall c, nth_error (e_kids_of n) k = Some c -> esamp [k] n /\ Front c (next_rel c)) ->
               Front n (map (consp k) (pickf next_rel [] (e_kids_of n) k))).
    { intros n' k H. rewrite pickf_nth.
      destruct (nth_error (e_kids_of n') k) as [c|] eqn:Ek; [|apply Front_nil].
      destruct (H c eq_refl) as [Hs HF].
      apply (Front_replace n' ([k], c) [] (next_rel c)); [|exact HF].
      apply Front_one; [now rewrite (subtree_kid n' k c [] Ek)|exact Hs]. }
    induction n as [x|ci kids IH|pl i kids IH] using node_nth_ind; intros HF;
      cbn [ExternalMulti.next_rel].
    - apply Front_nil.
    - apply (Hpick (Chance ci kids)); cbn [e_kids_of ExternalMulti.esamp]; intros c Hc.
      rewrite Hc. split; [now split|].
      apply (IH _ c Hc), (Fits_subtree _ [cdraw ci] c HF), (subtree_kid (Chance ci kids) _ c [] Hc).
    - destruct (Bool.eqb pl me) eqn:Epl.
      + split; [|split].
        * rewrite mapi_kids_fst.
          apply FinFun.Injective_map_NoDup; [now intros a b [=]|apply seq_NoDup].
        * intros [q c] Hin. apply mapi_kids_In in Hin as (j & -> & Hj).
          cbn [fst snd subtree ExternalMulti.esamp e_kids_of Nat.add].
          rewrite Epl, Hj, (HF [] pl i kids eq_refl). repeat split.
          apply nth_error_Some. congruence.
        * intros [q1 c1] [q2 c2] t H1 H2 Heq.
          apply mapi_kids_In in H1 as (j1 & -> & _). apply mapi_kids_In in H2 as (j2 & -> & _).
          cbn [fst app] in Heq. now injection Heq as _ <-.
      + apply (Hpick (Player pl i kids)); cbn [e_kids_of ExternalMulti.esamp]; intros c Hc.
        rewrite Epl, Hc. split; [now split|].
        apply (IH _ c Hc), (Fits_subtree _ [pdraw pl i] c HF), (subtree_kid (Player pl i kids) _ c [] Hc).
  Qed.

  Lemma Front_step n x L0 : Fits n -> Front n (x :: L0) -> Front n (L0 ++ next_nodes x).
  Proof.
    intros HF H. destruct (proj1 (proj2 H) x (or_introl eq_refl)) as [Hsx _].
    exact (Front_replace n x L0 _ H (next_rel_Front _ (Fits_subtree n _ _ HF Hsx))).
  Qed.

  Lemma tt_loop_Front n fuel target :
    Fits n ->
    forall queue work,
      Front n (queue ++ work) ->
      Front n (fst (tt_loop fuel target queue work) ++ snd (tt_loop fuel target queue work)).
  Proof.
    intros HF. induction fuel as [|f IH]; intros queue work H; cbn [ExternalMulti.tt_loop]; [exact H|].
    destruct (_ || _); [exact H|].
    destruct queue as [|x q _] using rev_ind; [cbn [rev]|rewrite rev_unit, rev_involutive]; apply IH.
    - now rewrite app_nil_r.
    - rewrite app_assoc. apply Front_step; [exact HF|].
      eapply Front_perm; [|exact H]. rewrite <- app_assoc. symmetry. apply Permutation_middle.
  Qed.

  Theorem ext_frontier_ok n target fuel :
    Fits n -> Front n (ext_frontier chance draw cpass ppass noff me sg target fuel n).
  Proof.
    intros HF. unfold ext_frontier. eapply Front_app_l.
    apply tt_loop_Front; [exact HF|]. now apply Front_one.
  Qed.

  (** ** [thread_threshold] terminates: from some fuel on, the result of [tt_loop] no longer
      depends on the fuel (the loop has left through its own exit test) *)
  Fixpoint nsize (n : nodeR) : nat :=
    match n with
    | Term _ => 1%nat
    | Chance _ kids => S (list_sum (map nsize kids))
    | Player _ _ kids => S (list_sum (map nsize kids))
    end.

  Definition psize (L : list pnode) : nat := list_sum (map (fun x : pnode => nsize (snd x)) L).

  Lemma psize_app L1 L2 : psize (L1 ++ L2) = (psize L1 + psize L2)%nat.
  Proof. unfold psize. now rewrite map_app, list_sum_app. Qed.

  Lemma psize_consp a L : psize (map (consp a) L) = psize L.
  Proof. unfold psize. rewrite map_map. reflexivity. Qed.

  Lemma psize_mapi a ks : psize (mapi_kids a ks) = list_sum (map nsize ks).
  Proof.
    unfold psize. revert a; induction ks as [|k r IH]; intros a;
      cbn [mapi_kids map list_sum fold_right snd]; [reflexivity|]. f_equal. apply IH.
  Qed.

  Lemma nsize_kid_le (ks : list nodeR) k c :
    nth_error ks k = Some c -> (nsize c <= list_sum (map nsize ks))%nat.
  Proof.
    intros H. apply nth_error_split in H as (l1 & l2 & -> & _).
    rewrite map_app, list_sum_app. cbn [map list_sum fold_right]. lia.
  Qed.

  Lemma next_rel_size (n : nodeR) : (psize (next_rel n) < nsize n)%nat.
  Proof.
    assert (Hpick : forall kids k, (forall c, nth_error kids k = Some c -> psize (next_rel c) < nsize c)%nat ->
                      (psize (map (consp k) (pickf next_rel [] kids k)) < S (list_sum (map nsize kids)))%nat).
    { intros kids k IH. rewrite psize_consp, pickf_nth.
      destruct (nth_error kids k) as [c|] eqn:Ek; [|cbn; lia].
      pose proof (IH c eq_refl). pose proof (nsize_kid_le _ _ _ Ek). lia. }
    induction n as [x|ci kids IH|pl i kids IH] using node_nth_ind; cbn [ExternalMulti.next_rel nsize].
    - cbn. lia.
    - apply Hpick, IH.
    - destruct (Bool.eqb pl me); [rewrite psize_mapi; lia|apply Hpick, IH].
  Qed.

  Lemma next_nodes_size x : (psize (next_nodes x) < nsize (snd x))%nat.
  Proof.
    unfold ExternalMulti.next_nodes, psize. rewrite map_map. cbn [snd].
    apply next_rel_size.
  Qed.

  Definition tmeasure (queue work : list pnode) : nat :=
    (2 * (psize queue + psize work) + match queue with [] => 1 | _ => 0 end)%nat.

  Lemma tt_loop_stable target :
    forall m queue work,
      (tmeasure queue work < m)%nat ->
      exists fuel0, forall fuel, (fuel0 <= fuel)%nat ->
                                 tt_loop fuel target queue work = tt_loop fuel0 target queue work.
  Proof.
    induction m as [|m IH]; intros queue work Hm; [lia|].
    destruct ((match queue, work with [], [] => true | _, _ => false end)
              || (target <=? length queue + length work)%nat) eqn:Edone.
    - exists 1%nat. intros [|f] Hf; [lia|]. cbn [ExternalMulti.tt_loop]. now rewrite Edone.
    - destruct queue as [|x q _] using rev_ind.
      + destruct work as [|w work]; [discriminate|].
        destruct (IH (w :: work) []) as [f1 Hf1]; [unfold tmeasure in *; cbn in *; lia|].
        exists (S f1). intros [|f] Hf; [lia|]. cbn [ExternalMulti.tt_loop rev]. rewrite Edone.
        apply Hf1. lia.
      + destruct (IH q (work ++ next_nodes x)) as [f1 Hf1].
        { pose proof (next_nodes_size x). unfold tmeasure in *. rewrite !psize_app in *.
          destruct q; cbn in *; lia. }
        exists (S f1). intros [|f] Hf; [lia|]. cbn [ExternalMulti.tt_loop].
        rewrite Edone, rev_unit, rev_involutive. apply Hf1. lia.
  Qed.

  Theorem ext_frontier_terminates target root :
    exists fuel0, forall fuel, (fuel0 <= fuel)%nat ->
      ext_frontier chance draw cpass ppass noff me sg target fuel root =
      ext_frontier chance draw cpass ppass noff me sg target fuel0 root.
  Proof.
    destruct (tt_loop_stable target _ [([], root)] [] (Nat.lt_succ_diag_r _)) as [f0 H].
    exists f0. intros fuel Hf. unfold ext_frontier. now rewrite H.
  Qed.
End Pass.

(** the tasks of an antichain [Q] of the sampled tree, their increments applied in any
    order, and then the traversal that finds their payoffs in the cache, are one plain pass *)
Lemma cached_pass_eq chance draw cpass ppass noff me (n : nodeR) st Q tasks :
  Front chance draw cpass ppass noff me (e_strat_view st) n Q ->
  Permutation
    (flat_map (fun x : pnode => eincs chance draw cpass ppass noff me (e_strat_view st) (snd x)) Q)
    tasks ->
  erec_cached chance draw cpass ppass noff me n
              (cache_of (payoffs_of chance draw cpass ppass noff me (e_strat_view st) Q))
              (fold_left e_apply_incr tasks st) =
  @erec RNum chance draw cpass ppass noff me n st.
Proof.
  intros HF Hs. destruct (ext_cut_lemma _ _ _ _ _ _ _ n Q HF) as [Hv Hp].
  rewrite (erec_cached_incs_sv _ _ _ _ _ _ (e_strat_view st))
    by (apply SV_fold; intros pl i; reflexivity).
  rewrite erec_incs, Hv, <- fold_left_app. f_equal. apply e_apply_perm.
  rewrite <- Hp, <- Hs. apply Permutation_app_comm.
Qed.

Theorem ext_multi_pass_eq chance draw cpass ppass noff me target fuel sched (root : nodeR) st :
  Fits (e_strat_view st) root ->
  (forall l, Permutation l (sched l)) ->
  ext_multi_pass chance draw cpass ppass noff me target fuel sched root st =
  @erec RNum chance draw cpass ppass noff me root st.
Proof.
  intros HF Hs. apply cached_pass_eq; [now apply ext_frontier_ok|apply Hs].
Qed.

Lemma erec_cached_no_cache chance draw cpass ppass noff me (n : nodeR) :
  forall st, erec_cached chance draw cpass ppass noff me n no_cache st =
             @erec RNum chance draw cpass ppass noff me n st.
Proof.
  intros st. apply (cached_pass_eq chance draw cpass ppass noff me n st [] []);
    [apply Front_nil|constructor].
Qed.

Lemma shaped_kids (g : gameR) (n : nodeR) : @shaped RNum g n -> Forall (@shaped RNum g) (e_kids_of n).
Proof.
  destruct n as [x|ci kids|pl i kids]; cbn [shaped e_kids_of]; [constructor| |];
    intros (_ & _ & _ & H); now apply shaped_kids_Forall.
Qed.

Lemma shaped_subtree (g : gameR) q :
  forall (n c : nodeR), @shaped RNum g n -> subtree n q = Some c -> @shaped RNum g c.
Proof.
  induction q as [|a q IH]; intros n c Hn Hs; cbn [subtree] in Hs.
  - now injection Hs as <-.
  - destruct (nth_error (e_kids_of n) a) as [c0|] eqn:Ek; [|discriminate].
    apply (IH c0); [|assumption].
    pose proof (shaped_kids g n Hn) as HF. rewrite Forall_forall in HF.
    apply HF. eapply nth_error_In; eauto.
Qed.

Lemma shaped_Fits (g : gameR) (st : pstateR) :
  @shaped RNum g (g_root g) -> InvA (arities g true) (arities g false) st ->
  Fits (e_strat_view st) (g_root g).
Proof.
  intros Hs [H1 H2] q pl i kids Hq.
  pose proof (shaped_subtree g q _ _ Hs Hq) as Hp. cbn [shaped] in Hp.
  destruct Hp as (Hi & Hlen & _). rewrite Hlen.
  assert (HF : Forall2 RInvA (arities g pl) (@ps_get RNum st pl)) by (destruct pl; assumption).
  pose proof (Forall2_nth RInvA _ _ i 0%nat (@mkRinfo RNum [] [] []) HF) as Hn.
  unfold arities in Hn at 1. rewrite map_length in Hn. specialize (Hn Hi).
  destruct Hn as (_ & _ & _ & _ & Hn). unfold e_strat_view, ri_get. etransitivity; [exact Hn|].
  unfold arities.
  exact (map_nth (fun pi : pinfo => length (pi_actions pi)) (g_infos g pl) (mkPinfo 0%N [] None) i).
Qed.

Lemma psum_ok_Rsum l s : psum_ok l s -> s = Rsum l.
Proof.
  induction 1 as [|x|l1 l2 a b H1 IH1 H2 IH2]; cbn [Rsum]; try lra.
  rewrite Rsum_app. lra.
Qed.

Lemma advance_all_par_eq psum (p : @params RNum) it ia l :
  (forall l, psum_ok l (psum l)) ->
  advance_all_par psum p it ia l = @advance_all RNum p it ia l 0%R.
Proof.
  intros H. rewrite advance_all_map. unfold advance_all_par. f_equal.
  rewrite (psum_ok_Rsum _ _ (H _)). lra.
Qed.

Theorem ext_multi_iter_eq_single (g : gameR) draw p target fuel sched1 sched2 psum1 psum2 it st :
  @shaped RNum g (g_root g) ->
  InvA (arities g true) (arities g false) st ->
  (forall l, Permutation l (sched1 l)) -> (forall l, Permutation l (sched2 l)) ->
  (forall l, psum_ok l (psum1 l)) -> (forall l, psum_ok l (psum2 l)) ->
  ext_multi_iter g draw p target fuel sched1 sched2 psum1 psum2 it st =
  @external_iter RNum g draw p it st.
Proof.
  intros Hs Hinv Hp1 Hp2 Hq1 Hq2. unfold ext_multi_iter, external_iter. cbv zeta. cbn [zero RNum].
  rewrite ext_multi_pass_eq by (try assumption; now apply shaped_Fits).
  pose proof (erec_inv _ _ (g_chance g) draw (2 * (it - 1))%N (it - 1)%N (length (g_infos1 g))
                true (g_root g) st Hinv) as H1.
  destruct (erec _ _ _ _ _ true _ _) as [x st1]. cbn [snd] in H1. destruct H1 as [H1a H1b].
  rewrite advance_all_par_eq by assumption.
  pose proof (advance_all_inv _ p it (it - 1)%N (fst st1) 0%R H1a) as HA.
  destruct (advance_all p it (it - 1)%N (fst st1) 0%R) as [l1 r1]. cbn [fst] in HA.
  rewrite ext_multi_pass_eq; [|apply shaped_Fits; [assumption|split; cbn [fst snd]; assumption]
                              |assumption].
  destruct (erec _ _ _ _ _ false _ _) as [y st3].
  rewrite advance_all_par_eq by assumption. reflexivity.
Qed.

Lemma solve_loop_multi_eq (g : gameR) draw p stop target fuel scheds psums :
  @shaped RNum g (g_root g) ->
  (forall it pl l, Permutation l (scheds it pl l)) ->
  (forall it pl l, psum_ok l (psums it pl l)) ->
  forall rem it st regs ran,
    InvA (arities g true) (arities g false) st ->
    solve_loop_multi g draw p stop target fuel scheds psums rem it st regs ran =
    @solve_loop RNum g External draw p stop rem it st regs ran.
Proof.
  intros Hs Hp Hq. induction rem as [|r IH]; intros it st regs ran Hinv;
    cbn [solve_loop_multi solve_loop one_iter]; [reflexivity|].
  rewrite ext_multi_iter_eq_single by (try assumption; first [apply Hp|apply Hq]).
  pose proof (one_iter_inv _ _ g External draw p it st Hinv) as H. cbn [one_iter] in H.
  destruct (external_iter g draw p it st) as [st' [r1 r2]]. cbn [fst] in H.
  cbn [fmax RNum]. destruct (stop _); [reflexivity|]. now apply IH.
Qed.

(** [solve_ext_multi_eq_single]: for every target, fuel, budget, stop predicate, family of
    schedules (interleavings of the tasks' atomic increments), family of reduction orders
    of the bounds, and oracle, the multi-threaded solver returns exactly what the
    single-threaded one returns *)
Theorem solve_ext_multi_eq_single (g : gameR) draw p target fuel scheds psums budget stop :
  @shaped RNum g (g_root g) -> arities_pos g ->
  (forall it pl l, Permutation l (scheds it pl l)) ->
  (forall it pl l, psum_ok l (psums it pl l)) ->
  solve_ext_multi g draw p target fuel scheds psums budget stop =
  @solve_single RNum g External draw p budget stop.
Proof.
  intros Hs Ha Hp Hq. unfold solve_ext_multi, solve_single.
  rewrite solve_loop_multi_eq; try assumption; [reflexivity|]. now apply init_state_inv.
Qed.

Corollary solve_ext_multi_eq_single_WF (g : gameR) draw p target fuel scheds psums budget stop :
  WFgame g ->
  (forall it pl l, Permutation l (scheds it pl l)) ->
  (forall it pl l, psum_ok l (psums it pl l)) ->
  solve_ext_multi g draw p target fuel scheds psums budget stop =
  @solve_single RNum g External draw p budget stop.
Proof.
  intros Hg. apply solve_ext_multi_eq_single; [apply Hg|now apply WFgame_arities_pos].
Qed.

Theorem multi_unique_visit (g : gameR) chance draw cpass ppass noff me sg target fuel :
  PerfectRecall g -> Fits sg (g_root g) ->
  let Q := ext_frontier chance draw cpass ppass noff me sg target fuel (g_root g) in
  NoDup (evisitsc chance draw cpass ppass noff me sg (g_root g)
                  (cache_of (payoffs_of chance draw cpass ppass noff me sg Q))
         ++ flat_map (fun x : pnode => evisits chance draw cpass ppass noff me sg (snd x)) Q).
Proof.
  intros HPR HF Q. eapply Permutation_NoDup.
  - symmetry. apply ext_cut_visits. now apply ext_frontier_ok.
  - now apply unique_visit.
Qed.

(** ** One draw per cell: a pass consults the oracle only with pass index [cpass] at chance
    infosets (weights: the infoset's probabilities) and [ppass] at the external player's
    infosets (weights: the strategy at the start of the pass): two oracles that agree on
    these queries give the same pass *)
Section Draws.
  Context (chance : list (list R)) (draw draw' : oracleR) (cpass ppass : N) (noff : nat) (me : bool)
          (sg : bool -> nat -> list R).
  Context (HC : forall ci, draw true ci cpass (@row RNum chance ci) = draw' true ci cpass (@row RNum chance ci))
          (HP : forall pl i, draw false (ext_id noff pl i) ppass (sg pl i) =
                             draw' false (ext_id noff pl i) ppass (sg pl i)).

  Lemma eval_draw_ext (n : nodeR) :
    eval chance draw cpass ppass noff me sg n = eval chance draw' cpass ppass noff me sg n.
  Proof.
    induction n as [x|ci kids IH|pl i kids IH] using node_nth_ind; cbn [eval].
    - reflexivity.
    - unfold cdraw. rewrite HC. apply pickf_ext, IH.
    - destruct (Bool.eqb pl me).
      + apply goval_ext, IH.
      + unfold pdraw. rewrite HP. apply pickf_ext, IH.
  Qed.

  Lemma etr_draw_ext {E} (ePre : bool -> nat -> list E) eChild ePost eExt (n : nodeR) :
    etr chance draw cpass ppass noff me sg ePre eChild ePost eExt n =
    etr chance draw' cpass ppass noff me sg ePre eChild ePost eExt n.
  Proof.
    induction n as [x|ci kids IH|pl i kids IH] using node_nth_ind; cbn [etr].
    - reflexivity.
    - unfold cdraw. rewrite HC. apply pickf_ext, IH.
    - destruct (Bool.eqb pl me).
      + rewrite (eval_draw_ext (Player pl i kids)). f_equal. f_equal.
        apply gotr_ext. intros j c Hj. now rewrite eval_draw_ext, (IH j c Hj).
      + f_equal. unfold pdraw. rewrite HP. apply pickf_ext, IH.
  Qed.
End Draws.

Theorem one_draw_per_cell chance (draw draw' : oracleR) cpass ppass noff me (n : nodeR) st :
  (forall ci, draw true ci cpass (@row RNum chance ci) = draw' true ci cpass (@row RNum chance ci)) ->
  (forall pl i, draw false (ext_id noff pl i) ppass (e_strat_view st pl i) =
                draw' false (ext_id noff pl i) ppass (e_strat_view st pl i)) ->
  @erec RNum chance draw cpass ppass noff me n st = @erec RNum chance draw' cpass ppass noff me n st.
Proof.
  intros HC HP. rewrite !erec_incs. unfold eincs.
  rewrite (eval_draw_ext chance draw draw' cpass ppass noff me (e_strat_view st) HC HP).
  rewrite (etr_draw_ext chance draw draw' cpass ppass noff me (e_strat_view st) HC HP).
  reflexivity.
Qed.

Definition eex_A : nodeR := Player false 0 [@Term RNum 1%R; @Term RNum 2%R].
Definition eex_B : nodeR := Player false 0 [@Term RNum 3%R; @Term RNum 4%R].
Definition eex_C : nodeR := Player true 1 [@Term RNum 5%R; @Term RNum 6%R].
Definition eex_root : nodeR := Player true 0 [eex_A; eex_B; eex_C].

Example ex_frontier_two_tasks chance draw cpass ppass noff sg fuel :
  ext_frontier chance draw cpass ppass noff true sg 4 (3 + fuel) eex_root =
  [([0%nat], eex_A); ([1%nat], eex_B)].
Proof. destruct fuel; reflexivity. Qed.

(** with target 2 on the same tree the loop stops with everything in [work]: no task at all *)
Example ex_frontier_no_task chance draw cpass ppass noff sg fuel :
  ext_frontier chance draw cpass ppass noff true sg 2 (1 + fuel) eex_root = [].
Proof. destruct fuel; reflexivity. Qed.

Example ex_pass_eq chance draw cpass ppass noff sched (st : pstateR) fuel :
  length (e_strat_view st true 0) = 3%nat -> length (e_strat_view st true 1) = 2%nat ->
  length (e_strat_view st false 0) = 2%nat ->
  (forall l, Permutation l (sched l)) ->
  ext_multi_pass chance draw cpass ppass noff true 4 fuel sched eex_root st =
  @erec RNum chance draw cpass ppass noff true eex_root st.
Proof.
  intros H0 H1 H2 Hs. apply ext_multi_pass_eq; [|exact Hs].
  assert (HL : forall pl i x y, length (e_strat_view st pl i) = 2%nat ->
                 Fits (e_strat_view st) (Player pl i [@Term RNum x; @Term RNum y])).
  { intros pl i x y H. apply Fits_node; [exact H|]. repeat constructor; apply Fits_node; constructor. }
  apply Fits_node; [exact H0|]. repeat constructor; now apply HL.
Qed.
