(** * LcfrBound: the bound returned by the unsampled LCFR solve dominates the true
    regret of the returned profile (property C03, clause 2, for [p_lcfr]).

    LCFR discounts regrets and strategy by the same factors [d t = t / (t + 1)], so
    [BoundDominates.dbound_dominates] applies: with [P T = d 1 * ... * d T = 1 / (T + 1)]
    and weights [dweight t = 1 / P t = t + 1], whose sum is [dwsum T = T (T + 1) / 2], the
    constant [dconst = T / (P T * dwsum T)] is [2].  It multiplies [(b1 + b2) / 2], hence
    [lcfr_bound_dominates]: [si_regret <= 1 * (b1 + b2)].  With the rate of the returned
    bounds ([CfrRate.bound_rate_all_params]): [lcfr_true_regret_rate]. *)
From Coq Require Import Reals List Lra Lia Bool Arith NArith.
From Cfr.theories Require Import Num RInst Tree GameWF Strat Eval Solve Valid
     SolveValidProofs LoopProofs RulesProofs Incr IterChar CfMass CfrRate EvalSpec EvalProofs
     BestResponseProofs CfrSpec LcfrSpec Decomposition AvgRealisation BoundDominates.
Import ListNotations.
Open Scope R_scope.

Local Notation game := (@game RNum).
Local Notation oracle := (@oracle RNum).
Local Notation params := (@params RNum).

Section Weights.
  Context (d : nat -> R).
  Local Notation P := (dprod d).

  (** the weight of iteration [t + 1] *)
  Definition dweight (t : nat) : R := / P t.

  Definition dwsum (T : nat) : R := Rsumn T dweight.
End Weights.

Lemma lcfr_dweight t : dweight lcfr_d t = INR (S t).
Proof.
  unfold dweight. rewrite lcfr_dprod. apply Rinv_inv.
Qed.

Lemma Rsumn_INR_S T : Rsumn T (fun t => INR (S t)) = INR T * INR (S T) / 2.
Proof.
  induction T as [|k IH]; [rewrite Rsumn_0; cbn [INR]; lra|].
  rewrite Rsumn_S_last, IH. rewrite !S_INR. lra.
Qed.

Lemma lcfr_dwsum T : dwsum lcfr_d T = INR T * INR (S T) / 2.
Proof.
  unfold dwsum. rewrite <- Rsumn_INR_S. apply Rsumn_ext. intros t _. apply lcfr_dweight.
Qed.

Lemma lcfr_dconst T : (1 <= T)%nat -> dconst lcfr_d T = 2.
Proof.
  intros HT. unfold dconst. fold (dweight lcfr_d) (dwsum lcfr_d T). rewrite lcfr_dprod, lcfr_dwsum.
  assert (0 < INR T) by (apply lt_0_INR; lia).
  assert (0 < INR (S T)) by (apply lt_0_INR; lia).
  field. split; lra.
Qed.

Theorem lcfr_trajectory_bound (g : game) (draw : oracle) T :
  @WFgame RNum g -> @PerfectRecall RNum g -> ChanceOK g -> (1 <= T)%nat ->
  let p := @p_lcfr RNum in
  let e := u_game g (davg g draw p T true) (davg g draw p T false) in
  let br1 := @br_value RNum g true (davg g draw p T false) in
  let br2 := @br_value RNum g false (davg g draw p T true) in
  0 <= br1 - e /\ 0 <= br2 + e /\
  (br1 - e) + (br2 + e) <= dbound_pl g draw p T true + dbound_pl g draw p T false.
Proof.
  intros Hwf HPR HCh HT. cbv zeta.
  destruct (dtrajectory_bound g Hwf HPR HCh draw (@p_lcfr RNum) lcfr_d lcfr_d_pos lcfr_discount_reg
                              lcfr_discount_avg T HT) as (P1 & P2 & P3).
  rewrite lcfr_dconst in P3 by assumption. unfold avg_gap in *.
  split; [exact P1|]. split; [exact P2|]. lra.
Qed.

Theorem lcfr_bound_dominates (g : game) (draw : oracle) budget (stop : R -> bool) strats b1 b2 ran :
  @WFgame RNum g -> @PerfectRecall RNum g -> ChanceOK g ->
  @solve_single RNum g Full draw (@p_lcfr RNum) budget stop = (strats, Some (b1, b2), ran) ->
  @si_regret RNum (@info RNum g strats) <= 1 * (b1 + b2) /\ 0 <= b1 /\ 0 <= b2.
Proof.
  intros Hwf HPR HCh Hs.
  destruct (dbound_dominates g Hwf HPR HCh draw (@p_lcfr RNum) lcfr_d lcfr_d_pos lcfr_discount_reg
                             lcfr_discount_avg budget stop strats b1 b2 ran Hs)
    as (HT & Hb1 & Hb2 & H1 & H2 & H3).
  rewrite lcfr_dconst in H3 by lia.
  split; [|split; assumption].
  unfold si_regret. cbn [fmax RNum]. apply Rmax_lub; lra.
Qed.

Theorem lcfr_bound_dominates_each (g : game) (draw : oracle) budget (stop : R -> bool)
        strats b1 b2 ran :
  @WFgame RNum g -> @PerfectRecall RNum g -> ChanceOK g ->
  @solve_single RNum g Full draw (@p_lcfr RNum) budget stop = (strats, Some (b1, b2), ran) ->
  0 <= si_reg1 (@info RNum g strats) /\ 0 <= si_reg2 (@info RNum g strats) /\
  si_reg1 (@info RNum g strats) + si_reg2 (@info RNum g strats) <= b1 + b2.
Proof.
  intros Hwf HPR HCh Hs.
  destruct (dbound_dominates g Hwf HPR HCh draw (@p_lcfr RNum) lcfr_d lcfr_d_pos lcfr_discount_reg
                             lcfr_discount_avg budget stop strats b1 b2 ran Hs)
    as (HT & Hb1 & Hb2 & H1 & H2 & H3).
  rewrite lcfr_dconst in H3 by lia. split; [exact H1|]. split; [exact H2|]. lra.
Qed.

(** a solve that stops before its budget: the threshold is on [Rmax b1 b2], the true
    regret is below twice the threshold *)
Corollary lcfr_early_stop_sound (g : game) (draw : oracle) budget (r : R) strats b1 b2 ran :
  @WFgame RNum g -> @PerfectRecall RNum g -> ChanceOK g ->
  @solve_single RNum g Full draw (@p_lcfr RNum) budget (@stop_at RNum r) =
    (strats, Some (b1, b2), ran) ->
  (ran < N.of_nat budget)%N ->
  @si_regret RNum (@info RNum g strats) < 2 * r.
Proof.
  intros Hwf HPR HCh Hs Hran.
  destruct (lcfr_bound_dominates g draw budget _ strats b1 b2 ran Hwf HPR HCh Hs) as [Hd _].
  destruct (budget_never_exceeded g Full draw _ _ budget strats _ ran Hs) as (_ & _ & Hstop).
  destruct (Hstop Hran) as (c1 & c2 & Ec & Hfire). injection Ec as <- <-.
  unfold stop_at in Hfire. cbn [ltb RNum] in Hfire. apply Rltb_true in Hfire.
  pose proof (Rmax_l b1 b2). pose proof (Rmax_r b1 b2). lra.
Qed.

(** ** From a domination constant to a rate of the true regret, for any params tuple *)
Section Rate.
  Context (g : game) (draw : oracle) (lo hi : R) (A : nat).
  Context (HWF : @WFgame RNum g) (HPR : @PerfectRecall RNum g) (HCO : ChanceOK g)
          (HPay : PayoffsIn lo hi (g_root g))
          (HA : forall pl, Forall (fun a => (a <= A)%nat) (arities g pl)).

  Local Notation D := (hi - lo).
  Local Notation NN := (INR (num_infosets g)).
  Local Notation sA := (sqrt (INR A)).

  Lemma sqrt_ran_pos ran : (1 <= ran)%N -> 0 < sqrt (INR (N.to_nat ran)).
  Proof. intros Hr. apply sqrt_lt_R0, lt_0_INR. lia. Qed.

  (** when the true regret is at most [c * (b1 + b2) + r], the rate of the returned bounds
      ([CfrRate.bound_rate_all_params]) carries over: the two per-player rates add up to
      the total number of infosets *)
  Lemma rate_of_dominates (p : params) budget (stop : R -> bool) strats b1 b2 ran (c r : R) :
    @solve_single RNum g Full draw p budget stop = (strats, Some (b1, b2), ran) ->
    0 <= c -> @si_regret RNum (@info RNum g strats) <= c * (b1 + b2) + r ->
    (1 <= ran)%N /\
    @si_regret RNum (@info RNum g strats) <= c * (2 * D * NN * sA / sqrt (INR (N.to_nat ran))) + r.
  Proof.
    intros Hs Hc Hd.
    destruct (bound_rate_all_params g draw p lo hi A HWF HPR HCO HPay HA
                                    budget stop strats b1 b2 ran Hs) as (Hr & H1 & H2).
    split; [exact Hr|]. pose proof (sqrt_ran_pos ran Hr) as Hsq.
    assert (Hb : b1 + b2 <= 2 * D * NN * sA / sqrt (INR (N.to_nat ran))).
    { apply (Rmult_le_reg_r (sqrt (INR (N.to_nat ran)))); [exact Hsq|].
      unfold Rdiv. rewrite Rmult_assoc, Rinv_l, Rmult_1_r by lra.
      unfold num_infosets. rewrite plus_INR. cbn [g_infos] in H1, H2. lra. }
    apply (Rmult_le_compat_l c) in Hb; [lra|exact Hc].
  Qed.

  (** if there is an infoset at all, [A >= 1] *)
  Lemma A_ge_1 : (1 <= num_infosets g)%nat -> 1 <= sA.
  Proof.
    intros HN. pose proof (WFgame_arities_pos g HWF) as Hpos.
    assert (HA1 : (1 <= A)%nat).
    { assert (Hex : exists pl, arities g pl <> []).
      { unfold num_infosets in HN. destruct (g_infos1 g) as [|x l] eqn:E1.
        - exists false. unfold arities. cbn [g_infos]. destruct (g_infos2 g); cbn [length] in HN; [lia|].
          cbn [map]. discriminate.
        - exists true. unfold arities. cbn [g_infos]. rewrite E1. cbn [map]. discriminate. }
      destruct Hex as (pl & Hne). specialize (Hpos pl). specialize (HA pl).
      destruct (arities g pl) as [|a l]; [congruence|].
      inversion Hpos; subst. inversion HA; subst. lia. }
    rewrite <- sqrt_1. apply sqrt_le_1; [lra|apply pos_INR|]. change 1 with (INR 1). now apply le_INR.
  Qed.

  (** weakening a rate [k * D * N * y / sqrt T]; comparing [k * y] with [k' * y'] one may use
      that [sqrt A >= 1] (without infosets both rates are 0) and that [1 / sqrt T > 0] *)
  Lemma rate_weaken ran (k k' y y' x : R) :
    (1 <= ran)%N ->
    let s := sqrt (INR (N.to_nat ran)) in
    x <= k * D * NN * y / s ->
    (1 <= sA -> 0 < 1 / s -> k * y <= k' * y') ->
    x <= k' * D * NN * y' / s.
  Proof.
    intros Hr s Hx Hy. pose proof (sqrt_ran_pos ran Hr) as Hs. fold s in Hs.
    assert (Hi : 0 < / s) by (now apply Rinv_0_lt_compat).
    eapply Rle_trans; [exact Hx|].
    replace (k * D * NN * y / s) with (D * NN * / s * (k * y)) by (unfold Rdiv; ring).
    replace (k' * D * NN * y' / s) with (D * NN * / s * (k' * y')) by (unfold Rdiv; ring).
    destruct (Nat.eq_dec (num_infosets g) 0) as [HN0|HN0].
    - rewrite HN0. cbn [INR]. lra.
    - pose proof (D_nonneg g lo hi HWF HCO HPay) as HD. pose proof (pos_INR (num_infosets g)) as HN.
      apply Rmult_le_compat_l; [apply Rmult_le_pos; [apply Rmult_le_pos|]; lra|].
      apply Hy; [apply A_ge_1; lia|lra].
  Qed.
End Rate.

Section LcfrRate.
  Context (g : game) (draw : oracle) (lo hi : R) (A : nat).
  Context (HWF : @WFgame RNum g) (HPR : @PerfectRecall RNum g) (HCO : ChanceOK g)
          (HPay : PayoffsIn lo hi (g_root g))
          (HA : forall pl, Forall (fun a => (a <= A)%nat) (arities g pl)).

  Local Notation D := (hi - lo).

  Theorem lcfr_true_regret_rate_sharp budget (stop : R -> bool) strats b1 b2 ran :
    @solve_single RNum g Full draw (@p_lcfr RNum) budget stop = (strats, Some (b1, b2), ran) ->
    (1 <= ran)%N /\
    @si_regret RNum (@info RNum g strats) <=
    2 * D * INR (num_infosets g) * sqrt (INR A) / sqrt (INR (N.to_nat ran)).
  Proof.
    intros Hs.
    destruct (lcfr_bound_dominates g draw budget stop strats b1 b2 ran HWF HPR HCO Hs) as (Hd & _).
    destruct (rate_of_dominates g draw lo hi A HWF HPR HCO HPay HA _ budget stop strats b1 b2 ran 1 0 Hs)
      as (Hr & H); [lra|lra|].
    split; [exact Hr|lra].
  Qed.

  Theorem lcfr_true_regret_rate budget (stop : R -> bool) strats b1 b2 ran :
    @solve_single RNum g Full draw (@p_lcfr RNum) budget stop = (strats, Some (b1, b2), ran) ->
    @si_regret RNum (@info RNum g strats) <=
    4 * D * INR (num_infosets g) * sqrt (INR A) / sqrt (INR (N.to_nat ran)).
  Proof.
    intros Hs. destruct (lcfr_true_regret_rate_sharp budget stop strats b1 b2 ran Hs) as (Hr & H).
    eapply (rate_weaken g lo hi A HWF HCO HPay HA); [exact Hr|exact H|intros; lra].
  Qed.

  (** the form of property C03, clause 2 *)
  Theorem lcfr_true_regret_rate_C03 budget (stop : R -> bool) strats b1 b2 ran :
    @solve_single RNum g Full draw (@p_lcfr RNum) budget stop = (strats, Some (b1, b2), ran) ->
    let T := INR (N.to_nat ran) in
    @si_regret RNum (@info RNum g strats) <=
    6 * D * INR (num_infosets g) * (sqrt (INR A) + 1 / sqrt T) / sqrt T.
  Proof.
    intros Hs. cbv zeta.
    destruct (lcfr_true_regret_rate_sharp budget stop strats b1 b2 ran Hs) as (Hr & H).
    eapply (rate_weaken g lo hi A HWF HCO HPay HA); [exact Hr|exact H|intros; lra].
  Qed.
End LcfrRate.

(** ** Non-vacuity: matching pennies with player two's two nodes in one infoset
    ([SolveValidProofs.mp_game]): every LCFR solve with a positive budget returns bounds
    to which the theorems apply *)
Example mp_lcfr_bound_dominates (draw : oracle) (budget : nat) (stop : R -> bool) :
  (1 <= budget)%nat ->
  exists strats b1 b2 ran,
    @solve_single RNum SolveValidProofs.mp_game Full draw (@p_lcfr RNum) budget stop =
      (strats, Some (b1, b2), ran) /\
    @si_regret RNum (@info RNum SolveValidProofs.mp_game strats) <= b1 + b2 /\
    0 <= b1 /\ 0 <= b2 /\
    @si_regret RNum (@info RNum SolveValidProofs.mp_game strats) <=
      4 * sqrt 2 / sqrt (INR (N.to_nat ran)) + 4 * sqrt 2 / sqrt (INR (N.to_nat ran)).
Proof.
  intros Hb.
  destruct (@solve_single RNum SolveValidProofs.mp_game Full draw (@p_lcfr RNum) budget stop) as [[strats regs] ran] eqn:E.
  destruct (budget_never_exceeded SolveValidProofs.mp_game Full draw _ stop budget strats regs ran E) as (_ & Hsome & _).
  destruct (Hsome Hb) as (Hran & b1 & b2 & ->).
  exists strats, b1, b2, ran. split; [reflexivity|].
  destruct (lcfr_bound_dominates SolveValidProofs.mp_game draw budget stop strats b1 b2 ran
                                 mp_WF mp_PR CfrRate.mp_ChanceOK E) as (Hd & Hb1 & Hb2).
  rewrite Rmult_1_l in Hd.
  split; [exact Hd|]. split; [exact Hb1|]. split; [exact Hb2|].
  destruct (rate_of_dominates SolveValidProofs.mp_game draw (-1) 1 2 mp_WF mp_PR CfrRate.mp_ChanceOK
                              mp_Payoffs mp_arities _ budget stop strats b1 b2 ran 1 0 E) as (_ & H); [lra|lra|].
  unfold num_infosets in H. cbn [SolveValidProofs.mp_game g_infos1 g_infos2 length Nat.add INR] in H.
  replace (sqrt (1 + 1)) with (sqrt 2) in H by (f_equal; lra). unfold Rdiv in *. lra.
Qed.

(** ** The sum [b1 + b2] cannot be replaced by the total bound [Rmax b1 b2].

    For vanilla params the true regret is below [Rmax b1 b2]
    ([BoundDominatesClosed.bound_dominates_closed]).  For LCFR it is not: in the 2x2 game
    [BoundDominates.g2], after two iterations ([BoundDominates.g2_after_two] with
    [d 1 = 1/2], [d 2 = 2/3]), both returned bounds are [1/12] while the true regret of the
    returned profile is at least [5/36] (it is exactly [5/36]). *)
Theorem lcfr_max_bound_refuted (draw : oracle) :
  exists (g : game) budget stop strats b1 b2 ran,
    @WFgame RNum g /\ @PerfectRecall RNum g /\ ChanceOK g /\
    @solve_single RNum g Full draw (@p_lcfr RNum) budget stop = (strats, Some (b1, b2), ran) /\
    Rmax b1 b2 < @si_regret RNum (@info RNum g strats) /\
    @si_regret RNum (@info RNum g strats) <= b1 + b2.
Proof.
  destruct (g2_after_two _ lcfr_d draw lcfr_d_pos lcfr_discount_reg lcfr_discount_avg)
    as (strats & ran & E & Hlow).
  exists g2, 2%nat, never, strats, (lcfr_d 1 * lcfr_d 2 / 4), (lcfr_d 1 * lcfr_d 2 / 4), ran.
  split; [exact g2_WFgame|]. split; [exact g2_PerfectRecall|]. split; [exact g2_ChanceOK|].
  split; [exact E|]. split.
  - rewrite Rmax_left by apply Rle_refl. unfold lcfr_d in *. cbn [INR] in *. lra.
  - pose proof (lcfr_bound_dominates g2 draw 2 never strats _ _ ran g2_WFgame g2_PerfectRecall
                                     g2_ChanceOK E) as (Hd & _). lra.
Qed.

(** ** What a solve returns, in terms of the trajectory: the strategies are the
    normalised [cum_strat] of the state after [T = ran] iterations, and the bound of each
    player is [sum_I 2 * max(max_a cum_regret_T(I, a), 0) / T] (with
    [cum_regret_T] given by [lcfr_regret_at_sum]) *)
Theorem lcfr_solve_single_spec (g : game) (draw : oracle) budget (stop : R -> bool) strats b1 b2 ran :
  arities_pos g ->
  @solve_single RNum g Full draw (@p_lcfr RNum) budget stop = (strats, Some (b1, b2), ran) ->
  let p := @p_lcfr RNum in
  let T := N.to_nat ran in
  (1 <= T <= budget)%nat /\
  strats = @final_strats RNum (dstate_at g draw p T) /\
  b1 = Rsumn (ninfos g true)
         (fun i => 2 * Rmax (Rmaxl (cum_regret (@ri_get RNum (dstate_at g draw p T) true i))) 0 / INR T) /\
  b2 = Rsumn (ninfos g false)
         (fun i => 2 * Rmax (Rmaxl (cum_regret (@ri_get RNum (dstate_at g draw p T) false i))) 0 / INR T).
Proof.
  intros Hpos Hs. cbv zeta.
  apply dsolve_single_traj in Hs as (T & HT & -> & Hb & ->). rewrite Nat2N.id.
  split; [exact HT|]. split; [reflexivity|].
  pose proof (dbound_pl_eq g draw (@p_lcfr RNum) Hpos T true ltac:(lia)) as E1.
  pose proof (dbound_pl_eq g draw (@p_lcfr RNum) Hpos T false ltac:(lia)) as E2.
  unfold dbound_pl in E1, E2. rewrite Hb in E1, E2. cbn [fst snd] in E1, E2. split; assumption.
Qed.
