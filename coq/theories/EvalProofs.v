(** * EvalProofs: the model of [regret::expected] computes the expected payoff:
    [expected g s1 s2 = u_game g s1 s2] for non-negative rows (the accumulator, the stack
    order and the skipping of actions of probability [<= 0] do not matter over the
    reals). *)
From Coq Require Import Reals List Bool Arith Lra Lia.
From Cfr.theories Require Import Num RInst Tree GameWF Eval Valid EvalSpec.
Import ListNotations.
Open Scope R_scope.

Local Notation node := (@node RNum).
Local Notation game := (@game RNum).

Definition lsum (l : list (R * R)) : R := Rsum (map (fun rx => fst rx * snd rx) l).

Lemma lsum_app a b : lsum (a ++ b) = lsum a + lsum b.
Proof. unfold lsum. now rewrite map_app, Rsum_app. Qed.

Lemma lsum_scale p l : lsum (scale_leaves p l) = p * lsum l.
Proof.
  unfold lsum, scale_leaves. induction l as [|x l IH]; cbn [map Rsum fst snd]; [lra|].
  rewrite IH. lra.
Qed.

Lemma leaves_kids (f : node -> R) (lf : node -> list (R * R)) ps kids :
  Forall (fun k => f k = lsum (lf k)) kids ->
  dot ps (map f kids) =
  lsum (concat (map (fun pl => scale_leaves (fst pl) (snd pl)) (combine ps (map lf kids)))).
Proof.
  intros HF. revert ps. induction HF as [|k ks Hk _ IH]; intros [|p ps];
    cbn [map combine concat]; try reflexivity.
  unfold dot in *. cbn [combine map Rsum fst snd].
  rewrite lsum_app, lsum_scale, <- IH, Hk. reflexivity.
Qed.

Theorem u_leaves chance s1 s2 n :
  u chance s1 s2 n = lsum (leaves chance s1 s2 n).
Proof.
  induction n as [x|ci kids IH|pl i kids IH] using node_ind'.
  - unfold lsum. cbn. lra.
  - cbn [u leaves]. now apply leaves_kids.
  - cbn [u leaves]. now apply leaves_kids.
Qed.

(** ** [exp_acc]: the local loops.  A chance node takes every child, a player node only
    the children of positive probability: [keep] tells the two apart. *)
Section Loops.
  Context (keep : R -> bool) (f : node -> R -> R -> R) (reach : R).
  Fixpoint ego (ps : list R) (ks : list node) (acc : R) {struct ks} : R :=
    match ps, ks with
    | p :: ps', k :: ks' => if keep p then f k (p * reach) (ego ps' ks' acc) else ego ps' ks' acc
    | _, _ => acc
    end.
End Loops.

Lemma exp_acc_Term chance s1 s2 x reach acc :
  @exp_acc RNum chance s1 s2 (Term x) reach acc = acc + reach * x.
Proof. reflexivity. Qed.

Lemma exp_acc_Chance chance s1 s2 ci kids reach acc :
  @exp_acc RNum chance s1 s2 (Chance ci kids) reach acc =
  ego (fun _ => true) (@exp_acc RNum chance s1 s2) reach (rowR chance ci) kids acc.
Proof. reflexivity. Qed.

Lemma exp_acc_Player chance s1 s2 pl i kids reach acc :
  @exp_acc RNum chance s1 s2 (Player pl i kids) reach acc =
  ego (Rltb 0) (@exp_acc RNum chance s1 s2) reach (rowR (if pl then s1 else s2) i) kids acc.
Proof. reflexivity. Qed.

(** the probabilities that a loop skips are zero *)
Definition Skips0 (keep : R -> bool) (ps : list R) : Prop :=
  Forall (fun p => keep p = false -> p = 0) ps.

Lemma skips_none ps : Skips0 (fun _ => true) ps.
Proof. apply Forall_forall. discriminate. Qed.

Lemma skips_nonneg ps : Forall (fun x => 0 <= x) ps -> Skips0 (Rltb 0) ps.
Proof.
  intros H. eapply Forall_impl; [|exact H]. cbn beta. intros p Hp E. apply Rltb_false in E. lra.
Qed.

Lemma ego_sum keep (f : node -> R -> R -> R) (v : node -> R) reach ps kids acc :
  Skips0 keep ps ->
  Forall (fun k => forall r a, f k r a = a + r * v k) kids ->
  ego keep f reach ps kids acc = acc + reach * dot ps (map v kids).
Proof.
  intros HP HF. revert ps HP. induction HF as [|k ks Hk _ IH]; intros [|p ps] HP;
    unfold dot; cbn [ego map combine Rsum fst snd]; try lra.
  inversion HP as [|? ? Hp HP']; subst.
  destruct (keep p) eqn:E.
  - rewrite Hk, IH by assumption. unfold dot. lra.
  - rewrite (Hp eq_refl), IH by assumption. unfold dot. lra.
Qed.

Lemma Forall_row (P : R -> Prop) t i : Forall (Forall P) t -> Forall P (rowR t i).
Proof.
  intros H. unfold rowR. destruct (Nat.lt_ge_cases i (length t)) as [Hi|Hi].
  - rewrite Forall_forall in H. apply H. now apply nth_In.
  - rewrite nth_overflow by assumption. constructor.
Qed.

Lemma exp_acc_exact chance s1 s2 n :
  NonnegRows s1 -> NonnegRows s2 ->
  forall reach acc, @exp_acc RNum chance s1 s2 n reach acc = acc + reach * u chance s1 s2 n.
Proof.
  intros H1 H2.
  induction n as [x|ci kids IH|pl i kids IH] using node_ind'; intros reach acc.
  - reflexivity.
  - rewrite exp_acc_Chance. cbn [u]. apply ego_sum; [apply skips_none|assumption].
  - rewrite exp_acc_Player. cbn [u]. apply ego_sum; [apply skips_nonneg|assumption].
    destruct pl; now apply Forall_row.
Qed.

Theorem expected_exact (g : game) (s1 s2 : list (list R)) :
  NonnegRows s1 -> NonnegRows s2 -> @expected RNum g s1 s2 = u_game g s1 s2.
Proof.
  intros H1 H2. unfold expected, u_game. rewrite exp_acc_exact by assumption.
  cbn [zero one RNum]. lra.
Qed.

Lemma VRow_nonneg r : VRow r -> Forall (fun x => 0 <= x) r.
Proof. now intros [H _]. Qed.

Lemma Forall_VRow_NonnegRows s : Forall VRow s -> NonnegRows s.
Proof. intros H. unfold NonnegRows. eapply Forall_impl; [|exact H]. apply VRow_nonneg. Qed.

Definition strat1 (g : game) (prof : list R * list R) : list (list R) :=
  split_by (fst prof) (arities g true).
Definition strat2 (g : game) (prof : list R * list R) : list (list R) :=
  split_by (snd prof) (arities g false).

Definition prof_strat (g : game) (prof : list R * list R) (me : bool) : list (list R) :=
  if me then strat1 g prof else strat2 g prof.
Definition si_reg (i : @sinfo RNum) (me : bool) : R := if me then si_reg1 i else si_reg2 i.

Lemma Valid_strat g prof me : Valid g prof -> StratOf g me (prof_strat g prof me).
Proof.
  intros [[L1 V1] [L2 V2]]. destruct me; (split; [assumption|now apply split_by_length]).
Qed.

Lemma StratOf_nonneg g me s : StratOf g me s -> NonnegRows s.
Proof. intros [H _]. now apply Forall_VRow_NonnegRows. Qed.

Theorem info_util_exact (g : game) prof :
  Valid g prof ->
  si_util (@info RNum g prof) = u_game g (strat1 g prof) (strat2 g prof).
Proof.
  intros HV. cbn [info si_util]. apply expected_exact.
  - eapply StratOf_nonneg, (Valid_strat g prof true), HV.
  - eapply StratOf_nonneg, (Valid_strat g prof false), HV.
Qed.

Theorem info_utility_one (g : game) prof :
  Valid g prof ->
  @si_utility RNum (@info RNum g prof) true = u_me g true (strat1 g prof) (strat2 g prof).
Proof. intros HV. unfold si_utility, u_me. now apply info_util_exact. Qed.

Theorem info_utility_two (g : game) prof :
  Valid g prof ->
  @si_utility RNum (@info RNum g prof) false = u_me g false (strat2 g prof) (strat1 g prof).
Proof.
  intros HV. unfold si_utility, u_me. rewrite info_util_exact by assumption. reflexivity.
Qed.

Theorem info_utility_zero_sum (g : game) prof :
  @si_utility RNum (@info RNum g prof) false = - @si_utility RNum (@info RNum g prof) true.
Proof. reflexivity. Qed.

Theorem info_reg_def (g : game) prof me :
  Valid g prof ->
  si_reg (@info RNum g prof) me =
  Rmax (@br_value RNum g me (prof_strat g prof (negb me))
        - u_me g me (prof_strat g prof me) (prof_strat g prof (negb me))) 0.
Proof.
  intros HV. pose proof (info_util_exact g prof HV) as He. unfold u_me.
  destruct me; cbn [prof_strat negb]; rewrite <- He;
    cbn [si_reg info si_reg1 si_reg2 si_util fmax add sub zero RNum]; [reflexivity|].
  f_equal. unfold Rminus. now rewrite Ropp_involutive.
Qed.

Theorem info_regret_def (g : game) prof :
  @si_regret RNum (@info RNum g prof) =
  Rmax (si_reg1 (@info RNum g prof)) (si_reg2 (@info RNum g prof)).
Proof. reflexivity. Qed.
