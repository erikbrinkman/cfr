(** * ScaleFloatBR: the best-response side of payoff scaling at binary64.

    [ScaleFloat] shows that [expected] commutes bit for bit with the scaling of the payoffs
    by a power of two.  This file does the same for [search] (next-infoset search),
    [resolve_one] / [resolve_from], [br_value] and finally [info] (utility and both
    regrets: [regret::regret]), under boolean range checkers that follow the evaluation of
    the unscaled game.  The unfolding equations of these functions and the names [tsz],
    [centry], [paystep], [payoffs], [rtotal], [rmine] are also what [BRFloat] reasons with. *)
From Coq Require Import List ZArith Reals Floats Bool Lia Lra Arith.
From Flocq Require Import Core IEEE754.BinarySingleNaN IEEE754.PrimFloat.
From Cfr.theories Require Import Num FInst Tree GameWF Strat Eval
  TruncFloat NormFloat EvalFloat ScaleFloat.
Import ListNotations.

Local Existing Instance Flocq.IEEE754.PrimFloat.Hprec.
Local Existing Instance Flocq.IEEE754.PrimFloat.Hmax.

Local Open Scope R_scope.
Local Notation float := PrimFloat.float.
Local Notation node := (@node FNum).
Local Notation game := (@game FNum).
Local Notation bp := (bpow radix2).

Local Instance fexp_valid_br : Valid_exp (SpecFloat.fexp prec emax) :=
  fexp_correct prec emax Flocq.IEEE754.PrimFloat.Hprec.

Lemma rnd_abs_ge : forall x y, fmt x -> x <= Rabs y -> x <= Rabs (rnd y).
Proof.
  intros x y Hx H. unfold rnd. apply abs_round_ge_generic; auto with typeclass_instances.
Qed.

(** number of terms a traversal can add to its accumulator *)
Fixpoint tsz (n : node) : nat :=
  match n with
  | Term _ => 1%nat
  | Chance _ kids => list_sum (map tsz kids)
  | Player _ _ kids => S (list_sum (map tsz kids))
  end.

Section Search.
  Context (chance so : list (list float)) (me : bool).

  Lemma search_Term : forall mu x reach acc,
    @search FNum chance so me mu (Term x) reach acc =
    if me then (acc + x * reach)%float else (acc - x * reach)%float.
  Proof. reflexivity. Qed.

  Lemma search_Chance : forall mu ci kids reach acc,
    @search FNum chance so me mu (Chance ci kids) reach acc =
    pgo (@search FNum chance so me mu) (fun _ => true) reach (@row FNum chance ci) kids acc.
  Proof. reflexivity. Qed.

  Lemma search_Player : forall mu pl i kids reach acc,
    @search FNum chance so me mu (Player pl i kids) reach acc =
    if Bool.eqb pl me then (acc + mu i * reach)%float
    else pgo (@search FNum chance so me mu) (fun p => PrimFloat.ltb 0 p) reach
             (@row FNum so i) kids acc.
  Proof. reflexivity. Qed.

End Search.

(** the own decision nodes of the scaled tree are those of the tree, with
    scaled subtrees and the same reach *)
Definition centry := (nat * (list node * float))%type.

Definition sk (c : float) (en : centry) : centry :=
  (fst en, (map (scale_node c) (fst (snd en)), snd (snd en))).

Section Collect.
  Context (c : float) (chance so : list (list float)) (me : bool).
  Local Notation col := (@collect FNum chance so me).

  Lemma collect_Term : forall x reach acc, col (Term x) reach acc = acc.
  Proof. reflexivity. Qed.

  Lemma collect_Chance : forall ci kids reach acc,
    col (Chance ci kids) reach acc =
    pgo col (fun _ => true) reach (@row FNum chance ci) kids acc.
  Proof. reflexivity. Qed.

  Lemma collect_Player : forall pl i kids reach acc,
    col (Player pl i kids) reach acc =
    if Bool.eqb pl me then ogo col reach kids (acc ++ [(i, (kids, reach))])
    else pgo col (fun p => PrimFloat.ltb 0 p) reach (@row FNum so i) kids acc.
  Proof. reflexivity. Qed.

  Definition CSpec (k : node) : Prop := forall reach acc,
    col (scale_node c k) reach (map (sk c) acc) = map (sk c) (col k reach acc).

  Lemma pgo_collect : forall (tst : float -> bool) ks, Forall CSpec ks ->
    forall ps reach acc,
    pgo col tst reach ps (map (scale_node c) ks) (map (sk c) acc) =
    map (sk c) (pgo col tst reach ps ks acc).
  Proof.
    intros tst ks Hks. induction Hks as [|k ks Hk Hks IH]; intros ps reach acc.
    - destruct ps; reflexivity.
    - destruct ps as [|p ps]; [reflexivity|].
      cbn [pgo map]. destruct (tst p).
      + rewrite IH. apply Hk.
      + apply IH.
  Qed.

  Lemma ogo_collect : forall ks, Forall CSpec ks ->
    forall reach acc,
    ogo col reach (map (scale_node c) ks) (map (sk c) acc) = map (sk c) (ogo col reach ks acc).
  Proof.
    intros ks Hks. induction Hks as [|k ks Hk Hks IH]; intros reach acc.
    - reflexivity.
    - cbn [ogo map]. rewrite IH. apply Hk.
  Qed.

  Theorem collect_scale : forall n, CSpec n.
  Proof.
    induction n as [x|ci kids IH|pl i kids IH] using node_ind'; intros reach acc.
    - reflexivity.
    - rewrite scale_node_Chance, !collect_Chance. apply pgo_collect. exact IH.
    - rewrite scale_node_Player, !collect_Player. destruct (Bool.eqb pl me).
      + transitivity (ogo col reach (map (scale_node c) kids)
                        (map (sk c) (acc ++ [(i, (kids, reach))]))).
        * apply f_equal. exact (eq_sym (map_app (sk c) acc [(i, (kids, reach))])).
        * apply ogo_collect. exact IH.
      + apply pgo_collect. exact IH.
  Qed.
End Collect.

Section Resolve.
  Context (c : float) (chance so : list (list float)) (me : bool).
  Local Notation srch := (@search FNum chance so me).

  Definition paystep (mu : nat -> float) (pays : list float) (en : centry) : list float :=
    let '(_, (kids, p)) := en in
    map (fun pk => (fst pk + srch mu (snd pk) 1 0 * p)%float) (combine pays kids).

  Definition payoffs (mu : nat -> float) (mine : list centry) (arity : nat) : list float :=
    fold_left (paystep mu) mine (@repeatT FNum 0%float arity).

  Definition rtotal (mine : list centry) : float :=
    @sum FNum (map (fun en : centry => snd (snd en)) mine).

  Definition rmine (nodes : list centry) (i : nat) : list centry :=
    filter (fun en : centry => Nat.eqb (fst en) i) nodes.

  Lemma resolve_one_FNum : forall nodes arity mu i,
    @resolve_one FNum chance so me nodes arity mu i =
    match rmine nodes i with
    | [] => 0%float
    | _ :: _ =>
        match @reduce_max FNum (payoffs mu (rmine nodes i) arity) with
        | Some m => if PrimFloat.ltb 0 (rtotal (rmine nodes i))
                    then (m / rtotal (rmine nodes i))%float else 0%float
        | None => 0%float
        end
    end.
  Proof. reflexivity. Qed.

  Lemma rmine_sk : forall nodes i, rmine (map (sk c) nodes) i = map (sk c) (rmine nodes i).
  Proof.
    intros nodes i. unfold rmine. induction nodes as [|en nodes IH]; [reflexivity|].
    cbn [map filter]. change (fst (sk c en)) with (fst en).
    destruct (Nat.eqb (fst en) i); cbn [map]; rewrite IH; reflexivity.
  Qed.

  Lemma rtotal_sk : forall mine, rtotal (map (sk c) mine) = rtotal mine.
  Proof. intros mine. unfold rtotal. rewrite map_map. reflexivity. Qed.

  Lemma resolve_from_S : forall nodes ars i k,
    @resolve_from FNum chance so me nodes ars i (S k) =
    @resolve_one FNum chance so me nodes (nth i ars O)
       (fun j => nth (j - S i) (@resolve_from FNum chance so me nodes ars (S i) k) 0%float) i
    :: @resolve_from FNum chance so me nodes ars (S i) k.
  Proof. reflexivity. Qed.

End Resolve.

Lemma br_value_FNum : forall (g : game) (me : bool) (so : list (list float)),
  @br_value FNum g me so =
  @search FNum (g_chance g) so me
    (fun j => nth j (@resolve_from FNum (g_chance g) so me
                       (@collect FNum (g_chance g) so me (g_root g) 1%float [])
                       (arities g me) O (length (arities g me))) 0%float)
    (g_root g) 1%float 0%float.
Proof. reflexivity. Qed.

(** ** Boolean checkers: the range conditions are decided by running the unscaled
    evaluation once in binary64 (sufficient tests, with one binade of margin) *)

Lemma ltb_abs_pow2 : forall k x, (-1074 <= k <= 1023)%Z -> Ffin x ->
  PrimFloat.ltb (PrimFloat.abs x) (pow2 k) = true -> Rabs (FR x) < bp k.
Proof.
  intros k x Hk Hx H. destruct (pow2_IsPow2 k Hk) as [Gf Gr].
  rewrite (ltb_fin _ _ (Ffin_abs x Hx) Gf), Gr, FR_abs in H.
  destruct (Rlt_bool_spec (Rabs (FR x)) (bp k)) as [Hr|Hr]; [exact Hr | discriminate].
Qed.

Lemma Rg_zero : forall e M, Rg e M 0.
Proof.
  intros e M. apply (Rng_Rg e M (Z.max 0 (- e)) (Z.min M (M - e))); [left; reflexivity | lia..].
Qed.

Definition LoE (e : Z) : Z := Z.max (-1021) (-1021 - e).
Definition HiE (e M : Z) : Z := Z.min M (M - e).

(** the computed (rounded) value [q] is at least [2^LoE] and below [2^HiE] in magnitude *)
Definition rg_chk (e M : Z) (q : float) : bool :=
  PrimFloat.leb (pow2 (LoE e)) (PrimFloat.abs q) && PrimFloat.ltb (PrimFloat.abs q) (pow2 (HiE e M)).

Section Checkers.
  Context (e M : Z) (He : (-500 <= e <= 500)%Z) (HM : (-500 <= M <= 971)%Z).

  Lemma rg_chk_spec : forall q v, Ffin q -> FR q = rnd v -> rg_chk e M q = true -> Rg e M v.
  Proof.
    intros q v Hq Hv H. unfold rg_chk in H. apply andb_true_iff in H. destruct H as [H1 H2].
    assert (Lo : (-1021 <= LoE e <= 1023 /\ -1021 - e <= LoE e)%Z) by (unfold LoE; lia).
    assert (Hi : (-1074 <= HiE e M <= 1023 /\ HiE e M <= M /\ HiE e M <= M - e)%Z) by (unfold HiE; lia).
    set (lo := LoE e) in *. set (hi := HiE e M) in *.
    apply leb_pow2_abs in H1; [|lia|exact Hq]. apply ltb_abs_pow2 in H2; [|lia|exact Hq].
    rewrite Hv in H1, H2.
    assert (Lv : bp (lo - 1) <= Rabs v).
    { destruct (Rle_lt_dec (bp (lo - 1)) (Rabs v)) as [G|G]; [exact G|exfalso].
      assert (X : Rabs (rnd v) <= bp (lo - 1)) by (apply rnd_abs_le; [apply fmt_bpow; lia | lra]).
      assert (bp (lo - 1) < bp (lo)) by (apply bpow_lt; lia). lra. }
    assert (Uv : Rabs v <= bp (hi)).
    { destruct (Rle_lt_dec (Rabs v) (bp (hi))) as [G|G]; [exact G|exfalso].
      assert (X : bp (hi) <= Rabs (rnd v)).
      { apply rnd_abs_ge; [apply fmt_bpow; lia | lra]. }
      lra. }
    apply (Rng_Rg e M (lo - 1) hi); [right; split; assumption | lia..].
  Qed.

  (** finite and at most [2^500] in magnitude: a product or a quotient (divisor at least
      [2^-500]) of such operands is at most [2^1000 < 2^1024] *)
  Definition smallb (x : float) : bool :=
    f_is_fin x && PrimFloat.leb (PrimFloat.abs x) (pow2 500).

  Lemma smallb_spec : forall x, smallb x = true -> Ffin x /\ Rabs (FR x) <= bp 500.
  Proof.
    intros x H. unfold smallb in H. apply andb_true_iff in H. destruct H as [H1 H2].
    apply NormFloat.f_is_fin_true in H1. split; [exact H1|].
    apply leb_abs_pow2; [lia | exact H1 | exact H2].
  Qed.

  Lemma bp1000_lt : bp 1000 < bp emax.
  Proof. apply bpow_lt. change emax with 1024%Z. lia. Qed.

  (** an operation on small operands does not overflow, so that the test on its computed
      result speaks of the exact result [v] *)
  Lemma rg_chk_op : forall q v, Rabs v <= bp 1000 ->
    (Rabs (rnd v) < bp emax -> Ffin q /\ FR q = rnd v) -> rg_chk e M q = true -> Rg e M v.
  Proof.
    intros q v Hb Hq H. destruct Hq as [Ff Fe]; [|exact (rg_chk_spec q v Ff Fe H)].
    apply Rle_lt_trans with (bp 1000); [|apply bp1000_lt].
    apply rnd_abs_le; [apply fmt_bpow; lia | exact Hb].
  Qed.

  Definition rg_mulb (x r : float) : bool :=
    smallb x && smallb r &&
    (PrimFloat.eqb x 0 || PrimFloat.eqb r 0 || rg_chk e M (x * r)%float).

  Lemma rg_mulb_spec : forall x r, rg_mulb x r = true ->
    Ffin x /\ Ffin r /\ Rg e M (FR x * FR r).
  Proof.
    intros x r H. unfold rg_mulb in H.
    apply andb_true_iff in H. destruct H as [H H3].
    apply andb_true_iff in H. destruct H as [H1 H2].
    apply smallb_spec in H1. apply smallb_spec in H2.
    destruct H1 as [Fx Bx]. destruct H2 as [Fr Br].
    split; [exact Fx|]. split; [exact Fr|].
    apply orb_true_iff in H3. destruct H3 as [H3|H3].
    - apply orb_true_iff in H3. destruct H3 as [H3|H3].
      + apply (eqb_zero_fin x Fx) in H3. rewrite H3, Rmult_0_l. apply Rg_zero.
      + apply (eqb_zero_fin r Fr) in H3. rewrite H3, Rmult_0_r. apply Rg_zero.
    - apply (rg_chk_op (x * r)%float); [|exact (mul_ok x r Fx Fr) | exact H3].
      rewrite Rabs_mult. change (bp 1000) with (bp (500 + 500)). rewrite bpow_plus.
      apply Rmult_le_compat; try apply Rabs_pos; assumption.
  Qed.

  Definition rg_divb (m t : float) : bool :=
    smallb m && f_is_fin t && PrimFloat.leb (pow2 (-500)) (PrimFloat.abs t) &&
    (PrimFloat.eqb m 0 || rg_chk e M (m / t)%float).

  Lemma rg_divb_spec : forall m t, rg_divb m t = true -> Ffin t /\ Rg e M (FR m / FR t).
  Proof.
    intros m t H. unfold rg_divb in H.
    apply andb_true_iff in H. destruct H as [H H4].
    apply andb_true_iff in H. destruct H as [H H3].
    apply andb_true_iff in H. destruct H as [H1 H2].
    apply smallb_spec in H1. destruct H1 as [Fm Bm].
    apply NormFloat.f_is_fin_true in H2.
    apply leb_pow2_abs in H3; [|lia|exact H2].
    split; [exact H2|].
    assert (Ht0 : FR t <> 0).
    { intros Hz. rewrite Hz, Rabs_R0 in H3. generalize (bpow_gt_0 radix2 (-500)). lra. }
    apply orb_true_iff in H4. destruct H4 as [H4|H4].
    - apply (eqb_zero_fin m Fm) in H4. rewrite H4. unfold Rdiv. rewrite Rmult_0_l. apply Rg_zero.
    - apply (rg_chk_op (m / t)%float); [|exact (div_ok m t Fm Ht0) | exact H4].
      unfold Rdiv. rewrite Rabs_mult, Rabs_inv.
      change (bp 1000) with (bp (500 + 500)). rewrite bpow_plus.
      apply Rmult_le_compat; try apply Rabs_pos.
      + left. apply Rinv_0_lt_compat. apply Rabs_pos_lt. exact Ht0.
      + exact Bm.
      + replace (bp 500) with (/ bp (-500)) by (rewrite <- bpow_opp; reflexivity).
        apply Rinv_le_contravar; [apply bpow_gt_0 | exact H3].
  Qed.

  (** a payoff: [x * c] is exact and finite *)
  Definition termb (x : float) : bool :=
    smallb x &&
    (PrimFloat.eqb x 0 || PrimFloat.leb (pow2 (Z.max (-1074) (-1022 - e))) (PrimFloat.abs x)).

  Lemma termb_spec : forall x, termb x = true ->
    Ffin x /\ nz (FR x * bp e) /\ Rabs (FR x * bp e) < bp emax.
  Proof.
    intros x H. unfold termb in H. apply andb_true_iff in H. destruct H as [H1 H2].
    apply smallb_spec in H1. destruct H1 as [Fx Bx]. split; [exact Fx|].
    set (lo := Z.max (-1074) (-1022 - e)) in *.
    assert (Lo : (-1074 <= lo <= 1023 /\ -1022 <= lo + e)%Z) by (unfold lo; lia). clearbody lo.
    assert (Hx : Rng lo 500 (FR x)).
    { apply orb_true_iff in H2. destruct H2 as [H2|H2].
      - left. apply (eqb_zero_fin x Fx), H2.
      - right. split; [apply leb_pow2_abs; [exact (proj1 Lo) | exact Fx | exact H2] | exact Bx]. }
    assert (Hxe := Rng_mul _ _ _ _ _ _ Hx (Rng_bp e)).
    split; [apply (Rng_nz _ _ _ Hxe); exact (proj2 Lo) | apply (Rng_lt_emax _ _ _ Hxe); lia].
  Qed.
End Checkers.

Section BLoop.
  Context (b : node -> float -> bool) (tst : float -> bool) (reach : float).
  Fixpoint bgo (ps : list float) (ks : list node) {struct ks} : bool :=
    match ps, ks with
    | p :: ps', k :: ks' => (if tst p then b k (p * reach)%float else true) && bgo ps' ks'
    | _, _ => true
    end.
End BLoop.

Lemma bgo_rgo : forall (b : node -> float -> bool) (P : node -> float -> Prop) tst ks,
  Forall (fun k => forall r, b k r = true -> P k r) ks ->
  forall ps r, bgo b tst r ps ks = true -> rgo P tst r ps ks.
Proof.
  intros b P tst ks Hks. induction Hks as [|k ks Hk _ IH]; intros ps r H.
  - destruct ps; exact I.
  - destruct ps as [|p ps]; [exact I|].
    cbn [bgo] in H. apply andb_true_iff in H. destruct H as [H1 H2].
    cbn [rgo]. split; [|apply IH; exact H2].
    destruct (tst p); [apply Hk; exact H1 | exact I].
Qed.

Section TreeCheckers.
  Context (e M : Z) (He : (-500 <= e <= 500)%Z) (HM : (-500 <= M <= 971)%Z).

  Section ForExpected.
    Context (chance s1 s2 : list (list float)).
    Fixpoint rangeokb (n : node) (reach : float) {struct n} : bool :=
      match n with
      | Term x => termb e x && rg_mulb e M reach x
      | Chance ci kids =>
          (fix go (ps : list float) (ks : list node) {struct ks} : bool :=
             match ps, ks with
             | p :: ps', k :: ks' => rangeokb k (p * reach)%float && go ps' ks'
             | _, _ => true
             end) (@row FNum chance ci) kids
      | Player pl i kids =>
          (fix go (ps : list float) (ks : list node) {struct ks} : bool :=
             match ps, ks with
             | p :: ps', k :: ks' =>
                 (if PrimFloat.ltb 0 p then rangeokb k (p * reach)%float else true) && go ps' ks'
             | _, _ => true
             end) (@row FNum (if pl then s1 else s2) i) kids
      end.

    Theorem rangeokb_spec : forall n r, rangeokb n r = true -> RangeOK e M chance s1 s2 n r.
    Proof.
      induction n as [x|ci kids IH|pl i kids IH] using node_ind'; intros r H.
      - cbn [rangeokb] in H. apply andb_true_iff in H. destruct H as [H1 H2].
        destruct (termb_spec e He x H1) as [Fx [Nx Bx]].
        destruct (rg_mulb_spec e M He HM r x H2) as [Fr [_ Hg]].
        rewrite RangeOK_Term. unfold LeafOK. tauto.
      - exact (bgo_rgo rangeokb _ (fun _ => true) kids IH _ r H).
      - exact (bgo_rgo rangeokb _ (fun p => PrimFloat.ltb 0 p) kids IH _ r H).
    Qed.
  End ForExpected.

  Section ForBR.
    Context (chance so : list (list float)) (me : bool).

    Fixpoint searchokb (mu : nat -> float) (n : node) (reach : float) {struct n} : bool :=
      match n with
      | Term x => termb e x && rg_mulb e M x reach
      | Chance ci kids =>
          (fix go (ps : list float) (ks : list node) {struct ks} : bool :=
             match ps, ks with
             | p :: ps', k :: ks' => searchokb mu k (p * reach)%float && go ps' ks'
             | _, _ => true
             end) (@row FNum chance ci) kids
      | Player pl i kids =>
          if Bool.eqb pl me then rg_mulb e M (mu i) reach
          else
          (fix go (ps : list float) (ks : list node) {struct ks} : bool :=
             match ps, ks with
             | p :: ps', k :: ks' =>
                 (if PrimFloat.ltb 0 p then searchokb mu k (p * reach)%float else true) && go ps' ks'
             | _, _ => true
             end) (@row FNum so i) kids
      end.

    Lemma searchokb_Chance : forall mu ci kids r,
      searchokb mu (Chance ci kids) r =
      bgo (searchokb mu) (fun _ => true) r (@row FNum chance ci) kids.
    Proof. reflexivity. Qed.

    Lemma searchokb_Player : forall mu pl i kids r,
      searchokb mu (Player pl i kids) r =
      if Bool.eqb pl me then rg_mulb e M (mu i) r
      else bgo (searchokb mu) (fun p => PrimFloat.ltb 0 p) r (@row FNum so i) kids.
    Proof. reflexivity. Qed.

    Local Notation srch := (@search FNum chance so me).

    Definition kidokb (mu : nat -> float) (p : float) (kid : node) : bool :=
      searchokb mu kid 1%float && (Z.of_nat (tsz kid) <? 2 ^ 53)%Z &&
      rg_mulb e M (srch mu kid 1%float 0%float) p.

    Definition stepokb (mu : nat -> float) (en : centry) : bool :=
      f_is_fin (snd (snd en)) && forallb (kidokb mu (snd (snd en))) (fst (snd en)).

    Definition resokb (nodes : list centry) (arity : nat) (mu : nat -> float) (i : nat) : bool :=
      let mine := rmine nodes i in
      forallb (stepokb mu) mine && (Z.of_nat (length mine) <? 2 ^ 53)%Z &&
      match @reduce_max FNum (payoffs chance so me mu mine arity) with
      | Some m => if PrimFloat.ltb 0 (rtotal mine) then rg_divb e M m (rtotal mine) else true
      | None => true
      end.

    Fixpoint resfromokb (nodes : list centry) (ars : list nat) (i k : nat) {struct k} : bool :=
      match k with
      | O => true
      | S k' =>
          resfromokb nodes ars (S i) k' &&
          resokb nodes (nth i ars O)
                 (fun j => nth (j - S i) (@resolve_from FNum chance so me nodes ars (S i) k') 0%float) i
      end.

  End ForBR.

  Definition brokb (g : game) (me : bool) (so : list (list float)) : bool :=
    let chance := g_chance g in
    let nodes := @collect FNum chance so me (g_root g) 1%float [] in
    let ars := arities g me in
    let tbl := @resolve_from FNum chance so me nodes ars O (length ars) in
    resfromokb chance so me nodes ars O (length ars) &&
    searchokb chance so me (fun j => nth j tbl 0%float) (g_root g) 1%float &&
    (Z.of_nat (tsz (g_root g)) <? 2 ^ 53)%Z.

  (** one boolean for everything [info] needs *)
  Definition infookb (g : game) (prof : list float * list float) : bool :=
    let s1 := split_by (fst prof) (arities g true) in
    let s2 := split_by (snd prof) (arities g false) in
    (2 * Z.of_nat (tsz (g_root g)) <? 2 ^ 53)%Z &&
    rangeokb (g_chance g) s1 s2 (g_root g) 1%float &&
    brokb g true s2 && brokb g false s1.
End TreeCheckers.

Lemma bgo_true : forall (b : node -> float -> bool) tst ks ps r,
  bgo b tst r ps ks = true -> rgo (fun k r' => b k r' = true) tst r ps ks.
Proof.
  intros b tst ks ps r. apply (bgo_rgo b). apply Forall_forall. intros k _ r' H. exact H.
Qed.

Lemma Inv_Sc : forall e M j a a', Inv e M j a a' -> Sc e a a'.
Proof. intros e M j a a' [H _]. exact H. Qed.

Lemma Forall2_Inv_Sc : forall e M j l l', Forall2 (Inv e M j) l l' -> Forall2 (Sc e) l l'.
Proof.
  intros e M j l l' H. induction H; constructor; [eapply Inv_Sc; eassumption | assumption].
Qed.

(** [Iterator::reduce(f64::max)] *)
Lemma fold_fmax_Sc : forall e l l', Forall2 (Sc e) l l' -> forall a a', Sc e a a' ->
  Sc e (fold_left f_max l a) (fold_left f_max l' a').
Proof.
  intros e l l' H. induction H as [|x x' l l' Hx Hl IH]; intros a a' Ha; [exact Ha|].
  cbn [fold_left]. apply IH. apply Sc_fmax; assumption.
Qed.

Lemma reduce_max_Sc : forall e l l', Forall2 (Sc e) l l' ->
  match @reduce_max FNum l, @reduce_max FNum l' with
  | Some m, Some m' => Sc e m m'
  | None, None => True
  | _, _ => False
  end.
Proof.
  intros e l l' H. destruct H as [|x x' l l' Hx Hl]; [exact I|].
  cbn [reduce_max]. apply (fold_fmax_Sc e l l' Hl x x' Hx).
Qed.

Section Scale.
  Context (c : float) (e M : Z) (chance so : list (list float)) (me : bool).
  Context (Hc : IsPow2 c e) (He : (-500 <= e <= 500)%Z) (HM : (-500 <= M <= 971)%Z).
  Local Notation srch := (@search FNum chance so me).
  Local Notation sokb := (searchokb e M chance so me).

  Lemma M_wide : (-1074 <= M <= 971)%Z.
  Proof. lia. Qed.

  Lemma termb_Sc : forall x, termb e x = true -> Sc e x (x * c)%float.
  Proof.
    intros x H. destruct (termb_spec e He x H) as [Fx [Nx Bx]]. apply Sc_term; assumption.
  Qed.

  Theorem search_scale : forall (mu mu' : nat -> float),
    (forall i, Sc e (mu i) (mu' i)) ->
    forall n, GSpec c e M tsz (srch mu) (srch mu') (fun k r => sokb mu k r = true) n.
  Proof.
    intros mu mu' Hmu. assert (HMw := M_wide).
    induction n as [x|ci kids IH|pl i kids IH] using node_ind'; intros r a a' j Hr Hi Hj0 Hj.
    - rewrite scale_node_Term, !search_Term. cbn [tsz] in Hj |- *.
      cbn [searchokb] in Hr. apply andb_true_iff in Hr. destruct Hr as [Hx Hg].
      destruct (rg_mulb_spec e M He HM x r Hg) as [_ [Hrf Hrg]].
      assert (Ht := term_mul_l e M HMw x _ r (termb_Sc x Hx) Hrf Hrg).
      destruct me; [apply Inv_plus | apply Inv_minus]; try assumption; lia.
    - rewrite searchokb_Chance in Hr. apply bgo_true in Hr.
      rewrite scale_node_Chance, !search_Chance. cbn [tsz] in Hj |- *.
      apply (pgo_scale c e M tsz _ _ (fun k r => sokb mu k r = true)); assumption.
    - rewrite searchokb_Player in Hr.
      rewrite scale_node_Player, !search_Player. cbn [tsz] in Hj |- *.
      destruct (Bool.eqb pl me).
      + destruct (rg_mulb_spec e M He HM _ _ Hr) as [_ [Hrf Hrg]].
        assert (Ht := term_mul_l e M HMw (mu i) (mu' i) r (Hmu i) Hrf Hrg).
        assert (H1 := Inv_plus e M HMw j 1 a a' _ _ Hi Ht Hj0 Z.le_0_1 ltac:(lia)).
        eapply Inv_mono; [|exact H1]. lia.
      + apply bgo_true in Hr.
        assert (H1 := pgo_scale c e M tsz _ _ (fun k r => sokb mu k r = true) _ kids IH
                        _ r a a' j Hr Hi Hj0 ltac:(lia)).
        eapply Inv_mono; [|exact H1]. lia.
  Qed.

  (** one payoff update: the value of the subtree, then its product with the reach of the
      decision node *)
  Lemma kid_scale : forall mu mu' p kid, (forall i, Sc e (mu i) (mu' i)) ->
    kidokb e M chance so me mu p kid = true ->
    TermSc e M (srch mu kid 1 0 * p)%float (srch mu' (scale_node c kid) 1 0 * p)%float.
  Proof.
    intros mu mu' p kid Hmu H. unfold kidokb in H.
    apply andb_true_iff in H. destruct H as [H Hg].
    apply andb_true_iff in H. destruct H as [Hs Hsz]. apply Z.ltb_lt in Hsz.
    destruct (rg_mulb_spec e M He HM _ _ Hg) as [_ [Hp Hrg]].
    assert (H := search_scale mu mu' Hmu kid 1%float 0%float 0%float 0%Z
                   Hs (Inv_zero e M) (Z.le_refl 0) ltac:(lia)).
    apply (term_mul_l e M M_wide _ _ p (Inv_Sc _ _ _ _ _ H) Hp Hrg).
  Qed.

  Lemma paystep_scale : forall mu mu' en, (forall i, Sc e (mu i) (mu' i)) ->
    stepokb e M chance so me mu en = true ->
    forall j pays pays', (0 <= j)%Z -> (j + 1 < 2 ^ 53)%Z ->
    Forall2 (Inv e M j) pays pays' ->
    Forall2 (Inv e M (j + 1)) (paystep chance so me mu pays en)
            (paystep chance so me mu' pays' (sk c en)).
  Proof.
    intros mu mu' [i0 [kids p]] Hmu Hen j pays pays' Hj0 Hj H.
    unfold stepokb in Hen. apply andb_true_iff in Hen. destruct Hen as [_ Hk].
    cbn [snd fst] in Hk. unfold paystep, sk. cbn [fst snd].
    revert kids Hk. induction H as [|x x' l l' Hx Hl IH]; intros kids Hk.
    - constructor.
    - destruct kids as [|kid kids]; [constructor|].
      cbn [forallb] in Hk. apply andb_true_iff in Hk. destruct Hk as [Hk1 Hk2].
      cbn [map combine fst snd]. constructor.
      + apply (Inv_plus e M M_wide); try assumption; [|lia]. apply kid_scale; assumption.
      + apply IH. exact Hk2.
  Qed.

  Lemma payfold_scale : forall mu mu' mine, (forall i, Sc e (mu i) (mu' i)) ->
    forallb (stepokb e M chance so me mu) mine = true ->
    forall j pays pays', (0 <= j)%Z -> (j + Z.of_nat (length mine) < 2 ^ 53)%Z ->
    Forall2 (Inv e M j) pays pays' ->
    Forall2 (Inv e M (j + Z.of_nat (length mine)))
            (fold_left (paystep chance so me mu) mine pays)
            (fold_left (paystep chance so me mu') (map (sk c) mine) pays').
  Proof.
    intros mu mu' mine Hmu. induction mine as [|en mine IH]; intros Hm j pays pays' Hj0 Hj H.
    - cbn [fold_left map length]. rewrite Z.add_0_r. exact H.
    - cbn [forallb] in Hm. apply andb_true_iff in Hm. destruct Hm as [Hen Hm].
      change (length (en :: mine)) with (S (length mine)) in Hj |- *.
      rewrite Nat2Z.inj_succ in Hj |- *.
      cbn [fold_left map].
      replace (j + Z.succ (Z.of_nat (length mine)))%Z with (j + 1 + Z.of_nat (length mine))%Z by lia.
      apply IH; [exact Hm | lia | lia|].
      apply paystep_scale; try assumption. lia.
  Qed.

  Lemma repeat_zero_Inv : forall n, Forall2 (Inv e M 0) (@repeatT FNum 0%float n) (@repeatT FNum 0%float n).
  Proof. induction n as [|n IH]; cbn [repeatT]; constructor; [apply Inv_zero | exact IH]. Qed.

  Theorem resolve_one_scale : forall nodes arity mu mu' i,
    (forall k, Sc e (mu k) (mu' k)) -> resokb e M chance so me nodes arity mu i = true ->
    Sc e (@resolve_one FNum chance so me nodes arity mu i)
         (@resolve_one FNum chance so me (map (sk c) nodes) arity mu' i).
  Proof.
    intros nodes arity mu mu' i Hmu H. unfold resokb in H. cbv zeta in H.
    apply andb_true_iff in H. destruct H as [H Hdiv].
    apply andb_true_iff in H. destruct H as [Hst Hlen]. apply Z.ltb_lt in Hlen.
    rewrite !resolve_one_FNum, rmine_sk, rtotal_sk.
    set (mine := rmine nodes i) in *.
    assert (Hp : Forall2 (Inv e M (0 + Z.of_nat (length mine)))
                   (payoffs chance so me mu mine arity)
                   (payoffs chance so me mu' (map (sk c) mine) arity)).
    { unfold payoffs. apply payfold_scale; try assumption; try lia; apply repeat_zero_Inv. }
    assert (Hr := reduce_max_Sc e _ _ (Forall2_Inv_Sc _ _ _ _ _ Hp)).
    destruct mine as [|en0 mine0] eqn:Em; [apply Sc_zero|].
    cbn [map].
    change (sk c en0 :: map (sk c) mine0) with (map (sk c) (en0 :: mine0)).
    destruct (@reduce_max FNum (payoffs chance so me mu (en0 :: mine0) arity)) as [m|];
      destruct (@reduce_max FNum (payoffs chance so me mu' (map (sk c) (en0 :: mine0)) arity)) as [m'|];
      try contradiction; [|apply Sc_zero].
    destruct (PrimFloat.ltb 0 (rtotal (en0 :: mine0))) eqn:Hpos; [|apply Sc_zero].
    destruct (rg_divb_spec e M He HM _ _ Hdiv) as [Ht Hrg].
    assert (Ht0 : FR (rtotal (en0 :: mine0)) <> 0).
    { apply (ltb_zero_pos _ Ht) in Hpos. lra. }
    destruct (Rg_rnd e M M_wide _ Hrg) as [Hk [T1 T2]]. destruct Hrg as [N1 [N2 _]].
    assert (HbM := bpM_lt M M_wide).
    apply Sc_div; try assumption; [lra | rewrite <- Hk; lra].
  Qed.

  Theorem resolve_from_scale : forall nodes ars k i,
    resfromokb e M chance so me nodes ars i k = true ->
    Forall2 (Sc e) (@resolve_from FNum chance so me nodes ars i k)
                   (@resolve_from FNum chance so me (map (sk c) nodes) ars i k).
  Proof.
    intros nodes ars. induction k as [|k IH]; intros i H.
    - constructor.
    - cbn [resfromokb] in H. apply andb_true_iff in H. destruct H as [H1 H2].
      rewrite !resolve_from_S. specialize (IH (S i) H1).
      constructor; [|exact IH].
      apply resolve_one_scale; [|exact H2].
      intros j. apply Forall2_nth; [exact IH | apply Sc_zero].
  Qed.
End Scale.

Theorem br_value_scale : forall (c : float) (e M : Z) (g : game) (me : bool) (so : list (list float)),
  IsPow2 c e -> (-500 <= e <= 500)%Z -> (-500 <= M <= 971)%Z -> brokb e M g me so = true ->
  Inv e M (Z.of_nat (tsz (g_root g))) (@br_value FNum g me so)
      (@br_value FNum (scale_game c g) me so).
Proof.
  intros c e M g me so Hc He HM H. unfold brokb in H. cbv zeta in H.
  apply andb_true_iff in H. destruct H as [H H3]. apply Z.ltb_lt in H3.
  apply andb_true_iff in H. destruct H as [H1 H2].
  rewrite !br_value_FNum.
  change (g_chance (scale_game c g)) with (g_chance g).
  change (g_root (scale_game c g)) with (scale_node c (g_root g)).
  change (arities (scale_game c g) me) with (arities g me).
  assert (Ecol : @collect FNum (g_chance g) so me (scale_node c (g_root g)) 1%float [] =
                 map (sk c) (@collect FNum (g_chance g) so me (g_root g) 1%float [])).
  { exact (collect_scale c (g_chance g) so me (g_root g) 1%float []). }
  rewrite Ecol.
  assert (Htbl := resolve_from_scale c e M (g_chance g) so me Hc He HM _ _ _ _ H1).
  assert (Hmu : forall j, Sc e (nth j _ 0%float) (nth j _ 0%float))
    by (intros j; apply Forall2_nth; [exact Htbl | apply Sc_zero]).
  assert (H := search_scale c e M (g_chance g) so me Hc He HM _ _ Hmu (g_root g)
                 1%float 0%float 0%float 0%Z H2 (Inv_zero e M) (Z.le_refl 0) ltac:(lia)).
  rewrite Z.add_0_l in H. exact H.
Qed.

Lemma list_sum_map_le : forall (f h : node -> nat) ks,
  Forall (fun k => (f k <= h k)%nat) ks -> (list_sum (map f ks) <= list_sum (map h ks))%nat.
Proof.
  intros f h ks H. induction H as [|k ks Hk _ IH]; [apply Nat.le_refl|].
  change (list_sum (map f (k :: ks))) with (f k + list_sum (map f ks))%nat.
  change (list_sum (map h (k :: ks))) with (h k + list_sum (map h ks))%nat.
  lia.
Qed.

Lemma nleaves_le_tsz : forall n : node, (nleaves n <= tsz n)%nat.
Proof.
  induction n as [x|ci kids IH|pl i kids IH] using node_ind'; cbn [nleaves tsz]; [lia| |].
  - apply list_sum_map_le. exact IH.
  - apply Nat.le_trans with (list_sum (map tsz kids)); [|lia].
    apply list_sum_map_le. exact IH.
Qed.

Lemma fmax_zero_Sc : forall e a a', Sc e a a' -> Sc e (f_max a 0) (f_max a' 0).
Proof. intros e a a' H. apply Sc_fmax; [exact H | apply Sc_zero]. Qed.

(** [info] on the scaled game is [info] scaled, as soon as the checker accepts the
    unscaled game (to be discharged by [vm_compute]) *)
Theorem info_scale_float_check :
  forall (c : float) (e M : Z) (g : game) (prof : list float * list float),
  IsPow2 c e -> (-500 <= e <= 500)%Z -> (-500 <= M <= 971)%Z ->
  infookb e M g prof = true ->
  let I := @info FNum g prof in
  let I' := @info FNum (scale_game c g) prof in
  si_util I' = (si_util I * c)%float /\
  si_reg1 I' = (si_reg1 I * c)%float /\
  si_reg2 I' = (si_reg2 I * c)%float /\
  @si_regret FNum I' = (@si_regret FNum I * c)%float.
Proof.
  intros c e M g prof Hc He HM H I I'. unfold infookb in H. cbv zeta in H.
  set (s1 := split_by (fst prof) (arities g true)) in *.
  set (s2 := split_by (snd prof) (arities g false)) in *.
  apply andb_true_iff in H. destruct H as [H Hb2].
  apply andb_true_iff in H. destruct H as [H Hb1].
  apply andb_true_iff in H. destruct H as [Hsz Hr].
  apply Z.ltb_lt in Hsz. apply (rangeokb_spec e M He HM) in Hr.
  assert (HMw : (-1074 <= M <= 971)%Z) by lia.
  assert (HL := nleaves_le_tsz (g_root g)).
  assert (He0 := exp_acc_scale c e M (g_chance g) s1 s2 Hc HMw (g_root g)
                  1%float 0%float 0%float 0%Z Hr (Inv_zero e M) (Z.le_refl 0) ltac:(lia)).
  rewrite Z.add_0_l in He0.
  apply (Inv_mono e M _ (Z.of_nat (tsz (g_root g)))) in He0; [|lia].
  assert (H1 := br_value_scale c e M g true s2 Hc He HM Hb1).
  assert (H2 := br_value_scale c e M g false s1 Hc He HM Hb2).
  (* the two regrets: a difference and a sum of values that are sums of at most N terms *)
  set (N := Z.of_nat (tsz (g_root g))) in *.
  assert (Hs := Inv_minus e M HMw N N _ _ _ _ H1 He0 ltac:(lia) ltac:(lia) ltac:(lia)).
  assert (Ha := Inv_plus e M HMw N N _ _ _ _ H2 He0 ltac:(lia) ltac:(lia) ltac:(lia)).
  assert (G1 := fmax_zero_Sc e _ _ (Inv_Sc _ _ _ _ _ Hs)).
  assert (G2 := fmax_zero_Sc e _ _ (Inv_Sc _ _ _ _ _ Ha)).
  split; [exact (Sc_eq c e _ _ Hc (Inv_Sc _ _ _ _ _ He0))|].
  split; [exact (Sc_eq c e _ _ Hc G1)|].
  split; [exact (Sc_eq c e _ _ Hc G2)|].
  exact (Sc_eq c e _ _ Hc (Sc_fmax e _ _ _ _ G1 G2)).
Qed.

(** ** Example: a game with one infoset per player and a chance move

    chance (3/4, 1/4): with 3/4 a simultaneous 2x2 game with payoffs [[3, -1], [-2, 0.5]]
    (player two does not observe player one), with 1/4 the payoff 0.75.
    Profile: player one (0.3, 0.7), player two (0.6, 0.4). *)
Definition bx_root : node :=
  @Chance FNum 0
    [ @Player FNum true 0
        [ @Player FNum false 0 [ @Term FNum 3%float; @Term FNum (-1)%float ];
          @Player FNum false 0 [ @Term FNum (-2)%float; @Term FNum 0.5%float ] ];
      @Term FNum 0.75%float ].

Definition bx_g : game :=
  @mkGame FNum [[0.75; 0.25]%float]
          [mkPinfo 0%N [0%N; 1%N] None] [mkPinfo 0%N [0%N; 1%N] None] [] [] bx_root.

Definition bx_prof : list float * list float :=
  ([0x1.3333333333333p-2; 0x1.6666666666666p-1]%float,
   [0x1.3333333333333p-1; 0x1.999999999999ap-2]%float).

(** the checker accepts the game for [e = -70] (and for the units [2^-200], [2^150]) *)
Example bx_check : infookb (-70) 10 bx_g bx_prof = true.
Proof. vm_compute. reflexivity. Qed.

Example bx_check_units :
  infookb (-200) 210 bx_g bx_prof = true /\ infookb 150 160 bx_g bx_prof = true.
Proof. split; vm_compute; reflexivity. Qed.

Example bx_info_scale :
  let I := @info FNum bx_g bx_prof in
  let I' := @info FNum (scale_game (pow2 (-70)) bx_g) bx_prof in
  si_util I' = (si_util I * pow2 (-70))%float /\
  si_reg1 I' = (si_reg1 I * pow2 (-70))%float /\
  si_reg2 I' = (si_reg2 I * pow2 (-70))%float /\
  @si_regret FNum I' = (@si_regret FNum I * pow2 (-70))%float.
Proof.
  apply (info_scale_float_check (pow2 (-70)) (-70) 10 bx_g bx_prof).
  - apply pow2_IsPow2. lia.
  - lia.
  - lia.
  - exact bx_check.
Qed.

(** the same by plain computation, with the values (-0.0225, 1.26, 0.165 up to rounding) *)
Example bx_info_values :
  let I := @info FNum bx_g bx_prof in
  let I' := @info FNum (scale_game (pow2 (-70)) bx_g) bx_prof in
  (si_util I, si_reg1 I, si_reg2 I) =
    ((-0x1.70a3d70a3d7p-6), 0x1.428f5c28f5c28p+0, 0x1.51eb851eb851cp-3)%float /\
  (si_util I', si_reg1 I', si_reg2 I') =
    ((-0x1.70a3d70a3d7p-76), 0x1.428f5c28f5c28p-70, 0x1.51eb851eb851cp-73)%float.
Proof. split; vm_compute; reflexivity. Qed.

Theorem expected_scale_float_check :
  forall (c : float) (e M : Z) (g : game) (s1 s2 : list (list float)),
  IsPow2 c e -> (-500 <= e <= 500)%Z -> (-500 <= M <= 971)%Z ->
  (Z.of_nat (nleaves (g_root g)) < 2 ^ 53)%Z ->
  rangeokb e M (g_chance g) s1 s2 (g_root g) 1%float = true ->
  @expected FNum (scale_game c g) s1 s2 = (@expected FNum g s1 s2 * c)%float.
Proof.
  intros c e M g s1 s2 Hc He HM HL H.
  apply (expected_scale_float c e M g s1 s2 Hc); [lia | exact HL|].
  apply (rangeokb_spec e M He HM). exact H.
Qed.
