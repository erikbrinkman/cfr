(** * CfMass: the counterfactual reaches of the nodes of one infoset sum to at most 1
    (perfect recall), values lie in the payoff range, hence every per-iteration
    regret increment [cfr_inc] is bounded by the payoff range. *)
From Coq Require Import Reals List Lra Lia Bool Arith NArith.
From Cfr.theories Require Import ListAux Num RInst Tree GameWF Strat Eval Solve Valid
     SolveValidProofs Incr IterChar.
Import ListNotations.
Open Scope R_scope.

Local Notation nodeR := (@node RNum).
Local Notation gameR := (@game RNum).
Local Notation pstateR := (@pstate RNum).
Local Notation histsR := (@hists RNum).

Definition hists_chance (h1 h2 : list (nat * nat)) :=
  fix go (ks : list nodeR) : list (bool * nat * list (nat * nat)) :=
    match ks with
    | [] => []
    | k :: r => histsR k h1 h2 ++ go r
    end.

Definition ext1 (pl' : bool) (i' : nat) (h1 : list (nat * nat)) (a : nat) :=
  if pl' then h1 ++ [(i', a)] else h1.
Definition ext2 (pl' : bool) (i' : nat) (h2 : list (nat * nat)) (a : nat) :=
  if pl' then h2 else h2 ++ [(i', a)].

Definition hists_player (pl' : bool) (i' : nat) (h1 h2 : list (nat * nat)) :=
  fix go (ks : list nodeR) (a : nat) : list (bool * nat * list (nat * nat)) :=
    match ks with
    | [] => []
    | k :: r => histsR k (ext1 pl' i' h1 a) (ext2 pl' i' h2 a) ++ go r (S a)
    end.

Lemma hists_Chance ci kids h1 h2 :
  histsR (Chance ci kids) h1 h2 = hists_chance h1 h2 kids.
Proof. reflexivity. Qed.

Lemma hists_Player pl' i' kids h1 h2 :
  histsR (Player pl' i' kids) h1 h2 =
  (pl', i', if pl' then h1 else h2) :: hists_player pl' i' h1 h2 kids 0.
Proof. reflexivity. Qed.

Lemma In_hists_chance h1 h2 ks c x :
  In c ks -> In x (histsR c h1 h2) -> In x (hists_chance h1 h2 ks).
Proof.
  induction ks as [|k r IH]; intros Hc Hx; [contradiction|].
  cbn [hists_chance]. apply in_or_app. destruct Hc as [->|Hc]; [now left|right; auto].
Qed.

Lemma In_hists_player pl' i' h1 h2 ks :
  forall k a0 c x,
  nth_error ks k = Some c ->
  In x (histsR c (ext1 pl' i' h1 (a0 + k)) (ext2 pl' i' h2 (a0 + k))) ->
  In x (hists_player pl' i' h1 h2 ks a0).
Proof.
  induction ks as [|c0 r IH]; intros k a0 c x Hk Hx; [destruct k; discriminate|].
  cbn [hists_player]. apply in_or_app. destruct k as [|k].
  - injection Hk as ->. rewrite Nat.add_0_r in Hx. now left.
  - right. apply (IH k (S a0) c x Hk). replace (S a0 + k)%nat with (a0 + S k)%nat by lia. exact Hx.
Qed.

Section Mass.
  Context (chance : list (list R)) (sg : bool -> nat -> list R) (pl : bool) (i : nat).

  Fixpoint cf_mass (n : nodeR) (pc p1 p2 : R) {struct n} : R :=
    match n with
    | Term _ => 0
    | Chance ci kids => sum_chance cf_mass pc p1 p2 (@row RNum chance ci) kids
    | Player pl' i' kids =>
        (if is_info pl' i' pl i then Rabs (cfw pl' pc p1 p2) else 0)
        + sum_player cf_mass pl' pc p1 p2 kids (sg pl' i')
    end.

  Lemma cf_mass_nodes n pc p1 p2 :
    cf_mass n pc p1 p2 =
    Rsum (map (fun wk : R * list nodeR => Rabs (fst wk)) (cf_nodes chance sg pl i n pc p1 p2)).
  Proof.
    symmetry. revert pc p1 p2.
    induction n as [x|ci kids IH|pl' i' kids IH] using node_ind'; intros pc p1 p2.
    - reflexivity.
    - cbn [cf_mass cf_nodes]. now apply Rsum_cat_chance.
    - cbn [cf_mass cf_nodes]. rewrite map_app, Rsum_app. f_equal; [|now apply Rsum_cat_player].
      destruct (is_info pl' i' pl i); cbn [map Rsum fst]; lra.
  Qed.

  Fixpoint occurs (n : nodeR) : bool :=
    match n with
    | Term _ => false
    | Chance _ kids => existsb occurs kids
    | Player pl' i' kids => is_info pl' i' pl i || existsb occurs kids
    end.

  Lemma existsb_false_Forall {A} (f : A -> bool) l :
    existsb f l = false -> Forall (fun x => f x = false) l.
  Proof.
    induction l as [|x l IH]; cbn [existsb]; intros H; constructor;
      apply orb_false_iff in H as [H1 H2]; auto.
  Qed.

  Lemma mass_no_occ n : occurs n = false -> forall pc p1 p2, cf_mass n pc p1 p2 = 0.
  Proof.
    induction n as [x|ci kids IH|pl' i' kids IH] using node_ind'; cbn [occurs cf_mass];
      intros Ho pc p1 p2.
    - reflexivity.
    - rewrite sum_chance_zsum. apply zsum_zero. apply existsb_false_Forall in Ho.
      rewrite Forall_forall in IH, Ho |- *. intros c Hc p. apply IH; auto.
    - apply orb_false_iff in Ho as [Ho1 Ho2]. rewrite Ho1, Rplus_0_l, sum_player_zsum.
      apply zsum_zero. apply existsb_false_Forall in Ho2.
      rewrite Forall_forall in IH, Ho2 |- *. intros c Hc p. destruct pl'; apply IH; auto.
  Qed.

  Definition hp (h1 h2 : list (nat * nat)) : list (nat * nat) := if pl then h1 else h2.

  (** an occurrence carries a history extending the own history at the subtree's root *)
  Lemma occ_hists n :
    occurs n = true -> forall h1 h2, exists suf, In (pl, i, hp h1 h2 ++ suf) (histsR n h1 h2).
  Proof.
    induction n as [x|ci kids IH|pl' i' kids IH] using node_ind'; cbn [occurs]; intros Ho h1 h2.
    - discriminate.
    - apply existsb_exists in Ho as (c & Hin & Hc). rewrite Forall_forall in IH.
      destruct (IH c Hin Hc h1 h2) as (suf & Hs). exists suf.
      rewrite hists_Chance. eapply In_hists_chance; eauto.
    - rewrite hists_Player. apply orb_true_iff in Ho as [Ho|Ho].
      + apply is_info_true in Ho as [-> ->]. exists []. rewrite app_nil_r. left. reflexivity.
      + apply existsb_exists in Ho as (c & Hin & Hc). rewrite Forall_forall in IH.
        apply In_nth_error in Hin as (k & Hk). 
        destruct (IH c (nth_error_In _ _ Hk) Hc (ext1 pl' i' h1 k) (ext2 pl' i' h2 k)) as (suf & Hs).
        assert (E : exists suf', hp (ext1 pl' i' h1 k) (ext2 pl' i' h2 k) ++ suf = hp h1 h2 ++ suf').
        { unfold hp, ext1, ext2. destruct pl, pl'; try (now exists suf);
            exists ((i', k) :: suf); now rewrite <- app_assoc. }
        destruct E as (suf' & E). exists suf'. right. rewrite <- E.
        apply (In_hists_player pl' i' h1 h2 kids k 0 c); assumption.
  Qed.

  (** own node: the occurrence in child [k] records the step [(i', k)] *)
  Lemma occ_hists_own i' kids k c h1 h2 :
    nth_error kids k = Some c -> occurs c = true ->
    exists suf, In (pl, i, hp h1 h2 ++ (i', k) :: suf) (histsR (Player pl i' kids) h1 h2).
  Proof.
    intros Hk Hc.
    destruct (occ_hists c Hc (ext1 pl i' h1 k) (ext2 pl i' h2 k)) as (suf & Hs).
    exists suf. rewrite hists_Player. right.
    apply (In_hists_player pl i' h1 h2 kids k 0 c); [assumption|]. cbn [Nat.add].
    replace (hp h1 h2 ++ (i', k) :: suf) with (hp (ext1 pl i' h1 k) (ext2 pl i' h2 k) ++ suf);
      [exact Hs|].
    unfold hp, ext1, ext2. destruct pl; now rewrite <- app_assoc.
  Qed.


  Lemma zsum_le (g : nodeR -> R -> R) (B : R) ks :
    0 <= B -> Forall (fun c => forall p, 0 <= p -> g c p <= B * p) ks ->
    forall ps, Forall (fun p => 0 <= p) ps -> zsum g ks ps <= B * Rsum ps.
  Proof.
    intros HB H; induction H as [|c ks Hc H IH]; intros ps Hps; destruct Hps as [|p ps Hp Hps];
      cbn [zsum Rsum]; try lra.
    - pose proof (Rsum_nonneg ps Hps). assert (0 <= B * (p + Rsum ps)) by (apply Rmult_le_pos; lra). lra.
    - specialize (IH ps Hps). specialize (Hc p Hp). lra.
  Qed.

  (** at most one child contains the infoset *)
  Definition AtMostOne (ks : list nodeR) : Prop :=
    forall k1 k2 c1 c2, nth_error ks k1 = Some c1 -> nth_error ks k2 = Some c2 ->
                        occurs c1 = true -> occurs c2 = true -> k1 = k2.

  Lemma zsum_one (g : nodeR -> R -> R) (B : R) ks :
    0 <= B -> (forall c, occurs c = false -> forall p, g c p = 0) ->
    Forall (fun c => forall p, 0 <= p -> g c p <= B) ks -> AtMostOne ks ->
    forall ps, Forall (fun p => 0 <= p) ps -> zsum g ks ps <= B.
  Proof.
    intros HB Hg H; induction H as [|c ks Hc H IH]; intros Hone ps Hps;
      destruct Hps as [|p ps Hp Hps]; cbn [zsum]; try lra.
    destruct (occurs c) eqn:Ec.
    - rewrite (zsum_zero g ks ps); [specialize (Hc p Hp); lra|].
      apply Forall_forall. intros c' Hin. apply Hg.
      destruct (occurs c') eqn:Ec'; [|reflexivity].
      apply In_nth_error in Hin as (k & Hk).
      specialize (Hone 0%nat (S k) c c' eq_refl Hk Ec Ec'). discriminate.
    - rewrite (Hg c Ec). rewrite Rplus_0_l. apply IH; [|exact Hps].
      intros k1 k2 c1 c2 H1 H2 E1 E2.
      specialize (Hone (S k1) (S k2) c1 c2 H1 H2 E1 E2). lia.
  Qed.

  Context (HC : forall ci, Forall (fun p => 0 <= p) (@row RNum chance ci) /\
                           Rsum (@row RNum chance ci) <= 1)
          (HS : forall pl' i', Forall (fun p => 0 <= p) (sg pl' i') /\ Rsum (sg pl' i') <= 1)
          (hI : list (nat * nat)).

  Definition GoodH (n : nodeR) (h1 h2 : list (nat * nat)) : Prop :=
    forall h, In (pl, i, h) (histsR n h1 h2) -> h = hI.

  Definition MB (n : nodeR) : Prop :=
    forall h1 h2 pc p1 p2, 0 <= pc -> 0 <= p1 -> 0 <= p2 -> GoodH n h1 h2 ->
                           cf_mass n pc p1 p2 <= pc * oppw pl p1 p2.

  Lemma Rabs_cfw pc p1 p2 : 0 <= pc -> 0 <= p1 -> 0 <= p2 -> Rabs (cfw pl pc p1 p2) = pc * oppw pl p1 p2.
  Proof.
    intros Hc H1 H2. unfold cfw, oppw. destruct pl.
    - apply Rabs_pos_eq. now apply Rmult_le_pos.
    - replace (- p1 * pc) with (- (pc * p1)) by lra. rewrite Rabs_Ropp.
      apply Rabs_pos_eq. now apply Rmult_le_pos.
  Qed.

  (** the bound for the children of a player node, each at the history of its position *)
  Lemma MB_kids pl' i' kids h1 h2 pc p1 p2 :
    Forall MB kids -> 0 <= pc -> 0 <= p1 -> 0 <= p2 -> GoodH (Player pl' i' kids) h1 h2 ->
    Forall (fun c => forall p : R, 0 <= p ->
              (if pl' then cf_mass c pc (p1 * p) p2 else cf_mass c pc p1 (p2 * p)) <=
              pc * (if pl' then oppw pl (p1 * p) p2 else oppw pl p1 (p2 * p))) kids.
  Proof.
    intros IH Hpc Hp1 Hp2 HG. rewrite Forall_forall in IH |- *. intros c Hin p Hp.
    apply In_nth_error in Hin as (k & Hk).
    pose proof (IH c (nth_error_In _ _ Hk) (ext1 pl' i' h1 k) (ext2 pl' i' h2 k)) as Hc.
    assert (Hg : GoodH c (ext1 pl' i' h1 k) (ext2 pl' i' h2 k)).
    { intros h Hh. apply HG. rewrite hists_Player. right.
      apply (In_hists_player pl' i' h1 h2 kids k 0 c); assumption. }
    destruct pl'; apply Hc; auto; now apply Rmult_le_pos.
  Qed.

  Lemma mass_bound n : MB n.
  Proof.
    induction n as [x|ci kids IH|pl' i' kids IH] using node_ind';
      intros h1 h2 pc p1 p2 Hpc Hp1 Hp2 HG; cbn [cf_mass];
      assert (HB : 0 <= pc * oppw pl p1 p2)
        by (apply Rmult_le_pos; [assumption|unfold oppw; now destruct pl]).
    - exact HB.
    - destruct (HC ci) as [Hnn Hsum]. rewrite sum_chance_zsum.
      apply Rle_trans with ((pc * oppw pl p1 p2) * Rsum (@row RNum chance ci)); [|nra].
      apply zsum_le; [assumption| |assumption].
      rewrite Forall_forall in IH |- *. intros c Hin p Hp.
      replace (pc * oppw pl p1 p2 * p) with ((pc * p) * oppw pl p1 p2) by lra.
      apply (IH c Hin h1 h2); try assumption; [now apply Rmult_le_pos|].
      intros h Hh. apply HG. rewrite hists_Chance. eapply In_hists_chance; eauto.
    - pose proof (MB_kids pl' i' kids h1 h2 pc p1 p2 IH Hpc Hp1 Hp2 HG) as Hk.
      rewrite sum_player_zsum.
      destruct (is_info pl' i' pl i) eqn:E; [|rewrite Rplus_0_l; destruct (Bool.bool_dec pl' pl) as [->|Npl]].
      + (* a node of the infoset itself: nothing below, or its history would be longer *)
        apply is_info_true in E as [-> ->]. rewrite Rabs_cfw by assumption.
        rewrite zsum_zero; [lra|].
        apply Forall_forall. intros c Hin p. destruct (occurs c) eqn:Ec; [exfalso|destruct pl; now apply mass_no_occ].
        apply In_nth_error in Hin as (k & Hk').
        destruct (occ_hists_own i kids k c h1 h2 Hk' Ec) as (suf & Hs). apply HG in Hs.
        rewrite <- (HG (hp h1 h2)) in Hs by (rewrite hists_Player; now left).
        apply (f_equal (@length _)) in Hs. rewrite app_length in Hs. cbn [length] in Hs. lia.
      + (* own node of another infoset: all occurrences under one action *)
        apply zsum_one; [assumption| | | |apply HS].
        * intros c Hc p. destruct pl; now apply mass_no_occ.
        * eapply Forall_impl; [|exact Hk]. intros c Hc p Hp. specialize (Hc p Hp).
          unfold oppw in *. now destruct pl.
        * intros k1 k2 c1 c2 H1 H2 E1 E2.
          destruct (occ_hists_own i' kids k1 c1 h1 h2 H1 E1) as (s1 & Hs1).
          destruct (occ_hists_own i' kids k2 c2 h1 h2 H2 E2) as (s2 & Hs2).
          apply HG in Hs1, Hs2. rewrite <- Hs2 in Hs1.
          apply app_inv_head in Hs1. now injection Hs1.
      + (* opponent node: the mass splits with the action probabilities *)
        destruct (HS pl' i') as [Hnn Hsum].
        apply Rle_trans with ((pc * oppw pl p1 p2) * Rsum (sg pl' i')); [|nra].
        apply zsum_le; [assumption| |assumption].
        eapply Forall_impl; [|exact Hk]. intros c Hc p Hp. specialize (Hc p Hp).
        unfold oppw in *. destruct pl, pl'; try congruence; lra.
  Qed.
End Mass.

Inductive PayoffsIn (lo hi : R) : nodeR -> Prop :=
| PI_Term (x : R) : lo <= x <= hi -> PayoffsIn lo hi (@Term RNum x)
| PI_Chance ci kids : Forall (PayoffsIn lo hi) kids -> PayoffsIn lo hi (@Chance RNum ci kids)
| PI_Player pl i kids : Forall (PayoffsIn lo hi) kids -> PayoffsIn lo hi (@Player RNum pl i kids).

(** the tree matches the tables: every chance row and strategy row is a
    distribution over exactly the children of the node *)
Inductive ValShaped (chance : list (list R)) (sg : bool -> nat -> list R) : nodeR -> Prop :=
| VS_Term (x : R) : ValShaped chance sg (@Term RNum x)
| VS_Chance ci kids :
    length kids = length (@row RNum chance ci) -> VRow (@row RNum chance ci) ->
    Forall (ValShaped chance sg) kids -> ValShaped chance sg (@Chance RNum ci kids)
| VS_Player pl i kids :
    length kids = length (sg pl i) -> VRow (sg pl i) ->
    Forall (ValShaped chance sg) kids -> ValShaped chance sg (@Player RNum pl i kids).

Lemma val_player_range (f : nodeR -> R) lo hi ks :
  Forall (fun c => lo <= f c <= hi) ks ->
  forall ss, length ks = length ss -> Forall (fun p => 0 <= p) ss ->
  lo * Rsum ss <= @val_player RNum f ks ss 0 <= hi * Rsum ss.
Proof.
  induction 1 as [|c ks Hc H IH]; intros ss E Hss; destruct Hss as [|p ss Hp Hss];
    try discriminate; cbn [val_player Rsum]; [lra|].
  change (add RNum) with Rplus. change (mul RNum) with Rmult. change (zero RNum) with 0.
  rewrite val_player_acc. cbn [length] in E. specialize (IH ss ltac:(lia) Hss). nra.
Qed.

Lemma val_chance_range (f : nodeR -> R) lo hi ks :
  Forall (fun c => lo <= f c <= hi) ks ->
  forall ps, length ks = length ps -> Forall (fun p => 0 <= p) ps ->
  lo * Rsum ps <= @val_chance RNum f ps ks 0 <= hi * Rsum ps.
Proof. intros H ps. rewrite val_chance_player. now apply val_player_range. Qed.

Lemma act_val_range (f : nodeR -> R) lo hi ks :
  Forall (fun c => lo <= f c <= hi) ks ->
  forall ss a, length ks = length ss -> (a < length ss)%nat ->
  lo <= act_val f ks ss a <= hi.
Proof.
  induction 1 as [|c ks Hc H IH]; intros ss a E Ha; destruct ss as [|p ss];
    try discriminate; cbn [length] in *; [lia|].
  cbn [act_val]. destruct a as [|a]; [exact Hc|]. apply IH; lia.
Qed.

(** the same with any condition [ok] on the rows: the one-hot tables of the sampled
    traversals have rows that may sum to 0 *)
Inductive RowShaped (ok : list R -> Prop) (chance : list (list R)) (sg : bool -> nat -> list R)
  : nodeR -> Prop :=
| RS_Term (x : R) : RowShaped ok chance sg (@Term RNum x)
| RS_Chance ci kids :
    length kids = length (@row RNum chance ci) -> ok (@row RNum chance ci) ->
    Forall (RowShaped ok chance sg) kids -> RowShaped ok chance sg (@Chance RNum ci kids)
| RS_Player pl i kids :
    length kids = length (sg pl i) -> ok (sg pl i) ->
    Forall (RowShaped ok chance sg) kids -> RowShaped ok chance sg (@Player RNum pl i kids).

Lemma ValShaped_RowShaped chance sg n : ValShaped chance sg n <-> RowShaped VRow chance sg n.
Proof.
  induction n as [x|ci kids IH|pl i kids IH] using node_ind'; split; intros H;
    inversion H as [|? ? EL HR Hk|? ? ? EL HR Hk]; subst; constructor; try assumption;
    revert Hk; apply Forall_mp; refine (Forall_impl _ _ IH); intros c Hc; apply Hc.
Qed.

Lemma RowShaped_map (ok ok' : list R -> Prop) chance chance' sg sg' n :
  (forall ci, ok (@row RNum chance ci) ->
     ok' (@row RNum chance' ci) /\ length (@row RNum chance' ci) = length (@row RNum chance ci)) ->
  (forall pl i, ok (sg pl i) -> ok' (sg' pl i) /\ length (sg' pl i) = length (sg pl i)) ->
  RowShaped ok chance sg n -> RowShaped ok' chance' sg' n.
Proof.
  intros Hc Hp. induction n as [x|ci kids IH|pl i kids IH] using node_ind'; intros H;
    inversion H as [|? ? EL HR Hk|? ? ? EL HR Hk]; subst.
  - constructor.
  - destruct (Hc ci HR) as [HR' EL']. constructor; [congruence|exact HR'|exact (Forall_mp _ _ _ IH Hk)].
  - destruct (Hp pl i HR) as [HR' EL']. constructor; [congruence|exact HR'|exact (Forall_mp _ _ _ IH Hk)].
Qed.

Lemma RowShaped_impl (ok ok' : list R -> Prop) chance sg n :
  (forall r, ok r -> ok' r) -> RowShaped ok chance sg n -> RowShaped ok' chance sg n.
Proof. intros Hok. apply RowShaped_map; auto. Qed.

Section Range.
  Context (ok : list R -> Prop) (chance : list (list R)) (sg : bool -> nat -> list R) (lo hi : R).
  (** what the rows must satisfy for the values to stay in [[lo, hi]]: a distribution, or a
      sub-distribution when 0 is in the range *)
  Context (Hok : forall r, ok r ->
             Forall (fun p => 0 <= p) r /\ lo <= lo * Rsum r /\ hi * Rsum r <= hi).

  Lemma uval_range_gen n :
    RowShaped ok chance sg n -> PayoffsIn lo hi n -> lo <= uval chance sg n <= hi.
  Proof.
    induction n as [x|ci kids IH|pl i kids IH] using node_ind'; intros HV HP;
      inversion HV as [|? ? EL HR HVk|? ? ? EL HR HVk]; subst;
      inversion HP as [? Hx|? ? HPk|? ? ? HPk]; subst; cbn [uval]; [exact Hx| |];
      destruct (Hok _ HR) as (Hnn & Hl & Hh);
      assert (HF : Forall (fun c => lo <= uval chance sg c <= hi) kids)
        by exact (Forall_mp2 _ _ _ _ IH HVk HPk).
    - pose proof (val_chance_range _ lo hi kids HF _ EL Hnn). lra.
    - pose proof (val_player_range _ lo hi kids HF _ EL Hnn). lra.
  Qed.

  Lemma node_regret_range kids ss a :
    Forall (RowShaped ok chance sg) kids -> Forall (PayoffsIn lo hi) kids ->
    length kids = length ss -> ok ss -> (a < length ss)%nat ->
    Rabs (node_regret chance sg kids ss a) <= hi - lo.
  Proof.
    intros HV HP EL HR Ha. destruct (Hok _ HR) as (Hnn & Hl & Hh).
    assert (HF : Forall (fun c => lo <= uval chance sg c <= hi) kids).
    { refine (Forall_mp2 _ _ _ _ _ HV HP). apply Forall_forall. intros c _. apply uval_range_gen. }
    pose proof (val_player_range _ lo hi kids HF ss EL Hnn) as H1.
    pose proof (act_val_range _ lo hi kids HF ss a EL Ha) as H2.
    unfold node_regret. apply Rabs_le. lra.
  Qed.

  Context (pl : bool) (i a : nat) (Ha : (a < length (sg pl i))%nat).

  Lemma zsum_abs (g g' : nodeR -> R -> R) (D : R) ks :
    Forall (fun c => forall p, Rabs (g c p) <= D * g' c p) ks ->
    forall ps, Rabs (zsum g ks ps) <= D * zsum g' ks ps.
  Proof.
    induction 1 as [|c ks Hc H IH]; intros ps; destruct ps as [|p ps]; cbn [zsum];
      try (rewrite Rabs_R0; lra).
    eapply Rle_trans; [apply Rabs_triang|]. specialize (IH ps). specialize (Hc p). lra.
  Qed.

  Lemma cfr_inc_mass n :
    RowShaped ok chance sg n -> PayoffsIn lo hi n ->
    forall pc p1 p2,
    Rabs (cfr_inc chance sg pl i a n pc p1 p2) <= (hi - lo) * cf_mass chance sg pl i n pc p1 p2.
  Proof.
    induction n as [x|ci kids IH|pl' i' kids IH] using node_ind'; intros HV HP pc p1 p2;
      inversion HV as [|? ? EL HR HVk|? ? ? EL HR HVk]; subst;
      inversion HP as [? Hx|? ? HPk|? ? ? HPk]; subst; cbn [cfr_inc cf_mass].
    - rewrite Rabs_R0. lra.
    - rewrite !sum_chance_zsum. apply zsum_abs.
      rewrite Forall_forall in IH, HVk, HPk |- *. intros c Hc p. apply IH; auto.
    - eapply Rle_trans; [apply Rabs_triang|]. rewrite Rmult_plus_distr_l.
      apply Rplus_le_compat.
      + destruct (is_info pl' i' pl i) eqn:E; [|rewrite Rabs_R0; lra].
        apply is_info_true in E as [-> ->]. rewrite Rabs_mult.
        pose proof (node_regret_range kids (sg pl i) a HVk HPk EL HR Ha).
        pose proof (Rabs_pos (cfw pl pc p1 p2)). nra.
      + rewrite !sum_player_zsum. apply zsum_abs.
        rewrite Forall_forall in IH, HVk, HPk |- *. intros c Hc p. destruct pl'; apply IH; auto.
  Qed.
End Range.

Lemma VRow_range lo hi r :
  VRow r -> Forall (fun p => 0 <= p) r /\ lo <= lo * Rsum r /\ hi * Rsum r <= hi.
Proof. intros [Hnn Hs]. rewrite Hs. split; [exact Hnn|lra]. Qed.

Lemma uval_range chance sg lo hi n :
  ValShaped chance sg n -> PayoffsIn lo hi n -> lo <= uval chance sg n <= hi.
Proof. intros HV. apply (uval_range_gen VRow), ValShaped_RowShaped, HV. apply VRow_range. Qed.

Theorem cfr_inc_bound_tree_gen (ok : list R -> Prop) (chance : list (list R)) (sg : bool -> nat -> list R)
        (lo hi : R) (pl : bool) (i a : nat) (n : nodeR) (hI : list (nat * nat)) :
  (forall r, ok r -> Forall (fun p => 0 <= p) r /\ lo <= lo * Rsum r /\ hi * Rsum r <= hi) ->
  (forall ci, Forall (fun p => 0 <= p) (@row RNum chance ci) /\ Rsum (@row RNum chance ci) <= 1) ->
  (forall pl' i', Forall (fun p => 0 <= p) (sg pl' i') /\ Rsum (sg pl' i') <= 1) ->
  (forall h, In (pl, i, h) (histsR n [] []) -> h = hI) ->
  RowShaped ok chance sg n -> PayoffsIn lo hi n -> (a < length (sg pl i))%nat ->
  Rabs (cfr_inc chance sg pl i a n 1 1 1) <= hi - lo.
Proof.
  intros Hok HC HS HG HV HP Ha.
  pose proof (cfr_inc_mass ok chance sg lo hi Hok pl i a Ha n HV HP 1 1 1) as H1.
  pose proof (mass_bound chance sg pl i HC HS hI n [] [] 1 1 1
                ltac:(lra) ltac:(lra) ltac:(lra) HG) as H2.
  pose proof (uval_range_gen ok chance sg lo hi Hok n HV HP) as Hd.
  unfold oppw in H2. destruct pl; nra.
Qed.

Theorem cfr_inc_bound_tree (chance : list (list R)) (sg : bool -> nat -> list R)
        (lo hi : R) (pl : bool) (i a : nat) (n : nodeR) (hI : list (nat * nat)) :
  (forall ci, Forall (fun p => 0 <= p) (@row RNum chance ci) /\ Rsum (@row RNum chance ci) <= 1) ->
  (forall pl' i', Forall (fun p => 0 <= p) (sg pl' i') /\ Rsum (sg pl' i') <= 1) ->
  (forall h, In (pl, i, h) (histsR n [] []) -> h = hI) ->
  ValShaped chance sg n -> PayoffsIn lo hi n -> (a < length (sg pl i))%nat ->
  Rabs (cfr_inc chance sg pl i a n 1 1 1) <= hi - lo.
Proof.
  intros HC HS HG HV. apply (cfr_inc_bound_tree_gen VRow _ _ _ _ _ _ _ _ hI); auto using VRow_range.
  now apply ValShaped_RowShaped.
Qed.

Lemma shaped_Chance (g : gameR) ci kids :
  @shaped RNum g (Chance ci kids) ->
  (ci < length (g_chance g))%nat /\ length kids = length (nth ci (g_chance g) []) /\
  Forall (@shaped RNum g) kids.
Proof.
  cbn [shaped]. intros (H1 & H2 & _ & H4). split; [exact H1|]. split; [exact H2|].
  now apply shaped_kids_Forall.
Qed.

Lemma shaped_Player (g : gameR) pl i kids :
  @shaped RNum g (Player pl i kids) ->
  (i < length (g_infos g pl))%nat /\
  length kids = length (pi_actions (nth i (g_infos g pl) (mkPinfo 0%N [] None))) /\
  Forall (@shaped RNum g) kids.
Proof.
  cbn [shaped]. intros (H1 & H2 & _ & H4). split; [exact H1|]. split; [exact H2|].
  now apply shaped_kids_Forall.
Qed.

Lemma ChanceOK_row_VRow (g : gameR) ci :
  ChanceOK g -> (ci < length (g_chance g))%nat -> VRow (@row RNum (g_chance g) ci).
Proof.
  intros H Hlt. unfold ChanceOK in H. rewrite Forall_forall in H. unfold row.
  destruct (H _ (nth_In _ [] Hlt)) as [Hp Hs]. split; [|exact Hs].
  eapply Forall_impl; [|exact Hp]. intros p Hpp. cbv beta in Hpp. lra.
Qed.

Lemma ChanceOK_rows (g : gameR) :
  ChanceOK g ->
  forall ci, Forall (fun p => 0 <= p) (@row RNum (g_chance g) ci) /\
             Rsum (@row RNum (g_chance g) ci) <= 1.
Proof.
  intros H ci. destruct (Nat.lt_ge_cases ci (length (g_chance g))) as [Hlt|Hge].
  - destruct (ChanceOK_row_VRow g ci H Hlt) as [Hp Hs]. split; [exact Hp|lra].
  - unfold row. rewrite nth_overflow by assumption. split; [constructor|cbn [Rsum]; lra].
Qed.

Lemma Inv_rows (st : pstateR) :
  Inv st ->
  forall pl i, Forall (fun p => 0 <= p) (strat_view st pl i) /\ Rsum (strat_view st pl i) <= 1.
Proof.
  intros H pl i. apply Inv_InvA in H.
  destruct (InvA_get_cases _ _ st pl i H) as [E|(a & Ha)]; unfold strat_view.
  - rewrite E. cbn [strat Rsum]. split; [constructor|lra].
  - destruct Ha as ([Hnn Hs] & _). split; [exact Hnn|]. tR. lra.
Qed.

Lemma InvA_row (g : gameR) (st : pstateR) pl i :
  InvA (arities g true) (arities g false) st -> (i < length (g_infos g pl))%nat ->
  VRow (strat_view st pl i) /\
  length (strat_view st pl i) = length (pi_actions (nth i (g_infos g pl) (mkPinfo 0%N [] None))) /\
  (i < length (ps_get st pl))%nat.
Proof.
  intros [H1 H2] Hi.
  assert (HF : Forall2 RInvA (arities g pl) (ps_get st pl)) by (destruct pl; assumption).
  assert (Hi' : (i < length (arities g pl))%nat) by (unfold arities; now rewrite map_length).
  pose proof (Forall2_nth RInvA _ _ i 0%nat (@mkRinfo RNum [] [] []) HF Hi') as H.
  destruct H as (Hv & _ & _ & _ & L3). unfold strat_view, ri_get.
  split; [exact Hv|]. split.
  - rewrite L3. unfold arities.
    rewrite (nth_indep _ 0%nat (length (pi_actions (mkPinfo 0%N [] None)))) by assumption.
    now rewrite (map_nth (fun pi => length (pi_actions pi))).
  - apply Forall2_len in HF. lia.
Qed.

Lemma shaped_ValShaped (g : gameR) (st : pstateR) n :
  ChanceOK g -> InvA (arities g true) (arities g false) st ->
  @shaped RNum g n -> ValShaped (g_chance g) (strat_view st) n.
Proof.
  intros HC HI. induction n as [x|ci kids IH|pl i kids IH] using node_ind'; intros HS.
  - constructor.
  - apply shaped_Chance in HS as (H1 & H2 & H3). constructor.
    + exact H2.
    + now apply ChanceOK_row_VRow.
    + exact (Forall_mp _ _ _ IH H3).
  - apply shaped_Player in HS as (H1 & H2 & H3).
    destruct (InvA_row g st pl i HI H1) as (Hv & Hl & _). constructor.
    + rewrite H2. symmetry. exact Hl.
    + exact Hv.
    + exact (Forall_mp _ _ _ IH H3).
Qed.

Lemma cfr_inc_bound_game (ok : list R -> Prop) (g : gameR) chance sg (lo hi : R) pl i a :
  PerfectRecall g ->
  (forall r, ok r -> Forall (fun p => 0 <= p) r /\ lo <= lo * Rsum r /\ hi * Rsum r <= hi) ->
  (forall ci, Forall (fun p => 0 <= p) (@row RNum chance ci) /\ Rsum (@row RNum chance ci) <= 1) ->
  (forall pl' i', Forall (fun p => 0 <= p) (sg pl' i') /\ Rsum (sg pl' i') <= 1) ->
  RowShaped ok chance sg (g_root g) -> PayoffsIn lo hi (g_root g) -> (a < length (sg pl i))%nat ->
  Rabs (cfr_inc chance sg pl i a (g_root g) 1 1 1) <= hi - lo.
Proof.
  intros (H & HPR) Hok HC HS. apply (cfr_inc_bound_tree_gen ok _ _ _ _ _ _ _ _ (H pl i)); auto.
Qed.

(** every per-iteration increment of the cumulative regrets is bounded by the
    payoff range *)
Theorem cfr_inc_bounded (g : gameR) (st : pstateR) (lo hi : R) pl i a :
  WFgame g -> PerfectRecall g -> ChanceOK g ->
  InvA (arities g true) (arities g false) st ->
  PayoffsIn lo hi (g_root g) ->
  (a < length (strat_view st pl i))%nat ->
  Rabs (cfr_inc (g_chance g) (strat_view st) pl i a (g_root g) 1 1 1) <= hi - lo.
Proof.
  intros (HS & _) HPR HC HI HP.
  apply (cfr_inc_bound_game VRow g); auto using VRow_range, ChanceOK_rows.
  - apply Inv_rows. eapply Inv_of_InvA; eauto.
  - now apply ValShaped_RowShaped, shaped_ValShaped.
Qed.

(** total counterfactual reach of an infoset at the root *)
Theorem cf_mass_le_1 (g : gameR) (st : pstateR) pl i :
  PerfectRecall g -> ChanceOK g -> Inv st ->
  cf_mass (g_chance g) (strat_view st) pl i (g_root g) 1 1 1 <= 1.
Proof.
  intros (H & HPR) HC HI.
  pose proof (mass_bound (g_chance g) (strat_view st) pl i (ChanceOK_rows g HC)
                (Inv_rows st HI) (H pl i) (g_root g) [] [] 1 1 1
                ltac:(lra) ltac:(lra) ltac:(lra)) as HB.
  unfold oppw in HB. specialize (HB ltac:(intros h Hh; now apply HPR)). destruct pl; lra.
Qed.
