(** * SolveApi: the dispatch of [Game::solve] over the reals — one statement that ties
    the single-threaded solvers ([Solve.v]), the multi-threaded models
    ([VanillaMulti.v], [ExternalMulti.v]) and the thread-count error together.

    [Game::solve(method, max_iter, max_reg, num_threads, params)]:
    - [num_threads = 0] means [available_parallelism()] (falling back to 1): the machine's
      parallelism is the parameter [par >= 1] here;
    - one thread: the single-threaded solver of the method;
    - otherwise [target = threads.checked_mul(3)] ([usize], 64 bit): [ThreadOverflow] when
      it does not fit, else the multi-threaded solver with that target.
    The schedules of the parallel phases (permutations of atomic increments), the
    reduction orders of the external solver's bound sums and the fuel of the frontier
    loops are parameters: the theorems quantify over all of them. *)
From Coq Require Import Reals List Bool NArith Permutation Lia.
From Cfr.theories Require Import Num RInst Tree GameWF Strat Eval Solve SolveValidProofs
     Incr VanillaMulti ParallelProofs ExtIncr ExternalMulti ExternalProofs.
Import ListNotations.

Inductive api_result :=
| ApiOk (r : (list R * list R) * option (R * R) * N)
| ApiThreadOverflow.

Record schedules := mkSchedules {
  sch_vanilla : N -> list (@incr RNum) -> list (@incr RNum);
  sch_external : N -> bool -> list e_incr -> list e_incr;
  sch_psums : N -> bool -> list R -> R;
  sch_fuel : nat
}.

Definition schedules_ok (s : schedules) : Prop :=
  (forall it l, Permutation l (sch_vanilla s it l)) /\
  (forall it pl l, Permutation l (sch_external s it pl l)) /\
  (forall it pl l, psum_ok l (sch_psums s it pl l)).

Definition effective_threads (num_threads par : N) : N :=
  if N.eqb num_threads 0 then par else num_threads.

Definition solve_api (g : @game RNum) (m : method) (draw : @oracle RNum) (p : @params RNum)
           (budget : nat) (stop : R -> bool) (num_threads par : N) (s : schedules) : api_result :=
  let threads := effective_threads num_threads par in
  if N.eqb threads 1 then ApiOk (@solve_single RNum g m draw p budget stop)
  else if N.leb (2 ^ 64) (3 * threads) then ApiThreadOverflow
  else
    let target := N.to_nat (3 * threads) in
    ApiOk (match m with
           | Full => @solve_multi RNum g false draw p budget stop target (sch_vanilla s)
           | Sampled => @solve_multi RNum g true draw p budget stop target (sch_vanilla s)
           | External => solve_ext_multi g draw p target (sch_fuel s) (sch_external s) (sch_psums s)
                                         budget stop
           end).

(** the documented thread-count error, exactly *)
Theorem solve_api_overflow_iff g m draw p budget stop num_threads par s :
  solve_api g m draw p budget stop num_threads par s = ApiThreadOverflow <->
  (effective_threads num_threads par <> 1 /\ 2 ^ 64 <= 3 * effective_threads num_threads par)%N.
Proof.
  unfold solve_api. cbv zeta.
  destruct (N.eqb_spec (effective_threads num_threads par) 1) as [E|E].
  - split; [discriminate|]. intros [H _]. now elim H.
  - destruct (N.leb_spec (2 ^ 64) (3 * effective_threads num_threads par)) as [L|L].
    + split; [intros _; split; assumption|reflexivity].
    + split; [discriminate|]. intros [_ H]. lia.
Qed.

(** one thread never errors *)
Theorem solve_api_one_thread g m draw p budget stop par s :
  solve_api g m draw p budget stop 1 par s = ApiOk (@solve_single RNum g m draw p budget stop).
Proof. reflexivity. Qed.

(** the thread count is purely a performance setting: whenever [solve] does not report the
    overflow error it returns what the single-threaded solver returns — for every method,
    oracle, parameter set, budget, stop predicate, machine parallelism, schedule of the
    atomic increments and reduction order *)
Theorem solve_api_thread_independent g m draw p budget stop num_threads par s :
  WFgame g -> schedules_ok s ->
  solve_api g m draw p budget stop num_threads par s <> ApiThreadOverflow ->
  solve_api g m draw p budget stop num_threads par s =
  ApiOk (@solve_single RNum g m draw p budget stop).
Proof.
  intros HWF (Hv & He & Hp) Hne. unfold solve_api in *. cbv zeta in *.
  destruct (N.eqb (effective_threads num_threads par) 1); [reflexivity|].
  destruct (N.leb (2 ^ 64) (3 * effective_threads num_threads par)); [now elim Hne|].
  f_equal. destruct m.
  - exact (solve_multi_eq_single g false draw p budget stop _ (sch_vanilla s) Hv).
  - exact (solve_multi_eq_single g true draw p budget stop _ (sch_vanilla s) Hv).
  - exact (solve_ext_multi_eq_single_WF g draw p _ (sch_fuel s) (sch_external s) (sch_psums s)
                                        budget stop HWF He Hp).
Qed.

(** hence everything proved about [solve_single] (validity of the returned profile, shape of
    the bounds, early termination, rates, domination) holds for every thread count *)
Corollary solve_api_valid g m draw p budget stop num_threads par s strats regs ran :
  WFgame g -> schedules_ok s ->
  solve_api g m draw p budget stop num_threads par s = ApiOk (strats, regs, ran) ->
  @solve_single RNum g m draw p budget stop = (strats, regs, ran).
Proof.
  intros HWF Hs E.
  rewrite solve_api_thread_independent in E by (assumption || (rewrite E; discriminate)).
  now inversion E.
Qed.
