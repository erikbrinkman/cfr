(** * CliExamples: two small Gambit files run through the model of the reader. *)
From Coq Require Import Reals List Lra NArith Bool.
From Cfr.theories Require Import Num RInst Tree Eval Valid Cli CliProofs
     CliNamesProofs CliGambitProofs.
Import ListNotations.
Open Scope R_scope.

Local Notation enodeR := (@enode RNum).
Local Notation gameR := (@game RNum).

(** ** A constant-sum file: one decision of player one (infoset 1, unnamed), two terminals
    with payoffs (3, 7) and (6, 4): every terminal sums to 10 *)
Definition ex_const : enodeR :=
  @EPlayer RNum true 1 None
           [(1%N, @ETerm RNum 1 (3, 7)); (2%N, @ETerm RNum 2 (6, 4))] 0 None.

Example ex_const_pairs : own_pairs ex_const = [(0 + 0 + 3, 0 + 0 + 7); (0 + 0 + 6, 0 + 0 + 4)].
Proof. reflexivity. Qed.

Example ex_const_names numname :
  final_names numname true ex_const = Some [(1%N, numname 1%N)] /\
  final_names numname false ex_const = Some [].
Proof. split; reflexivity. Qed.

(** the constant is 10/2 = 5, and the raw tree carries player one's payoffs minus 5 *)
Example ex_const_tree numname :
  @gambit_tree RNum numname ex_const =
  Loaded (@GPlayer RNum true (numname 1%N)
                   [(1%N, @GTerm RNum (0 + 0 + 3 - 10 / 2)); (2%N, @GTerm RNum (0 + 0 + 6 - 10 / 2))],
          10 / 2).
Proof.
  rewrite (gambit_constant_accepted numname ex_const 10 [(1%N, numname 1%N)] []);
    [reflexivity| | |reflexivity|reflexivity]; rewrite ex_const_pairs; [|discriminate].
  intros p [<-|[<-|[]]]; cbn [fst snd]; lra.
Qed.

Example ex_const_load numname :
  @gambit_load RNum numname ex_const =
  Loaded (@mkGame RNum [] [mkPinfo (numname 1%N) [1%N; 2%N] None] [] [] []
                  (@Player RNum true 0
                           [@Term RNum (0 + 0 + 3 - 10 / 2); @Term RNum (0 + 0 + 6 - 10 / 2)]),
          10 / 2).
Proof. unfold gambit_load. rewrite ex_const_tree. reflexivity. Qed.

(** a file whose terminals sum to 10 and to 2 is rejected as not constant sum: here
    (max - min) * 1000 = 4000 > one_max - one_min = 3 *)
Definition ex_nonconst : enodeR :=
  @EPlayer RNum true 1 None
           [(1%N, @ETerm RNum 1 (3, 7)); (2%N, @ETerm RNum 2 (0, 2))] 0 None.

Example ex_nonconst_rejected numname :
  @gambit_load RNum numname ex_nonconst = Rejected RNotConstantSum.
Proof.
  apply gambit_load_rejected_iff; [discriminate|]. apply gambit_not_constant_sum_iff. split.
  - exists [(1%N, numname 1%N)], []. split; reflexivity.
  - eexists. split; [reflexivity|]. cbn [cs_min cs_max cs_omin cs_omax].
    rewrite !half_sum_R.
    change ((Rmax ((0 + 0 + 3 + (0 + 0 + 7)) / 2) ((0 + 0 + 0 + (0 + 0 + 2)) / 2) -
             Rmin ((0 + 0 + 3 + (0 + 0 + 7)) / 2) ((0 + 0 + 0 + (0 + 0 + 2)) / 2)) * 1000 >
            Rmax (0 + 0 + 3) (0 + 0 + 0) - Rmin (0 + 0 + 3) (0 + 0 + 0)).
    unfold Rmax, Rmin. repeat destruct (Rle_dec _ _); lra.
Qed.

(** ** Infoset 2 of player one is unnamed while infoset 1 is named with the string "2"
    (names are ranks: here the string of the number [k] has rank [k + 5], and infoset 1
    is given the name of rank 7): the duplicate-infosets diagnostic *)
Definition ex_clash : enodeR :=
  @EPlayer RNum true 1 (Some 7%N)
           [(1%N, @EPlayer RNum true 2 None
                           [(1%N, @ETerm RNum 1 (0, 0)); (2%N, @ETerm RNum 1 (0, 0))] 0 None);
            (2%N, @ETerm RNum 1 (0, 0))] 0 None.

Definition ex_numname (k : N) : N := (k + 5)%N.

Example ex_clash_names : final_names ex_numname true ex_clash = None.
Proof. reflexivity. Qed.

Example ex_clash_rejected : @gambit_load RNum ex_numname ex_clash = Rejected RDuplicateInfosets.
Proof. reflexivity. Qed.

Example ex_clash_cause : numeric_clash ex_numname true ex_clash.
Proof. exists 2%N. split; cbn; auto. Qed.

(** with another numbering of the strings the same file is accepted for its names *)
Example ex_clash_other_names :
  final_names (fun k => (k + 10)%N) true ex_clash = Some [(1%N, 7%N); (2%N, 12%N)].
Proof. reflexivity. Qed.

(** the same name written on infosets of the two players is no clash: name spaces are
    per player *)
Definition ex_two_players : enodeR :=
  @EPlayer RNum true 1 (Some 7%N)
           [(1%N, @EPlayer RNum false 1 (Some 7%N)
                           [(1%N, @ETerm RNum 1 (0, 0)); (2%N, @ETerm RNum 1 (0, 0))] 0 None);
            (2%N, @ETerm RNum 1 (0, 0))] 0 None.

Example ex_two_players_names :
  final_names ex_numname true ex_two_players = Some [(1%N, 7%N)] /\
  final_names ex_numname false ex_two_players = Some [(1%N, 7%N)].
Proof. split; reflexivity. Qed.
