(** * LoopProofs: early termination (property C09) for the real-number instance [RNum].

    The early-termination test is an arbitrary predicate [stop : R -> bool] on the total
    bound [Rmax b1 b2]; the real threshold [r] is [stop_at r], a NaN threshold is [never].
    Everything holds for an arbitrary game, method, oracle and parameter tuple.

    What depends only on the structure of the loop is [LoopCore.v] read at [RNum]: the
    definitions below are those of [LoopCore.v] (there with prefix [L]) up to conversion,
    with [fmax RNum = Rmax].  What needs the order of [R] is added here: every bound is
    non-negative ([SolveValidProofs.one_iter_bounds]), hence a non-positive threshold never
    fires. *)
From Coq Require Import Reals List NArith Bool Arith Lra Lia.
From Cfr.theories Require Import Num RInst Tree Strat Eval Solve SolveValidProofs LoopCore.
Import ListNotations.
Open Scope R_scope.

(** the test that never fires: no threshold, or a NaN threshold *)
Definition never : R -> bool := fun _ => false.

Definition regs_bound (regs : option (R * R)) : option R :=
  match regs with Some (b1, b2) => Some (Rmax b1 b2) | None => None end.

Definition fires (stop : R -> bool) (ob : option R) : bool :=
  match ob with Some b => stop b | None => false end.

(** bounded search: the least [k] in [t+1 .. t+rem] with [f k = true], or [t+rem] *)
Fixpoint first_fire (f : nat -> bool) (rem t : nat) : nat :=
  match rem with
  | O => t
  | S r => if f (S t) then S t else first_fire f r (S t)
  end.

Section Loop.
  Context (g : @game RNum) (m : method) (draw : @oracle RNum) (p : @params RNum).

  Local Notation loop := (@solve_loop RNum g m draw p).
  Local Notation iter := (@one_iter RNum g m draw p).
  Local Notation pstate := (@pstate RNum).

  Lemma loop_S (stop : R -> bool) r it (st : pstate) regs ran :
    loop stop (S r) it st regs ran =
    let '(st', (r1, r2)) := iter it st in
    if stop (Rmax r1 r2) then (st', Some (r1, r2), it)
    else loop stop r (it + 1)%N st' (Some (r1, r2)) it.
  Proof. reflexivity. Qed.

  Definition bound_from (it : N) (st : pstate) (k : nat) : option R :=
    regs_bound (snd (fst (loop never k it st None 0%N))).

  Lemma loop_stop_never (stop : R -> bool) rem it (st : pstate) regs ran :
    loop stop rem it st regs ran =
    loop never (first_fire (fun k => fires stop (bound_from it st k)) rem 0) it st regs ran.
  Proof. exact (Lloop_stop_never g m draw p stop rem it st regs ran). Qed.

  Lemma one_iter_nonneg it (st st' : pstate) (r1 r2 : R) :
    (1 <= it)%N -> iter it st = (st', (r1, r2)) -> 0 <= r1 /\ 0 <= r2.
  Proof.
    intros Hit E. pose proof (one_iter_bounds g m draw p it st Hit) as H.
    rewrite E in H. exact H.
  Qed.
End Loop.

Definition bound_at (g : @game RNum) (m : method) (draw : @oracle RNum) (p : @params RNum)
           (t : nat) : option R :=
  regs_bound (snd (fst (@solve_single RNum g m draw p t never))).

(** the first iteration in [1..N] after which the test fires on the unthresholded
    trajectory, or [N] *)
Definition tstar (g : @game RNum) (m : method) (draw : @oracle RNum) (p : @params RNum)
           (stop : R -> bool) (N : nat) : nat :=
  first_fire (fun t => fires stop (bound_at g m draw p t)) N 0.

Section Single.
  Context (g : @game RNum) (m : method) (draw : @oracle RNum) (p : @params RNum).

  Lemma solve_single_loop budget (stop : R -> bool) :
    @solve_single RNum g m draw p budget stop =
    let '(st, regs, ran) := @solve_loop RNum g m draw p stop budget 1%N (init_state g) None 0%N in
    (final_strats st, regs, ran).
  Proof. reflexivity. Qed.

  Lemma bound_at_from t : bound_at g m draw p t = bound_from g m draw p 1%N (init_state g) t.
  Proof. exact (Lbound_at_from g m draw p t). Qed.

  Lemma bound_at_0 : bound_at g m draw p 0 = None.
  Proof. reflexivity. Qed.

  Lemma tstar_spec (stop : R -> bool) N :
    let k := tstar g m draw p stop N in
    (k <= N)%nat /\ ((1 <= N)%nat -> (1 <= k)%nat) /\
    (forall j, (1 <= j < k)%nat -> fires stop (bound_at g m draw p j) = false) /\
    ((k < N)%nat -> fires stop (bound_at g m draw p k) = true).
  Proof. exact (Ltstar_spec g m draw p stop N). Qed.

  Lemma tstar_least (stop : R -> bool) N j :
    (1 <= j <= N)%nat -> fires stop (bound_at g m draw p j) = true ->
    (tstar g m draw p stop N <= j)%nat /\
    fires stop (bound_at g m draw p (tstar g m draw p stop N)) = true.
  Proof. exact (Ltstar_least g m draw p stop N j). Qed.

  Lemma tstar_none (stop : R -> bool) N :
    (forall j, (1 <= j <= N)%nat -> fires stop (bound_at g m draw p j) = false) ->
    tstar g m draw p stop N = N.
  Proof. exact (Ltstar_none g m draw p stop N). Qed.

  (** C09.1: a thresholded solve is the unthresholded solve with budget [tstar] *)
  Lemma early_stop_exact (stop : R -> bool) N :
    @solve_single RNum g m draw p N stop =
    @solve_single RNum g m draw p (tstar g m draw p stop N) never.
  Proof. exact (Learly_stop_exact g m draw p stop N). Qed.

  Lemma solve_single_never_ran k :
    snd (@solve_single RNum g m draw p k never) = N.of_nat k.
  Proof. exact (Lsolve_single_never_ran g m draw p k). Qed.

  Lemma early_stop_ran (stop : R -> bool) N :
    snd (@solve_single RNum g m draw p N stop) = N.of_nat (tstar g m draw p stop N).
  Proof. exact (Learly_stop_ran g m draw p stop N). Qed.

  (** C09.2 *)
  Lemma budget_never_exceeded (stop : R -> bool) N strats regs ran :
    @solve_single RNum g m draw p N stop = (strats, regs, ran) ->
    (ran <= N.of_nat N)%N /\
    ((1 <= N)%nat -> (1 <= ran)%N /\ exists b1 b2, regs = Some (b1, b2)) /\
    ((ran < N.of_nat N)%N ->
     exists b1 b2, regs = Some (b1, b2) /\ stop (Rmax b1 b2) = true).
  Proof. exact (Lbudget_never_exceeded g m draw p stop N strats regs ran). Qed.

  (** C09.3 *)
  Lemma bounds_nonneg (stop : R -> bool) N strats b1 b2 ran :
    @solve_single RNum g m draw p N stop = (strats, Some (b1, b2), ran) -> 0 <= b1 /\ 0 <= b2.
  Proof.
    intros H. apply (proj1 (proj2 (solve_single_shape g m draw p N stop)) b1 b2).
    rewrite H. reflexivity.
  Qed.

  Lemma nonstop_on_nonneg (stop : R -> bool) N :
    (forall b, 0 <= b -> stop b = false) ->
    @solve_single RNum g m draw p N stop = @solve_single RNum g m draw p N never.
  Proof.
    intros Hs. apply (Lnever_fires_never_stops g m draw p). intros j _. unfold Lbound_at.
    destruct (solve_single g m draw p j Lnever) as [[strats [[b1 b2]|]] ran] eqn:E; [|reflexivity].
    apply bounds_nonneg in E. apply Hs. pose proof (Rmax_l b1 b2). cbn [fmax RNum]. lra.
  Qed.

  Lemma nonpositive_threshold (r : R) N :
    r <= 0 ->
    @solve_single RNum g m draw p N (@stop_at RNum r) = @solve_single RNum g m draw p N never.
  Proof.
    intros Hr. apply nonstop_on_nonneg. intros b Hb. unfold stop_at. cbn [ltb RNum].
    apply Rltb_false. lra.
  Qed.
End Single.

(** ** A concrete run: one decision node of player one with payoffs 1 and 0, vanilla CFR *)
Definition ex_game : @game RNum :=
  mkGame [] [mkPinfo 0%N [0%N; 1%N] None] [] [] []
         (@Player RNum true 0 [@Term RNum 1; @Term RNum 0]).
Definition ex_draw : @oracle RNum := fun _ _ _ _ => 0%nat.

Lemma ex_iter (it : N) (a b c d e f : R) :
  (1 <= it)%N -> 0 < a + 1 - e -> b - e < 0 ->
  exists c' d' : R,
  @one_iter RNum ex_game Full ex_draw p_vanilla it ([@mkRinfo RNum [a; b] [c; d] [e; f]], []) =
  (([@mkRinfo RNum [a + 1 - e; b - e] [c'; d'] [1; 0]], []),
   (2 * (a + 1 - e) / INR (N.to_nat it), 0)).
Proof.
  intros Hit Hx Hy. unfold one_iter, vanilla_iter. simpl.
  set (X := a + 1 * (1 * 1) - _). set (Y := b + 0 * (1 * 1) - _).
  assert (HX : X = a + 1 - e) by (unfold X; lra).
  assert (HY : Y = b - e) by (unfold Y; lra).
  assert (E1 : Rltb 0 X = true) by (apply Rltb_true; lra).
  assert (E2 : Rltb 0 Y = false) by (apply Rltb_false; lra).
  assert (E3 : Rltb Y 0 = true) by (apply Rltb_true; lra).
  assert (E4 : Rltb 0 (0 + X) = true) by (apply Rltb_true; lra).
  unfold regret_match, discount_average_strat, sum. simpl.
  rewrite E1, E2, E3. simpl. rewrite E4.
  rewrite (Rmax_left (X * 1) (Y * 1)) by lra; rewrite (Rmax_left (X * 1) 0) by lra.
  replace (X * 1) with (a + 1 - e) by lra. replace (Y * 1) with (b - e) by lra.
  replace (X / (0 + X)) with 1 by (field; lra).
  replace (0 + (1 + 1) * (a + 1 - e) / INR (N.to_nat it)) with (2 * (a + 1 - e) / INR (N.to_nat it))
    by (unfold Rdiv; lra).
  destruct (Rltb 0 0); eexists; eexists; reflexivity.
Qed.

Lemma ex_bounds :
  bound_at ex_game Full ex_draw p_vanilla 1 = Some 1 /\
  bound_at ex_game Full ex_draw p_vanilla 2 = Some (/ 2).
Proof.
  rewrite !bound_at_from. unfold bound_from.
  set (e0 := 1 / (1 + 1)).
  assert (Hinit : @init_state RNum ex_game = ([@mkRinfo RNum [0; 0] [0; 0] [e0; e0]], [])) by reflexivity.
  rewrite Hinit.
  destruct (ex_iter 1 0 0 0 0 e0 e0 ltac:(lia) ltac:(unfold e0; lra) ltac:(unfold e0; lra))
    as (c1 & d1 & H1).
  destruct (ex_iter 2 (0 + 1 - e0) (0 - e0) c1 d1 1 0
                    ltac:(lia) ltac:(unfold e0; lra) ltac:(unfold e0; lra))
    as (c2 & d2 & H2).
  replace (INR (N.to_nat 1)) with 1 in H1 by (simpl; lra).
  replace (INR (N.to_nat 2)) with 2 in H2 by (simpl; lra).
  split.
  - rewrite loop_S, H1. unfold never at 1. cbn [solve_loop snd fst regs_bound].
    f_equal. rewrite Rmax_left; unfold e0; lra.
  - rewrite loop_S, H1. unfold never at 1. change (1 + 1)%N with 2%N.
    rewrite loop_S, H2. unfold never at 1. cbn [solve_loop snd fst regs_bound].
    f_equal. rewrite Rmax_left; unfold e0; lra.
Qed.

(** with threshold 3/4 and budget 5 the run stops after iteration 2: 1 < t* < N *)
Lemma ex_tstar : tstar ex_game Full ex_draw p_vanilla (@stop_at RNum (3 / 4)) 5 = 2%nat.
Proof.
  unfold tstar. destruct ex_bounds as [H1 H2]. cbn [first_fire]. rewrite H1, H2. cbn [fires].
  unfold stop_at. cbn [ltb RNum].
  replace (Rltb 1 (3 / 4)) with false by (symmetry; apply Rltb_false; lra).
  replace (Rltb (/ 2) (3 / 4)) with true by (symmetry; apply Rltb_true; lra).
  reflexivity.
Qed.

Lemma below_threshold_when_short :
  forall g m draw p (r : R) N strats regs ran,
    @solve_single RNum g m draw p N (@stop_at RNum r) = (strats, regs, ran) ->
    (ran < N.of_nat N)%N ->
    exists b1 b2, regs = Some (b1, b2) /\ Rmax b1 b2 < r.
Proof.
  intros g m draw p r N strats regs ran H Hlt.
  destruct (budget_never_exceeded g m draw p _ N strats regs ran H) as (_ & _ & H3).
  destruct (H3 Hlt) as (b1 & b2 & -> & Hs). exists b1, b2. split; [reflexivity|now apply Rltb_true].
Qed.

Lemma example_run :
  bound_at ex_game Full ex_draw p_vanilla 1 = Some 1 /\
  bound_at ex_game Full ex_draw p_vanilla 2 = Some (/ 2) /\
  tstar ex_game Full ex_draw p_vanilla (@stop_at RNum (3 / 4)) 5 = 2%nat /\
  snd (@solve_single RNum ex_game Full ex_draw p_vanilla 5 (@stop_at RNum (3 / 4))) = 2%N.
Proof.
  destruct ex_bounds as [H1 H2]. repeat split; try assumption; [exact ex_tstar|].
  rewrite early_stop_ran, ex_tstar. reflexivity.
Qed.
