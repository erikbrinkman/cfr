(** * ExtIncr: the external-sampling traversal [erec] as a pure value plus a list of
    atomic increments.

    One pass of [recurse_regret::<FIRST>] never changes the current strategies
    ([strat]) of any infoset: it only reads them and adds to [cum_regret] (active
    player) and [cum_strat] (external player).  So the value returned by a pass and
    the list of increments it performs are pure functions of the strategies at the
    start of the pass ([eval], [eincs]); the final state is the fold of the
    increments over the start state ([erec_incs]).  Increments commute over the
    reals ([e_apply_incr_comm]), hence any permutation of them gives the same state
    ([e_apply_perm]).

    The traversal is written once, generically in the events it emits ([etr]):
    [eincs] (increments) and [evisits] (active infosets entered) are instances.

    Names are prefixed [e_]/[E_] to keep them apart from those of [Incr.v], into whose
    increments these embed ([e_to_incr]). *)
From Coq Require Import Reals List Lra Lia Bool Arith NArith Permutation.
From Cfr.theories Require Import Num RInst Tree Strat Eval Solve SolveValidProofs Incr.
Import ListNotations.

Local Notation nodeR := (@node RNum).
Local Notation pstateR := (@pstate RNum).
Local Notation rinfoR := (@rinfo RNum).
Local Notation oracleR := (@oracle RNum).

Inductive e_incr :=
| E_IStrat (pl : bool) (i : nat)                 (* cum_strat[i] += strat[i] *)
| E_IReg (pl : bool) (i a : nat) (x : R)         (* cum_regret[i][a] += x *)
| E_IRegAll (pl : bool) (i : nat) (x : R).       (* every cell of cum_regret[i] -= x *)

Definition e_ri_strat (ri : rinfoR) : rinfoR :=
  @mkRinfo RNum (cum_regret ri)
           (map (fun vc : R * R => (snd vc + fst vc)%R) (combine (strat ri) (cum_strat ri)))
           (strat ri).
Definition e_ri_reg (a : nat) (x : R) (ri : rinfoR) : rinfoR :=
  @mkRinfo RNum (upd (cum_regret ri) a (nth a (cum_regret ri) 0%R + x)%R)
           (cum_strat ri) (strat ri).
Definition e_ri_regall (x : R) (ri : rinfoR) : rinfoR :=
  @mkRinfo RNum (map (fun v : R => (v - x)%R) (cum_regret ri)) (cum_strat ri) (strat ri).

Definition e_modify (st : pstateR) (pl : bool) (i : nat) (f : rinfoR -> rinfoR) : pstateR :=
  @ri_set RNum st pl i (f (@ri_get RNum st pl i)).

Definition e_cell (inc : e_incr) : bool * nat :=
  match inc with
  | E_IStrat pl i => (pl, i) | E_IReg pl i _ _ => (pl, i) | E_IRegAll pl i _ => (pl, i)
  end.
Definition e_fun (inc : e_incr) : rinfoR -> rinfoR :=
  match inc with
  | E_IStrat _ _ => e_ri_strat | E_IReg _ _ a x => e_ri_reg a x | E_IRegAll _ _ x => e_ri_regall x
  end.

Definition e_apply_incr (st : pstateR) (inc : e_incr) : pstateR :=
  e_modify st (fst (e_cell inc)) (snd (e_cell inc)) (e_fun inc).

Definition e_strat_view (st : pstateR) : bool -> nat -> list R :=
  fun pl i => strat (@ri_get RNum st pl i).

(** ** The increments as increments of [Incr.v]: [cum_strat[i] += strat[i]] is [IStrat]
    with weight 1.  Commutation, permutation and "never writes [strat]" come from there. *)
Definition e_to_incr (inc : e_incr) : @incr RNum :=
  match inc with
  | E_IStrat pl i => @IStrat RNum pl i 1%R
  | E_IReg pl i a x => @IReg RNum pl i a x
  | E_IRegAll pl i x => @IRegAll RNum pl i x
  end.

Lemma e_apply_to_incr (st : pstateR) inc : e_apply_incr st inc = apply_incr st (e_to_incr inc).
Proof.
  destruct inc as [pl i|pl i a x|pl i x]; try reflexivity.
  unfold e_apply_incr, e_modify, apply_incr. cbn [e_cell e_fun e_to_incr fst snd incr_pl incr_ix].
  f_equal. unfold e_ri_strat, incr_fn. f_equal. apply map_ext. intros [s c].
  change (c + s = c + 1 * s)%R. lra.
Qed.

Lemma e_fold_to_incr (l : list e_incr) (st : pstateR) :
  fold_left e_apply_incr l st = fold_left apply_incr (map e_to_incr l) st.
Proof.
  revert st; induction l as [|inc l IH]; intros st; cbn [fold_left map]; [reflexivity|].
  now rewrite e_apply_to_incr, IH.
Qed.

Lemma e_apply_incr_comm (a b : e_incr) (st : pstateR) :
  e_apply_incr (e_apply_incr st a) b = e_apply_incr (e_apply_incr st b) a.
Proof. rewrite !e_apply_to_incr. apply apply_incr_comm. Qed.

Lemma e_apply_perm (l l' : list e_incr) :
  Permutation l l' -> forall st, fold_left e_apply_incr l st = fold_left e_apply_incr l' st.
Proof. intros H st. rewrite !e_fold_to_incr. apply apply_perm. now apply Permutation_map. Qed.

Lemma e_fold_strat l st pl i :
  e_strat_view (fold_left e_apply_incr l st) pl i = e_strat_view st pl i.
Proof. rewrite e_fold_to_incr. apply (fold_incr_strat_pt (map e_to_incr l) st pl i). Qed.

Lemma e_apply_incr_strat inc st pl i :
  e_strat_view (e_apply_incr st inc) pl i = e_strat_view st pl i.
Proof. apply (e_fold_strat [inc]). Qed.

(** ** Inner loops, abstracted over the recursive call (guard-friendly) *)
Definition pickf {A} (f : nodeR -> A) (d : A) : list nodeR -> nat -> A :=
  fix pick (ks : list nodeR) (k : nat) {struct ks} : A :=
    match ks with
    | [] => d
    | c :: r => match k with O => f c | S k' => pick r k' end
    end.

Lemma pickf_nth {A} (f : nodeR -> A) d ks k :
  pickf f d ks k = match nth_error ks k with Some c => f c | None => d end.
Proof.
  revert k; induction ks as [|c r IH]; intros [|k]; cbn [pickf nth_error]; try reflexivity.
  apply IH.
Qed.

Lemma pickf_prop {A} (Q : A -> Prop) (f : nodeR -> A) d ks k :
  Q d -> (forall c, nth_error ks k = Some c -> Q (f c)) -> Q (pickf f d ks k).
Proof. intros Hd H. rewrite pickf_nth. destruct (nth_error ks k); auto. Qed.

Lemma pickf_ext {A} (f g : nodeR -> A) d ks k :
  (forall c, nth_error ks k = Some c -> f c = g c) -> pickf f d ks k = pickf g d ks k.
Proof. intros H. rewrite !pickf_nth. destruct (nth_error ks k); auto. Qed.

Lemma In_pickf {A} (f : nodeR -> list A) ks k x :
  In x (pickf f [] ks k) <-> exists c, nth_error ks k = Some c /\ In x (f c).
Proof.
  rewrite pickf_nth. destruct (nth_error ks k) as [c|].
  - split; [eauto|]. now intros (c' & [= ->] & H).
  - split; [easy|]. now intros (c & [=] & _).
Qed.

(** induction on the tree, the hypothesis given for each child by its index *)
Lemma node_nth_ind (P : nodeR -> Prop) :
  (forall x, P (Term x)) ->
  (forall ci kids, (forall k c, nth_error kids k = Some c -> P c) -> P (Chance ci kids)) ->
  (forall pl i kids, (forall k c, nth_error kids k = Some c -> P c) -> P (Player pl i kids)) ->
  forall n, P n.
Proof.
  intros HT HC HP.
  induction n as [x|ci kids IH|pl i kids IH] using SolveValidProofs.node_ind';
    [apply HT|apply HC|apply HP]; intros k c Hk; rewrite Forall_forall in IH;
    apply IH; eapply nth_error_In; eauto.
Qed.

Lemma epick_pickf (rec : nodeR -> pstateR -> R * pstateR) st ks k :
  epick rec st ks k = pickf (fun c => rec c st) (0%R, st) ks k.
Proof.
  revert k; induction ks as [|c r IH]; intros [|k]; cbn [epick pickf]; try reflexivity; try apply IH.
Qed.

(** the loop of [ActiveInfo::recurse]: value, events, state-threading form *)
Definition goval (f : nat -> nodeR -> R) : list nodeR -> list R -> nat -> R -> R :=
  fix go (ks : list nodeR) (ss : list R) (a : nat) (e : R) {struct ks} : R :=
    match ks, ss with
    | c :: ks', p :: ss' => go ks' ss' (S a) (e + p * f a c)%R
    | _, _ => e
    end.

Definition gotr {E} (f : nat -> nodeR -> list E) : list nodeR -> list R -> nat -> list E :=
  fix go (ks : list nodeR) (ss : list R) (a : nat) {struct ks} : list E :=
    match ks, ss with
    | c :: ks', _ :: ss' => f a c ++ go ks' ss' (S a)
    | _, _ => []
    end.

Definition egoi (rec : nat -> nodeR -> pstateR -> R * pstateR) (pl : bool) (i : nat) :=
  fix go (ks : list nodeR) (ss : list R) (ai : nat) (e : R) (st : pstateR) {struct ks}
    : R * pstateR :=
    match ks, ss with
    | c :: ks', prob :: ss' =>
        let (util, st') := rec ai c st in
        go ks' ss' (S ai) (e + prob * util)%R (e_apply_incr st' (E_IReg pl i ai util))
    | _, _ => (e, st)
    end.

Lemma ego_egoi (rec : nodeR -> pstateR -> R * pstateR) pl i ks ss ai e st :
  ego rec pl i ks ss ai e st = egoi (fun _ => rec) pl i ks ss ai e st.
Proof.
  revert ss ai e st; induction ks as [|c ks IH]; intros [|p ss] ai e st; cbn [ego egoi]; try reflexivity;
    try (destruct (rec c st) as [u st']; apply IH).
Qed.

Lemma goval_ext f g ks ss a e :
  (forall j c, nth_error ks j = Some c -> f (a + j)%nat c = g (a + j)%nat c) ->
  goval f ks ss a e = goval g ks ss a e.
Proof.
  revert ss a e; induction ks as [|c ks IH]; intros [|p ss] a e H; cbn [goval]; try reflexivity.
  pose proof (H O c eq_refl) as H0. rewrite Nat.add_0_r in H0. rewrite H0.
  apply IH. intros j c' Hj. specialize (H (S j) c' Hj). now rewrite Nat.add_succ_r in H.
Qed.

Lemma gotr_ext {E} (f g : nat -> nodeR -> list E) ks ss a :
  (forall j c, nth_error ks j = Some c -> f (a + j)%nat c = g (a + j)%nat c) ->
  gotr f ks ss a = gotr g ks ss a.
Proof.
  revert ss a; induction ks as [|c ks IH]; intros [|p ss] a H; cbn [gotr]; try reflexivity.
  pose proof (H O c eq_refl) as H0. rewrite Nat.add_0_r in H0. rewrite H0. f_equal.
  apply IH. intros j c' Hj. specialize (H (S j) c' Hj). now rewrite Nat.add_succ_r in H.
Qed.

Lemma gotr_In {E} (f : nat -> nodeR -> list E) ks ss a x :
  In x (gotr f ks ss a) <->
  exists j c, nth_error ks j = Some c /\ (j < length ss)%nat /\ In x (f (a + j)%nat c).
Proof.
  revert ss a; induction ks as [|c ks IH]; intros ss a; [|destruct ss as [|p ss]]; cbn [gotr].
  - split; [easy|]. intros (j & c & Hj & _). destruct j; discriminate.
  - split; [easy|]. intros (j & c' & _ & Hl & _). cbn in Hl. lia.
  - rewrite in_app_iff, IH. split.
    + intros [H|(j & c' & Hj & Hl & Hx)].
      * exists O, c. rewrite Nat.add_0_r. cbn [nth_error length]. repeat split; auto. lia.
      * exists (S j), c'. rewrite Nat.add_succ_r. cbn [nth_error length]. repeat split; auto. lia.
    + intros (j & c' & Hj & Hl & Hx). destruct j as [|j].
      * left. cbn [nth_error] in Hj. injection Hj as <-. now rewrite Nat.add_0_r in Hx.
      * right. exists j, c'. rewrite Nat.add_succ_r in Hx. cbn [nth_error length] in Hj, Hl.
        repeat split; auto. lia.
Qed.

Lemma gotr_flat_map {E F} (g : E -> list F) (f : nat -> nodeR -> list E) ks ss a :
  flat_map g (gotr f ks ss a) = gotr (fun a c => flat_map g (f a c)) ks ss a.
Proof.
  revert ss a; induction ks as [|c ks IH]; intros [|p ss] a; cbn [gotr flat_map]; try reflexivity.
  now rewrite flat_map_app, IH.
Qed.

Lemma gotr_perm {E} (f1 f2 f3 : nat -> nodeR -> list E) ks ss a :
  (forall j c, nth_error ks j = Some c ->
               Permutation (f1 (a + j)%nat c ++ f2 (a + j)%nat c) (f3 (a + j)%nat c)) ->
  Permutation (gotr f1 ks ss a ++ gotr f2 ks ss a) (gotr f3 ks ss a).
Proof.
  revert ss a; induction ks as [|c ks IH]; intros [|p ss] a H; cbn [gotr app]; try constructor.
  pose proof (H O c eq_refl) as H0. rewrite Nat.add_0_r in H0.
  assert (HI : Permutation (gotr f1 ks ss (S a) ++ gotr f2 ks ss (S a)) (gotr f3 ks ss (S a))).
  { apply IH. intros j c' Hj. specialize (H (S j) c' Hj). now rewrite Nat.add_succ_r in H. }
  rewrite <- H0, <- HI. rewrite <- !app_assoc. apply Permutation_app_head.
  rewrite !app_assoc. apply Permutation_app_tail. apply Permutation_app_comm.
Qed.

Section Pure.
  Context (chance : list (list R)) (draw : oracleR) (cpass ppass : N) (noff : nat) (me : bool)
          (sg : bool -> nat -> list R).

  (** the id under which the external player's infoset [i] consults the oracle *)
  Definition ext_id (pl : bool) (i : nat) : nat := if pl then i else (noff + i)%nat.

  Definition cdraw (ci : nat) : nat := draw true ci cpass (@row RNum chance ci).
  Definition pdraw (pl : bool) (i : nat) : nat := draw false (ext_id pl i) ppass (sg pl i).

  (** the value [recurse_regret] returns *)
  Fixpoint eval (n : nodeR) : R :=
    match n with
    | Term x => if me then x else (- x)%R
    | Chance ci kids => pickf eval 0%R kids (cdraw ci)
    | Player pl i kids =>
        if Bool.eqb pl me then goval (fun _ c => eval c) kids (sg pl i) O 0%R
        else pickf eval 0%R kids (pdraw pl i)
    end.

  (** the events of a traversal, generic in what is emitted on entering an active
      infoset, after each of its actions, on leaving it, and at an external infoset *)
  Section Trace.
    Context {E : Type}
            (ePre : bool -> nat -> list E) (eChild : bool -> nat -> nat -> R -> list E)
            (ePost : bool -> nat -> R -> list E) (eExt : bool -> nat -> list E).

    Fixpoint etr (n : nodeR) : list E :=
      match n with
      | Term _ => []
      | Chance ci kids => pickf etr [] kids (cdraw ci)
      | Player pl i kids =>
          if Bool.eqb pl me then
            ePre pl i
            ++ gotr (fun a c => etr c ++ eChild pl i a (eval c)) kids (sg pl i) O
            ++ ePost pl i (eval (Player pl i kids))
          else eExt pl i ++ pickf etr [] kids (pdraw pl i)
      end.
  End Trace.

  (** the increments of a pass, in the order the code performs them *)
  Definition eincs : nodeR -> list e_incr :=
    etr (fun _ _ => []) (fun pl i a x => [E_IReg pl i a x])
        (fun pl i e => [E_IRegAll pl i e]) (fun pl i => [E_IStrat pl i]).

  (** the active-player infosets entered by a pass, in order *)
  Definition evisits : nodeR -> list nat :=
    etr (fun _ i => [i]) (fun _ _ _ _ => []) (fun _ _ _ => []) (fun _ _ => []).

  (** the state holds the strategies [sg] *)
  Definition SV (st : pstateR) : Prop := forall pl i, e_strat_view st pl i = sg pl i.

  Lemma SV_apply st inc : SV st -> SV (e_apply_incr st inc).
  Proof. intros H pl i. now rewrite e_apply_incr_strat. Qed.

  Lemma SV_fold st l : SV st -> SV (fold_left e_apply_incr l st).
  Proof. intros H pl i. now rewrite e_fold_strat. Qed.

  Lemma egoi_spec rec pl i (V : nat -> nodeR -> R) (I : nat -> nodeR -> list e_incr) ks :
    forall ss a0 e st,
      (forall j c st, nth_error ks j = Some c -> SV st ->
                      rec (a0 + j)%nat c st =
                      (V (a0 + j)%nat c, fold_left e_apply_incr (I (a0 + j)%nat c) st)) ->
      SV st ->
      egoi rec pl i ks ss a0 e st =
      (goval V ks ss a0 e,
       fold_left e_apply_incr (gotr (fun a c => I a c ++ [E_IReg pl i a (V a c)]) ks ss a0) st).
  Proof.
    induction ks as [|c ks IH]; intros [|p ss] a0 e st H Hst; cbn [egoi goval gotr fold_left];
      try reflexivity.
    pose proof (H O c st eq_refl Hst) as H0. rewrite Nat.add_0_r in H0. rewrite H0.
    rewrite IH.
    - rewrite !fold_left_app. reflexivity.
    - intros j c' st' Hj Hst'. specialize (H (S j) c' st' Hj Hst').
      now rewrite Nat.add_succ_r in H.
    - apply SV_apply. now apply SV_fold.
  Qed.

  Lemma erec_incs_sv (n : nodeR) :
    forall st, SV st ->
               @erec RNum chance draw cpass ppass noff me n st =
               (eval n, fold_left e_apply_incr (eincs n) st).
  Proof.
    induction n as [x|ci kids IH|pl i kids IH] using node_nth_ind; intros st Hst.
    - reflexivity.
    - rewrite erec_Chance, epick_pickf. unfold eincs. cbn [eval etr]. fold eincs.
      unfold cdraw. rewrite !pickf_nth.
      destruct (nth_error kids _) as [c|] eqn:Ek; [|reflexivity]. exact (IH _ c Ek st Hst).
    - rewrite erec_Player. cbv zeta. unfold eincs. cbn [eval etr]. fold eincs.
      pose proof (Hst pl i) as Hs. unfold e_strat_view in Hs.
      destruct (Bool.eqb pl me).
      + rewrite Hs, ego_egoi.
        rewrite (egoi_spec (fun _ => @erec RNum chance draw cpass ppass noff me) pl i
                           (fun _ c => eval c) (fun _ c => eincs c) kids (sg pl i) O 0%R st).
        * cbn [app]. rewrite fold_left_app. reflexivity.
        * intros j c st' Hj. exact (IH j c Hj st').
        * assumption.
      + rewrite epick_pickf. cbn [app fold_left].
        change (@ri_set RNum st pl i _) with (e_apply_incr st (E_IStrat pl i)).
        rewrite Hs. unfold pdraw, ext_id. rewrite !pickf_nth.
        destruct (nth_error kids _) as [c|] eqn:Ek; [|reflexivity].
        apply (IH _ c Ek). now apply SV_apply.
  Qed.
End Pure.

Theorem erec_incs chance draw cpass ppass noff me n st :
  @erec RNum chance draw cpass ppass noff me n st =
  (eval chance draw cpass ppass noff me (e_strat_view st) n,
   fold_left e_apply_incr (eincs chance draw cpass ppass noff me (e_strat_view st) n) st).
Proof. apply erec_incs_sv. intros pl i. reflexivity. Qed.

Corollary erec_strat_view chance draw cpass ppass noff me n st pl i :
  e_strat_view (snd (@erec RNum chance draw cpass ppass noff me n st)) pl i = e_strat_view st pl i.
Proof. rewrite erec_incs. cbn [snd]. apply e_fold_strat. Qed.
