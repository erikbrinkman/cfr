(** * PresentationProofs: [from_root] does not depend on how the tree is presented
    (property C12: rescaled chance weights, renamed infosets and actions).

    Two runs of [init] are compared through a relation on builder states that both loops
    of [init] keep ([Section Rel]).  Rescaling the weights of a chance node by a positive
    constant leaves the states equal; renaming by injective maps renames them.  Evaluation
    and solving read only the root, the chance table and the arities of a compact game
    ([same_core]), so they do not see names.  Everything is for any [Num] except the part on
    rescaling, which is about [RNum].  Transparent nodes are in [PresentationProofs2]. *)
From Coq Require Import Reals List Lra Bool NArith.
From Cfr.theories Require Import Num RInst Tree Strat StratIterProofs Eval Solve.
From Cfr.theories Require Export FromRootGeneric.
Import ListNotations.
Open Scope R_scope.

Definition map_res {A B} (f : A -> B) (r : res A) : res B :=
  match r with Ok a => Ok (f a) | Err e => Err e end.

Section Infra.
  Context {NN : Num}.
  Local Notation gnode := (@gnode NN).
  Local Notation bst := (@bst NN).

  Lemma init_GPlayer_nil pl info prev s :
    init (GPlayer pl info (@nil (N * gnode))) prev s = Err EmptyPlayer.
  Proof. reflexivity. Qed.

  Lemma from_root_eq (t : gnode) :
    from_root t = map_res (fun ns => game_of (fst ns) (snd ns)) (init t (None, None) b_empty).
  Proof.
    unfold from_root. destruct (init t (None, None) b_empty) as [[root s]|e]; reflexivity.
  Qed.

  Definition enter_single (pl : bool) (info a : N) (s : bst) : res (unit * bst) :=
    if existsb (fun pi => N.eqb (pi_name pi) info) (b_infos s pl) then Err ActionsNotEqual
    else
      match find_index (fun e => N.eqb (fst e) info) (b_singles s pl) with
      | Some (_, (_, a')) => if N.eqb a' a then Ok (tt, s) else Err ActionsNotEqual
      | None => Ok (tt, set_singles s pl (b_singles s pl ++ [(info, a)]))
      end.

  Lemma init_single pl info a (c : gnode) prev s :
    init (GPlayer pl info [(a, c)]) prev s =
    match enter_single pl info a s with
    | Ok (_, s0) => init c prev s0
    | Err e => Err e
    end.
  Proof.
    rewrite init_GPlayer_single. unfold singleP, enter_single.
    destruct (existsb _ _); [reflexivity|].
    destruct (find_index _ _) as [[i [n a']]|]; [|reflexivity].
    destruct (N.eqb a' a); reflexivity.
  Qed.

  Lemma init_chance_one info w (t : gnode) prev s :
    wok w = true -> init (GChance info [(w, t)]) prev s = init t prev s.
  Proof.
    intros Hw. rewrite init_chance. cbn [loopS]. unfold stepC. cbn [fst snd]. rewrite Hw.
    destruct (init t prev s) as [[k s1]|e]; reflexivity.
  Qed.
End Infra.

Lemma Forall2_map_eq {A B C} (R : A -> B -> Prop) (f : A -> C) (g : B -> C) l l' :
  (forall x y, R x y -> g y = f x) -> Forall2 R l l' -> map g l' = map f l.
Proof.
  intros HR. induction 1 as [|x y l l' Hxy _ IH]; [reflexivity|].
  cbn [map]. now rewrite (HR x y Hxy), IH.
Qed.

Lemma Forall2_map_r {A B} (R : A -> B -> Prop) (f : A -> B) l :
  Forall (fun x => R x (f x)) l -> Forall2 R l (map f l).
Proof. induction 1; constructor; auto. Qed.

(** [init t prev s] against [init t' prev s'] for states related by [Q]: equal (rescaling),
    renamed, or equal up to inserted single-action names (transparent nodes).  What depends
    on [Q] is only how the tables are consulted and extended at a node; these steps are the
    hypotheses of the two node lemmas. *)
Section Rel.
  Context {NN : Num}.
  Local Notation gnode := (@gnode NN).
  Local Notation node := (@node NN).
  Local Notation bst := (@bst NN).
  Context (Q : bst -> bst -> Prop).

  Definition rel_res {A} (r r' : res (A * bst)) : Prop :=
    match r with
    | Ok (x, s1) => exists s1', r' = Ok (x, s1') /\ Q s1 s1'
    | Err e => r' = Err e
    end.

  Definition rel_init (t t' : gnode) : Prop :=
    forall prev s s', Q s s' -> rel_res (init t prev s) (init t' prev s').

  Lemma rel_ok {A} (x : A) s s' : Q s s' -> rel_res (Ok (x, s)) (Ok (x, s')).
  Proof. intros H. now exists s'. Qed.

  Lemma rel_bind {A B} (r r' : res (A * bst)) (k k' : A -> bst -> res (B * bst)) :
    rel_res r r' ->
    (forall x s1 s1', Q s1 s1' -> rel_res (k x s1) (k' x s1')) ->
    rel_res (match r with Ok (x, s1) => k x s1 | Err e => Err e end)
            (match r' with Ok (x, s1) => k' x s1 | Err e => Err e end).
  Proof.
    intros H Hk. destruct r as [[x s1]|e]; cbn [rel_res] in H.
    - destruct H as (s1' & -> & H). now apply Hk.
    - now subst r'.
  Qed.

  Lemma loopS_rel {X X'} (R : X -> X' -> Prop) (f : nat -> X -> bst -> res (node * bst))
        (f' : nat -> X' -> bst -> res (node * bst)) :
    (forall x x', R x x' -> forall ai s s', Q s s' -> rel_res (f ai x s) (f' ai x' s')) ->
    forall l l', Forall2 R l l' ->
    forall ai s s', Q s s' -> rel_res (loopS f ai l s) (loopS f' ai l' s').
  Proof.
    intros Hf. induction 1 as [|x x' l l' Hx _ IH]; intros ai s s' H; cbn [loopS].
    - now apply rel_ok.
    - apply rel_bind; [now apply (Hf x x')|]. intros k s1 s1' H1.
      apply rel_bind; [now apply IH|]. intros ks s2 s2' H2. now apply rel_ok.
  Qed.

  Lemma init_GTerm_rel p : rel_init (GTerm p) (GTerm p).
  Proof.
    intros prev s s' H. rewrite !init_GTerm. destruct (is_fin NN p); [now apply rel_ok|reflexivity].
  Qed.

  Lemma init_GChance_rel (fw : T NN -> T NN) info info' outs outs' prev s s' :
    (forall w, wok (fw w) = wok w) ->
    Forall2 (fun x y => fst y = fw (fst x) /\ rel_init (snd x) (snd y)) outs outs' ->
    (forall ks s1 s1', Q s1 s1' ->
       rel_res (finishC info (map fst outs) ks s1) (finishC info' (map fw (map fst outs)) ks s1')) ->
    Q s s' ->
    rel_res (init (GChance info outs) prev s) (init (GChance info' outs') prev s').
  Proof.
    intros Hw Houts Hfin H. rewrite !init_chance.
    rewrite (Forall2_map_eq _ (fun x => fw (fst x)) fst outs outs' (fun x y => @proj1 _ _) Houts).
    rewrite <- (map_map fst fw). apply rel_bind; [|exact Hfin].
    eapply loopS_rel; [|exact Houts|exact H].
    intros x y [Hy Hc] ai z z' Hz. unfold stepC. rewrite Hy, Hw.
    destruct (wok (fst x)); [now apply Hc|reflexivity].
  Qed.

  Lemma init_GPlayer_rel (fa : N -> N) pl info info' acts acts' prev s s' :
    Forall2 (fun x y => fst y = fa (fst x) /\ rel_init (snd x) (snd y)) acts acts' ->
    (forall a, rel_res (enter_single pl info a s) (enter_single pl info' (fa a) s')) ->
    existsb (fun e => N.eqb (fst e) info') (b_singles s' pl) =
    existsb (fun e => N.eqb (fst e) info) (b_singles s pl) ->
    (forall l, rel_res (found_info prev pl info l s) (found_info prev pl info' (map fa l) s')) ->
    rel_res (init (GPlayer pl info acts) prev s) (init (GPlayer pl info' acts') prev s').
  Proof.
    intros Hacts Hs He Hm.
    pose proof (Forall2_map_eq _ (fun x => fa (fst x)) fst acts acts' (fun x y => @proj1 _ _) Hacts)
      as Hn.
    revert Hn. destruct Hacts as [|[a c] [a' c'] r r' Hx Hr]; [reflexivity|].
    destruct Hr as [|y y' r r' Hy Hr]; intros Hn.
    - destruct Hx as [Ha Hc]. cbn [fst snd] in Ha, Hc. subst a'. rewrite !init_single.
      apply rel_bind; [apply Hs|]. intros _ s0 s0' H0. now apply Hc.
    - rewrite !init_multi, Hn, <- (map_map fst fa), He.
      destruct (existsb _ (b_singles s pl)); [reflexivity|].
      apply rel_bind; [apply Hm|]. intros ind s0 s0' H0.
      apply rel_bind; [|intros ks s1 s1' H1; now apply rel_ok].
      eapply loopS_rel; [|exact (Forall2_cons _ _ Hx (Forall2_cons _ _ Hy Hr))|exact H0].
      intros x x' [_ Hc] ai z z' Hz. now apply Hc.
  Qed.
End Rel.

Lemma rel_fun {NN : Num} {A} (phi : @bst NN -> @bst NN) (r r' : res (A * @bst NN)) :
  rel_res (fun s s' => s' = phi s) r r' <-> r' = map_res (fun x => (fst x, phi (snd x))) r.
Proof.
  destruct r as [[x s]|e]; cbn [rel_res map_res fst snd]; [|reflexivity].
  split; [intros (s' & -> & ->); reflexivity|intros ->; now exists (phi s)].
Qed.

Lemma rel_eq {NN : Num} {A} (r r' : res (A * @bst NN)) : rel_res eq r r' <-> r' = r.
Proof.
  destruct r as [[x s]|e]; cbn [rel_res]; [|reflexivity].
  split; [intros (s' & -> & <-); reflexivity|intros ->; now exists s].
Qed.

Section Core.
  Context {NN : Num}.
  Local Notation game := (@game NN).

  Definition same_core (g g' : game) : Prop :=
    g_root g' = g_root g /\ g_chance g' = g_chance g /\
    arities g' true = arities g true /\ arities g' false = arities g false.

  Lemma same_core_refl g : same_core g g.
  Proof. repeat split. Qed.

  Lemma same_core_of_infos g g' :
    g_root g' = g_root g -> g_chance g' = g_chance g ->
    g_infos1 g' = g_infos1 g -> g_infos2 g' = g_infos2 g -> same_core g g'.
  Proof.
    intros Hr Hc H1 H2. unfold same_core, arities, g_infos. rewrite Hr, Hc, H1, H2. repeat split.
  Qed.

  Lemma info_core g g' : same_core g g' -> forall prof, info g' prof = info g prof.
  Proof.
    intros (Hr & Hc & H1 & H2) prof.
    unfold info, expected, br_value. rewrite Hr, Hc, H1, H2. reflexivity.
  Qed.

  Lemma init_state_arities (g : game) :
    init_state g = (map rinfo_new (arities g true), map rinfo_new (arities g false)).
  Proof. unfold init_state, arities, g_infos. now rewrite !map_map. Qed.

  Lemma len_infos1_arities (g : game) : length (g_infos1 g) = length (arities g true).
  Proof. unfold arities, g_infos. now rewrite map_length. Qed.

  Lemma one_iter_core g g' : same_core g g' ->
    forall m draw p it st, one_iter g' m draw p it st = one_iter g m draw p it st.
  Proof.
    intros (Hr & Hc & H1 & H2) m draw p it st.
    destruct m; unfold one_iter, vanilla_iter, external_iter;
      rewrite ?len_infos1_arities, Hr, Hc, ?H1; reflexivity.
  Qed.

  Lemma solve_loop_core g g' : same_core g g' ->
    forall m draw p stop remaining it st regs ran,
      solve_loop g' m draw p stop remaining it st regs ran =
      solve_loop g m draw p stop remaining it st regs ran.
  Proof.
    intros H m draw p stop remaining.
    induction remaining as [|r IH]; intros it st regs ran; cbn [solve_loop]; [reflexivity|].
    rewrite (one_iter_core g g' H).
    destruct (one_iter g m draw p it st) as [st' [r1 r2]].
    destruct (stop (fmax NN r1 r2)); [reflexivity|apply IH].
  Qed.

  Lemma solve_single_core g g' : same_core g g' ->
    forall m draw p budget stop,
      solve_single g' m draw p budget stop = solve_single g m draw p budget stop.
  Proof.
    intros H m draw p budget stop. unfold solve_single.
    rewrite (solve_loop_core g g' H), !init_state_arities.
    destruct H as (_ & _ & H1 & H2). rewrite H1, H2. reflexivity.
  Qed.
End Core.

Local Notation gnodeR := (@gnode RNum).
Local Notation gameR := (@game RNum).

Theorem normalise_scale (c : R) (ws : list R) :
  0 < c -> @normalise RNum (map (Rmult c) ws) = @normalise RNum ws.
Proof.
  intros Hc. unfold normalise. cbn [is_fin RNum]. rewrite !sum_Rsum, Rsum_map_Rmult, map_map.
  apply map_ext. intros w. cbn [div RNum T].
  (* also for [Rsum ws = 0]: the inverse of a product is the product of the inverses *)
  unfold Rdiv. rewrite Rinv_mult, <- Rmult_assoc. f_equal. field. lra.
Qed.

(** same shape, labels and payoffs; at every chance node the weights of the second
    tree are those of the first multiplied by a positive constant (one per node) *)
Inductive Rescaled : gnodeR -> gnodeR -> Prop :=
| Rs_Term p : Rescaled (@GTerm RNum p) (@GTerm RNum p)
| Rs_Chance info c outs outs' :
    0 < c -> RescaledC c outs outs' ->
    Rescaled (@GChance RNum info outs) (@GChance RNum info outs')
| Rs_Player pl info acts acts' :
    RescaledP acts acts' ->
    Rescaled (@GPlayer RNum pl info acts) (@GPlayer RNum pl info acts')
with RescaledC : R -> list (T RNum * gnodeR) -> list (T RNum * gnodeR) -> Prop :=
| RsC_nil c : RescaledC c [] []
| RsC_cons c p p' t t' r r' :
    p' = c * p -> Rescaled t t' -> RescaledC c r r' ->
    RescaledC c ((p, t) :: r) ((p', t') :: r')
with RescaledP : list (N * gnodeR) -> list (N * gnodeR) -> Prop :=
| RsP_nil : RescaledP [] []
| RsP_cons a t t' r r' :
    Rescaled t t' -> RescaledP r r' -> RescaledP ((a, t) :: r) ((a, t') :: r').

Scheme Rescaled_mind := Minimality for Rescaled Sort Prop
  with RescaledC_mind := Minimality for RescaledC Sort Prop
  with RescaledP_mind := Minimality for RescaledP Sort Prop.
Combined Scheme Rescaled_mutind from Rescaled_mind, RescaledC_mind, RescaledP_mind.

Lemma finishC_scale info c pr ks s :
  0 < c -> @finishC RNum info (map (Rmult c) pr) ks s = @finishC RNum info pr ks s.
Proof. intros Hc. unfold finishC. now rewrite (normalise_scale c pr Hc). Qed.

Lemma wok_pos w : @wok RNum w = true <-> 0 < w.
Proof. unfold wok. cbn [ltb zero is_fin RNum]. rewrite andb_true_r. apply Rltb_true. Qed.

Lemma wok_scale c p : 0 < c -> @wok RNum (c * p) = @wok RNum p.
Proof. intros Hc. apply eq_true_iff_eq. rewrite !wok_pos. split; nra. Qed.

Lemma rescale_init_all :
  (forall t t', Rescaled t t' -> rel_init eq t t') /\
  (forall c outs outs', RescaledC c outs outs' ->
     Forall2 (fun x y => fst y = c * fst x /\ rel_init eq (snd x) (snd y)) outs outs') /\
  (forall acts acts', RescaledP acts acts' ->
     Forall2 (fun x y => fst y = fst x /\ rel_init eq (snd x) (snd y)) acts acts').
Proof.
  apply Rescaled_mutind.
  - apply init_GTerm_rel.
  - (* the weights change, the normalised weights do not *)
    intros info c outs outs' Hc _ IH prev s s' <-.
    apply (@init_GChance_rel RNum eq (Rmult c)) with (2 := IH); [|intros ks s1 s1' <-|reflexivity].
    + intros w. now apply wok_scale.
    + now apply rel_eq, finishC_scale.
  - intros pl info acts acts' _ IH prev s s' <-.
    apply (init_GPlayer_rel eq (fun a => a)) with (1 := IH).
    + intros a. now apply rel_eq.
    + reflexivity.
    + intros l. rewrite map_id. now apply rel_eq.
  - constructor.
  - intros c p p' t t' r r' -> _ IHt _ IHr. constructor; [split; [reflexivity|exact IHt]|exact IHr].
  - constructor.
  - intros a t t' r r' _ IHt _ IHr. constructor; [split; [reflexivity|exact IHt]|exact IHr].
Qed.

Lemma Rescaled_refl t : Rescaled t t.
Proof.
  induction t as [p|info outs IH|pl info acts IH] using gnode_ind'.
  - constructor.
  - apply Rs_Chance with (c := 1); [lra|].
    induction IH as [|[p c] r Hc _ IHr]; constructor; [cbn [T RNum] in *; lra|exact Hc|exact IHr].
  - apply Rs_Player.
    induction IH as [|[a c] r Hc _ IHr]; constructor; [exact Hc|exact IHr].
Qed.

Theorem rescale_init t t' : Rescaled t t' ->
  forall prev s, @init RNum t' prev s = @init RNum t prev s.
Proof. intros H prev s. now apply rel_eq, (proj1 rescale_init_all t t' H). Qed.

Theorem rescale_from_root t t' : Rescaled t t' -> @from_root RNum t' = @from_root RNum t.
Proof. intros H. unfold from_root. now rewrite (rescale_init t t' H). Qed.

Corollary rescale_info t t' g : Rescaled t t' -> @from_root RNum t = Ok g ->
  exists g', @from_root RNum t' = Ok g' /\ forall prof, @info RNum g' prof = @info RNum g prof.
Proof. intros H Hg. exists g. split; [now rewrite (rescale_from_root t t' H)|reflexivity]. Qed.

Corollary rescale_solve t t' g : Rescaled t t' -> @from_root RNum t = Ok g ->
  exists g', @from_root RNum t' = Ok g' /\
             forall m draw p budget stop,
               @solve_single RNum g' m draw p budget stop = @solve_single RNum g m draw p budget stop.
Proof. intros H Hg. exists g. split; [now rewrite (rescale_from_root t t' H)|reflexivity]. Qed.

Lemma find_index_map {A B} (g : A -> B) (p : A -> bool) (q : B -> bool) (l : list A) :
  (forall x, q (g x) = p x) ->
  find_index q (map g l) =
  match find_index p l with
  | Some (i, x) => Some (i, g x)
  | None => None
  end.
Proof.
  intros H. induction l as [|x l IH]; cbn [map find_index]; [reflexivity|].
  rewrite H. destruct (p x); [reflexivity|]. rewrite IH.
  destruct (find_index p l) as [[i y]|]; reflexivity.
Qed.

Lemma existsb_map {A B} (g : A -> B) (p : A -> bool) (q : B -> bool) (l : list A) :
  (forall x, q (g x) = p x) -> existsb q (map g l) = existsb p l.
Proof. intros H. induction l as [|x l IH]; cbn [map existsb]; [reflexivity|now rewrite H, IH]. Qed.

Definition inj (f : N -> N) : Prop := forall a b, f a = f b -> a = b.

Lemma eqb_inj f a b : inj f -> N.eqb (f a) (f b) = N.eqb a b.
Proof.
  intros Hf. destruct (N.eqb a b) eqn:E.
  - apply N.eqb_eq in E. subst. apply N.eqb_refl.
  - apply N.eqb_neq. apply N.eqb_neq in E. intros H. apply E. now apply Hf.
Qed.

Lemma list_eqb_map_inj f l1 l2 : inj f ->
  list_eqb N.eqb (map f l1) (map f l2) = list_eqb N.eqb l1 l2.
Proof.
  intros Hf. revert l2. induction l1 as [|x l1 IH]; intros [|y l2]; cbn [map list_eqb]; try reflexivity.
  now rewrite eqb_inj, IH.
Qed.

Lemma nodupb_map_inj f l : inj f -> nodupb (map f l) = nodupb l.
Proof.
  intros Hf. induction l as [|x l IH]; cbn [map nodupb]; [reflexivity|].
  rewrite IH, (existsb_map f (N.eqb x)); [reflexivity|]. intros y. now apply eqb_inj.
Qed.

Section Rename.
  Context {NN : Num}.
  Local Notation T := (T NN).
  Local Notation gnode := (@gnode NN).
  Local Notation bst := (@bst NN).
  Local Notation game := (@game NN).
  Context (fi1 fi2 fa fc : N -> N).

  Definition fi (pl : bool) : N -> N := if pl then fi1 else fi2.

  Fixpoint rename (t : gnode) : gnode :=
    match t with
    | GTerm p => GTerm p
    | GChance info outs =>
        GChance (option_map fc info) (map (fun o => (fst o, rename (snd o))) outs)
    | GPlayer pl info acts =>
        GPlayer pl (fi pl info) (map (fun a => (fa (fst a), rename (snd a))) acts)
    end.

  Definition rename_pinfo (f : N -> N) (pi : pinfo) : pinfo :=
    mkPinfo (f (pi_name pi)) (map fa (pi_actions pi)) (pi_prev pi).
  Definition rename_single (f : N -> N) (e : N * N) : N * N := (f (fst e), fa (snd e)).
  Definition rename_centry (e : option N * list T) : option N * list T :=
    (option_map fc (fst e), snd e).

  Definition rename_bst (s : bst) : bst :=
    mkBst (map rename_centry (b_chance s))
          (map (rename_pinfo fi1) (b_infos1 s)) (map (rename_pinfo fi2) (b_infos2 s))
          (map (rename_single fi1) (b_singles1 s)) (map (rename_single fi2) (b_singles2 s)).

  (** only the name fields change; root, chance table and [pi_prev] are indices *)
  Definition rename_game (g : game) : game :=
    mkGame (g_chance g)
           (map (rename_pinfo fi1) (g_infos1 g)) (map (rename_pinfo fi2) (g_infos2 g))
           (map (rename_single fi1) (g_singles1 g)) (map (rename_single fi2) (g_singles2 g))
           (g_root g).

  Lemma b_infos_rename s pl :
    b_infos (rename_bst s) pl = map (rename_pinfo (fi pl)) (b_infos s pl).
  Proof. destruct pl; reflexivity. Qed.
  Lemma b_singles_rename s pl :
    b_singles (rename_bst s) pl = map (rename_single (fi pl)) (b_singles s pl).
  Proof. destruct pl; reflexivity. Qed.
  Lemma b_chance_rename s : b_chance (rename_bst s) = map rename_centry (b_chance s).
  Proof. reflexivity. Qed.

  Lemma set_infos_rename s pl l :
    set_infos (rename_bst s) pl (map (rename_pinfo (fi pl)) l) = rename_bst (set_infos s pl l).
  Proof. destruct pl; reflexivity. Qed.
  Lemma set_singles_rename s pl l :
    set_singles (rename_bst s) pl (map (rename_single (fi pl)) l) = rename_bst (set_singles s pl l).
  Proof. destruct pl; reflexivity. Qed.
  Lemma set_chance_rename s l :
    set_chance (rename_bst s) (map rename_centry l) = rename_bst (set_chance s l).
  Proof. reflexivity. Qed.

  Context (Hfi1 : inj fi1) (Hfi2 : inj fi2) (Hfa : inj fa) (Hfc : inj fc).

  Lemma fi_inj pl : inj (fi pl).
  Proof. destruct pl; assumption. Qed.

  Definition ren_ns {A} (x : A * bst) : A * bst := (fst x, rename_bst (snd x)).

  Lemma ren_ok {A} (x : A) s s' : s' = rename_bst s -> Ok (x, s') = map_res ren_ns (Ok (x, s)).
  Proof. intros ->. reflexivity. Qed.

  Lemma finishC_rename info pr ks s :
    finishC (option_map fc info) pr ks (rename_bst s) = map_res ren_ns (finishC info pr ks s).
  Proof.
    unfold finishC. destruct ks as [|k [|k2 ks]]; [reflexivity|reflexivity|].
    rewrite b_chance_rename, map_length.
    assert (Hadd : forall o, set_chance (rename_bst s) (map rename_centry (b_chance s) ++ [(option_map fc o, normalise pr)]) =
                             rename_bst (set_chance s (b_chance s ++ [(o, normalise pr)]))).
    { intros o. rewrite <- set_chance_rename, map_app. reflexivity. }
    destruct info as [k0|]; cbn [option_map]; [|exact (ren_ok _ _ _ (Hadd None))].
    rewrite (find_index_map _ (opt_key_eqb k0)).
    2:{ intros [[k'|] v]; unfold opt_key_eqb, rename_centry; cbn [fst snd option_map];
        [now apply eqb_inj|reflexivity]. }
    destruct (find_index (opt_key_eqb k0) (b_chance s)) as [[ind [o old]]|].
    - unfold rename_centry at 1. cbn [fst snd].
      destruct (list_eqb (eqb NN) old (normalise pr)); reflexivity.
    - exact (ren_ok _ _ _ (Hadd (Some k0))).
  Qed.

  Lemma found_info_rename prev pl info actions s :
    found_info prev pl (fi pl info) (map fa actions) (rename_bst s) =
    map_res ren_ns (found_info prev pl info actions s).
  Proof.
    unfold found_info. rewrite b_infos_rename, map_length.
    rewrite (find_index_map _ (fun pi => N.eqb (pi_name pi) info)) by (intros pi; apply eqb_inj, fi_inj).
    destruct (find_index _ (b_infos s pl)) as [[ind pi]|].
    - unfold rename_pinfo at 1 2. cbn [pi_actions pi_prev].
      rewrite list_eqb_map_inj by exact Hfa.
      destruct (negb (list_eqb N.eqb (pi_actions pi) actions)); [reflexivity|].
      destruct (negb (prev_eqb (pi_prev pi) (get_prev prev pl))); reflexivity.
    - rewrite nodupb_map_inj by exact Hfa.
      destruct (nodupb actions); [|reflexivity].
      apply ren_ok. rewrite <- set_infos_rename, map_app. reflexivity.
  Qed.

  Lemma enter_single_rename pl info a s :
    enter_single pl (fi pl info) (fa a) (rename_bst s) = map_res ren_ns (enter_single pl info a s).
  Proof.
    unfold enter_single. rewrite b_infos_rename, b_singles_rename.
    rewrite (existsb_map _ (fun pi => N.eqb (pi_name pi) info)) by (intros pi; apply eqb_inj, fi_inj).
    destruct (existsb _ (b_infos s pl)); [reflexivity|].
    rewrite (find_index_map _ (fun e => N.eqb (fst e) info)) by (intros e; apply eqb_inj, fi_inj).
    destruct (find_index _ (b_singles s pl)) as [[i [n a']]|].
    - unfold rename_single. cbn [fst snd]. rewrite eqb_inj by exact Hfa.
      destruct (N.eqb a' a); reflexivity.
    - apply ren_ok. rewrite <- set_singles_rename, map_app. reflexivity.
  Qed.

  Local Notation renamed := (fun s s' : bst => s' = rename_bst s).

  Lemma rename_init_rel t : rel_init renamed t (rename t).
  Proof.
    induction t as [p|info outs IH|pl info acts IH] using gnode_ind'; intros prev s s' ->;
      cbn [rename].
    - now apply init_GTerm_rel.
    - apply (init_GChance_rel renamed (fun w => w)) with (info' := option_map fc info); [reflexivity| | |reflexivity].
      + apply Forall2_map_r, (Forall_impl _ (fun x H => conj eq_refl H) IH).
      + intros ks s1 s1' ->. rewrite map_id. apply rel_fun, finishC_rename.
    - apply (init_GPlayer_rel renamed fa).
      + apply Forall2_map_r, (Forall_impl _ (fun x H => conj eq_refl H) IH).
      + intros a. apply rel_fun, enter_single_rename.
      + rewrite b_singles_rename. apply existsb_map. intros e. apply eqb_inj, fi_inj.
      + intros l. apply rel_fun, found_info_rename.
  Qed.

  Lemma rename_init t prev s :
    init (rename t) prev (rename_bst s) = map_res ren_ns (init t prev s).
  Proof. now apply rel_fun, rename_init_rel. Qed.

  Lemma game_of_rename root s : game_of root (rename_bst s) = rename_game (game_of root s).
  Proof.
    unfold game_of, rename_game, rename_bst.
    cbn [b_chance b_infos1 b_infos2 b_singles1 b_singles2 g_chance g_infos1 g_infos2 g_singles1
         g_singles2 g_root].
    now rewrite map_map.
  Qed.

  Theorem rename_from_root t :
    from_root (rename t) = map_res rename_game (from_root t).
  Proof.
    rewrite !from_root_eq.
    change (@b_empty NN) with (rename_bst b_empty) at 1. rewrite rename_init.
    destruct (init t (None, None) b_empty) as [[root s]|e]; cbn [map_res ren_ns fst snd];
      [|reflexivity].
    now rewrite game_of_rename.
  Qed.
End Rename.

Section RenameCor.
  Context {NN : Num}.
  Local Notation T := (T NN).
  Local Notation game := (@game NN).
  Context (fi1 fi2 fa fc : N -> N).
  Local Notation fi := (fi fi1 fi2).
  Local Notation rgame := (@rename_game NN fi1 fi2 fa).
  Local Notation rpinfo := (rename_pinfo fa).
  Local Notation rsingle := (rename_single fa).

  Lemma g_infos_rename (g : game) pl :
    g_infos (rgame g) pl = map (rpinfo (fi pl)) (g_infos g pl).
  Proof. destruct pl; reflexivity. Qed.
  Lemma g_singles_rename (g : game) pl :
    g_singles (rgame g) pl = map (rsingle (fi pl)) (g_singles g pl).
  Proof. destruct pl; reflexivity. Qed.

  Lemma arities_rename (g : game) pl : arities (rgame g) pl = arities g pl.
  Proof.
    unfold arities. rewrite g_infos_rename, map_map. apply map_ext. intros pi.
    unfold rename_pinfo. cbn [pi_actions]. apply map_length.
  Qed.

  Lemma same_core_rename (g : game) : same_core g (rgame g).
  Proof. repeat split; apply arities_rename. Qed.

  Theorem info_rename (g : game) prof : info (rgame g) prof = info g prof.
  Proof. apply info_core, same_core_rename. Qed.

  Theorem solve_single_rename (g : game) m draw p budget stop :
    solve_single (rgame g) m draw p budget stop = solve_single g m draw p budget stop.
  Proof. apply solve_single_core, same_core_rename. Qed.

  Definition rename_entries (z : list (N * T)) : list (N * T) :=
    map (fun ap => (fa (fst ap), snd ap)) z.
  Definition rename_named (pl : bool) (l : list (N * list (N * T))) : list (N * list (N * T)) :=
    map (fun e => (fi pl (fst e), rename_entries (snd e))) l.

  Lemma combine_map_l {A B C} (f : A -> B) (l : list A) (r : list C) :
    combine (map f l) r = map (fun x => (f (fst x), snd x)) (combine l r).
  Proof.
    revert r. induction l as [|x l IH]; intros [|y r]; cbn [map combine fst snd]; try reflexivity.
    now rewrite IH.
  Qed.

  Lemma filter_map_same {A} (f : A -> A) (p : A -> bool) l :
    (forall x, p (f x) = p x) -> filter p (map f l) = map f (filter p l).
  Proof.
    intros H. induction l as [|x l IH]; cbn [map filter]; [reflexivity|].
    rewrite H, IH. destruct (p x); reflexivity.
  Qed.

  Theorem as_named_rename (g : game) pl flat :
    as_named (rgame g) pl flat = rename_named pl (as_named g pl flat).
  Proof.
    rewrite !as_named_items, arities_rename, g_infos_rename, g_singles_rename.
    unfold rename_named. rewrite map_app, combine_map_l, !map_map. f_equal. apply map_ext.
    intros [pi pr]. unfold multi_item, rename_pinfo. cbn [fst snd pi_name pi_actions].
    f_equal. rewrite combine_map_l. now apply filter_map_same.
  Qed.
End RenameCor.

Theorem rename_presentation (fi1 fi2 fa fc : N -> N) (t : gnodeR) :
  inj fi1 -> inj fi2 -> inj fa -> inj fc ->
  @from_root RNum (rename fi1 fi2 fa fc t) =
  map_res (@rename_game RNum fi1 fi2 fa) (@from_root RNum t).
Proof. intros H1 H2 H3 H4. now apply rename_from_root. Qed.

Corollary rename_presentation_ok (fi1 fi2 fa fc : N -> N) (t : gnodeR) (g : gameR) :
  inj fi1 -> inj fi2 -> inj fa -> inj fc -> @from_root RNum t = Ok g ->
  exists g', @from_root RNum (rename fi1 fi2 fa fc t) = Ok g' /\
    g' = @rename_game RNum fi1 fi2 fa g /\
    (forall prof, @info RNum g' prof = @info RNum g prof) /\
    (forall m draw p budget stop,
        @solve_single RNum g' m draw p budget stop = @solve_single RNum g m draw p budget stop) /\
    (forall pl flat,
        @as_named RNum g' pl flat = @rename_named RNum fi1 fi2 fa pl (@as_named RNum g pl flat)).
Proof.
  intros H1 H2 H3 H4 Hg. exists (@rename_game RNum fi1 fi2 fa g).
  rewrite rename_presentation, Hg by assumption. repeat split.
  - intros prof. apply info_rename.
  - intros. apply solve_single_rename.
  - intros. apply as_named_rename.
Qed.

Corollary rename_presentation_err (fi1 fi2 fa fc : N -> N) (t : gnodeR) e :
  inj fi1 -> inj fi2 -> inj fa -> inj fc -> @from_root RNum t = Err e ->
  @from_root RNum (rename fi1 fi2 fa fc t) = Err e.
Proof. intros H1 H2 H3 H4 Hg. rewrite rename_presentation, Hg by assumption. reflexivity. Qed.

(** the named strategies exported after solving the renamed game are the renamed ones *)
Corollary solve_named_rename (fi1 fi2 fa : N -> N) (g : gameR) m draw p budget stop (pl : bool) :
  let strat_of (g0 : gameR) :=
    let prof := fst (fst (@solve_single RNum g0 m draw p budget stop)) in
    if pl then fst prof else snd prof in
  @as_named RNum (@rename_game RNum fi1 fi2 fa g) pl (strat_of (@rename_game RNum fi1 fi2 fa g)) =
  @rename_named RNum fi1 fi2 fa pl (@as_named RNum g pl (strat_of g)).
Proof. cbv beta zeta. now rewrite solve_single_rename, as_named_rename. Qed.
