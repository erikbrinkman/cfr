(** * RmPotential: the regret-matching potential (pure algebra, one infoset).

    [sqpos R = Σ_a (max R_a 0)²].  If [sigma = regret_match p R] and the increment
    [r] is orthogonal to [sigma], then [sqpos (R + r) <= sqpos R + Σ_a r_a²]
    ([rm_potential]); discounting afterwards (positive part times a factor in
    [0,1], negative part times a non-negative factor) does not increase the
    potential ([rm_potential_discounted], for every [params]). *)
From Coq Require Import Reals List Lra Lia Bool Arith NArith.
From Cfr.theories Require Import Num RInst Tree Solve TruncProofs SolveValidProofs RulesProofs IterChar.
Import ListNotations.
Open Scope R_scope.

Local Notation paramsR := (@params RNum).

Definition pos (x : R) : R := Rmax x 0.
Definition sqpos (l : list R) : R := Rsum (map (fun x => pos x * pos x) l).
Definition sqsum (l : list R) : R := Rsum (map (fun x => x * x) l).

Lemma pos_nonneg x : 0 <= pos x.
Proof. unfold pos. apply Rmax_r. Qed.

Lemma pos_of_pos x : 0 < x -> pos x = x.
Proof. intros H. unfold pos. apply Rmax_left. lra. Qed.

Lemma pos_of_nonpos x : x <= 0 -> pos x = 0.
Proof. intros H. unfold pos. now apply Rmax_right. Qed.

Lemma sqpos_nonneg l : 0 <= sqpos l.
Proof.
  unfold sqpos. apply Rsum_nonneg. apply Forall_forall. intros y Hy.
  apply in_map_iff in Hy as (x & <- & _). pose proof (pos_nonneg x). nra.
Qed.

Lemma sqsum_nonneg l : 0 <= sqsum l.
Proof.
  unfold sqsum. apply Rsum_nonneg. apply Forall_forall. intros y Hy.
  apply in_map_iff in Hy as (x & <- & _). nra.
Qed.

Lemma pos_add_sq x y : pos (x + y) * pos (x + y) <= (pos x + y) * (pos x + y).
Proof. unfold pos, Rmax. destruct (Rle_dec (x + y) 0), (Rle_dec x 0); nra. Qed.

Lemma pot_step_gen (Rg r : list R) :
  length Rg = length r ->
  sqpos (vadd Rg r) <= sqpos Rg + 2 * dot (map pos Rg) r + sqsum r.
Proof.
  unfold sqpos, sqsum, vadd. revert r; induction Rg as [|x Rg IH]; intros r E;
    destruct r as [|y r]; try discriminate.
  - cbn [combine map Rsum dot]. lra.
  - cbn [combine map Rsum dot fst snd]. cbn [length] in E.
    specialize (IH r ltac:(lia)). pose proof (pos_add_sq x y). nra.
Qed.

Lemma pot_step (Rg r : list R) :
  length Rg = length r -> dot (map pos Rg) r = 0 ->
  sqpos (vadd Rg r) <= sqpos Rg + sqsum r.
Proof. intros E H. pose proof (pot_step_gen Rg r E). lra. Qed.

(** *** regret matching is proportional to the positive part, when there is one *)
Lemma Rsum_filter_pos_nonneg (l : list R) : 0 <= Rsum (filter (fun v => Rltb 0 v) l).
Proof.
  induction l as [|x l IH]; cbn [filter Rsum]; [lra|].
  destruct (Rltb 0 x) eqn:E; [|exact IH]. apply Rltb_true in E. cbn [Rsum]. lra.
Qed.

Lemma no_positive (l : list R) :
  Rsum (filter (fun v => Rltb 0 v) l) <= 0 -> Forall (fun x => x <= 0) l.
Proof.
  induction l as [|x l IH]; cbn [filter]; intros H; [constructor|].
  pose proof (Rsum_filter_pos_nonneg l). destruct (Rltb 0 x) eqn:E.
  - apply Rltb_true in E. cbn [Rsum] in H. lra.
  - apply Rltb_false in E. constructor; auto.
Qed.

Lemma dot_pos_zero (Rg r : list R) : Forall (fun x => x <= 0) Rg -> dot (map pos Rg) r = 0.
Proof.
  intros H; revert r; induction H as [|x Rg Hx H IH]; intros r; destruct r as [|y r];
    cbn [map dot]; try reflexivity.
  rewrite IH, pos_of_nonpos by assumption. lra.
Qed.

Lemma dot_normalised (Rg r : list R) (c : R) :
  c <> 0 ->
  dot (map (fun x => if Rltb 0 x then x / c else 0) Rg) r = dot (map pos Rg) r / c.
Proof.
  intros Hc. revert r; induction Rg as [|x Rg IH]; intros r; destruct r as [|y r];
    cbn [map dot]; try (unfold Rdiv; lra).
  rewrite IH. destruct (Rltb 0 x) eqn:E.
  - apply Rltb_true in E. rewrite pos_of_pos by assumption. field. exact Hc.
  - apply Rltb_false in E. rewrite pos_of_nonpos by assumption. field. exact Hc.
Qed.

Lemma rm_dot (p : paramsR) (Rg r : list R) :
  dot (@regret_match RNum p Rg) r = 0 -> dot (map pos Rg) r = 0.
Proof.
  rewrite regret_match_unfold. cbv zeta.
  destruct (Rltb 0 (Rsum (filter (fun v => Rltb 0 v) Rg))) eqn:E.
  - apply Rltb_true in E. rewrite dot_normalised by lra. intros H.
    set (c := Rsum _) in *. apply (Rmult_eq_compat_r c) in H.
    unfold Rdiv in H. rewrite Rmult_assoc, Rinv_l in H by lra. lra.
  - intros _. apply Rltb_false in E. apply dot_pos_zero. now apply no_positive.
Qed.

Theorem rm_potential (p : paramsR) (Rg r : list R) :
  length Rg = length r ->
  dot (@regret_match RNum p Rg) r = 0 ->
  sqpos (vadd Rg r) <= sqpos Rg + sqsum r.
Proof. intros E H. apply pot_step; [exact E|]. now apply (rm_dot p). Qed.

Lemma pos_discount (x f1 f2 : R) :
  0 <= f1 <= 1 -> 0 <= f2 ->
  pos (if Rltb 0 x then x * f1 else if Rltb x 0 then x * f2 else x) = pos x * f1.
Proof.
  intros H1 H2. destruct (Rltb 0 x) eqn:E.
  - apply Rltb_true in E. rewrite (pos_of_pos x) by assumption.
    destruct (Req_dec f1 0) as [->|Hne].
    + rewrite pos_of_nonpos; lra.
    + rewrite pos_of_pos; [lra|]. apply Rmult_lt_0_compat; lra.
  - apply Rltb_false in E. rewrite (pos_of_nonpos x) by assumption.
    destruct (Rltb x 0) eqn:E2.
    + apply Rltb_true in E2. rewrite pos_of_nonpos; [lra|]. nra.
    + rewrite pos_of_nonpos; lra.
Qed.

Lemma sqpos_discount (p : paramsR) it (l : list R) :
  sqpos (@discount_cum_regret RNum p it l) <= sqpos l.
Proof.
  unfold discount_cum_regret. cbv zeta.
  pose proof (gen_discount_range it (a_pos p)) as H1.
  pose proof (gen_discount_range it (a_neg p)) as H2.
  set (f1 := gen_discount it (a_pos p)) in *. set (f2 := gen_discount it (a_neg p)) in *.
  change (ltb RNum) with Rltb. change (zero RNum) with 0. change (mul RNum) with Rmult.
  unfold sqpos. induction l as [|x l IH]; cbn [map Rsum]; [lra|].
  rewrite pos_discount by lra. pose proof (pos_nonneg x).
  assert (0 <= pos x * f1 <= pos x) by nra. nra.
Qed.

Theorem rm_potential_discounted (p q : paramsR) it (Rg r : list R) :
  length Rg = length r ->
  dot (@regret_match RNum p Rg) r = 0 ->
  sqpos (@discount_cum_regret RNum q it (vadd Rg r)) <= sqpos Rg + sqsum r.
Proof.
  intros E H. pose proof (sqpos_discount q it (vadd Rg r)). pose proof (rm_potential p Rg r E H). lra.
Qed.

(** ** The maximum positive regret is at most the square root of the potential *)
Lemma fold_Rmax_bound (l : list R) (x b : R) :
  x <= b -> Forall (fun y => y <= b) l -> fold_left Rmax l x <= b.
Proof.
  intros Hx H; revert x Hx; induction H as [|y l Hy H IH]; intros x Hx; cbn [fold_left];
    [exact Hx|]. apply IH. now apply Rmax_lub.
Qed.

Lemma pos_sq_le_sqpos (l : list R) x : In x l -> pos x * pos x <= sqpos l.
Proof.
  intros Hin. unfold sqpos. apply Rsum_ge_In.
  - apply Forall_forall. intros y Hy. apply in_map_iff in Hy as (z & <- & _).
    pose proof (pos_nonneg z). nra.
  - apply in_map_iff. exists x. auto.
Qed.

Lemma le_sqrt_sqpos (l : list R) x : In x l -> x <= sqrt (sqpos l).
Proof.
  intros Hin. pose proof (pos_sq_le_sqpos l x Hin) as H. pose proof (pos_nonneg x) as Hp.
  assert (pos x <= sqrt (sqpos l)).
  { rewrite <- (sqrt_square (pos x)) by assumption. now apply sqrt_le_1_alt. }
  unfold pos in *. pose proof (Rmax_l x 0). lra.
Qed.

Theorem max_le_sqrt_potential (l : list R) : Rmax (Rmaxl l) 0 <= sqrt (sqpos l).
Proof.
  apply Rmax_lub; [|apply sqrt_pos].
  unfold Rmaxl, reduce_max. destruct l as [|x l]; [apply sqrt_pos|].
  change (fmax RNum) with Rmax. apply fold_Rmax_bound.
  - apply le_sqrt_sqpos. now left.
  - apply Forall_forall. intros y Hy. apply le_sqrt_sqpos. now right.
Qed.
