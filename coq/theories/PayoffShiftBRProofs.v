(** * PayoffShiftBRProofs: adding a constant to the payoffs leaves both regrets of a
    valid profile unchanged (property C12).

    The best-response value of player [me] moves by [k] (player one) or [-k]
    (player two).  Besides validity of the opponent's strategy, normalised chance
    rows and shape, this needs the infoset indices of [me] to increase along every
    path ([PayoffEvalProofs.ShiftOK]).  [Incr] says this of the game tree, [OwnIncr] of
    the single-agent views ([Incr_HistLt] leads from the first to the second).  Games
    built by [from_root] number infosets in first-visit order and have the property
    ([D_HistLt]): [info_shift_WF]. *)
From Coq Require Import Reals List Lra Lia Bool Arith NArith.
From Cfr.theories Require Import Num RInst Tree GameWF Eval Valid
     SolveValidProofs EvalSpec EvalProofs BestResponseProofs PayoffEvalProofs.
Import ListNotations.
Open Scope R_scope.

Local Notation nodeR := (@node RNum).
Local Notation gameR := (@game RNum).

(** own indices increase along every path: all own infosets in [n] have index at least [b] *)
Fixpoint Incr (me : bool) (b : nat) (n : nodeR) : Prop :=
  match n with
  | Term _ => True
  | Chance _ kids =>
      (fix go (ks : list nodeR) : Prop := match ks with [] => True | c :: r => Incr me b c /\ go r end) kids
  | Player pl i kids =>
      if Bool.eqb pl me then
        (b <= i)%nat /\
        (fix go (ks : list nodeR) : Prop := match ks with [] => True | c :: r => Incr me (S i) c /\ go r end) kids
      else
        (fix go (ks : list nodeR) : Prop := match ks with [] => True | c :: r => Incr me b c /\ go r end) kids
  end.

Lemma Incr_kids me b (ks : list nodeR) :
  (fix go (ks : list nodeR) : Prop := match ks with [] => True | c :: r => Incr me b c /\ go r end) ks ->
  Forall (Incr me b) ks.
Proof. induction ks as [|c ks IH]; intros H; constructor; [apply H|apply IH, H]. Qed.

Lemma Incr_sub me b n : Incr me b n ->
  match n with
  | Term _ => True
  | Chance _ kids => Forall (Incr me b) kids
  | Player pl i kids =>
      if Bool.eqb pl me then (b <= i)%nat /\ Forall (Incr me (S i)) kids else Forall (Incr me b) kids
  end.
Proof.
  destruct n as [x|ci kids|pl i kids]; cbn [Incr]; [trivial|apply Incr_kids|].
  destruct (Bool.eqb pl me); [intros [H1 H2]; split; [assumption|now apply Incr_kids]|apply Incr_kids].
Qed.

Lemma Incr_HistLt ch so me n : forall b hs rho d,
  Incr me b n -> Forall (fun ka => (fst ka < b)%nat) hs ->
  In d (dnodes hs rho (view ch so me n)) -> HistLt d.
Proof.
  induction n as [x|ci kids IH|pl i kids IH] using node_ind'; intros b hs rho d HI Hhs Hd;
    apply dnodes_view_inv in Hd; apply Incr_sub in HI; [destruct Hd| |]; rewrite Forall_forall in IH.
  - destruct Hd as (a & p & c & _ & Hc & Hd). apply nth_error_In in Hc.
    rewrite Forall_forall in HI. exact (IH c Hc b hs _ d (HI c Hc) Hhs Hd).
  - destruct (Bool.eqb pl me).
    + destruct HI as [Hb HI]. rewrite Forall_forall in HI.
      assert (Hi : Forall (fun ka => (fst ka < S i)%nat) hs)
        by (eapply Forall_impl; [|exact Hhs]; cbn beta; intros; lia).
      destruct Hd as [->|(a & c & Hc & Hd)].
      * unfold HistLt. cbn [d_hs d_i]. eapply Forall_impl; [|exact Hhs]. cbn beta. intros; lia.
      * apply nth_error_In in Hc. apply (IH c Hc (S i) (hs ++ [(i, a)]) rho d (HI c Hc)); [|exact Hd].
        apply Forall_app. split; [exact Hi|]. repeat constructor.
    + destruct Hd as (a & p & c & _ & _ & Hc & Hd). apply nth_error_In in Hc.
      rewrite Forall_forall in HI. exact (IH c Hc b hs _ d (HI c Hc) Hhs Hd).
Qed.

(** adding [k] to the payoffs: utility [+ k], both regrets unchanged *)
Lemma info_shift_gen k (g : gameR) (prof : list R * list R) :
  ChanceOK g -> shaped g (g_root g) -> Valid g prof -> OwnIncr g ->
  @info RNum (shift k g) prof =
  let i := @info RNum g prof in
  @mkSinfo RNum (si_util i + k) (si_reg1 i) (si_reg2 i).
Proof.
  intros HC Hsh HV HI. rewrite shift_tgame.
  pose proof (info_tgame false 1 k g prof) as H. cbn [swp fst snd] in H. unfold sgn in H.
  rewrite H; [|lra|right; tauto]. cbv zeta. change (T RNum) with R. f_equal; lra.
Qed.

Theorem info_shift k (g : gameR) (prof : list R * list R) :
  ChanceOK g -> shaped g (g_root g) -> Valid g prof ->
  Incr true 0 (g_root g) -> Incr false 0 (g_root g) ->
  @info RNum (shift k g) prof =
  let i := @info RNum g prof in
  @mkSinfo RNum (si_util i + k) (si_reg1 i) (si_reg2 i).
Proof.
  intros HC Hsh HV HI1 HI2. apply info_shift_gen; try assumption.
  intros me so d. apply (Incr_HistLt _ so me _ 0%nat); [destruct me; assumption|constructor].
Qed.

Corollary info_shift_regret k (g : gameR) prof :
  ChanceOK g -> shaped g (g_root g) -> Valid g prof ->
  Incr true 0 (g_root g) -> Incr false 0 (g_root g) ->
  si_regret (@info RNum (shift k g) prof) = si_regret (@info RNum g prof).
Proof. intros. rewrite info_shift by assumption. reflexivity. Qed.

(** the same for well-formed games (what [from_root] produces) *)
Theorem info_shift_WF k (g : gameR) (prof : list R * list R) :
  ChanceOK g -> WFgame g -> Valid g prof ->
  @info RNum (shift k g) prof =
  let i := @info RNum g prof in
  @mkSinfo RNum (si_util i + k) (si_reg1 i) (si_reg2 i).
Proof.
  intros HC HW HV. apply info_shift_gen; try assumption; [apply HW|].
  intros me so. exact (D_HistLt g me so HW HC).
Qed.
