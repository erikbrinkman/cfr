(** * ExternalConcentration: second moment and a Chebyshev bound for the external-sampled solver.

    [ExternalMartingale.v] shows that along a run of the external-sampled solver the
    differences [d_t = sampled increment - true increment] of the regret of [(me, i, a)] have
    conditional mean zero given the state at the start of the iteration ([ext_md_step]); the
    expectation over a run threads the state ([expect_run_ext]), the weights of the draws of
    the players' actions being the strategy rows of the current state.  Here:

    - [chebyshev_run_ext]: the finite Chebyshev inequality for [expect_run_ext];
    - [ext_md_orthogonal_past], [ext_md_orthogonal]: [d_t] is orthogonal to every function of
      the draws of the iterations before it, in particular to [d_s], [s < t];
    - [ext_second_moment_step], [ext_second_moment]: [E[M_n^2] = sum_{t<n} E[d_t^2]];
    - [ext_md_abs_bound]: [|d_t| <= 2 (hi - lo)] on every history that carries weight;
    - [ext_second_moment_bound], [ext_chebyshev], [ext_chebyshev_explicit],
      [ext_chebyshev_rate], [ext_deviation_vanishes]: the probability bounds;
    - [ext_run_regret_vanilla], [ext_chebyshev_vanilla], [ext_chebyshev_rate_vanilla],
      [ext_deviation_vanishes_vanilla]: with undiscounted parameters the accumulated sampled
      increments are the cumulative regret the solver holds, the bounds restated for it;
    - matching pennies: all hypotheses discharged, and the numbers of the first iteration
      ([mp_ext_chebyshev_attained]: the inequality is attained at [lam = 1]). *)
From Coq Require Import Reals List Lra Lia Bool Arith NArith.
From Cfr.theories Require Import RInst Tree GameWF Eval Solve Valid SolveValidProofs Incr
     IterChar CfMass CfrRate ExtIncr SampledRate ExternalRate FinExp Unbiased ExternalUnbiased
     SampledMartingale SampledConcentration ExternalMartingale.
Import ListNotations.
Open Scope R_scope.

Local Notation nodeR := (@node RNum).
Local Notation gameR := (@game RNum).
Local Notation pstateR := (@pstate RNum).
Local Notation paramsR := (@params RNum).
Local Notation oracleR := (@oracle RNum).

Lemma expect_zero rows : expect rows (fun _ => 0) = 0.
Proof. apply E_zero, Lin_expect. Qed.

Lemma sum_upto_plus n (f h : nat -> R) :
  sum_upto n (fun t => f t + h t) = sum_upto n f + sum_upto n h.
Proof. induction n as [|n IH]; cbn [sum_upto]; [lra|]. rewrite IH. lra. Qed.

Section ExtExpect.
  Context (g : gameR) (p : paramsR).
  Context (HCO : ChanceOK g).
  Local Notation chance := (g_chance g).
  Local Notation IA := (InvA (arities g true) (arities g false)).
  Local Notation ER := (expect_run_ext g p).

  (** the draws of one iteration that carry weight (every draw is an index into its row):
      the weight predicate of the run [ExternalMartingale.ext_IsRun] *)
  Definition ext_draws_in (it : N) (st : pstateR) (x : edraws) : Prop :=
    draw_in (prows g st false) (ed_e1 x) /\ draw_in chance (ed_d1 x) /\
    draw_in (prows g (ext_mid g p it st (ed_d1 x) (ed_e1 x)) true) (ed_e2 x) /\
    draw_in chance (ed_d2 x).

  Lemma expect_run_ext_sum_upto n it st m (F : nat -> list edraws -> R) :
    ER n it st (fun xs => sum_upto m (fun t => F t xs)) = sum_upto m (fun t => ER n it st (F t)).
  Proof. apply E_sum_upto, Lin_expect_run_ext. Qed.

  Theorem chebyshev_run_ext n it st lam (f : list edraws -> R) :
    IA st -> 0 < lam ->
    ER n it st (fun xs => ind_ge lam (f xs)) <= ER n it st (fun xs => f xs ^ 2) / lam ^ 2.
  Proof.
    intros HI Hl. unfold Rdiv. rewrite Rmult_comm.
    apply (Pos_scal (run_Pos (ext_IsRun g p HCO) n (it, st) HI) (Lin_expect_run_ext g p n it st)).
    intros xs _. pose proof (ind_ge_le_sq lam (f xs) Hl) as H. unfold Rdiv in H. lra.
  Qed.

  Lemma expect_run_ext_ind_range n it st lam (f : list edraws -> R) :
    IA st -> 0 <= ER n it st (fun xs => ind_ge lam (f xs)) <= 1.
  Proof.
    intros HI.
    apply (Pos_range (run_Pos (ext_IsRun g p HCO) n (it, st) HI) (Lin_expect_run_ext g p n it st)).
    - exact (run_one (ext_IsRun g p HCO) n (it, st) HI).
    - intros xs. apply ind_ge_range.
  Qed.
End ExtExpect.

Section ExtConc.
  Context (g : gameR) (p : paramsR).
  Context (HWF : WFgame g) (HPR : PerfectRecall g) (HCO : ChanceOK g) (HNR : NoRepeat (g_root g)).
  Local Notation chance := (g_chance g).
  Local Notation IA := (InvA (arities g true) (arities g false)).
  Local Notation EI := (expect_iter g p).
  Local Notation ER := (expect_run_ext g p).
  Local Notation step := (ext_step g p).
  Local Notation Sys := (ext_IsRun g p HCO).

  (** the difference of one iteration, the martingale along a run, the difference of the
      iteration number [t] (counted from 0) of a run *)
  Definition ext_md (me : bool) (i a : nat) (it : N) (st : pstateR) (x : edraws) : R :=
    ext_sampled_inc g p me i a it st x - ext_true_inc g p me i a it st x.

  Fixpoint ext_mart (me : bool) (i a : nat) (it : N) (st : pstateR) (xs : list edraws) : R :=
    match xs with
    | [] => 0
    | x :: xs' => ext_md me i a it st x + ext_mart me i a (it + 1) (step it st x) xs'
    end.

  Fixpoint ext_md_at (me : bool) (i a : nat) (it : N) (st : pstateR) (xs : list edraws) (t : nat) : R :=
    match xs with
    | [] => 0
    | x :: xs' => match t with
                  | O => ext_md me i a it st x
                  | S t' => ext_md_at me i a (it + 1) (step it st x) xs' t'
                  end
    end.

  Lemma ext_mart_sum me i a :
    IsSum (fun s x => ((fst s + 1)%N, step (fst s) (snd s) x))
          (at_state (ext_mart me i a)) (at_state (ext_md me i a)).
  Proof. split; reflexivity. Qed.

  Lemma ext_md_at_at me i a :
    IsAt (fun s x => ((fst s + 1)%N, step (fst s) (snd s) x))
         (at_state (ext_md_at me i a)) (at_state (ext_md me i a)).
  Proof. split; reflexivity. Qed.

  Lemma ext_mart_split me i a xs : forall it st,
    ext_mart me i a it st xs =
    ext_sampled_sum g p me i a it st xs - ext_true_sum g p me i a it st xs.
  Proof.
    induction xs as [|x xs IH]; intros it st; cbn [ext_mart ext_sampled_sum ext_true_sum]; [lra|].
    rewrite IH. unfold ext_md. lra.
  Qed.

  Lemma ext_mart_sum_upto me i a xs : forall it st,
    ext_mart me i a it st xs = sum_upto (length xs) (ext_md_at me i a it st xs).
  Proof.
    intros it st.
    exact (sum_of_at _ _ (ext_md_at_at me i a) _ (ext_mart_sum me i a) xs (it, st)).
  Qed.

  Lemma ext_md_at_firstn me i a xs : forall it st k t,
    (t < k)%nat -> ext_md_at me i a it st (firstn k xs) t = ext_md_at me i a it st xs t.
  Proof.
    induction xs as [|x xs IH]; intros it st k t Ht; [now rewrite firstn_nil|].
    destruct k as [|k]; [lia|]. cbn [firstn ext_md_at]. destruct t as [|t]; [reflexivity|].
    apply IH. lia.
  Qed.

  Lemma expect_iter_md_zero me i a (s : N * pstateR) :
    IA (snd s) -> at_state EI s (at_state (ext_md me i a) s) = 0.
  Proof.
    intros HI. unfold at_state, ext_md. rewrite (E_minus (Lin_expect_iter g p _ _)).
    rewrite (ext_md_step g p HWF HPR HCO HNR me i a _ _ HI). lra.
  Qed.

  Theorem ext_md_orthogonal_past me i a t : forall n it st (h : list edraws -> R),
    IA st -> (t < n)%nat ->
    ER n it st (fun xs => h (firstn t xs) * ext_md_at me i a it st xs t) = 0.
  Proof.
    intros n it st h.
    exact (run_orth Sys _ (expect_iter_md_zero me i a) _ (ext_md_at_at me i a) t n (it, st) h).
  Qed.

  Theorem ext_md_orthogonal_cross me i a me' i' a' s t n it st :
    IA st -> (s < t)%nat -> (t < n)%nat ->
    ER n it st (fun xs => ext_md_at me' i' a' it st xs s * ext_md_at me i a it st xs t) = 0.
  Proof.
    intros HI Hs Ht.
    rewrite <- (ext_md_orthogonal_past me i a t n it st
                  (fun l => ext_md_at me' i' a' it st l s) HI Ht).
    apply (E_ext (Lin_expect_run_ext g p n it st)). intros xs.
    now rewrite ext_md_at_firstn by assumption.
  Qed.

  Theorem ext_md_orthogonal me i a s t n it st :
    IA st -> (s < t)%nat -> (t < n)%nat ->
    ER n it st (fun xs => ext_md_at me i a it st xs s * ext_md_at me i a it st xs t) = 0.
  Proof. apply ext_md_orthogonal_cross. Qed.

  Theorem ext_second_moment_step me i a n it st :
    IA st ->
    ER (S n) it st (fun xs => ext_mart me i a it st xs ^ 2) =
    EI it st (fun x => ext_md me i a it st x ^ 2) +
    EI it st (fun x => ER n (it + 1) (step it st x)
                          (fun xs => ext_mart me i a (it + 1) (step it st x) xs ^ 2)).
  Proof.
    exact (run_sq_step Sys _ (expect_iter_md_zero me i a) _ (ext_mart_sum me i a) n (it, st)).
  Qed.

  Theorem ext_second_moment me i a n : forall it st,
    IA st ->
    ER n it st (fun xs => ext_mart me i a it st xs ^ 2) =
    sum_upto n (fun t => ER n it st (fun xs => ext_md_at me i a it st xs t ^ 2)).
  Proof.
    intros it st.
    exact (run_second_moment Sys _ _ (ext_md_at_at me i a) _ (ext_mart_sum me i a)
                             (expect_iter_md_zero me i a) n (it, st)).
  Qed.

  Section Bounded.
    Context (me : bool) (i a : nat) (C : R).
    Context (HC : forall it st x, IA st -> ext_draws_in g p it st x -> Rabs (ext_md me i a it st x) <= C).

    Lemma ext_second_moment_le n : forall it st,
      IA st -> ER n it st (fun xs => ext_mart me i a it st xs ^ 2) <= C ^ 2 * INR n.
    Proof.
      intros it st.
      exact (run_sq_le Sys _ (expect_iter_md_zero me i a) _ (ext_mart_sum me i a) C
                       (fun s x => HC (fst s) (snd s) x) n (it, st)).
    Qed.

    Theorem ext_chebyshev_gen n it st lam :
      IA st -> 0 < lam ->
      ER n it st (fun xs => ind_ge lam (ext_mart me i a it st xs)) <= C ^ 2 * INR n / lam ^ 2.
    Proof.
      intros HI Hl. eapply Rle_trans; [apply chebyshev_run_ext; assumption|].
      unfold Rdiv. apply Rmult_le_compat_r; [|now apply ext_second_moment_le].
      apply Rlt_le, Rinv_0_lt_compat. nra.
    Qed.
  End Bounded.
End ExtConc.

(** [ExternalRate.ValShaped_ext] with the draws in range only where the pass consults them *)
Lemma ValShaped_ext_dom chance draw cpass ppass noff sg me n :
  (forall ci, VRow (@row RNum chance ci) ->
              (draw true ci cpass (@row RNum chance ci) < length (@row RNum chance ci))%nat) ->
  (forall pl i, Bool.eqb pl me = false -> VRow (sg pl i) ->
                (pdraw draw ppass noff sg pl i < length (sg pl i))%nat) ->
  ValShaped chance sg n ->
  ValShaped (samp_chance chance draw cpass) (ext_sg draw ppass noff sg me) n.
Proof.
  intros HD1 HD2. induction n as [x|ci kids IH|pl i kids IH] using node_ind'; intros HV;
    inversion HV as [|? ? EL HR HVk|? ? ? EL HR HVk]; subst.
  - constructor.
  - constructor.
    + rewrite row_samp, hot_length. exact EL.
    + rewrite row_samp. apply hot_VRow. now apply HD1.
    + rewrite Forall_forall in IH, HVk |- *. intros c Hc. apply IH; auto.
  - constructor.
    + unfold ext_sg. destruct (Bool.eqb pl me); [exact EL|now rewrite hot_length].
    + unfold ext_sg. destruct (Bool.eqb pl me) eqn:E; [exact HR|].
      apply hot_VRow. now apply HD2.
    + rewrite Forall_forall in IH, HVk |- *. intros c Hc. apply IH; auto.
Qed.

Section ExtBound.
  Context (g : gameR) (p : paramsR) (lo hi : R).
  Context (HWF : WFgame g) (HPR : PerfectRecall g) (HCO : ChanceOK g)
          (HPay : PayoffsIn lo hi (g_root g)) (HNR : NoRepeat (g_root g)).
  Local Notation chance := (g_chance g).
  Local Notation noff := (length (g_infos1 g)).
  Local Notation IA := (InvA (arities g true) (arities g false)).

  Lemma ext_pass_inc_abs me i a cpass ppass (st : pstateR) d e :
    (i < length (arities g me))%nat -> (a < nth i (arities g me) O)%nat ->
    IA st -> draw_in chance d -> draw_in (prows g st (negb me)) e ->
    Rabs (ext_pass_inc g me i a cpass ppass st d e) <= hi - lo.
  Proof.
    intros Hi Ha HI Hd He. unfold ext_pass_inc.
    assert (HV : ValShaped chance (strat_view st) (g_root g)).
    { destruct HWF as (HS & _). now apply shaped_ValShaped. }
    rewrite (ext_reg_sum chance (draw2 me noff d e) cpass ppass noff (strat_view st) me i a
                         (g_root g) HV 1 1 1) by (unfold oppw; destruct me; lra).
    apply (cfr_inc_bound_game VRow g _ _ lo hi me i a HPR (VRow_range lo hi)); auto using samp_rows.
    - apply ext_sg_rows, Inv_rows. eapply Inv_of_InvA; eauto.
    - apply ValShaped_RowShaped, ValShaped_ext_dom; [| |assumption].
      + intros ci Hr. apply (draw_in_nth _ _ _ Hd). now apply VRow_row_lt.
      + intros pl j Epl Hr.
        assert (Epl' : pl = negb me) by (destruct pl, me; try discriminate; reflexivity).
        subst pl.
        (* a strategy row beyond the table would be empty *)
        assert (Hj : (j < length (g_infos g (negb me)))%nat).
        { apply Nat.nle_gt. intros Hge. apply (VRow_nonempty _ Hr). unfold strat_view.
          now rewrite ri_get_oob by now rewrite (IA_len g st (negb me) HI). }
        rewrite pdraw_draw2, <- (prows_nth g st (negb me) j [] Hj).
        apply (draw_in_nth _ _ _ He). now rewrite prows_length.
    - rewrite ext_sg_me. rewrite <- (proj1 (proj2 (InvA_lens g st me i HI Hi))) in Ha. exact Ha.
  Qed.

  (** the pass of player [me] starts in the state [ext_state_of me], against draws of the
      other player's actions from the strategies of that state *)
  Lemma ext_sampled_inc_abs me i a it st x :
    (i < length (arities g me))%nat -> (a < nth i (arities g me) O)%nat ->
    IA st -> ext_draws_in g p it st x -> Rabs (ext_sampled_inc g p me i a it st x) <= hi - lo.
  Proof.
    intros Hi Ha HI (He1 & Hd1 & He2 & Hd2).
    pose proof (ext_state_of_inv g p me it st x HI) as HI'.
    unfold ext_sampled_inc. destruct me; apply ext_pass_inc_abs; assumption.
  Qed.

  Lemma ext_true_inc_abs me i a it st x :
    (i < length (arities g me))%nat -> (a < nth i (arities g me) O)%nat ->
    IA st -> Rabs (ext_true_inc g p me i a it st x) <= hi - lo.
  Proof.
    intros Hi Ha HI. pose proof (ext_state_of_inv g p me it st x HI) as HI'.
    unfold ext_true_inc. apply cfr_inc_bounded; try assumption.
    now rewrite (proj1 (proj2 (InvA_lens g _ me i HI' Hi))).
  Qed.

  Context (me : bool) (i a : nat).
  Context (Hi : (i < length (arities g me))%nat) (Ha : (a < nth i (arities g me) O)%nat).

  Theorem ext_md_abs_bound it st x :
    IA st -> ext_draws_in g p it st x -> Rabs (ext_md g p me i a it st x) <= 2 * (hi - lo).
  Proof.
    intros HI Hx. unfold ext_md.
    pose proof (ext_sampled_inc_abs me i a it st x Hi Ha HI Hx) as H1.
    pose proof (ext_true_inc_abs me i a it st x Hi Ha HI) as H2.
    unfold Rminus. eapply Rle_trans; [apply Rabs_triang|]. rewrite Rabs_Ropp. lra.
  Qed.

  (** ** The run of the solver: from the initial state, iterations numbered from 1 *)
  Local Notation st0 := (@init_state RNum g).
  Local Notation ER := (expect_run_ext g p).

  Theorem ext_second_moment_bound n :
    ER n 1 st0 (fun xs => ext_mart g p me i a 1 st0 xs ^ 2) <= 4 * (hi - lo) ^ 2 * INR n.
  Proof.
    replace (4 * (hi - lo) ^ 2) with ((2 * (hi - lo)) ^ 2) by lra.
    exact (ext_second_moment_le g p HWF HPR HCO HNR me i a _
             ext_md_abs_bound n 1 st0 (init_InvA g HWF)).
  Qed.

  (** *** Chebyshev: the weight of the histories on which the accumulated sampled regret
      increments deviate from the accumulated true counterfactual regret increments by [lam]
      or more *)
  Theorem ext_chebyshev n lam :
    0 < lam ->
    ER n 1 st0 (fun xs => ind_ge lam (ext_mart g p me i a 1 st0 xs)) <=
    4 * (hi - lo) ^ 2 * INR n / lam ^ 2.
  Proof.
    replace (4 * (hi - lo) ^ 2) with ((2 * (hi - lo)) ^ 2) by lra.
    exact (ext_chebyshev_gen g p HWF HPR HCO HNR me i a _
             ext_md_abs_bound n 1 st0 lam (init_InvA g HWF)).
  Qed.

  Corollary ext_chebyshev_explicit n lam :
    0 < lam ->
    ER n 1 st0
       (fun xs => if Rle_dec lam (Rabs (ext_sampled_sum g p me i a 1 st0 xs -
                                        ext_true_sum g p me i a 1 st0 xs))
                  then 1 else 0) <=
    4 * (hi - lo) ^ 2 * INR n / lam ^ 2.
  Proof.
    intros Hl. eapply Rle_trans; [|apply (ext_chebyshev n lam Hl)].
    apply Req_le, (E_ext (Lin_expect_run_ext g p n 1 st0)). intros xs. unfold ind_ge.
    now rewrite ext_mart_split.
  Qed.

  Theorem ext_chebyshev_rate n eps :
    (0 < n)%nat -> 0 < eps ->
    ER n 1 st0 (fun xs => ind_ge eps (ext_mart g p me i a 1 st0 xs / INR n)) <=
    4 * (hi - lo) ^ 2 / (eps ^ 2 * INR n).
  Proof.
    intros Hn He.
    exact (chebyshev_rate_form _ _ _ n eps (Lin_expect_run_ext g p n 1 st0) Hn He (ext_chebyshev n)).
  Qed.

  Theorem ext_deviation_vanishes eps delta :
    0 < eps -> 0 < delta ->
    exists n0 : nat, forall n, (n0 <= n)%nat ->
      ER n 1 st0 (fun xs => ind_ge eps (ext_mart g p me i a 1 st0 xs / INR n)) <= delta.
  Proof.
    intros He Hd.
    exact (rate_vanishes _ _ eps delta He Hd (fun n Hn => ext_chebyshev_rate n eps Hn He)).
  Qed.
End ExtBound.

Local Notation rinfoR := (@rinfo RNum).

Section ExtVanilla.
  Context (g : gameR).
  Local Notation pv := (@p_vanilla RNum).
  Local Notation IA := (InvA (arities g true) (arities g false)).
  Local Notation noff := (length (g_infos1 g)).
  Local Notation chance := (g_chance g).
  Local Notation dflt := (@mkRinfo RNum [] [] []).

  (** with undiscounted parameters [advance] leaves the cumulative regrets as they are *)
  Lemma adv_all_vanilla_get it ia (l : list rinfoR) i :
    cum_regret (nth i (fst (@advance_all RNum pv it ia l 0)) dflt) = cum_regret (nth i l dflt).
  Proof.
    rewrite advance_all_map. cbn [fst]. rewrite <- !(map_nth (@cum_regret RNum)), map_map.
    f_equal. apply map_ext. intros ri. now rewrite advance_vanilla.
  Qed.

  Lemma ext_mid_cum_regret it (st : pstateR) d e pl i :
    cum_regret (@ri_get RNum (ext_mid g pv it st d e) pl i) =
    cum_regret (@ri_get RNum (snd (@erec RNum chance (draw2 true noff d e) (2 * (it - 1))%N
                                         (it - 1)%N noff true (g_root g) st)) pl i).
  Proof. destruct pl; [apply adv_all_vanilla_get|reflexivity]. Qed.

  Lemma ext_step_cum_regret it (st : pstateR) x pl i :
    (1 <= it)%N ->
    cum_regret (@ri_get RNum (ext_step g pv it st x) pl i) =
    cum_regret (@ri_get RNum (snd (@erec RNum chance (draw2 false noff (ed_d2 x) (ed_e2 x))
                                         (2 * (it - 1) + 1)%N it noff false (g_root g)
                                         (ext_mid g pv it st (ed_d1 x) (ed_e1 x)))) pl i).
  Proof.
    intros Hit. rewrite ext_step_eq by assumption.
    destruct pl; [reflexivity|apply adv_all_vanilla_get].
  Qed.

  Lemma ext_step_regret_vanilla it (st : pstateR) x me i a :
    (1 <= it)%N -> IA st -> (i < length (arities g me))%nat -> (a < nth i (arities g me) O)%nat ->
    nth a (cum_regret (@ri_get RNum (ext_step g pv it st x) me i)) 0 =
    nth a (cum_regret (@ri_get RNum st me i)) 0 + ext_sampled_inc g pv me i a it st x.
  Proof.
    intros Hit HI Hi Ha. rewrite ext_step_cum_regret by assumption.
    unfold ext_sampled_inc. destruct me.
    - (* player one: its own pass adds the increment, the second pass adds nothing *)
      rewrite erec_state_other, ext_mid_cum_regret by discriminate.
      apply ext_pass_inc_spec. rewrite (proj1 (InvA_lens g st true i HI Hi)). exact Ha.
    - (* player two: the first pass adds nothing, its own pass adds the increment *)
      pose proof (ext_mid_inv g pv it st (ed_d1 x) (ed_e1 x) HI) as HI2.
      rewrite ext_pass_inc_spec
        by (rewrite (proj1 (InvA_lens g _ false i HI2 Hi)); exact Ha).
      now rewrite ext_mid_cum_regret, erec_state_other by discriminate.
  Qed.

  Lemma ext_run_regret_vanilla_from xs me i a : forall it (st : pstateR),
    (1 <= it)%N -> IA st -> (i < length (arities g me))%nat -> (a < nth i (arities g me) O)%nat ->
    nth a (cum_regret (@ri_get RNum (ext_run_from g pv it st xs) me i)) 0 =
    nth a (cum_regret (@ri_get RNum st me i)) 0 + ext_sampled_sum g pv me i a it st xs.
  Proof.
    induction xs as [|x xs IH]; intros it st Hit HI Hi Ha; cbn [ext_run_from ext_sampled_sum]; [lra|].
    rewrite IH; [|lia|now apply ext_step_inv|assumption|assumption].
    rewrite ext_step_regret_vanilla by assumption. lra.
  Qed.

  Context (lo hi : R).
  Context (HWF : WFgame g) (HPR : PerfectRecall g) (HCO : ChanceOK g)
          (HPay : PayoffsIn lo hi (g_root g)) (HNR : NoRepeat (g_root g)).
  Context (me : bool) (i a : nat).
  Context (Hi : (i < length (arities g me))%nat) (Ha : (a < nth i (arities g me) O)%nat).
  Local Notation st0 := (@init_state RNum g).
  Local Notation ER := (expect_run_ext g pv).

  Theorem ext_run_regret_vanilla xs :
    nth a (cum_regret (@ri_get RNum (ext_run_from g pv 1 st0 xs) me i)) 0 =
    ext_sampled_sum g pv me i a 1 st0 xs.
  Proof.
    rewrite ext_run_regret_vanilla_from; [|lia|now apply init_InvA|assumption|assumption].
    rewrite (proj1 (init_zero _ _ _ _)). lra.
  Qed.

  (** the deviation of the cumulative regret the solver holds after the run [xs] from the sum
      of the true counterfactual regret increments at the strategies the run has played *)
  Definition ext_regret_dev (xs : list edraws) : R :=
    nth a (cum_regret (@ri_get RNum (ext_run_from g pv 1 st0 xs) me i)) 0 -
    ext_true_sum g pv me i a 1 st0 xs.

  Lemma ext_regret_dev_mart xs : ext_regret_dev xs = ext_mart g pv me i a 1 st0 xs.
  Proof. unfold ext_regret_dev. now rewrite ext_run_regret_vanilla, ext_mart_split. Qed.

  Lemma ext_regret_dev_run (G : R -> R) n :
    ER n 1 st0 (fun xs => G (ext_regret_dev xs)) =
    ER n 1 st0 (fun xs => G (ext_mart g pv me i a 1 st0 xs)).
  Proof.
    apply (E_ext (Lin_expect_run_ext g pv n 1 st0)). intros xs. now rewrite ext_regret_dev_mart.
  Qed.

  Theorem ext_second_moment_bound_vanilla n :
    ER n 1 st0 (fun xs => ext_regret_dev xs ^ 2) <= 4 * (hi - lo) ^ 2 * INR n.
  Proof.
    rewrite (ext_regret_dev_run (fun y => y ^ 2)).
    now apply (ext_second_moment_bound g pv lo hi HWF HPR HCO HPay HNR me i a Hi Ha n).
  Qed.

  Theorem ext_chebyshev_vanilla n lam :
    0 < lam ->
    ER n 1 st0 (fun xs => ind_ge lam (ext_regret_dev xs)) <= 4 * (hi - lo) ^ 2 * INR n / lam ^ 2.
  Proof.
    rewrite (ext_regret_dev_run (ind_ge lam)).
    now apply (ext_chebyshev g pv lo hi HWF HPR HCO HPay HNR me i a Hi Ha n lam).
  Qed.

  Theorem ext_chebyshev_rate_vanilla n eps :
    (0 < n)%nat -> 0 < eps ->
    ER n 1 st0 (fun xs => ind_ge eps (ext_regret_dev xs / INR n)) <=
    4 * (hi - lo) ^ 2 / (eps ^ 2 * INR n).
  Proof.
    rewrite (ext_regret_dev_run (fun y => ind_ge eps (y / INR n))).
    now apply (ext_chebyshev_rate g pv lo hi HWF HPR HCO HPay HNR me i a Hi Ha n eps).
  Qed.

  Theorem ext_deviation_vanishes_vanilla eps delta :
    0 < eps -> 0 < delta ->
    exists n0 : nat, forall n, (n0 <= n)%nat ->
      ER n 1 st0 (fun xs => ind_ge eps (ext_regret_dev xs / INR n)) <= delta.
  Proof.
    intros He Hd.
    exact (rate_vanishes _ _ eps delta He Hd (fun n Hn => ext_chebyshev_rate_vanilla n eps Hn He)).
  Qed.
End ExtVanilla.

(** ** Non-vacuity: matching pennies (payoffs in [-1, 1]) *)
Lemma mp_idx_0 me : (0 < length (arities mp_game me))%nat.
Proof. destruct me; cbn; lia. Qed.
Lemma mp_act_0_0 me : (0 < nth 0 (arities mp_game me) O)%nat.
Proof. destruct me; cbn; lia. Qed.

Example mp_ext_chebyshev_2 (p : paramsR) me lam :
  0 < lam ->
  expect_run_ext mp_game p 2 1 (@init_state RNum mp_game)
    (fun xs => ind_ge lam (ext_mart mp_game p me 0 0 1 (@init_state RNum mp_game) xs)) <=
  32 / lam ^ 2.
Proof.
  intros Hl.
  pose proof (ext_chebyshev mp_game p (-1) 1 mp_WF mp_PR mp_ChanceOK mp_Payoffs mp_NoRepeat me 0 0
                (mp_idx_0 me) (mp_act_0_0 me) 2 lam Hl) as H.
  replace (32 / lam ^ 2) with (4 * (1 - -1) ^ 2 * INR 2 / lam ^ 2); [exact H|].
  unfold Rdiv. f_equal. cbn [INR]. lra.
Qed.

Example mp_ext_second_moment_2 (p : paramsR) me :
  expect_run_ext mp_game p 2 1 (@init_state RNum mp_game)
    (fun xs => ext_mart mp_game p me 0 0 1 (@init_state RNum mp_game) xs ^ 2) =
  expect_run_ext mp_game p 2 1 (@init_state RNum mp_game)
    (fun xs => ext_md_at mp_game p me 0 0 1 (@init_state RNum mp_game) xs 0 ^ 2) +
  expect_run_ext mp_game p 2 1 (@init_state RNum mp_game)
    (fun xs => ext_md_at mp_game p me 0 0 1 (@init_state RNum mp_game) xs 1 ^ 2).
Proof.
  rewrite (ext_second_moment mp_game p mp_WF mp_PR mp_ChanceOK mp_NoRepeat me 0 0 2 1
             (@init_state RNum mp_game) (init_InvA _ mp_WF)).
  cbn [sum_upto]. lra.
Qed.

(** numbers for the first iteration (uniform strategies): the sampled increment of player one's
    action 0 is [+1] or [-1] according to the action drawn for player two, the true increment
    is 0; the second moment of the difference is 1 and the Chebyshev inequality is attained at
    [lam = 1] *)
Example mp_first_pass cp pp :
  ext_pass_inc mp_game true 0 0 cp pp (@init_state RNum mp_game) [] [0%nat] = 1 /\
  ext_pass_inc mp_game true 0 0 cp pp (@init_state RNum mp_game) [] [1%nat] = -1 /\
  cfr_inc (g_chance mp_game) (strat_view (@init_state RNum mp_game)) true 0 0 (g_root mp_game) 1 1 1 = 0.
Proof.
  cbv -[Rplus Rmult Rminus Ropp Rdiv Rinv IZR INR].
  change (INR 2) with (1 + 1). repeat split; lra.
Qed.

Lemma mp_prows_init pl : prows mp_game (@init_state RNum mp_game) pl = [[1 / 2; 1 / 2]].
Proof.
  destruct pl; cbv -[Rplus Rmult Rminus Ropp Rdiv Rinv IZR INR]; change (INR 2) with 2; reflexivity.
Qed.

Lemma mp_first_expect (p : paramsR) (G : R -> R) :
  expect_run_ext mp_game p 1 1 (@init_state RNum mp_game)
    (fun xs => G (ext_mart mp_game p true 0 0 1 (@init_state RNum mp_game) xs)) =
  1 / 2 * G 1 + 1 / 2 * G (-1).
Proof.
  cbn [expect_run_ext].
  destruct (mp_first_pass (2 * (1 - 1))%N (1 - 1)%N) as (E0 & E1 & Et).
  pose (F := fun d1 e1 : list nat =>
     G (ext_pass_inc mp_game true 0 0 (2 * (1 - 1))%N (1 - 1)%N (@init_state RNum mp_game) d1 e1 -
      cfr_inc (g_chance mp_game) (strat_view (@init_state RNum mp_game)) true 0 0 (g_root mp_game) 1 1 1
      + 0)).
  rewrite (E_ext (Lin_expect_iter mp_game p 1 _) _ (fun x => F (ed_d1 x) (ed_e1 x)))
    by (intros x; reflexivity).
  rewrite (expect_iter_first mp_game p mp_ChanceOK 1 _ F (init_InvA _ mp_WF)).
  rewrite mp_prows_init. change (g_chance mp_game) with (@nil (list R)).
  cbn [expect wsum]. unfold F. rewrite E0, E1, Et.
  replace (1 - 0 + 0) with 1 by lra. replace (-1 - 0 + 0) with (-1) by lra. lra.
Qed.

Example mp_ext_second_moment_1 (p : paramsR) :
  expect_run_ext mp_game p 1 1 (@init_state RNum mp_game)
    (fun xs => ext_mart mp_game p true 0 0 1 (@init_state RNum mp_game) xs ^ 2) = 1.
Proof. rewrite (mp_first_expect p (fun y => y ^ 2)). lra. Qed.

Example mp_ext_chebyshev_attained (p : paramsR) :
  expect_run_ext mp_game p 1 1 (@init_state RNum mp_game)
    (fun xs => ind_ge 1 (ext_mart mp_game p true 0 0 1 (@init_state RNum mp_game) xs)) = 1 /\
  expect_run_ext mp_game p 1 1 (@init_state RNum mp_game)
    (fun xs => ext_mart mp_game p true 0 0 1 (@init_state RNum mp_game) xs ^ 2) / 1 ^ 2 = 1.
Proof.
  split; [|rewrite mp_ext_second_moment_1; lra].
  rewrite (mp_first_expect p (ind_ge 1)), !ind_ge_true;
    [lra|rewrite Rabs_left; lra|rewrite Rabs_right; lra].
Qed.

Example mp_ext_chebyshev_vanilla_2 me lam :
  0 < lam ->
  expect_run_ext mp_game (@p_vanilla RNum) 2 1 (@init_state RNum mp_game)
    (fun xs => ind_ge lam (ext_regret_dev mp_game me 0 0 xs)) <= 32 / lam ^ 2.
Proof.
  intros Hl.
  pose proof (ext_chebyshev_vanilla mp_game (-1) 1 mp_WF mp_PR mp_ChanceOK mp_Payoffs mp_NoRepeat
                me 0 0 (mp_idx_0 me) (mp_act_0_0 me) 2 lam Hl) as H.
  replace (32 / lam ^ 2) with (4 * (1 - -1) ^ 2 * INR 2 / lam ^ 2); [exact H|].
  unfold Rdiv. f_equal. cbn [INR]. lra.
Qed.

(** ** The statements that [Properties/C04.v] uses *)
Check chebyshev_run_ext :
  forall (g : gameR) (p : paramsR), ChanceOK g ->
  forall n it st lam (f : list edraws -> R),
    InvA (arities g true) (arities g false) st -> 0 < lam ->
    expect_run_ext g p n it st (fun xs => ind_ge lam (f xs)) <=
    expect_run_ext g p n it st (fun xs => f xs ^ 2) / lam ^ 2.
Check ext_md_orthogonal_past :
  forall (g : gameR) (p : paramsR),
    WFgame g -> PerfectRecall g -> ChanceOK g -> NoRepeat (g_root g) ->
  forall me i a t n it st (h : list edraws -> R),
    InvA (arities g true) (arities g false) st -> (t < n)%nat ->
    expect_run_ext g p n it st (fun xs => h (firstn t xs) * ext_md_at g p me i a it st xs t) = 0.
Check ext_md_orthogonal :
  forall (g : gameR) (p : paramsR),
    WFgame g -> PerfectRecall g -> ChanceOK g -> NoRepeat (g_root g) ->
  forall me i a s t n it st,
    InvA (arities g true) (arities g false) st -> (s < t)%nat -> (t < n)%nat ->
    expect_run_ext g p n it st
      (fun xs => ext_md_at g p me i a it st xs s * ext_md_at g p me i a it st xs t) = 0.
Check ext_second_moment_step :
  forall (g : gameR) (p : paramsR),
    WFgame g -> PerfectRecall g -> ChanceOK g -> NoRepeat (g_root g) ->
  forall me i a n it st,
    InvA (arities g true) (arities g false) st ->
    expect_run_ext g p (S n) it st (fun xs => ext_mart g p me i a it st xs ^ 2) =
    expect_iter g p it st (fun x => ext_md g p me i a it st x ^ 2) +
    expect_iter g p it st
      (fun x => expect_run_ext g p n (it + 1) (ext_step g p it st x)
                  (fun xs => ext_mart g p me i a (it + 1) (ext_step g p it st x) xs ^ 2)).
Check ext_second_moment :
  forall (g : gameR) (p : paramsR),
    WFgame g -> PerfectRecall g -> ChanceOK g -> NoRepeat (g_root g) ->
  forall me i a n it st,
    InvA (arities g true) (arities g false) st ->
    expect_run_ext g p n it st (fun xs => ext_mart g p me i a it st xs ^ 2) =
    sum_upto n (fun t => expect_run_ext g p n it st (fun xs => ext_md_at g p me i a it st xs t ^ 2)).
Check ext_mart_split :
  forall (g : gameR) (p : paramsR) me i a xs it st,
    ext_mart g p me i a it st xs =
    ext_sampled_sum g p me i a it st xs - ext_true_sum g p me i a it st xs.
Check ext_mart_sum_upto :
  forall (g : gameR) (p : paramsR) me i a xs it st,
    ext_mart g p me i a it st xs = sum_upto (length xs) (ext_md_at g p me i a it st xs).
Check ext_chebyshev_gen :
  forall (g : gameR) (p : paramsR),
    WFgame g -> PerfectRecall g -> ChanceOK g -> NoRepeat (g_root g) ->
  forall me i a C,
    (forall it st x, InvA (arities g true) (arities g false) st -> ext_draws_in g p it st x ->
                     Rabs (ext_md g p me i a it st x) <= C) ->
  forall n it st lam,
    InvA (arities g true) (arities g false) st -> 0 < lam ->
    expect_run_ext g p n it st (fun xs => ind_ge lam (ext_mart g p me i a it st xs)) <=
    C ^ 2 * INR n / lam ^ 2.
Check ext_md_abs_bound :
  forall (g : gameR) (p : paramsR) lo hi,
    WFgame g -> PerfectRecall g -> ChanceOK g -> PayoffsIn lo hi (g_root g) ->
  forall me i a, (i < length (arities g me))%nat -> (a < nth i (arities g me) O)%nat ->
  forall it st x,
    InvA (arities g true) (arities g false) st -> ext_draws_in g p it st x ->
    Rabs (ext_md g p me i a it st x) <= 2 * (hi - lo).
Check ext_second_moment_bound :
  forall (g : gameR) (p : paramsR) lo hi,
    WFgame g -> PerfectRecall g -> ChanceOK g -> PayoffsIn lo hi (g_root g) -> NoRepeat (g_root g) ->
  forall me i a, (i < length (arities g me))%nat -> (a < nth i (arities g me) O)%nat ->
  forall n,
    expect_run_ext g p n 1 (@init_state RNum g)
      (fun xs => ext_mart g p me i a 1 (@init_state RNum g) xs ^ 2) <= 4 * (hi - lo) ^ 2 * INR n.
Check ext_chebyshev :
  forall (g : gameR) (p : paramsR) lo hi,
    WFgame g -> PerfectRecall g -> ChanceOK g -> PayoffsIn lo hi (g_root g) -> NoRepeat (g_root g) ->
  forall me i a, (i < length (arities g me))%nat -> (a < nth i (arities g me) O)%nat ->
  forall n lam, 0 < lam ->
    expect_run_ext g p n 1 (@init_state RNum g)
      (fun xs => ind_ge lam (ext_mart g p me i a 1 (@init_state RNum g) xs)) <=
    4 * (hi - lo) ^ 2 * INR n / lam ^ 2.
Check ext_chebyshev_explicit :
  forall (g : gameR) (p : paramsR) lo hi,
    WFgame g -> PerfectRecall g -> ChanceOK g -> PayoffsIn lo hi (g_root g) -> NoRepeat (g_root g) ->
  forall me i a, (i < length (arities g me))%nat -> (a < nth i (arities g me) O)%nat ->
  forall n lam, 0 < lam ->
    expect_run_ext g p n 1 (@init_state RNum g)
      (fun xs => if Rle_dec lam (Rabs (ext_sampled_sum g p me i a 1 (@init_state RNum g) xs -
                                       ext_true_sum g p me i a 1 (@init_state RNum g) xs))
                 then 1 else 0) <=
    4 * (hi - lo) ^ 2 * INR n / lam ^ 2.
Check ext_chebyshev_rate :
  forall (g : gameR) (p : paramsR) lo hi,
    WFgame g -> PerfectRecall g -> ChanceOK g -> PayoffsIn lo hi (g_root g) -> NoRepeat (g_root g) ->
  forall me i a, (i < length (arities g me))%nat -> (a < nth i (arities g me) O)%nat ->
  forall n eps, (0 < n)%nat -> 0 < eps ->
    expect_run_ext g p n 1 (@init_state RNum g)
      (fun xs => ind_ge eps (ext_mart g p me i a 1 (@init_state RNum g) xs / INR n)) <=
    4 * (hi - lo) ^ 2 / (eps ^ 2 * INR n).
Check ext_deviation_vanishes :
  forall (g : gameR) (p : paramsR) lo hi,
    WFgame g -> PerfectRecall g -> ChanceOK g -> PayoffsIn lo hi (g_root g) -> NoRepeat (g_root g) ->
  forall me i a, (i < length (arities g me))%nat -> (a < nth i (arities g me) O)%nat ->
  forall eps delta, 0 < eps -> 0 < delta ->
    exists n0 : nat, forall n, (n0 <= n)%nat ->
      expect_run_ext g p n 1 (@init_state RNum g)
        (fun xs => ind_ge eps (ext_mart g p me i a 1 (@init_state RNum g) xs / INR n)) <= delta.
Check ext_run_regret_vanilla :
  forall (g : gameR), WFgame g ->
  forall me i a, (i < length (arities g me))%nat -> (a < nth i (arities g me) O)%nat ->
  forall xs,
    nth a (cum_regret (@ri_get RNum (ext_run_from g (@p_vanilla RNum) 1 (@init_state RNum g) xs) me i)) 0 =
    ext_sampled_sum g (@p_vanilla RNum) me i a 1 (@init_state RNum g) xs.
Check ext_chebyshev_vanilla :
  forall (g : gameR) lo hi,
    WFgame g -> PerfectRecall g -> ChanceOK g -> PayoffsIn lo hi (g_root g) -> NoRepeat (g_root g) ->
  forall me i a, (i < length (arities g me))%nat -> (a < nth i (arities g me) O)%nat ->
  forall n lam, 0 < lam ->
    expect_run_ext g (@p_vanilla RNum) n 1 (@init_state RNum g)
      (fun xs => ind_ge lam (ext_regret_dev g me i a xs)) <= 4 * (hi - lo) ^ 2 * INR n / lam ^ 2.
Check ext_chebyshev_rate_vanilla :
  forall (g : gameR) lo hi,
    WFgame g -> PerfectRecall g -> ChanceOK g -> PayoffsIn lo hi (g_root g) -> NoRepeat (g_root g) ->
  forall me i a, (i < length (arities g me))%nat -> (a < nth i (arities g me) O)%nat ->
  forall n eps, (0 < n)%nat -> 0 < eps ->
    expect_run_ext g (@p_vanilla RNum) n 1 (@init_state RNum g)
      (fun xs => ind_ge eps (ext_regret_dev g me i a xs / INR n)) <=
    4 * (hi - lo) ^ 2 / (eps ^ 2 * INR n).
Check ext_deviation_vanishes_vanilla :
  forall (g : gameR) lo hi,
    WFgame g -> PerfectRecall g -> ChanceOK g -> PayoffsIn lo hi (g_root g) -> NoRepeat (g_root g) ->
  forall me i a, (i < length (arities g me))%nat -> (a < nth i (arities g me) O)%nat ->
  forall eps delta, 0 < eps -> 0 < delta ->
    exists n0 : nat, forall n, (n0 <= n)%nat ->
      expect_run_ext g (@p_vanilla RNum) n 1 (@init_state RNum g)
        (fun xs => ind_ge eps (ext_regret_dev g me i a xs / INR n)) <= delta.
