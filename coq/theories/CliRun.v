(** * CliRun: what the options of the binary mean ([main.rs] after argument parsing):
    the composition  reader -> [Game::solve] -> clip decision -> [Output].

    [clap] turns the command line into [Args]; this file starts from [Args].  The option
    table (which constructor each [--discount] value selects, [--max-iters 0] meaning "no
    limit", the method names) is transcribed here and tied to the binary by the end-to-end
    correspondence of check C16 (the Python driver maps the options the same way and compares
    the binary with the library and with this model). *)
From Coq Require Import Reals List Bool NArith Permutation.
From Cfr.theories Require Import Num RInst Tree GameWF Eval Solve Valid SolveValidProofs
     Cli CliProofs SolveApi.
Import ListNotations.
Open Scope R_scope.

Inductive discount := DVanilla | DLcfr | DCfrPlus | DDcfr | DDcfrPrune.

(** [Discount::into_params] *)
Definition discount_params (d : discount) : @params RNum :=
  match d with
  | DVanilla => @p_vanilla RNum
  | DLcfr => @p_lcfr RNum
  | DCfrPlus => @p_cfr_plus RNum
  | DDcfr => @p_dcfr RNum
  | DDcfrPrune => @p_dcfr_prune RNum
  end.

Record args := mkArgs {
  arg_clip : R;            (* -c, default 0 *)
  arg_max_regret : R;      (* -r, default 0 *)
  arg_max_iters : N;       (* -t, default 1000; 0 = no limit *)
  arg_parallel : N;        (* -p, default 0 = available parallelism *)
  arg_method : method;     (* -m, default external *)
  arg_discount : discount  (* -d, default dcfr *)
}.

Definition default_args : args := mkArgs 0 0 1000%N 0%N External DDcfr.

(** [if args.max_iters == 0 { u64::MAX } else { args.max_iters }] *)
Definition effective_iters (n : N) : N := if N.eqb n 0 then (2 ^ 64 - 1)%N else n.

(** [None] = the process panics ([.unwrap()] of a [SolveError], or a rejected input): no
    result object is printed *)
Definition cli_run (a : args) (input : loaded (@game RNum * R)) (draw : @oracle RNum) (par : N)
           (s : schedules) : option (@output RNum * @game RNum) :=
  match input with
  | Rejected _ => None
  | Loaded (g, sum) =>
      match solve_api g (arg_method a) draw (discount_params (arg_discount a))
                      (N.to_nat (effective_iters (arg_max_iters a)))
                      (@stop_at RNum (arg_max_regret a)) (arg_parallel a) par s with
      | ApiThreadOverflow => None
      | ApiOk (strats, _, _) => Some (@cli_choose RNum g sum (arg_clip a) strats, g)
      end
  end.

Theorem discount_table :
  discount_params DVanilla = @p_vanilla RNum /\ discount_params DLcfr = @p_lcfr RNum /\
  discount_params DCfrPlus = @p_cfr_plus RNum /\ discount_params DDcfr = @p_dcfr RNum /\
  discount_params DDcfrPrune = @p_dcfr_prune RNum /\
  discount_params (arg_discount default_args) = @p_default RNum.
Proof. repeat split. Qed.

Theorem zero_iters_means_unbounded :
  effective_iters 0 = (2 ^ 64 - 1)%N /\ forall n, n <> 0%N -> effective_iters n = n.
Proof.
  split; [reflexivity|]. intros n Hn. unfold effective_iters.
  destruct (N.eqb_spec n 0); [contradiction|reflexivity].
Qed.

Theorem cli_run_rejected a r draw par s : cli_run a (Rejected r) draw par s = None.
Proof. reflexivity. Qed.

(** ** what is printed is the clip decision applied to the library's solution for the mapped
    parameters, and — for every method under a fixed oracle — does not depend on the
    parallelism option, the machine's parallelism, the schedule of the workers or the
    reduction order *)
Theorem cli_run_is_library a g sum draw par s :
  WFgame g -> schedules_ok s ->
  solve_api g (arg_method a) draw (discount_params (arg_discount a))
            (N.to_nat (effective_iters (arg_max_iters a))) (@stop_at RNum (arg_max_regret a))
            (arg_parallel a) par s <> ApiThreadOverflow ->
  cli_run a (Loaded (g, sum)) draw par s =
  Some (@cli_choose RNum g sum (arg_clip a)
          (fst (fst (@solve_single RNum g (arg_method a) draw (discount_params (arg_discount a))
                                   (N.to_nat (effective_iters (arg_max_iters a)))
                                   (@stop_at RNum (arg_max_regret a))))), g).
Proof.
  intros HWF Hs Hne. unfold cli_run.
  rewrite (solve_api_thread_independent g _ draw _ _ _ _ par s HWF Hs Hne).
  destruct (@solve_single RNum g (arg_method a) draw (discount_params (arg_discount a))
                          (N.to_nat (effective_iters (arg_max_iters a)))
                          (@stop_at RNum (arg_max_regret a))) as [[strats regs] ran].
  reflexivity.
Qed.

Corollary cli_run_parallel_irrelevant a a' g sum draw par par' s s' :
  WFgame g -> schedules_ok s -> schedules_ok s' ->
  arg_clip a' = arg_clip a -> arg_max_regret a' = arg_max_regret a ->
  arg_max_iters a' = arg_max_iters a -> arg_method a' = arg_method a ->
  arg_discount a' = arg_discount a ->
  cli_run a (Loaded (g, sum)) draw par s <> None ->
  cli_run a' (Loaded (g, sum)) draw par' s' <> None ->
  cli_run a' (Loaded (g, sum)) draw par' s' = cli_run a (Loaded (g, sum)) draw par s.
Proof.
  intros HWF Hs Hs' E1 E2 E3 E4 E5 H1 H2.
  rewrite (cli_run_is_library a g sum draw par s HWF Hs)
    by (intros E; apply H1; unfold cli_run; now rewrite E).
  rewrite (cli_run_is_library a' g sum draw par' s' HWF Hs')
    by (intros E; apply H2; unfold cli_run; now rewrite E).
  now rewrite E1, E2, E3, E4, E5.
Qed.

(** ** what is printed is always a valid profile (every thread count, every option) *)
Theorem cli_run_valid a g sum draw par s out g' :
  WFgame g -> arities_pos g -> schedules_ok s ->
  cli_run a (Loaded (g, sum)) draw par s = Some (out, g') ->
  g' = g /\ Valid g (o_prof out).
Proof.
  intros HWF Hpos Hs E. unfold cli_run in E.
  destruct (solve_api _ _ _ _ _ _ _ _ _) as [[[strats regs] ran]|] eqn:Ea; [|discriminate].
  injection E as Eo Eg. subst out g'. split; [reflexivity|]. apply cli_printed_valid.
  apply (solve_api_valid _ _ _ _ _ _ _ _ _ _ _ _ HWF Hs) in Ea.
  change strats with (fst (fst (strats, regs, ran))). rewrite <- Ea. now apply solve_single_valid.
Qed.
