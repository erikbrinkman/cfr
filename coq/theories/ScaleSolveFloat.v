(** * ScaleSolveFloat: scaling the payoffs by a power of two is bit-exact for the *solver*
    at binary64 (instance [FNum]): strategies unchanged, regrets and bounds scaled.

    [ScaleFloat] / [ScaleFloatBR] prove that the evaluator and [info] commute bit for bit
    with the scaling of the payoffs by [c = 2^e].  This file proves the same for the
    iterations of the unsampled and the chance-sampled solver, for every parameter set with
    a non-softmax fallback: one traversal ([vrec_scale]), one iteration, the whole solve
    ([solve_single_scale], as one equality [solve_single_scale_eq]), with examples.

    The range hypothesis is a decidable checker that follows the *unscaled* computation
    only ([vchk], [advb], [iterb], [solveb]): at every operation whose operand is scaled it
    tests that the unscaled operands/result are zero or of magnitude within the window that
    leaves room for the factor [2^e] ([smallb], [rg_mulb], [rg_divb], [termb] of
    [ScaleFloatBR], with the magnitude budget [M = 971]). *)
From Coq Require Import List ZArith NArith Reals Floats Bool Lia Lra Arith Psatz.
From Flocq Require Import Core IEEE754.BinarySingleNaN IEEE754.PrimFloat.
From Cfr.theories Require Import Num FInst Tree GameWF Strat Eval Solve ListAux
  TruncFloat NormFloat EvalFloat ScaleFloat ScaleFloatBR SolveFloat.
Import ListNotations.

Local Existing Instance Flocq.IEEE754.PrimFloat.Hprec.
Local Existing Instance Flocq.IEEE754.PrimFloat.Hmax.

Local Open Scope R_scope.
Local Notation float := PrimFloat.float.
Local Notation node := (@node FNum).
Local Notation game := (@game FNum).
Local Notation rinfo := (@rinfo FNum).
Local Notation pstate := (@pstate FNum).
Local Notation bp := (bpow radix2).

Local Instance fexp_valid_ss : Valid_exp (SpecFloat.fexp prec emax) :=
  fexp_correct prec emax Flocq.IEEE754.PrimFloat.Hprec.


(** [spl H H1 H2] splits a conjunction of tests [H : b1 && b2 = true] *)
Ltac spl H H1 H2 := apply andb_true_iff in H; destruct H as [H1 H2].

(** the magnitude budget used with the checkers of [ScaleFloatBR]: [emax - prec = 1024 - 53],
    so that a rounded value of magnitude at most [2^MB] is finite *)
Definition MB : Z := 971%Z.

Definition mulb (e : Z) (x y : float) : bool := rg_mulb e MB x y.
Definition addb (a b : float) : bool := smallb a && smallb b.
Definition qdivb (e : Z) (m t : float) : bool := rg_divb e MB m t.
Definition rdivb (x t : float) : bool :=
  smallb x && f_is_fin t && PrimFloat.leb (pow2 (-500)) (PrimFloat.abs t).

Lemma bp501 : bp 501 = 2 * bp 500.
Proof. change 501%Z with (1 + 500)%Z. rewrite bpow_plus. reflexivity. Qed.

Section Atoms.
  Context (e : Z) (He : (-500 <= e <= 500)%Z).

  Lemma HMB : (-500 <= MB <= 971)%Z.
  Proof. unfold MB. lia. Qed.
  Lemma HMB' : (-1074 <= MB <= 971)%Z.
  Proof. unfold MB. lia. Qed.

  Lemma Rg_no_overflow : forall v, Rg e MB v ->
    Rabs (rnd v) < bp emax /\ Rabs (rnd v * bp e) < bp emax.
  Proof.
    intros v Hg. destruct (Rg_rnd e MB HMB' v Hg) as [Hk [T T']]. rewrite Hk in T'.
    pose proof (bpM_lt MB HMB'). lra.
  Qed.

  Lemma mulb_l : forall x x' p, mulb e x p = true -> Sc e x x' -> Sc e (x * p)%float (x' * p)%float.
  Proof.
    intros x x' p H Hs.
    destruct (rg_mulb_spec e MB He HMB x p H) as [_ [Fp Hrg]].
    exact (proj1 (term_mul_l e MB HMB' x x' p Hs Fp Hrg)).
  Qed.

  Lemma mulb_r : forall p x x', mulb e p x = true -> Sc e x x' -> Sc e (p * x)%float (p * x')%float.
  Proof.
    intros p x x' H Hs.
    destruct (rg_mulb_spec e MB He HMB p x H) as [Fp [_ Hrg]].
    destruct (Rg_no_overflow _ Hrg) as [T1 T2]. destruct Hrg as [N1 [N2 _]].
    apply Sc_mul; assumption.
  Qed.

  (** [|x| <= 2^500] over [|t| >= 2^-500] *)
  Lemma rdivb_spec : forall x t, rdivb x t = true ->
    FR t <> 0 /\ Rabs (FR x / FR t) <= bp 1000.
  Proof.
    intros x t H. unfold rdivb in H. spl H H H3. spl H H1 H2.
    apply smallb_spec in H1. destruct H1 as [_ Bx].
    apply NormFloat.f_is_fin_true in H2.
    apply leb_pow2_abs in H3; [|lia|exact H2].
    assert (Ht0 : FR t <> 0).
    { intros Hz. rewrite Hz, Rabs_R0 in H3. generalize (bpow_gt_0 radix2 (-500)). lra. }
    split; [exact Ht0|].
    unfold Rdiv. rewrite Rabs_mult, Rabs_inv.
    change (bp 1000) with (bp (500 + 500)). rewrite bpow_plus.
    apply Rmult_le_compat; try apply Rabs_pos.
    - left. apply Rinv_0_lt_compat. apply Rabs_pos_lt. exact Ht0.
    - exact Bx.
    - replace (bp 500) with (/ bp (-500)) by (rewrite <- bpow_opp; reflexivity).
      apply Rinv_le_contravar; [apply bpow_gt_0 | exact H3].
  Qed.

  Lemma qdivb_ok : forall m m' t, qdivb e m t = true -> Sc e m m' ->
    Sc e (m / t)%float (m' / t)%float.
  Proof.
    intros m m' t H Hs.
    destruct (rg_divb_spec e MB He HMB m t H) as [Ft Hrg].
    destruct (Rg_no_overflow _ Hrg) as [T1 T2]. destruct Hrg as [N1 [N2 _]].
    (* the first three tests of [rg_divb m t] are [rdivb m t] *)
    unfold qdivb, rg_divb in H. spl H H H4.
    destruct (rdivb_spec m t H) as [Ht0 _].
    apply Sc_div; assumption.
  Qed.

  Lemma rdivb_ok : forall x x' t t', rdivb x t = true -> Sc e x x' -> Sc e t t' ->
    (x' / t')%float = (x / t)%float.
  Proof.
    intros x x' t t' H Hx Ht. destruct (rdivb_spec x t H) as [Ht0 Hb].
    apply (div_scale_both e x x' t t' Hx Ht Ht0).
    apply Rle_lt_trans with (bp 1000); [|apply bp1000_lt].
    apply ScaleFloat.rnd_abs_le; [apply fmt_bpow; lia | exact Hb].
  Qed.

  Lemma small_sum : forall a b : float, addb a b = true ->
    forall v, Rabs v <= Rabs (FR a) + Rabs (FR b) ->
    Rabs (rnd v) < bp emax /\ Rabs (rnd v * bp e) < bp emax.
  Proof.
    intros a b H v Hv. unfold addb in H. spl H Ba Bb.
    apply smallb_spec in Ba. apply smallb_spec in Bb.
    destruct Ba as [_ Ba]. destruct Bb as [_ Bb].
    assert (H1 : Rabs (rnd v) <= bp 501).
    { apply ScaleFloat.rnd_abs_le; [apply fmt_bpow; lia | rewrite bp501; lra]. }
    assert (L1 : bp 501 < bp emax) by (apply bpow_lt; change emax with 1024%Z; lia).
    split; [lra|].
    assert (Hpe : 0 < bp e) by apply bpow_gt_0.
    rewrite Rabs_mult, (Rabs_pos_eq (bp e)) by lra.
    apply Rle_lt_trans with (bp 501 * bp e).
    - apply Rmult_le_compat_r; lra.
    - rewrite <- bpow_plus. apply bpow_lt. change emax with 1024%Z. lia.
  Qed.

  Lemma addb_ok : forall a a' b b', addb a b = true -> Sc e a a' -> Sc e b b' ->
    Sc e (a + b)%float (a' + b')%float.
  Proof.
    intros a a' b b' H Ha Hb.
    destruct (small_sum a b H (FR a + FR b) (Rabs_triang _ _)) as [G1 G2].
    apply Sc_add; assumption.
  Qed.

  Lemma subb_ok : forall a a' b b', addb a b = true -> Sc e a a' -> Sc e b b' ->
    Sc e (a - b)%float (a' - b')%float.
  Proof.
    intros a a' b b' H Ha Hb.
    destruct (small_sum a b H (FR a - FR b)) as [G1 G2].
    { unfold Rminus. apply Rle_trans with (1 := Rabs_triang _ _). rewrite Rabs_Ropp. lra. }
    apply Sc_sub; assumption.
  Qed.

End Atoms.


Lemma Forall2_upd : forall (A : Type) (R : A -> A -> Prop) (l l' : list A) (v v' : A),
  Forall2 R l l' -> R v v' -> forall j, Forall2 R (upd l j v) (upd l' j v').
Proof.
  intros A R l l' v v' H Hv. induction H as [|x x' l l' Hx Hl IH]; intros j.
  - destruct j; constructor.
  - destruct j as [|j]; cbn [upd]; constructor; auto.
Qed.

Lemma Sc_refl0 : forall e n, Forall2 (Sc e) (@repeatT FNum 0%float n) (@repeatT FNum 0%float n).
Proof. intros e n. induction n; cbn [repeatT]; constructor; [apply Sc_zero | assumption]. Qed.

Lemma filter_pos_Sc : forall e l l', Forall2 (Sc e) l l' ->
  Forall2 (Sc e) (filter (fun v => PrimFloat.ltb 0 v) l) (filter (fun v => PrimFloat.ltb 0 v) l').
Proof.
  intros e l l' H. induction H as [|x x' l l' Hx Hl IH]; [constructor|].
  cbn [filter]. rewrite (Sc_ltb_0l e x x' Hx).
  destruct (PrimFloat.ltb 0 x); [constructor|]; assumption.
Qed.

Fixpoint sumb (l : list float) (acc : float) : bool :=
  match l with
  | [] => true
  | x :: r => addb acc x && sumb r (acc + x)%float
  end.

Lemma sumb_ok : forall e, (-500 <= e <= 500)%Z -> forall l l', Forall2 (Sc e) l l' ->
  forall a a', Sc e a a' -> sumb l a = true ->
  Sc e (fold_left PrimFloat.add l a) (fold_left PrimFloat.add l' a').
Proof.
  intros e He l l' H. induction H as [|x x' l l' Hx Hl IH]; intros a a' Ha Hb; [exact Ha|].
  cbn [sumb] in Hb. spl Hb H1 H2.
  cbn [fold_left]. apply IH; [|exact H2]. apply (addb_ok e He); assumption.
Qed.


(** the checker: the positive regrets are summed without leaving the window, and every
    positive regret divided by the sum stays finite *)
Definition rmb (row : list float) : bool :=
  let pos := filter (fun v => PrimFloat.ltb 0 v) row in
  let norm := fold_left PrimFloat.add pos 0%float in
  sumb pos 0%float &&
  (if PrimFloat.ltb 0 norm
   then forallb (fun r => if PrimFloat.ltb 0 r then rdivb r norm else true) row
   else true).

Lemma arg_Sc : forall e r r', Forall2 (Sc e) r r' -> forall i bi bv bv', Sc e bv bv' ->
  @argmax_last FNum r' i bi bv' = @argmax_last FNum r i bi bv /\
  @argmin_first FNum r' i bi bv' = @argmin_first FNum r i bi bv.
Proof.
  intros e r r' H. induction H as [|x x' l l' Hx Hl IH]; intros i bi bv bv' Hb;
    [split; reflexivity|].
  cbn [argmax_last argmin_first]. cbn [ltb FNum]. rewrite (Sc_ltb e x x' bv bv' Hx Hb).
  destruct (PrimFloat.ltb x bv); split; apply IH; assumption.
Qed.

Lemma map_div_Sc : forall e t t', Sc e t t' ->
  forall l l', Forall2 (Sc e) l l' ->
  forallb (fun r => if PrimFloat.ltb 0 r then rdivb r t else true) l = true ->
  map (fun r => if PrimFloat.ltb 0 r then (r / t')%float else 0%float) l' =
  map (fun r => if PrimFloat.ltb 0 r then (r / t)%float else 0%float) l.
Proof.
  intros e t t' Ht l l' H. induction H as [|x x' l l' Hx Hl IH]; intros Hb; [reflexivity|].
  cbn [forallb] in Hb. spl Hb H1 H2.
  cbn [map]. rewrite (IH H2), (Sc_ltb_0l e x x' Hx). f_equal.
  destruct (PrimFloat.ltb 0 x); [|reflexivity].
  apply (rdivb_ok e x x' t t' H1 Hx Ht).
Qed.

(** [nosoftmax p]: the fallback [a_nopos p] is [0] (uniform), [+inf] (arg-max) or
    [-inf] (arg-min). *)
Theorem regret_match_scale : forall (e : Z) (p : @params FNum) (row row' : list float),
  (-500 <= e <= 500)%Z -> nosoftmax p ->
  Forall2 (Sc e) row row' -> rmb row = true ->
  @regret_match FNum p row' = @regret_match FNum p row.
Proof.
  intros e p row row' He Hns H Hb.
  unfold rmb in Hb. spl Hb Hb1 Hb2.
  assert (Hpos := filter_pos_Sc e row row' H).
  assert (Hnorm := sumb_ok e He _ _ Hpos 0%float 0%float (Sc_zero e) Hb1).
  unfold regret_match, sum, lenT. cbn [ltb zero add div T FNum].
  rewrite <- (Forall2_len _ _ _ H), (Sc_ltb_0l e _ _ Hnorm).
  destruct (PrimFloat.ltb 0 (fold_left PrimFloat.add (filter (fun v => PrimFloat.ltb 0 v) row) 0%float)).
  - apply (map_div_Sc e _ _ Hnorm _ _ H Hb2).
  - unfold nosoftmax in Hns. destruct (a_nopos p) as [|w|].
    + destruct H as [|v v' r r' Hv Hr]; [reflexivity|].
      rewrite (proj2 (arg_Sc e r r' Hr 1%nat O v v' Hv)). reflexivity.
    + cbn [eqb FNum]. rewrite Hns. reflexivity.
    + destruct H as [|v v' r r' Hv Hr]; [reflexivity|].
      rewrite (proj1 (arg_Sc e r r' Hr 1%nat O v v' Hv)). reflexivity.
Qed.


Definition RiSc (e : Z) (ri ri' : rinfo) : Prop :=
  Forall2 (Sc e) (cum_regret ri) (cum_regret ri') /\
  cum_strat ri' = cum_strat ri /\ strat ri' = strat ri.

Definition StSc (e : Z) (st st' : pstate) : Prop :=
  Forall2 (RiSc e) (fst st) (fst st') /\ Forall2 (RiSc e) (snd st) (snd st').

Lemma RiSc_default : forall e, RiSc e (@mkRinfo FNum [] [] []) (@mkRinfo FNum [] [] []).
Proof. intros e. split; [constructor | split; reflexivity]. Qed.

Lemma StSc_get : forall e st st' pl i, StSc e st st' ->
  RiSc e (@ri_get FNum st pl i) (@ri_get FNum st' pl i).
Proof.
  intros e st st' pl i [H1 H2]. unfold ri_get, ps_get.
  destruct pl; apply Forall2_nth; try assumption; apply RiSc_default.
Qed.

Lemma StSc_set : forall e st st' pl i ri ri', StSc e st st' -> RiSc e ri ri' ->
  StSc e (@ri_set FNum st pl i ri) (@ri_set FNum st' pl i ri').
Proof.
  intros e st st' pl i ri ri' [H1 H2] Hri. unfold ri_set, ps_set, ps_get.
  destruct pl; split; cbn [fst snd]; try assumption; apply Forall2_upd; assumption.
Qed.

Lemma StSc_set_regret : forall e st st' pl i cr cr', StSc e st st' -> Forall2 (Sc e) cr cr' ->
  StSc e (@ri_set FNum st pl i (@mkRinfo FNum cr (cum_strat (@ri_get FNum st pl i))
                                        (strat (@ri_get FNum st pl i))))
         (@ri_set FNum st' pl i (@mkRinfo FNum cr' (cum_strat (@ri_get FNum st' pl i))
                                         (strat (@ri_get FNum st' pl i)))).
Proof.
  intros e st st' pl i cr cr' Hst Hcr.
  destruct (StSc_get e st st' pl i Hst) as [_ Heq].
  apply StSc_set; [exact Hst | split; [exact Hcr | exact Heq]].
Qed.


Definition PairR {A B : Type} (RA : A -> A -> Prop) (RB : B -> B -> Prop) (x x' : A * B) : Prop :=
  RA (fst x) (fst x') /\ RB (snd x) (snd x').

(** The checker, abstracted over the recursive call [rec] (the unscaled traversal) and
    the recursive checker [chk].  Every test is on values of the unscaled run. *)
Section ChkLoops.
  Context (e : Z).
  Context (rec : node -> float -> float -> float -> pstate -> float * pstate).
  Context (chk : node -> float -> float -> float -> pstate -> bool).

  Definition cpick (pc p1 p2 : float) (st : pstate) :=
    fix pick (ks : list node) (k : nat) {struct ks} : bool :=
      match ks with
      | [] => true
      | c :: r =>
          match k with
          | O => chk c (pc * 1)%float p1 p2 st &&
                 (let pay := fst (rec c (pc * 1)%float p1 p2 st) in
                  mulb e 1 pay && addb 0 (1 * pay))
          | S k' => pick r k'
          end
      end.

  Definition cgo_chance (pc p1 p2 : float) :=
    fix go (ps : list float) (ks : list node) (expected : float) (st : pstate) {struct ks} : bool :=
      match ps, ks with
      | p :: ps', c :: ks' =>
          chk c (pc * p)%float p1 p2 st &&
          (let r := rec c (pc * p)%float p1 p2 st in
           mulb e p (fst r) && addb expected (p * fst r) &&
           go ps' ks' (expected + p * fst r)%float (snd r))
      | _, _ => true
      end.

  Definition cgo_player (pl : bool) (i : nat) (pc p1 p2 mult : float) :=
    fix go (ks : list node) (ss : list float) (ai : nat) (e1 ee : float) (st : pstate)
           {struct ks} : bool :=
      match ks, ss with
      | c :: ks', prob :: ss' =>
          let q := if pl then ((p1 * prob)%float, p2) else (p1, (p2 * prob)%float) in
          chk c pc (fst q) (snd q) st &&
          (let r := rec c pc (fst q) (snd q) st in
           let util := (fst r * mult)%float in
           let ri' := @ri_get FNum (snd r) pl i in
           let cr := cum_regret ri' in
           let st'' := @ri_set FNum (snd r) pl i
                              (@mkRinfo FNum (upd cr ai (nth ai cr 0 + util)%float)
                                       (cum_strat ri') (strat ri')) in
           mulb e (fst r) mult && addb (nth ai cr 0%float) util &&
           mulb e prob (fst r) && addb e1 (prob * fst r) &&
           mulb e util prob && addb ee (util * prob) &&
           go ks' ss' (S ai) (e1 + prob * fst r)%float (ee + util * prob)%float st'')
      | _, _ => true
      end.
End ChkLoops.

Section VChk.
  Context (e : Z) (chance : list (list float)) (sampled : bool) (draw : @oracle FNum) (pass : N).
  Local Notation vr := (@vrec FNum chance sampled draw pass).

  (** written with the loops inlined as nested [fix]es, which is what the guard condition
      accepts; the equations below fold them back into the loops the lemmas induct on *)
  Fixpoint vchk (n : node) (pc p1 p2 : float) (st : pstate) {struct n} : bool :=
    match n with
    | Term x => termb e x
    | Chance ci kids =>
        if sampled then
          (fix pick (ks : list node) (k : nat) {struct ks} : bool :=
            match ks with
            | [] => true
            | c :: r =>
                match k with
                | O => vchk c (pc * 1)%float p1 p2 st &&
                       (let pay := fst (vr c (pc * 1)%float p1 p2 st) in
                        mulb e 1 pay && addb 0 (1 * pay))
                | S k' => pick r k'
                end
            end) kids (draw true ci pass (@row FNum chance ci))
        else
          (fix go (ps : list float) (ks : list node) (expected : float) (st : pstate) {struct ks} : bool :=
            match ps, ks with
            | p :: ps', c :: ks' =>
                vchk c (pc * p)%float p1 p2 st &&
                (let r := vr c (pc * p)%float p1 p2 st in
                 mulb e p (fst r) && addb expected (p * fst r) &&
                 go ps' ks' (expected + p * fst r)%float (snd r))
            | _, _ => true
            end) (@row FNum chance ci) kids 0%float st
    | Player pl i kids =>
        let ri := @ri_get FNum st pl i in
        let mine := if pl then p1 else p2 in
        let cs := map (fun vc : float * float => (snd vc + mine * fst vc)%float)
                      (combine (strat ri) (cum_strat ri)) in
        let st0 := @ri_set FNum st pl i (@mkRinfo FNum (cum_regret ri) cs (strat ri)) in
        let mult := if pl then (pc * p2)%float else (- p1 * pc)%float in
        (fix go (ks : list node) (ss : list float) (ai : nat) (e1 ee : float) (st : pstate)
                {struct ks} : bool :=
           match ks, ss with
           | c :: ks', prob :: ss' =>
               let q := if pl then ((p1 * prob)%float, p2) else (p1, (p2 * prob)%float) in
               vchk c pc (fst q) (snd q) st &&
               (let r := vr c pc (fst q) (snd q) st in
                let util := (fst r * mult)%float in
                let ri' := @ri_get FNum (snd r) pl i in
                let cr := cum_regret ri' in
                let st'' := @ri_set FNum (snd r) pl i
                                   (@mkRinfo FNum (upd cr ai (nth ai cr 0 + util)%float)
                                            (cum_strat ri') (strat ri')) in
                mulb e (fst r) mult && addb (nth ai cr 0%float) util &&
                mulb e prob (fst r) && addb e1 (prob * fst r) &&
                mulb e util prob && addb ee (util * prob) &&
                go ks' ss' (S ai) (e1 + prob * fst r)%float (ee + util * prob)%float st'')
           | _, _ => true
           end) kids (strat ri) O 0%float 0%float st0 &&
        (let '(_, ee, st2) := fgo_player vr pl i pc p1 p2 mult kids (strat ri) O 0%float 0%float st0 in
         forallb (fun v => addb v ee) (cum_regret (@ri_get FNum st2 pl i)))
    end.

  Lemma vchk_Term : forall x pc p1 p2 st, vchk (Term x) pc p1 p2 st = termb e x.
  Proof. reflexivity. Qed.

  Lemma vchk_Chance : forall ci kids pc p1 p2 st,
    vchk (Chance ci kids) pc p1 p2 st =
    if sampled then cpick e vr vchk pc p1 p2 st kids (draw true ci pass (@row FNum chance ci))
    else cgo_chance e vr vchk pc p1 p2 (@row FNum chance ci) kids 0%float st.
  Proof. reflexivity. Qed.

  Lemma vchk_Player : forall pl i kids pc p1 p2 st,
    vchk (Player pl i kids) pc p1 p2 st =
    let ri := @ri_get FNum st pl i in
    let mine := if pl then p1 else p2 in
    let cs := map (fun vc : float * float => (snd vc + mine * fst vc)%float)
                  (combine (strat ri) (cum_strat ri)) in
    let st0 := @ri_set FNum st pl i (@mkRinfo FNum (cum_regret ri) cs (strat ri)) in
    let mult := if pl then (pc * p2)%float else (- p1 * pc)%float in
    cgo_player e vr vchk pl i pc p1 p2 mult kids (strat ri) O 0%float 0%float st0 &&
    (let '(_, ee, st2) := fgo_player vr pl i pc p1 p2 mult kids (strat ri) O 0%float 0%float st0 in
     forallb (fun v => addb v ee) (cum_regret (@ri_get FNum st2 pl i))).
  Proof. reflexivity. Qed.
End VChk.

Lemma map_sub_Sc : forall e, (-500 <= e <= 500)%Z -> forall x x', Sc e x x' ->
  forall l l', Forall2 (Sc e) l l' -> forallb (fun v => addb v x) l = true ->
  Forall2 (Sc e) (map (fun v => (v - x)%float) l) (map (fun v => (v - x')%float) l').
Proof.
  intros e He x x' Hx l l' H. induction H as [|v v' l l' Hv Hl IH]; intros Hb; [constructor|].
  cbn [forallb] in Hb. spl Hb Hb1 Hb2. cbn [map]. constructor; [|apply IH; exact Hb2].
  apply (subb_ok e He); assumption.
Qed.

Section VScale.
  Context (c : float) (e : Z) (Hc : IsPow2 c e) (He : (-500 <= e <= 500)%Z).
  Context (rec rec' : node -> float -> float -> float -> pstate -> float * pstate).
  Context (chk : node -> float -> float -> float -> pstate -> bool).

  (** what a traversal of [scale_node c k] does, compared with the traversal of [k] *)
  Definition VSpec (k : node) : Prop := forall pc p1 p2 st st',
    StSc e st st' -> chk k pc p1 p2 st = true ->
    Sc e (fst (rec k pc p1 p2 st)) (fst (rec' (scale_node c k) pc p1 p2 st')) /\
    StSc e (snd (rec k pc p1 p2 st)) (snd (rec' (scale_node c k) pc p1 p2 st')).

  Lemma cgo_chance_ok : forall pc p1 p2 ks, Forall VSpec ks -> forall ps ex ex' st st',
    Sc e ex ex' -> StSc e st st' -> cgo_chance e rec chk pc p1 p2 ps ks ex st = true ->
    PairR (Sc e) (StSc e) (fgo_chance rec pc p1 p2 ps ks ex st)
                          (fgo_chance rec' pc p1 p2 ps (map (scale_node c) ks) ex' st').
  Proof.
    intros pc p1 p2 ks HK.
    induction HK as [|k0 ks Hk HK IH]; intros ps ex ex' st st' Hex Hst Hb.
    - destruct ps; split; assumption.
    - destruct ps as [|p ps]; [split; assumption|].
      cbn [cgo_chance] in Hb. cbn [map fgo_chance].
      spl Hb Hb1 Hb2. cbv zeta in Hb2. spl Hb2 Hb2 Hb4. spl Hb2 Hb2 Hb3.
      destruct (Hk (pc * p)%float p1 p2 st st' Hst Hb1) as [Hv Hs].
      destruct (rec k0 (pc * p)%float p1 p2 st) as [pay st1].
      destruct (rec' (scale_node c k0) (pc * p)%float p1 p2 st') as [pay' st1'].
      apply IH; [|exact Hs|exact Hb4].
      exact (addb_ok e He _ _ _ _ Hb3 Hex (mulb_r e He _ _ _ Hb2 Hv)).
  Qed.

  (** the sampled kid is visited as by the loop over that kid alone, with probability one *)
  Lemma cpick_ok : forall pc p1 p2 st st' ks, Forall VSpec ks -> StSc e st st' -> forall k,
    cpick e rec chk pc p1 p2 st ks k = true ->
    PairR (Sc e) (StSc e) (fpick rec pc p1 p2 st ks k)
                          (fpick rec' pc p1 p2 st' (map (scale_node c) ks) k).
  Proof.
    intros pc p1 p2 st st' ks HK Hst.
    induction HK as [|k0 ks Hk HK IH]; intros k Hb.
    - split; [apply Sc_zero | exact Hst].
    - cbn [map]. destruct k as [|k]; cbn [cpick] in Hb; cbn [fpick]; [|apply IH; exact Hb].
      apply (cgo_chance_ok pc p1 p2 [k0] (Forall_cons _ Hk (Forall_nil _)) [1%float]
               0%float 0%float st st' (Sc_zero e) Hst).
      cbn [cgo_chance]. rewrite andb_true_r. exact Hb.
  Qed.

  Lemma cgo_player_ok : forall pl i pc p1 p2 mult ks, Forall VSpec ks ->
    forall ss ai e1 e1' ee ee' st st',
    Sc e e1 e1' -> Sc e ee ee' -> StSc e st st' ->
    cgo_player e rec chk pl i pc p1 p2 mult ks ss ai e1 ee st = true ->
    PairR (PairR (Sc e) (Sc e)) (StSc e)
      (fgo_player rec pl i pc p1 p2 mult ks ss ai e1 ee st)
      (fgo_player rec' pl i pc p1 p2 mult (map (scale_node c) ks) ss ai e1' ee' st').
  Proof.
    intros pl i pc p1 p2 mult ks HK.
    induction HK as [|k0 ks Hk HK IH]; intros ss ai e1 e1' ee ee' st st' H1 H2 Hst Hb.
    - destruct ss; (split; [split|]); assumption.
    - destruct ss as [|prob ss]; [split; [split|]; assumption|].
      cbn [cgo_player] in Hb. cbn [map fgo_player].
      set (q := if pl then ((p1 * prob)%float, p2) else (p1, (p2 * prob)%float)) in *.
      destruct q as [q1 q2]. cbn [fst snd] in Hb. cbv zeta in Hb.
      spl Hb Hb1 Hb. spl Hb Hb Hb8. spl Hb Hb Hb7. spl Hb Hb Hb6. spl Hb Hb Hb5.
      spl Hb Hb Hb4. spl Hb Hb2 Hb3.
      destruct (Hk pc q1 q2 st st' Hst Hb1) as [Hv Hs].
      destruct (rec k0 pc q1 q2 st) as [u st1].
      destruct (rec' (scale_node c k0) pc q1 q2 st') as [u' st1'].
      cbn [fst snd] in Hv, Hs, Hb2, Hb3, Hb4, Hb5, Hb6, Hb7, Hb8. cbv zeta.
      assert (Hutil : Sc e (u * mult)%float (u' * mult)%float) by exact (mulb_l e He _ _ _ Hb2 Hv).
      apply IH; [| | |exact Hb8].
      + exact (addb_ok e He _ _ _ _ Hb5 H1 (mulb_r e He _ _ _ Hb4 Hv)).
      + exact (addb_ok e He _ _ _ _ Hb7 H2 (mulb_l e He _ _ _ Hb6 Hutil)).
      + apply StSc_set_regret; [exact Hs|].
        destruct (StSc_get e st1 st1' pl i Hs) as [Hcr _].
        apply Forall2_upd; [exact Hcr|].
        apply (addb_ok e He); [exact Hb3 | apply Forall2_nth; [exact Hcr | apply Sc_zero] | exact Hutil].
  Qed.
End VScale.

Theorem vrec_scale : forall (c : float) (e : Z) (chance : list (list float)) (sampled : bool)
    (draw : @oracle FNum) (pass : N),
  IsPow2 c e -> (-500 <= e <= 500)%Z ->
  forall n : node,
  VSpec c e (@vrec FNum chance sampled draw pass) (@vrec FNum chance sampled draw pass)
        (vchk e chance sampled draw pass) n.
Proof.
  intros c e chance sampled draw pass Hc He.
  induction n as [x|ci kids IH|pl i kids IH] using node_ind'; intros pc p1 p2 st st' Hst Hb.
  - rewrite vchk_Term in Hb. rewrite scale_node_Term, !fvrec_Term. cbn [fst snd].
    split; [apply (termb_Sc c e); assumption | exact Hst].
  - rewrite scale_node_Chance.
    rewrite vchk_Chance in Hb. rewrite !fvrec_Chance. destruct sampled.
    + apply (cpick_ok c e He _ _ (vchk e chance true draw pass)); assumption.
    + apply (cgo_chance_ok c e He _ _ (vchk e chance false draw pass)); try assumption.
      apply Sc_zero.
  - rewrite scale_node_Player.
    rewrite vchk_Player in Hb. rewrite !fvrec_Player. cbv zeta in Hb |- *.
    destruct (StSc_get e st st' pl i Hst) as [Hcr [Hcs Hstr]].
    rewrite Hcs, Hstr.
    spl Hb Hb1 Hb2.
    set (mult := if pl then (pc * p2)%float else (- p1 * pc)%float) in *.
    set (st0 := @ri_set FNum st pl i _) in *.
    set (st0' := @ri_set FNum st' pl i _).
    assert (Hst0 : StSc e st0 st0').
    { apply StSc_set; [exact Hst|]. split; [exact Hcr | split; reflexivity]. }
    destruct (cgo_player_ok c e He _ (@vrec FNum chance sampled draw pass) _ _ _ _ _ _ _ _ IH
                _ _ _ _ _ _ _ _ (Sc_zero e) (Sc_zero e) Hst0 Hb1) as [[G1 G2] G3].
    destruct (fgo_player _ pl i pc p1 p2 mult kids _ O _ _ st0) as [[e1 ee] st2].
    destruct (fgo_player _ pl i pc p1 p2 mult (map (scale_node c) kids) _ O _ _ st0')
      as [[e1' ee'] st2'].
    cbn [fst snd] in G1, G2, G3 |- *.
    split; [exact G1|].
    apply StSc_set_regret; [exact G3|].
    destruct (StSc_get e st2 st2' pl i G3) as [Hcr2 _].
    apply (map_sub_Sc e He); assumption.
Qed.


Definition dcrb (e : Z) (p : @params FNum) (it : N) (cr : list float) : bool :=
  forallb (fun r => if PrimFloat.ltb 0 r then mulb e r (@gen_discount FNum it (a_pos p))
                    else if PrimFloat.ltb r 0 then mulb e r (@gen_discount FNum it (a_neg p))
                    else true) cr.

Definition crbb (e : Z) (it : N) (cr : list float) : bool :=
  let m := f_max (match cr with [] => 0%float | x :: r => fold_left f_max r x end) 0 in
  mulb e 2 m && qdivb e (2 * m)%float (f_of_N it).

Definition advb (e : Z) (p : @params FNum) (it : N) (ri : rinfo) : bool :=
  rmb (cum_regret ri) && dcrb e p it (cum_regret ri) &&
  crbb e it (@discount_cum_regret FNum p it (cum_regret ri)).

Fixpoint advallb (e : Z) (p : @params FNum) (it ia : N) (l : list rinfo) (acc : float) : bool :=
  match l with
  | [] => true
  | ri :: r =>
      advb e p it ri &&
      (let b := snd (@advance FNum p it ia ri) in
       addb acc b && advallb e p it ia r (acc + b)%float)
  end.

Section Advance.
  Context (e : Z) (He : (-500 <= e <= 500)%Z).

  Lemma dcr_scale : forall p it cr cr', Forall2 (Sc e) cr cr' -> dcrb e p it cr = true ->
    Forall2 (Sc e) (@discount_cum_regret FNum p it cr) (@discount_cum_regret FNum p it cr').
  Proof.
    intros p it cr cr' H. rewrite !discount_cum_regret_FNum. unfold dcrb.
    induction H as [|x x' l l' Hx Hl IH]; intros Hb; [constructor|].
    cbn [forallb] in Hb. spl Hb Hb1 Hb2. cbn [map]. constructor; [|apply IH; exact Hb2].
    rewrite (Sc_ltb_0l e x x' Hx), (Sc_ltb_0r e x x' Hx).
    destruct (PrimFloat.ltb 0 x); [apply (mulb_l e He); assumption|].
    destruct (PrimFloat.ltb x 0); [apply (mulb_l e He); assumption | exact Hx].
  Qed.

  Lemma crb_scale : forall it cr cr', Forall2 (Sc e) cr cr' -> crbb e it cr = true ->
    Sc e (@cum_regret_bound FNum it cr) (@cum_regret_bound FNum it cr').
  Proof.
    intros it cr cr' H Hb. rewrite !cum_regret_bound_FNum. unfold crbb in Hb. cbv zeta in Hb.
    spl Hb Hb1 Hb2.
    apply (qdivb_ok e He _ _ _ Hb2), (mulb_r e He _ _ _ Hb1), fmax_zero_Sc.
    destruct H as [|x x' l l' Hx Hl]; [apply Sc_zero | apply fold_fmax_Sc; assumption].
  Qed.

  Lemma advance_scale : forall p it ia ri ri', nosoftmax p -> RiSc e ri ri' ->
    advb e p it ri = true ->
    PairR (RiSc e) (Sc e) (@advance FNum p it ia ri) (@advance FNum p it ia ri').
  Proof.
    intros p it ia ri ri' Hns [Hcr [Hcs Hstr]] Hb. unfold advb in Hb.
    spl Hb Hb Hb3. spl Hb Hb1 Hb2.
    rewrite !advance_FNum. cbv zeta.
    assert (Hd := dcr_scale p it _ _ Hcr Hb2).
    split; cbn [fst snd]; [|apply crb_scale; assumption].
    split; [exact Hd|]. cbn [cum_strat strat]. rewrite Hcs. split; [reflexivity|].
    apply (regret_match_scale e p _ _ He Hns Hcr Hb1).
  Qed.

  Lemma advance_all_scale : forall p it ia, nosoftmax p -> forall l l', Forall2 (RiSc e) l l' ->
    forall acc acc', Sc e acc acc' -> advallb e p it ia l acc = true ->
    PairR (Forall2 (RiSc e)) (Sc e) (@advance_all FNum p it ia l acc)
                                    (@advance_all FNum p it ia l' acc').
  Proof.
    intros p it ia Hns l l' H. induction H as [|x x' l l' Hx Hl IH]; intros acc acc' Ha Hb.
    - split; [constructor | exact Ha].
    - cbn [advallb] in Hb. spl Hb Hb1 Hb2. cbv zeta in Hb2. spl Hb2 Hb2 Hb3.
      destruct (advance_scale p it ia x x' Hns Hx Hb1) as [G1 G2].
      cbn [advance_all]. cbn [add FNum].
      destruct (@advance FNum p it ia x) as [ri1 b1].
      destruct (@advance FNum p it ia x') as [ri1' b1'].
      cbn [fst snd] in G1, G2, Hb2, Hb3.
      destruct (IH _ _ (addb_ok e He _ _ _ _ Hb2 Ha G2) Hb3) as [F1 F2].
      destruct (@advance_all FNum p it ia l (acc + b1)%float) as [r1 a1].
      destruct (@advance_all FNum p it ia l' (acc' + b1')%float) as [r1' a1'].
      split; [constructor; assumption | exact F2].
  Qed.
End Advance.


Definition iterb (e : Z) (g : game) (sampled : bool) (draw : @oracle FNum) (p : @params FNum)
           (it : N) (st : pstate) : bool :=
  vchk e (g_chance g) sampled draw (it - 1)%N (g_root g) 1%float 1%float 1%float st &&
  (let st1 := snd (@vrec FNum (g_chance g) sampled draw (it - 1)%N (g_root g)
                         1%float 1%float 1%float st) in
   advallb e p it it (fst st1) 0%float && advallb e p it it (snd st1) 0%float).

Theorem vanilla_iter_scale : forall (c : float) (e : Z) (g : game) (sampled : bool)
    (draw : @oracle FNum) (p : @params FNum) (it : N) (st st' : pstate),
  IsPow2 c e -> (-500 <= e <= 500)%Z -> nosoftmax p ->
  StSc e st st' -> iterb e g sampled draw p it st = true ->
  PairR (StSc e) (PairR (Sc e) (Sc e))
    (@vanilla_iter FNum g sampled draw p it st)
    (@vanilla_iter FNum (scale_game c g) sampled draw p it st').
Proof.
  intros c e g sampled draw p it st st' Hc He Hns Hst Hb.
  unfold iterb in Hb. spl Hb Hb1 Hb2. cbv zeta in Hb2. spl Hb2 Hb2 Hb3.
  rewrite !vanilla_iter_F_eq. cbv zeta.
  change (g_chance (scale_game c g)) with (g_chance g).
  change (g_root (scale_game c g)) with (scale_node c (g_root g)).
  destruct (vrec_scale c e (g_chance g) sampled draw (it - 1)%N Hc He (g_root g)
              1%float 1%float 1%float st st' Hst Hb1) as [_ [S1 S2]].
  destruct (advance_all_scale e He p it it Hns _ _ S1 0%float 0%float (Sc_zero e) Hb2) as [A1 A2].
  destruct (advance_all_scale e He p it it Hns _ _ S2 0%float 0%float (Sc_zero e) Hb3) as [B1 B2].
  split; split; assumption.
Qed.


Definition meth (sampled : bool) : method := if sampled then Sampled else Full.

Fixpoint solveb (e : Z) (g : game) (sampled : bool) (draw : @oracle FNum) (p : @params FNum)
         (stop : float -> bool) (remaining : nat) (it : N) (st : pstate) {struct remaining} : bool :=
  match remaining with
  | O => true
  | S r =>
      iterb e g sampled draw p it st &&
      (let res := @vanilla_iter FNum g sampled draw p it st in
       if stop (f_max (fst (snd res)) (snd (snd res))) then true
       else solveb e g sampled draw p stop r (it + 1)%N (fst res))
  end.

Definition RegSc (e : Z) (regs regs' : option (float * float)) : Prop :=
  match regs, regs' with
  | None, None => True
  | Some ab, Some ab' => Sc e (fst ab) (fst ab') /\ Sc e (snd ab) (snd ab')
  | _, _ => False
  end.

Lemma one_iter_meth : forall (g : game) sampled draw p it st,
  @one_iter FNum g (meth sampled) draw p it st = @vanilla_iter FNum g sampled draw p it st.
Proof. intros g sampled draw p it st. destruct sampled; reflexivity. Qed.

Theorem solve_loop_scale : forall (c : float) (e : Z) (g : game) (sampled : bool)
    (draw : @oracle FNum) (p : @params FNum) (stop stop' : float -> bool),
  IsPow2 c e -> (-500 <= e <= 500)%Z -> nosoftmax p ->
  (forall x x', Sc e x x' -> stop' x' = stop x) ->
  forall (rem : nat) (it : N) (st st' : pstate) (regs regs' : option (float * float)) (ran : N),
  StSc e st st' -> RegSc e regs regs' ->
  solveb e g sampled draw p stop rem it st = true ->
  PairR (PairR (StSc e) (RegSc e)) eq
    (@solve_loop FNum g (meth sampled) draw p stop rem it st regs ran)
    (@solve_loop FNum (scale_game c g) (meth sampled) draw p stop' rem it st' regs' ran).
Proof.
  intros c e g sampled draw p stop stop' Hc He Hns Hstop.
  induction rem as [|rem IH]; intros it st st' regs regs' ran Hst Hregs Hb.
  - split; [split; assumption | reflexivity].
  - cbn [solveb] in Hb. spl Hb Hb1 Hb2. cbv zeta in Hb2.
    cbn [solve_loop]. rewrite !one_iter_meth.
    destruct (vanilla_iter_scale c e g sampled draw p it st st' Hc He Hns Hst Hb1) as [G1 [G2 G3]].
    destruct (@vanilla_iter FNum g sampled draw p it st) as [st1 [r1 r2]].
    destruct (@vanilla_iter FNum (scale_game c g) sampled draw p it st') as [st1' [r1' r2']].
    cbn [fst snd] in G1, G2, G3, Hb2. cbn [fmax FNum].
    rewrite (Hstop _ _ (Sc_fmax e r1 r1' r2 r2' G2 G3)).
    destruct (stop (f_max r1 r2)).
    + split; [split; [exact G1 | split; assumption] | reflexivity].
    + apply IH; [exact G1 | split; assumption | exact Hb2].
Qed.

Lemma final_strats_scale : forall e (st st' : pstate), StSc e st st' ->
  @final_strats FNum st' = @final_strats FNum st.
Proof.
  intros e st st' [H1 H2]. unfold final_strats.
  assert (Hm : forall l l', Forall2 (RiSc e) l l' ->
            map (fun ri : rinfo => @avg_strat FNum (cum_strat ri)) l' =
            map (fun ri : rinfo => @avg_strat FNum (cum_strat ri)) l).
  { intros l l' H. induction H as [|x x' l l' Hx Hl IH]; [reflexivity|].
    cbn [map]. destruct Hx as [_ [Hcs _]]. rewrite Hcs, IH. reflexivity. }
  rewrite (Hm _ _ H1), (Hm _ _ H2). reflexivity.
Qed.

Lemma init_state_scale : forall e (g : game), StSc e (@init_state FNum g) (@init_state FNum g).
Proof.
  intros e g. unfold init_state.
  assert (Hm : forall l : list pinfo,
            Forall2 (RiSc e) (map (fun pi => @rinfo_new FNum (length (pi_actions pi))) l)
                             (map (fun pi => @rinfo_new FNum (length (pi_actions pi))) l)).
  { induction l as [|x l IH]; cbn [map]; constructor; [|exact IH].
    unfold rinfo_new. split; [cbn [cum_regret]; apply Sc_refl0 | split; reflexivity]. }
  split; cbn [fst snd]; apply Hm.
Qed.

Definition msampled (m : method) : bool := match m with Full => false | _ => true end.

(** Whole solve, [Full] or [Sampled], every parameter set whose regret-matching
    fallback is not the softmax (vanilla, LCFR, CFR+, DCFR, ...), every oracle, stopping
    predicates that correspond: the strategies are equal, the bounds are [Sc e]-related,
    the number of iterations is the same.  The hypothesis [solveb ... = true] is the range
    checker; it runs the unscaled solve only. *)
Theorem solve_single_scale : forall (c : float) (e : Z) (g : game) (m : method)
    (draw : @oracle FNum) (p : @params FNum) (budget : nat) (stop stop' : float -> bool),
  IsPow2 c e -> (-500 <= e <= 500)%Z -> m <> External -> nosoftmax p ->
  (forall x x', Sc e x x' -> stop' x' = stop x) ->
  solveb e g (msampled m) draw p stop budget 1%N (@init_state FNum g) = true ->
  PairR (PairR eq (RegSc e)) eq
    (@solve_single FNum g m draw p budget stop)
    (@solve_single FNum (scale_game c g) m draw p budget stop').
Proof.
  intros c e g m draw p budget stop stop' Hc He Hm Hns Hstop Hb.
  assert (Em : m = meth (msampled m)) by (destruct m; try reflexivity; contradiction).
  rewrite Em. unfold solve_single.
  change (@init_state FNum (scale_game c g)) with (@init_state FNum g).
  destruct (solve_loop_scale c e g (msampled m) draw p stop stop' Hc He Hns Hstop budget 1%N
              _ _ None None 0%N (init_state_scale e g) I Hb) as [[G1 G2] G3].
  destruct (solve_loop g _ _ _ _ _ _ _ _ _) as [[st regs] ran].
  destruct (solve_loop (scale_game c g) _ _ _ _ _ _ _ _ _) as [[st' regs'] ran'].
  split; [split; [symmetry; apply (final_strats_scale e); exact G1 | exact G2] | exact G3].
Qed.

(** the bounds as an equality between floats: [b' = b * c], bit for bit *)
Definition scale_regs (c : float) (regs : option (float * float)) : option (float * float) :=
  match regs with
  | Some ab => Some ((fst ab * c)%float, (snd ab * c)%float)
  | None => None
  end.

Lemma RegSc_eq : forall c e regs regs', IsPow2 c e -> RegSc e regs regs' ->
  regs' = scale_regs c regs.
Proof.
  intros c e regs regs' Hc H. destruct regs as [[a b]|], regs' as [[a' b']|];
    cbn [RegSc fst snd scale_regs] in H |- *; try contradiction; [|reflexivity].
  destruct H as [H1 H2]. rewrite (Sc_eq c e a a' Hc H1), (Sc_eq c e b b' Hc H2). reflexivity.
Qed.

Theorem solve_single_scale_eq : forall (c : float) (e : Z) (g : game) (m : method)
    (draw : @oracle FNum) (p : @params FNum) (budget : nat) (stop stop' : float -> bool),
  IsPow2 c e -> (-500 <= e <= 500)%Z -> m <> External -> nosoftmax p ->
  (forall x x', Sc e x x' -> stop' x' = stop x) ->
  solveb e g (msampled m) draw p stop budget 1%N (@init_state FNum g) = true ->
  @solve_single FNum (scale_game c g) m draw p budget stop' =
  (fst (fst (@solve_single FNum g m draw p budget stop)),
   scale_regs c (snd (fst (@solve_single FNum g m draw p budget stop))),
   snd (@solve_single FNum g m draw p budget stop)).
Proof.
  intros c e g m draw p budget stop stop' Hc He Hm Hns Hstop Hb.
  destruct (solve_single_scale c e g m draw p budget stop stop' Hc He Hm Hns Hstop Hb)
    as [[G1 G2] G3].
  apply (RegSc_eq c e _ _ Hc) in G2.
  destruct (@solve_single FNum (scale_game c g) m draw p budget stop') as [[s' r'] n'].
  cbn [fst snd] in G1, G2, G3. subst s' r' n'. reflexivity.
Qed.

(** stopping predicates that correspond: never stopping (the [Sc] hypothesis is not needed;
    it is there because [solve_single_scale_eq] asks for a statement of this shape), and
    thresholds [r], [r'] with [r'] the scaling of [r] ([stop_at r x = (x <? r)]) *)
Lemma stop_never_corr : forall e x x', Sc e x x' ->
  (fun _ : float => false) x' = (fun _ : float => false) x.
Proof. reflexivity. Qed.

Lemma stop_at_corr : forall e r r', Sc e r r' ->
  forall x x', Sc e x x' -> @stop_at FNum r' x' = @stop_at FNum r x.
Proof. intros e r r' Hr x x' Hx. unfold stop_at. cbn [ltb FNum]. apply (Sc_ltb e); assumption. Qed.


Definition c200 : float := pow2 (-200).

Example exs_scale_check :
  solveb (-200) exs_g false exs_draw (@p_vanilla FNum) (fun _ => false) 10 1%N
         (@init_state FNum exs_g) = true.
Proof. vm_compute. reflexivity. Qed.

Example exs_scale_thm :
  @solve_single FNum (scale_game c200 exs_g) Full exs_draw (@p_vanilla FNum) 10 (fun _ => false) =
  (fst (fst (@solve_single FNum exs_g Full exs_draw (@p_vanilla FNum) 10 (fun _ => false))),
   scale_regs c200 (snd (fst (@solve_single FNum exs_g Full exs_draw (@p_vanilla FNum) 10 (fun _ => false)))),
   snd (@solve_single FNum exs_g Full exs_draw (@p_vanilla FNum) 10 (fun _ => false))).
Proof.
  apply (solve_single_scale_eq c200 (-200) exs_g Full exs_draw (@p_vanilla FNum) 10
           (fun _ => false) (fun _ => false)).
  - apply pow2_IsPow2. lia.
  - lia.
  - discriminate.
  - apply nosoftmax_vanilla.
  - exact (stop_never_corr (-200)).
  - exact exs_scale_check.
Qed.

(** both sides computed: the same strategies, bounds multiplied by [2^-200] *)
Example exs_scale_values :
  @solve_single FNum (scale_game c200 exs_g) Full exs_draw (@p_vanilla FNum) 10 (fun _ => false) =
  (([0x1.9d505b9c2bc46p-2; 0x1.3157d231ea1dep-1]%float,
    [0x1.2aaaaaaaaaaaap-1; 0x1.aaaaaaaaaaaabp-2]%float),
   Some (0x1.92b997d6275d6p-202, 0x1.4fce3ec460568p-203)%float, 10%N) /\
  @solve_single FNum exs_g Full exs_draw (@p_vanilla FNum) 10 (fun _ => false) =
  (([0x1.9d505b9c2bc46p-2; 0x1.3157d231ea1dep-1]%float,
    [0x1.2aaaaaaaaaaaap-1; 0x1.aaaaaaaaaaaabp-2]%float),
   Some (0x1.92b997d6275d6p-2, 0x1.4fce3ec460568p-3)%float, 10%N).
Proof. split; vm_compute; reflexivity. Qed.

(** the chance-sampled method and CFR+ (one-hot fallback), the unit [2^150] *)
Example exs_scale_check_sampled :
  solveb 150 exs_g true exs_draw (@p_cfr_plus FNum) (fun _ => false) 10 1%N
         (@init_state FNum exs_g) = true.
Proof. vm_compute. reflexivity. Qed.

Example exs_scale_thm_sampled :
  @solve_single FNum (scale_game (pow2 150) exs_g) Sampled exs_draw (@p_cfr_plus FNum) 10 (fun _ => false) =
  (fst (fst (@solve_single FNum exs_g Sampled exs_draw (@p_cfr_plus FNum) 10 (fun _ => false))),
   scale_regs (pow2 150)
     (snd (fst (@solve_single FNum exs_g Sampled exs_draw (@p_cfr_plus FNum) 10 (fun _ => false)))),
   snd (@solve_single FNum exs_g Sampled exs_draw (@p_cfr_plus FNum) 10 (fun _ => false))).
Proof.
  apply (solve_single_scale_eq (pow2 150) 150 exs_g Sampled exs_draw (@p_cfr_plus FNum) 10
           (fun _ => false) (fun _ => false)).
  - apply pow2_IsPow2. lia.
  - lia.
  - discriminate.
  - apply nosoftmax_cfr_plus.
  - exact (stop_never_corr 150).
  - exact exs_scale_check_sampled.
Qed.

(** early termination: thresholds [0.25] and [0.25 * 2^-200] stop at the same iteration *)
Example exs_scale_thm_stop :
  @solve_single FNum (scale_game c200 exs_g) Full exs_draw (@p_vanilla FNum) 50
                (@stop_at FNum (0.25 * c200)%float) =
  (fst (fst (@solve_single FNum exs_g Full exs_draw (@p_vanilla FNum) 50 (@stop_at FNum 0.25%float))),
   scale_regs c200
     (snd (fst (@solve_single FNum exs_g Full exs_draw (@p_vanilla FNum) 50 (@stop_at FNum 0.25%float)))),
   snd (@solve_single FNum exs_g Full exs_draw (@p_vanilla FNum) 50 (@stop_at FNum 0.25%float))) /\
  snd (@solve_single FNum exs_g Full exs_draw (@p_vanilla FNum) 50 (@stop_at FNum 0.25%float)) = 15%N.
Proof.
  assert (Hc : IsPow2 c200 (-200)) by (apply pow2_IsPow2; lia).
  split; [|vm_compute; reflexivity].
  apply (solve_single_scale_eq c200 (-200) exs_g Full exs_draw (@p_vanilla FNum) 50).
  - exact Hc.
  - lia.
  - discriminate.
  - apply nosoftmax_vanilla.
  - apply stop_at_corr. apply (termb_Sc c200 (-200)); [exact Hc | lia | vm_compute; reflexivity].
  - vm_compute. reflexivity.
Qed.

(** the range hypothesis is not vacuous: on the same game expressed in the unit [2^-900]
    the checker refuses [e = -200] (the products would underflow), and indeed the game in
    the unit [2^-1100] is solved differently (every regret underflows to zero: uniform
    strategies) *)
Example exs_scale_refused :
  solveb (-200) (scale_game (pow2 (-900)) exs_g) false exs_draw (@p_vanilla FNum) (fun _ => false) 10 1%N
         (@init_state FNum exs_g) = false /\
  fst (fst (@solve_single FNum (scale_game c200 (scale_game (pow2 (-900)) exs_g)) Full exs_draw
                          (@p_vanilla FNum) 10 (fun _ => false))) <>
  fst (fst (@solve_single FNum (scale_game (pow2 (-900)) exs_g) Full exs_draw
                          (@p_vanilla FNum) 10 (fun _ => false))).
Proof.
  split; [vm_compute; reflexivity|].
  intros H.
  apply (f_equal (fun s : list float * list float =>
                    match fst s with x :: _ => PrimFloat.eqb x 0.5 | [] => false end)) in H.
  revert H. vm_compute. discriminate.
Qed.
