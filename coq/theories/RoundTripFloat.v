(** * RoundTripFloat: the named view / import round trip at binary64 (instance [FNum]).

    Property C13: "importing that view back yields the original profile (up to
    rounding in the last place)".  The named view lists the positive entries of
    a stored row; the import writes them into a dense row (the other entries are
    [+0]) and runs [finish_row row (sum row)] on it.  So the round trip of a
    stored row [r] is [trip r := finish_row r (sum r)].  This file proves, for
    the very function the correspondence check executes, that a round trip moves
    every entry by a few units in the last place at most, that rows whose float
    sum is exactly 1 are fixed points bit for bit, and that repeated round trips
    do not drift by more than the same bound per trip. *)
From Coq Require Import List ZArith NArith Reals Floats Bool Lia Lra.
From Flocq Require Import Core IEEE754.BinarySingleNaN IEEE754.PrimFloat Plus_error Relative.
From Cfr.theories Require Import Num ListAux FInst Tree Strat TruncFloat NormFloat.
Import ListNotations.

Local Existing Instance Flocq.IEEE754.PrimFloat.Hprec.
Local Existing Instance Flocq.IEEE754.PrimFloat.Hmax.

Local Open Scope R_scope.
Local Notation float := PrimFloat.float.
Local Notation Hp := Flocq.IEEE754.PrimFloat.Hprec.
Local Notation Hm := Flocq.IEEE754.PrimFloat.Hmax.

Local Instance fexp_valid'' : Valid_exp (SpecFloat.fexp prec emax) := fexp_correct prec emax Hp.

Definition trip (r : list float) : list float := @finish_row FNum r (@sum FNum r).

Lemma Bdiv_one : forall x : binary_float prec emax,
  is_finite x = true -> Bdiv mode_NE x Bone = x.
Proof.
  intros x Hx.
  assert (H1 : B2R (@Bone prec emax Hp Hm) <> 0) by (rewrite Bone_correct; lra).
  generalize (Bdiv_correct prec emax Hp Hm mode_NE x Bone H1).
  change (round_mode mode_NE) with ZnearestE.
  rewrite Bone_correct. unfold Rdiv. rewrite Rinv_1, Rmult_1_r.
  fold (rnd (B2R x)).
  rewrite (rnd_fmt (B2R x)) by apply generic_format_B2R.
  rewrite Rlt_bool_true by (apply abs_B2R_lt_emax).
  intros [E1 [E2 E3]].
  assert (Hf : is_finite (Bdiv mode_NE x Bone) = true) by (rewrite E2; exact Hx).
  apply B2R_Bsign_inj; try assumption.
  rewrite E3.
  - rewrite Bsign_Bone. apply xorb_false_r.
  - destruct (Bdiv mode_NE x Bone); try discriminate Hf; reflexivity.
Qed.

Lemma div_one : forall x : float, Ffin x -> (x / 1)%float = x.
Proof.
  intros x Hx. apply Prim2B_inj. rewrite div_equiv, Prim2B_one. apply Bdiv_one. exact Hx.
Qed.

Theorem trip_fixed_one : forall r : list float,
  Forall Ffin r -> @sum FNum r = 1%float -> trip r = r.
Proof.
  intros r Hr Hs. unfold trip. rewrite Hs, finish_row_FNum.
  assert (H1 : f_is_fin 1%float = true) by (apply f_is_fin_true, Ffin_one).
  rewrite H1. clear Hs H1.
  induction Hr as [|x l Hx Hl IH]; cbn [map]; [reflexivity|].
  rewrite (div_one x Hx), IH. reflexivity.
Qed.

(** what the solver / an earlier import leaves in a row: finite entries in
    [0,1] whose exact sum is 1 up to [(2n+2) 2^-53] (the bound proved for
    [finish_row], [normalise], [avg_strat], [regret_match], [truncate_row]) *)
Definition stored (r : list float) : Prop :=
  Forall fin01 r /\
  Rabs (RS r - 1) <= (2 * INR (length r) + 2) * bpow radix2 (-53).

Lemma total_facts : forall r : list float,
  Forall fin01 r -> (Z.of_nat (length r) < 2 ^ 53)%Z ->
  let t := @sum FNum r in
  Ffin t /\ 0 <= FR t /\ Forall (fun p => FR p <= FR t) r /\
  Rabs (FR t - RS r) <= INR (length r) * u53 * FR t.
Proof.
  intros r Hr Hlen t.
  destruct (sum_fin01 r Hr Hlen) as [Hf [[H0 _] Hge]].
  repeat (split; [assumption|]). apply sum_err; [apply fin01_nonneg, Hr | exact Hf].
Qed.

(** the arithmetic of the bound: with [n <= 2^25] entries,
    [(6 n^2 + 16 n + 8) 2^-53 <= 1] *)
Lemma small_n_poly : forall n : nat, (Z.of_nat n <= 2 ^ 25)%Z ->
  u53 * (6 * (INR n * INR n) + 16 * INR n + 8) <= 1.
Proof.
  intros n Hn. rewrite <- u53_2p53.
  apply Rmult_le_compat_l; [left; apply u53_pos|].
  rewrite INR_IZR_INZ.
  set (z := Z.of_nat n) in *.
  replace (6 * (IZR z * IZR z) + 16 * IZR z + 8) with (IZR (6 * (z * z) + 16 * z + 8)).
  - apply IZR_le. assert (0 <= z)%Z by (unfold z; lia). nia.
  - rewrite !plus_IZR, !mult_IZR. reflexivity.
Qed.

Lemma total_near_one : forall r : list float,
  stored r -> (Z.of_nat (length r) <= 2 ^ 25)%Z ->
  let t := FR (@sum FNum r) in
  let N := INR (length r) in
  2 * N + 3 <= (2 * N + 4) * t /\ t <= 5 / 3.
Proof.
  intros r [Hr HS] Hlen t N.
  destruct (total_facts r Hr ltac:(lia)) as [Hf [Ht0 [_ HB]]].
  fold t in Ht0, HB. fold N in HB, HS. change (bpow radix2 (-53)) with u53 in HS.
  assert (Hu := u53_pos).
  assert (HN0 : 0 <= N) by apply pos_INR.
  assert (Hpoly := small_n_poly (length r) Hlen). fold N in Hpoly.
  set (a := N * u53) in *. set (d := (2 * N + 2) * u53) in *.
  assert (Ha0 : 0 <= a) by (apply Rmult_le_pos; lra).
  assert (HNN : 0 <= N * N) by (apply Rmult_le_pos; lra).
  assert (Ha4 : a <= / 4).
  { unfold a.
    assert (u53 * (4 * N) <= u53 * (6 * (N * N) + 16 * N + 8))
      by (apply Rmult_le_compat_l; lra).
    lra. }
  assert (Hd4 : d <= / 4).
  { unfold d.
    assert (u53 * (4 * (2 * N + 2)) <= u53 * (6 * (N * N) + 16 * N + 8))
      by (apply Rmult_le_compat_l; lra).
    lra. }
  apply Rabs_le_inv in HB. apply Rabs_le_inv in HS.
  assert (Hat : a * t <= / 4 * t) by (apply Rmult_le_compat_r; assumption).
  split; [|lra].
  set (D := 2 * N + 4). set (X := D * t).
  assert (HD : 0 < D) by (unfold D; lra).
  (* D t + a (D t) >= D - d D *)
  assert (H1 : D * (1 - d) <= X + a * X).
  { unfold X. replace (D * t + a * (D * t)) with (D * (t + a * t)) by lra.
    apply Rmult_le_compat_l; lra. }
  assert (Hsum : d * D + a * D <= 1).
  { unfold d, a, D.
    replace ((2 * N + 2) * u53 * (2 * N + 4) + N * u53 * (2 * N + 4))
      with (u53 * (6 * (N * N) + 16 * N + 8)) by lra.
    exact Hpoly. }
  destruct (Rle_or_lt (D - 1) X) as [H|H]; [unfold D in H; lra|].
  exfalso.
  assert (H2 : a * X <= a * (D - 1)) by (apply Rmult_le_compat_l; lra).
  lra.
Qed.

Lemma rnd_pos : forall x, bpow radix2 (-1075) < x -> 0 < rnd x.
Proof.
  intros x Hx.
  assert (He : 0 < bpow radix2 (-1075)) by apply bpow_gt_0.
  assert (Hh : bpow radix2 (-1074) = 2 * bpow radix2 (-1075)).
  { change (-1074)%Z with (1 + -1075)%Z. rewrite bpow_plus. reflexivity. }
  destruct (Rle_or_lt (bpow radix2 (-1074)) x) as [Hb|Hb].
  - apply Rlt_le_trans with (bpow radix2 (-1074)); [apply bpow_gt_0|].
    apply rnd_ge_fmt; [apply (fmt_bpow (-1074) (Z.le_refl _)) | exact Hb].
  - destruct (round_N_pt radix2 (SpecFloat.fexp prec emax) (fun n => negb (Z.even n)) x)
      as [_ Hn].
    specialize (Hn (bpow radix2 (-1074)) (fmt_bpow (-1074) (Z.le_refl _))).
    change (round radix2 (SpecFloat.fexp prec emax) (Znearest (fun n => negb (Z.even n))) x)
      with (rnd x) in Hn.
    rewrite (Rabs_pos_eq (bpow radix2 (-1074) - x)) in Hn by lra.
    assert (H := Rabs_le_inv _ _ Hn). lra.
Qed.

Lemma div_err_normal : forall x, bpow radix2 (-1022) <= x ->
  Rabs (rnd x - x) <= u53 * x.
Proof.
  intros x Hx.
  assert (H0 : 0 < x) by (apply Rlt_le_trans with (2 := Hx); apply bpow_gt_0).
  assert (H := relative_error_N_FLT radix2 (SpecFloat.emin prec emax) prec eq_refl
                 (fun n => negb (Z.even n)) x).
  change (round radix2 (FLT_exp (SpecFloat.emin prec emax) prec)
            (Znearest (fun n => negb (Z.even n))) x) with (rnd x) in H.
  rewrite (Rabs_pos_eq x) in H by lra.
  rewrite half_bpow in H. change (bpow radix2 (- prec + 1 - 1)) with u53 in H.
  apply H. exact Hx.
Qed.

(** One entry of the round trip: [p] an entry, [t] the float sum of the row, [S] the exact sum, [a = n 2^-53]
    the relative error of the float sum, [d = (2n+2) 2^-53] the distance of [S]
    from 1, [e0] the absolute error term of the division, [C] a bound on
    [(2n+3)/t]. *)
Lemma close_entry : forall (p t S N C e0 : R),
  0 <= p -> 0 < t -> 0 <= N ->
  Rabs (t - S) <= N * u53 * t ->
  Rabs (S - 1) <= (2 * N + 2) * u53 ->
  2 * N + 3 <= C * t ->
  Rabs (rnd (p / t) - p / t) <= u53 * (p / t) + e0 ->
  Rabs (rnd (p / t) - p) <= (N + C) * u53 * p + e0.
Proof.
  intros p t S N C e0 Hp Ht HN HB HS Hlow Hd.
  assert (Hu := u53_pos).
  set (K := / t).
  assert (HK0 : 0 < K) by (apply Rinv_0_lt_compat; exact Ht).
  assert (HKt : K * t = 1) by (apply Rinv_l; lra).
  set (a := N * u53) in *. set (d := (2 * N + 2) * u53) in *.
  (* |K - 1| <= a + d K *)
  assert (HK1 : Rabs (K - 1) <= a + d * K).
  { replace (K - 1) with (K * (1 - t)) by (rewrite Rmult_minus_distr_l, HKt; lra).
    rewrite Rabs_mult, (Rabs_pos_eq K) by lra.
    replace (a + d * K) with (K * (a * t + d)).
    - apply Rmult_le_compat_l; [lra|].
      apply Rabs_le_inv in HB. apply Rabs_le_inv in HS. apply Rabs_le. lra.
    - rewrite Rmult_plus_distr_l.
      replace (K * (a * t)) with (a * (K * t)) by lra. rewrite HKt. lra. }
  (* (2N+3) K <= C *)
  assert (HK2 : (2 * N + 3) * K <= C).
  { replace C with (C * t * K) by (rewrite Rmult_assoc, (Rmult_comm t), HKt; lra).
    apply Rmult_le_compat_r; lra. }
  unfold Rdiv in *. fold K in Hd |- *.
  set (q := p * K) in *.
  assert (Hqp : Rabs (q - p) <= p * (a + d * K)).
  { unfold q. replace (p * K - p) with (p * (K - 1)) by lra.
    rewrite Rabs_mult, (Rabs_pos_eq p) by exact Hp.
    apply Rmult_le_compat_l; assumption. }
  apply Rabs_le_inv in Hd. apply Rabs_le_inv in Hqp. apply Rabs_le.
  assert (Hfin : u53 * q + p * (a + d * K) <= (N + C) * u53 * p).
  { unfold q, a, d.
    replace (u53 * (p * K) + p * (N * u53 + (2 * N + 2) * u53 * K))
      with (u53 * p * (N + (2 * N + 3) * K)) by lra.
    replace ((N + C) * u53 * p) with (u53 * p * (N + C)) by lra.
    apply Rmult_le_compat_l; [apply Rmult_le_pos; lra | lra]. }
  lra.
Qed.

(** generic form: [C] bounds [(2n+3)/t], the float sum [t] is in (0,2) *)
Lemma trip_entries_gen : forall (r : list float) (C : R),
  stored r -> (Z.of_nat (length r) < 2 ^ 53)%Z ->
  let t := @sum FNum r in
  let out := trip r in
  let c := INR (length r) + C in
  0 < FR t -> FR t < 2 -> 2 * INR (length r) + 3 <= C * FR t ->
  length out = length r /\
  Ffin t /\
  forall k, (k < length r)%nat ->
    let p := nth k r 0%float in
    let y := nth k out 0%float in
    y = (p / t)%float /\
    FR y = rnd (FR p / FR t) /\
    (FR p = 0 -> FR y = 0) /\
    (p = 0%float -> y = 0%float) /\
    (0 < FR p -> 0 < FR y) /\
    Rabs (FR y - FR p) <= c * bpow radix2 (-53) * FR p + bpow radix2 (-1075) /\
    (bpow radix2 (-1021) <= FR p -> Rabs (FR y - FR p) <= c * bpow radix2 (-53) * FR p).
Proof.
  intros r C [Hr HS] Hlen t out c Hpos Hup Hlow.
  destruct (total_facts r Hr Hlen) as [Hf [_ [_ HB]]].
  destruct (finish_row_float_entries_fin r (Forall_fin01_finnn r Hr) Hf Hpos) as [Hl He].
  fold t in Hf, HB.
  set (N := INR (length r)) in *.
  assert (HN0 : 0 <= N) by apply pos_INR.
  change (bpow radix2 (-53)) with u53 in *.
  assert (Hu := u53_pos).
  split; [exact Hl|]. split; [exact Hf|].
  intros k Hk p y.
  destruct (He k Hk) as [E1' [_ [E3' [E4' [E5' _]]]]].
  assert (E1 : y = (p / t)%float) by exact E1'.
  assert (E3 : FR y = rnd (FR p / FR t)) by exact E3'.
  assert (E4 : FR p = 0 -> FR y = 0) by exact E4'.
  assert (E5 : p = 0%float -> y = 0%float) by exact E5'.
  clear E1' E3' E4' E5' He.
  assert (Hp : In p r) by (apply nth_In; exact Hk).
  rewrite Forall_forall in Hr. destruct (Hr p Hp) as [Hpf [Hp0 _]].
  split; [exact E1|]. split; [exact E3|]. split; [exact E4|]. split; [exact E5|].
  assert (HK : / 2 < / FR t).
  { apply Rinv_lt_contravar; [lra | lra]. }
  split; [|split].
  - intros Hpp. rewrite E3. apply rnd_pos.
    assert (Hpe := fmt_pos_ge_eta (FR p) (fmt_FR p) Hpp).
    apply Rle_lt_trans with (FR p * / 2).
    + change (-1074)%Z with (-1075 + 1)%Z in Hpe. rewrite bpow_plus in Hpe.
      change (bpow radix2 1) with 2 in Hpe. lra.
    + unfold Rdiv. apply Rmult_lt_compat_l; assumption.
  - rewrite E3. change (bpow radix2 (-1075)) with eta1075.
    apply (close_entry (FR p) (FR t) (RS r) N C eta1075 Hp0 Hpos HN0 HB HS Hlow).
    assert (Hq0 : 0 <= FR p / FR t).
    { apply Rmult_le_pos; [exact Hp0 | left; apply Rinv_0_lt_compat; exact Hpos]. }
    assert (Hd := div_err (FR p / FR t)). rewrite (Rabs_pos_eq _ Hq0) in Hd. exact Hd.
  - intros Hbig. rewrite E3.
    replace (c * u53 * FR p) with (c * u53 * FR p + 0) by lra.
    apply (close_entry (FR p) (FR t) (RS r) N C 0 Hp0 Hpos HN0 HB HS Hlow).
    rewrite Rplus_0_r. apply div_err_normal.
    apply Rle_trans with (bpow radix2 (-1021) * / 2).
    + change (-1021)%Z with (-1022 + 1)%Z. rewrite bpow_plus.
      change (bpow radix2 1) with 2. right. lra.
    + unfold Rdiv. apply Rmult_le_compat; try lra. apply bpow_ge_0.
Qed.

Lemma stored_sum_ok : forall r : list float,
  stored r -> (Z.of_nat (length r) <= 2 ^ 25)%Z ->
  Ffin (@sum FNum r) /\ 0 < FR (@sum FNum r) /\
  eqb FNum (@sum FNum r) (zero FNum) = false.
Proof.
  intros r Hst Hlen.
  destruct (total_near_one r Hst Hlen) as [Hlow _].
  destruct Hst as [Hr _].
  destruct (total_facts r Hr ltac:(lia)) as [Hf [Ht0 _]].
  assert (HN0 : 0 <= INR (length r)) by apply pos_INR.
  assert (Hpos : 0 < FR (@sum FNum r)).
  { destruct (Rle_lt_or_eq_dec 0 _ Ht0) as [H|H]; [exact H|].
    exfalso. rewrite <- H, Rmult_0_r in Hlow. lra. }
  split; [exact Hf|]. split; [exact Hpos | exact (eqb_zero_false _ Hf Hpos)].
Qed.

(** rows of at most [2^25] entries: every entry moves by at most
    [(3n+4) 2^-53] relative (plus half the smallest subnormal, which disappears
    for entries >= 2^-1021).  Where the constant comes from: the float sum [t]
    is within [n 2^-53] (relative) of the exact sum [S], [S] is within
    [(2n+2) 2^-53] of 1 (the invariant [stored], which is all that is known of
    a row), the division rounds once more: [n + (2n+2) + 1], and one more unit
    pays for the second-order terms when [6n^2+16n+8 <= 2^53].  Under the
    invariant [stored] alone a constant [2n+O(1)] is not available: [S] may
    really sit at [1 - (2n+2) 2^-53] and the float sum another [n 2^-53] below. *)
Theorem trip_entries : forall r : list float,
  stored r -> (Z.of_nat (length r) <= 2 ^ 25)%Z ->
  let t := @sum FNum r in
  let out := trip r in
  let c := 3 * INR (length r) + 4 in
  length out = length r /\
  Ffin t /\ 1 - / (2 * INR (length r) + 4) <= FR t <= 5 / 3 /\
  forall k, (k < length r)%nat ->
    let p := nth k r 0%float in
    let y := nth k out 0%float in
    y = (p / t)%float /\
    FR y = rnd (FR p / FR t) /\
    (* zero entries stay zero, [+0] stays [+0] *)
    (FR p = 0 -> FR y = 0) /\
    (p = 0%float -> y = 0%float) /\
    (* positive entries stay positive: no side condition *)
    (0 < FR p -> 0 < FR y) /\
    (* closeness *)
    Rabs (FR y - FR p) <= c * bpow radix2 (-53) * FR p + bpow radix2 (-1075) /\
    (bpow radix2 (-1021) <= FR p -> Rabs (FR y - FR p) <= c * bpow radix2 (-53) * FR p).
Proof.
  intros r Hst Hlen t out c.
  destruct (stored_sum_ok r Hst Hlen) as [_ [Hpos _]].
  destruct (total_near_one r Hst Hlen) as [Hlow Hup].
  fold t in Hpos, Hlow, Hup.
  set (N := INR (length r)) in *.
  assert (HN0 : 0 <= N) by apply pos_INR.
  assert (Hl53 : (Z.of_nat (length r) < 2 ^ 53)%Z) by lia.
  assert (Hup2 : FR t < 2) by lra.
  destruct (trip_entries_gen r (2 * N + 4) Hst Hl53 Hpos Hup2 Hlow) as [Hl [Hf He]].
  fold t out N in Hl, Hf, He.
  replace (N + (2 * N + 4)) with c in He by (unfold c; lra).
  split; [exact Hl|]. split; [exact Hf|]. split; [|exact He].
  split; [|exact Hup].
  apply Rmult_le_reg_l with (2 * N + 4); [lra|].
  rewrite Rmult_minus_distr_l, Rmult_1_r, Rinv_r by lra. lra.
Qed.

(** rows of up to [2^50] entries: the same with the constant [5n+6] *)
Lemma total_near_one_large : forall r : list float,
  stored r -> (Z.of_nat (length r) <= 2 ^ 50)%Z ->
  let t := FR (@sum FNum r) in
  / 2 <= t /\ t <= 11 / 7.
Proof.
  intros r [Hr HS] Hlen t.
  destruct (total_facts r Hr ltac:(lia)) as [Hf [Ht0 [_ HB]]].
  fold t in Ht0, HB. change (bpow radix2 (-53)) with u53 in HS.
  set (N := INR (length r)) in *.
  assert (Hu := u53_pos).
  assert (HN0 : 0 <= N) by apply pos_INR.
  assert (HN : N <= IZR (2 ^ 50)).
  { unfold N. rewrite INR_IZR_INZ. apply IZR_le. exact Hlen. }
  assert (Hu8 : u53 * IZR (2 ^ 50) = / 8).
  { assert (H := u53_2p53).
    replace (IZR (2 ^ 53)) with (8 * IZR (2 ^ 50)) in H
      by (rewrite <- mult_IZR; reflexivity).
    lra. }
  assert (Hu16 : u53 <= / 16).
  { assert (H : u53 * 2 <= u53 * IZR (2 ^ 50)).
    { apply Rmult_le_compat_l; [lra | apply IZR_le; lia]. }
    lra. }
  set (a := N * u53) in *. set (d := (2 * N + 2) * u53) in *.
  assert (Ha8 : a <= / 8).
  { unfold a. rewrite <- Hu8, Rmult_comm. apply Rmult_le_compat_l; lra. }
  assert (Ha0 : 0 <= a) by (apply Rmult_le_pos; lra).
  assert (Hd : d <= 3 / 8).
  { unfold d. replace ((2 * N + 2) * u53) with (2 * a + 2 * u53) by (unfold a; lra). lra. }
  apply Rabs_le_inv in HB. apply Rabs_le_inv in HS.
  assert (Hat : a * t <= / 8 * t) by (apply Rmult_le_compat_r; assumption).
  assert (Hat0 : 0 <= a * t) by (apply Rmult_le_pos; assumption).
  split; lra.
Qed.

Theorem trip_entries_large : forall r : list float,
  stored r -> (Z.of_nat (length r) <= 2 ^ 50)%Z ->
  let t := @sum FNum r in
  let out := trip r in
  let c := 5 * INR (length r) + 6 in
  length out = length r /\
  Ffin t /\ / 2 <= FR t <= 11 / 7 /\
  forall k, (k < length r)%nat ->
    let p := nth k r 0%float in
    let y := nth k out 0%float in
    y = (p / t)%float /\
    FR y = rnd (FR p / FR t) /\
    (FR p = 0 -> FR y = 0) /\
    (p = 0%float -> y = 0%float) /\
    (0 < FR p -> 0 < FR y) /\
    Rabs (FR y - FR p) <= c * bpow radix2 (-53) * FR p + bpow radix2 (-1075) /\
    (bpow radix2 (-1021) <= FR p -> Rabs (FR y - FR p) <= c * bpow radix2 (-53) * FR p).
Proof.
  intros r Hst Hlen t out c.
  destruct (total_near_one_large r Hst Hlen) as [Hlow Hup].
  fold t in Hlow, Hup.
  set (N := INR (length r)) in *.
  assert (HN0 : 0 <= N) by apply pos_INR.
  assert (Hlow' : 2 * N + 3 <= (4 * N + 6) * FR t).
  { replace (2 * N + 3) with ((4 * N + 6) * / 2) by lra.
    apply Rmult_le_compat_l; lra. }
  assert (Hl53 : (Z.of_nat (length r) < 2 ^ 53)%Z) by lia.
  assert (Hpos : 0 < FR t) by lra.
  assert (Hup2 : FR t < 2) by lra.
  destruct (trip_entries_gen r (4 * N + 6) Hst Hl53 Hpos Hup2 Hlow') as [Hl [Hf He]].
  fold t out N in Hl, Hf, He.
  replace (N + (4 * N + 6)) with c in He by (unfold c; lra).
  split; [exact Hl|]. split; [exact Hf|]. split; [split; assumption | exact He].
Qed.

Corollary trip_close : forall r : list float,
  stored r -> (Z.of_nat (length r) <= 2 ^ 25)%Z ->
  forall k, (k < length r)%nat ->
    Rabs (FR (nth k (trip r) 0%float) - FR (nth k r 0%float))
    <= (3 * INR (length r) + 4) * bpow radix2 (-53) * FR (nth k r 0%float)
       + bpow radix2 (-1075).
Proof.
  intros r Hst Hlen k Hk.
  destruct (trip_entries r Hst Hlen) as [_ [_ [_ He]]].
  apply (He k Hk).
Qed.

Lemma import_stored : forall w : list float,
  Forall finnn w -> (Z.of_nat (length w) < 2 ^ 53)%Z ->
  eqb FNum (@sum FNum w) (zero FNum) = false ->
  stored (@finish_row FNum w (@sum FNum w)).
Proof.
  intros w Hw Hlen Hne. split.
  - apply finish_row_float_valid; assumption.
  - rewrite finish_row_length. apply finish_row_float_sum; assumption.
Qed.

Theorem trip_stored_gen : forall r : list float,
  Forall fin01 r -> (Z.of_nat (length r) < 2 ^ 53)%Z ->
  eqb FNum (@sum FNum r) (zero FNum) = false ->
  stored (trip r) /\ length (trip r) = length r.
Proof.
  intros r Hr Hlen Hne. split; [|apply finish_row_length].
  apply import_stored; [apply Forall_fin01_finnn|..]; assumption.
Qed.

Theorem trip_stored : forall r : list float,
  stored r -> (Z.of_nat (length r) <= 2 ^ 25)%Z ->
  stored (trip r) /\ length (trip r) = length r.
Proof.
  intros r Hst Hlen. destruct (stored_sum_ok r Hst Hlen) as [_ [_ Hne]].
  apply trip_stored_gen; [apply Hst | lia | exact Hne].
Qed.

Fixpoint trips (j : nat) (r : list float) : list float :=
  match j with O => r | S j' => trip (trips j' r) end.

Theorem trips_stored : forall (j : nat) (r : list float),
  stored r -> (Z.of_nat (length r) <= 2 ^ 25)%Z ->
  stored (trips j r) /\ length (trips j r) = length r.
Proof.
  induction j as [|j IH]; intros r Hst Hlen; cbn [trips]; [split; [exact Hst | reflexivity]|].
  destruct (IH r Hst Hlen) as [Hst' Hl].
  destruct (trip_stored (trips j r) Hst' ltac:(rewrite Hl; exact Hlen)) as [Hst'' Hl'].
  split; [exact Hst'' | rewrite Hl'; exact Hl].
Qed.

(** no drift: every further trip moves every entry by the same relative bound *)
Theorem trips_close : forall (j : nat) (r : list float),
  stored r -> (Z.of_nat (length r) <= 2 ^ 25)%Z ->
  forall k, (k < length r)%nat ->
    Rabs (FR (nth k (trips (S j) r) 0%float) - FR (nth k (trips j r) 0%float))
    <= (3 * INR (length r) + 4) * bpow radix2 (-53) * FR (nth k (trips j r) 0%float)
       + bpow radix2 (-1075).
Proof.
  intros j r Hst Hlen k Hk.
  destruct (trips_stored j r Hst Hlen) as [Hst' Hl].
  cbn [trips]. rewrite <- Hl. apply trip_close; rewrite ?Hl; assumption.
Qed.

Corollary trip_twice_close : forall r : list float,
  stored r -> (Z.of_nat (length r) <= 2 ^ 25)%Z ->
  forall k, (k < length r)%nat ->
    Rabs (FR (nth k (trip (trip r)) 0%float) - FR (nth k (trip r) 0%float))
    <= (3 * INR (length r) + 4) * bpow radix2 (-53) * FR (nth k (trip r) 0%float)
       + bpow radix2 (-1075).
Proof. intros r. exact (trips_close 1 r). Qed.

Theorem trips_support : forall (j : nat) (r : list float),
  stored r -> (Z.of_nat (length r) <= 2 ^ 25)%Z ->
  forall k, (k < length r)%nat ->
    (FR (nth k r 0%float) = 0 -> FR (nth k (trips j r) 0%float) = 0) /\
    (nth k r 0%float = 0%float -> nth k (trips j r) 0%float = 0%float) /\
    (0 < FR (nth k r 0%float) -> 0 < FR (nth k (trips j r) 0%float)).
Proof.
  induction j as [|j IH]; intros r Hst Hlen k Hk; cbn [trips]; [tauto|].
  destruct (IH r Hst Hlen k Hk) as [I1 [I2 I3]].
  destruct (trips_stored j r Hst Hlen) as [Hst' Hl].
  destruct (trip_entries (trips j r) Hst' ltac:(rewrite Hl; exact Hlen)) as [_ [_ [_ He]]].
  destruct (He k ltac:(rewrite Hl; exact Hk)) as [_ [_ [E1 [E2 [E3 _]]]]].
  split; [|split].
  - intros H. apply E1, I1, H.
  - intros H. apply E2, I2, H.
  - intros H. apply E3, I3, H.
Qed.

Theorem trips_drift : forall (j : nat) (r : list float),
  stored r -> (Z.of_nat (length r) <= 2 ^ 25)%Z ->
  forall k, (k < length r)%nat ->
    Rabs (FR (nth k (trips j r) 0%float) - FR (nth k r 0%float))
    <= INR j * ((3 * INR (length r) + 4) * bpow radix2 (-53) + bpow radix2 (-1075)).
Proof.
  induction j as [|j IH]; intros r Hst Hlen k Hk.
  - cbn [trips INR]. rewrite Rminus_eq_0, Rabs_R0. lra.
  - assert (H1 := trips_close j r Hst Hlen k Hk).
    assert (H2 := IH r Hst Hlen k Hk).
    destruct (trips_stored j r Hst Hlen) as [[Hr' _] Hl].
    assert (Hin : In (nth k (trips j r) 0%float) (trips j r))
      by (apply nth_In; rewrite Hl; exact Hk).
    rewrite Forall_forall in Hr'. destruct (Hr' _ Hin) as [_ [Hy0 Hy1]].
    rewrite S_INR.
    set (c := (3 * INR (length r) + 4) * bpow radix2 (-53)) in *.
    assert (Hc : 0 <= c).
    { unfold c. apply Rmult_le_pos; [assert (H := pos_INR (length r)); lra | apply bpow_ge_0]. }
    assert (Hcy : c * FR (nth k (trips j r) 0%float) <= c * 1)
      by (apply Rmult_le_compat_l; assumption).
    apply Rabs_le_inv in H1. apply Rabs_le_inv in H2. apply Rabs_le.
    set (e := bpow radix2 (-1075)) in *. lra.
Qed.

(** a row whose float sum is exactly 1 comes back bit for bit *)

Theorem trip_fixed : forall r : list float,
  Forall fin01 r -> (Z.of_nat (length r) < 2 ^ 53)%Z ->
  FR (@sum FNum r) = 1 -> trip r = r.
Proof.
  intros r Hr Hlen H1.
  destruct (total_facts r Hr Hlen) as [Hf _].
  apply trip_fixed_one.
  - apply Forall_finnn_Ffin, Forall_fin01_finnn, Hr.
  - apply FR_one_inv; assumption.
Qed.

Corollary trips_fixed : forall (j : nat) (r : list float),
  Forall fin01 r -> (Z.of_nat (length r) < 2 ^ 53)%Z ->
  FR (@sum FNum r) = 1 -> trips j r = r.
Proof.
  induction j as [|j IH]; intros r Hr Hlen H1; cbn [trips]; [reflexivity|].
  rewrite (IH r Hr Hlen H1). apply trip_fixed; assumption.
Qed.

(** The dense row that the import rebuilds from the named view.  The view of a row lists the entries [p] with [0 <? p] ([data_next] in
    [Strat.v]); the import writes them into a row initialised with [+0].  For a
    stored row this rebuilt row is the row itself, except that a [-0] entry comes
    back as [+0]; every real value is unchanged, so everything above applies. *)
Definition redense (r : list float) : list float :=
  map (fun p => if PrimFloat.ltb 0 p then p else 0%float) r.

Lemma redense_entry : forall p, fin01 p ->
  fin01 (if PrimFloat.ltb 0 p then p else 0%float) /\
  FR (if PrimFloat.ltb 0 p then p else 0%float) = FR p.
Proof.
  intros p Hp. destruct (PrimFloat.ltb 0 p) eqn:E; [split; [exact Hp | reflexivity]|].
  split; [apply fin01_zero|]. rewrite FR_zero. symmetry. apply ltb0_false_zero; assumption.
Qed.

Lemma redense_FR : forall r, Forall fin01 r -> map FR (redense r) = map FR r.
Proof.
  intros r Hr. unfold redense. induction Hr as [|p l Hp Hl IH]; cbn [map]; [reflexivity|].
  rewrite (proj2 (redense_entry p Hp)). apply f_equal. exact IH.
Qed.

Lemma redense_length : forall r, length (redense r) = length r.
Proof. intros r. apply map_length. Qed.

Lemma redense_nth_FR : forall r k, Forall fin01 r ->
  FR (nth k (redense r) 0%float) = FR (nth k r 0%float).
Proof.
  intros r k Hr.
  rewrite <- (map_nth FR (redense r) 0%float k), <- (map_nth FR r 0%float k).
  rewrite (redense_FR r Hr). reflexivity.
Qed.

Lemma redense_stored : forall r, stored r -> stored (redense r).
Proof.
  intros r [Hr HS]. split.
  - apply Forall_map, Forall_impl with (2 := Hr). intros p Hp. apply (redense_entry p Hp).
  - rewrite redense_length. unfold RS in *. rewrite (redense_FR r Hr). exact HS.
Qed.

Lemma redense_id : forall r, Forall fin01 r ->
  (forall p, In p r -> FR p = 0 -> p = 0%float) -> redense r = r.
Proof.
  intros r Hr Hz. unfold redense. induction Hr as [|p l Hp Hl IH]; cbn [map]; [reflexivity|].
  rewrite IH by (intros q Hq; apply Hz; right; exact Hq). f_equal.
  destruct (PrimFloat.ltb 0 p) eqn:E; [reflexivity|].
  symmetry. apply Hz; [left; reflexivity | apply ltb0_false_zero; assumption].
Qed.

(** the round trip through the view, compared with the stored row itself *)
Theorem round_trip_close : forall r : list float,
  stored r -> (Z.of_nat (length r) <= 2 ^ 25)%Z ->
  let out := trip (redense r) in
  length out = length r /\ stored out /\
  forall k, (k < length r)%nat ->
    let p := nth k r 0%float in
    let y := nth k out 0%float in
    (FR p = 0 -> y = 0%float) /\
    (0 < FR p -> 0 < FR y) /\
    Rabs (FR y - FR p)
      <= (3 * INR (length r) + 4) * bpow radix2 (-53) * FR p + bpow radix2 (-1075) /\
    (bpow radix2 (-1021) <= FR p ->
       Rabs (FR y - FR p) <= (3 * INR (length r) + 4) * bpow radix2 (-53) * FR p).
Proof.
  intros r Hst Hlen out.
  assert (Hst' := redense_stored r Hst).
  assert (Hl' := redense_length r).
  assert (Hlen' : (Z.of_nat (length (redense r)) <= 2 ^ 25)%Z) by (rewrite Hl'; exact Hlen).
  destruct (trip_stored (redense r) Hst' Hlen') as [Hso Hlo].
  destruct (trip_entries (redense r) Hst' Hlen') as [_ [_ [_ He]]].
  fold out in Hso, Hlo, He. rewrite Hl' in He, Hlo.
  split; [exact Hlo|]. split; [exact Hso|].
  intros k Hk p y.
  destruct (He k Hk) as [_ [_ [_ [E2 [E3 [E4 E5]]]]]].
  destruct Hst as [Hr _].
  assert (Hp : FR (nth k (redense r) 0%float) = FR p) by (apply redense_nth_FR; exact Hr).
  rewrite Hp in E3, E4, E5.
  split; [|split; [exact E3 | split; [exact E4 | exact E5]]].
  intros Hz. apply E2.
  unfold redense.
  rewrite (nth_map_lt (fun p => if PrimFloat.ltb 0 p then p else 0%float) r k 0%float 0%float Hk).
  fold p.
  destruct (PrimFloat.ltb 0 p) eqn:E; [|reflexivity].
  exfalso. rewrite Forall_forall in Hr.
  destruct (Hr p (nth_In r 0%float Hk)) as [Hf _].
  apply (ltb_zero_pos p Hf) in E. lra.
Qed.

(** *** a row that comes back bit for bit: the float sum is exactly 1 *)
Example ex_fixed : trip [0.5; 0.25; 0.25]%float = [0.5; 0.25; 0.25]%float.
Proof. vm_compute. reflexivity. Qed.

Example ex_fixed_by_theorem : trip ex_row = ex_row.
Proof.
  apply trip_fixed; [exact ex_row_fin01 | vm_compute; reflexivity|].
  assert (H : @sum FNum ex_row = 1%float) by (vm_compute; reflexivity).
  rewrite H. apply FR_one.
Qed.

(** the uniform row on three actions: 1/3 is not a binary64 number but the
    three rounded thirds add up to exactly 1 in binary64, so it is a fixed point *)
Definition ex_thirds : list float := @finish_row FNum [1; 1; 1]%float (@sum FNum [1; 1; 1]%float).

Example ex_thirds_value :
  ex_thirds = [0x1.5555555555555p-2; 0x1.5555555555555p-2; 0x1.5555555555555p-2]%float.
Proof. vm_compute. reflexivity. Qed.

Example ex_thirds_fixed : trip ex_thirds = ex_thirds.
Proof. vm_compute. reflexivity. Qed.

(** *** a row that does not come back bit for bit: the uniform row on six actions.
    Six rounded sixths add up to [1 - 2^-53]; the round trip moves every entry
    up by one unit in the last place, and the next round trip moves it back:
    no drift, but the round trip is neither the identity nor idempotent. *)
Definition ex_sixths : list float :=
  @finish_row FNum [1; 1; 1; 1; 1; 1]%float (@sum FNum [1; 1; 1; 1; 1; 1]%float).

Example ex_sixths_stored : stored ex_sixths.
Proof.
  apply import_stored.
  - apply forallb_finnnb. vm_compute. reflexivity.
  - vm_compute. reflexivity.
  - vm_compute. reflexivity.
Qed.

Example ex_sixths_value :
  ex_sixths = [0x1.5555555555555p-3; 0x1.5555555555555p-3; 0x1.5555555555555p-3;
               0x1.5555555555555p-3; 0x1.5555555555555p-3; 0x1.5555555555555p-3]%float.
Proof. vm_compute. reflexivity. Qed.

Example ex_sixths_sum : @sum FNum ex_sixths = 0x1.fffffffffffffp-1%float.
Proof. vm_compute. reflexivity. Qed.

Example ex_sixths_trip :
  trip ex_sixths = [0x1.5555555555556p-3; 0x1.5555555555556p-3; 0x1.5555555555556p-3;
                    0x1.5555555555556p-3; 0x1.5555555555556p-3; 0x1.5555555555556p-3]%float.
Proof. vm_compute. reflexivity. Qed.

Example ex_sixths_moves : trip ex_sixths <> ex_sixths.
Proof.
  intros H.
  apply (f_equal (fun l => PrimFloat.eqb (nth 0 l 0%float) (nth 0 ex_sixths 0%float))) in H.
  vm_compute in H. discriminate H.
Qed.

Example ex_sixths_back : trip (trip ex_sixths) = ex_sixths.
Proof. vm_compute. reflexivity. Qed.

(** the theorem applied to it: every entry moves by at most [22 * 2^-53] relative *)
Example ex_sixths_close : forall k, (k < 6)%nat ->
  Rabs (FR (nth k (trip ex_sixths) 0%float) - FR (nth k ex_sixths 0%float))
  <= (3 * INR 6 + 4) * bpow radix2 (-53) * FR (nth k ex_sixths 0%float) + bpow radix2 (-1075).
Proof.
  intros k Hk.
  apply (trip_close ex_sixths ex_sixths_stored); [vm_compute; discriminate | exact Hk].
Qed.

(** *** the uniform row on ten actions moves once (one unit in the last place)
    and then stays: the moved row sums to exactly 1 *)
Definition ex_tenths : list float :=
  @finish_row FNum [1; 1; 1; 1; 1; 1; 1; 1; 1; 1]%float (@sum FNum [1; 1; 1; 1; 1; 1; 1; 1; 1; 1]%float).

Example ex_tenths_head :
  nth 0 ex_tenths 0%float = 0x1.999999999999ap-4%float /\
  nth 0 (trip ex_tenths) 0%float = 0x1.999999999999bp-4%float /\
  @sum FNum (trip ex_tenths) = 1%float /\
  trip (trip ex_tenths) = trip ex_tenths.
Proof. repeat split; vm_compute; reflexivity. Qed.

(** *** a row with a zero entry and a move of two units in the last place:
    weights 3,0,1,1,1,1.  The zero stays [+0]; 3/7 comes back two units in the
    last place higher (its float sum is [1 - 2^-52]), 1/7 one unit higher; the
    second round trip restores the row. *)
Definition ex_sevenths : list float :=
  @finish_row FNum [3; 0; 1; 1; 1; 1]%float (@sum FNum [3; 0; 1; 1; 1; 1]%float).

Example ex_sevenths_value :
  ex_sevenths = [0x1.b6db6db6db6dbp-2; 0; 0x1.2492492492492p-3; 0x1.2492492492492p-3;
                 0x1.2492492492492p-3; 0x1.2492492492492p-3]%float.
Proof. vm_compute. reflexivity. Qed.

Example ex_sevenths_sum : @sum FNum ex_sevenths = 0x1.ffffffffffffep-1%float.
Proof. vm_compute. reflexivity. Qed.

Example ex_sevenths_trip :
  trip ex_sevenths = [0x1.b6db6db6db6ddp-2; 0; 0x1.2492492492493p-3; 0x1.2492492492493p-3;
                      0x1.2492492492493p-3; 0x1.2492492492493p-3]%float.
Proof. vm_compute. reflexivity. Qed.

Example ex_sevenths_back : trip (trip ex_sevenths) = ex_sevenths.
Proof. vm_compute. reflexivity. Qed.

(** *** a [-0] entry is not listed by the view and comes back as [+0] *)
Example ex_negzero : trip (redense [0.5; -0; 0.5]%float) = [0.5; 0; 0.5]%float.
Proof. vm_compute. reflexivity. Qed.
