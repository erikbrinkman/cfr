(** * BestResponseProofs: the model of [regret::optimal_deviations] computes the value of
    a best response, and the regrets reported by [Strategies::get_info] are the largest
    gains from unilateral deviations.

    The argument works on the single-agent view of player [me]: a [dtree] in which chance
    and the opponent's strategy [so] are folded into weights ([Scale]/[Nat]) and only the
    own decisions ([Dec]) remain.  [dnodes] lists the decision nodes with their own
    history and counterfactual reach, in the order of the first pass of the code.
    [hv tau mu j] plays [tau] at infosets [< j] and reads the table [mu] at infosets
    [>= j]; so [hv 0 = sv mu] (the value the code returns) and [hv n = val tau] (the
    expected payoff of [tau]).  [hv_diff] computes [hv (S j) - hv j] as a sum over the
    nodes of infoset [j]; with perfect recall the own-history factor is the same for all
    of them ([step_eq]), and the remaining sum is [<= 0] because [mu j] times the total
    reach is the maximum of the action values ([step_le]), with equality for the pure
    strategy [sstar] read off the table ([core_attained]).  The model functions [search],
    [collect], [resolve_one] are then shown to be [sv], [dnodes], [vresolve] on the view,
    and the premises are derived from [WFgame], [PerfectRecall], [ChanceOK]. *)
From Coq Require Import Reals List Bool Arith Lra Lia NArith.
From Cfr.theories Require Import Num ListAux RInst Tree GameWF Eval Valid SolveValidProofs EvalSpec EvalProofs.
Import ListNotations.
Open Scope R_scope.

Local Notation node := (@node RNum).
Local Notation game := (@game RNum).


Definition hist := list (nat * nat).

(** [Leaf v]: payoff [v] for the agent; [Scale w t]: weight [w] (chance or opponent
    probability) in front of [t]; [Nat ks]: sum over the alternatives; [Dec i kids]: own
    decision at infoset [i]. *)
Inductive dtree :=
| Leaf (v : R)
| Scale (w : R) (t : dtree)
| Nat (ks : list dtree)
| Dec (i : nat) (kids : list dtree).

Fixpoint dtree_ind' (P : dtree -> Prop)
         (HL : forall v, P (Leaf v))
         (HS : forall w t, P t -> P (Scale w t))
         (HN : forall ks, Forall P ks -> P (Nat ks))
         (HD : forall i kids, Forall P kids -> P (Dec i kids))
         (t : dtree) : P t :=
  match t with
  | Leaf v => HL v
  | Scale w t' => HS w t' (dtree_ind' P HL HS HN HD t')
  | Nat ks =>
      HN ks ((fix go (l : list dtree) : Forall P l :=
                match l with
                | [] => Forall_nil P
                | k :: r => Forall_cons k (dtree_ind' P HL HS HN HD k) (go r)
                end) ks)
  | Dec i kids =>
      HD i kids ((fix go (l : list dtree) : Forall P l :=
                    match l with
                    | [] => Forall_nil P
                    | k :: r => Forall_cons k (dtree_ind' P HL HS HN HD k) (go r)
                    end) kids)
  end.

Lemma Rsum_zero {A} (F : A -> R) l : (forall x, In x l -> F x = 0) -> Rsum (map F l) = 0.
Proof.
  induction l as [|x l IH]; intros H; cbn [map Rsum]; [reflexivity|].
  rewrite (H x (or_introl eq_refl)), IH; [lra|]. intros y Hy. apply H. now right.
Qed.

Lemma Rsum_map_ext_in {A} (F G : A -> R) l :
  (forall x, In x l -> F x = G x) -> Rsum (map F l) = Rsum (map G l).
Proof. intros H. apply f_equal. now apply map_ext_in. Qed.

Lemma Rsum_filter {A} (p : A -> bool) (G : A -> R) l :
  Rsum (map (fun x => if p x then G x else 0) l) = Rsum (map G (filter p l)).
Proof.
  induction l as [|x l IH]; cbn [map Rsum filter]; [reflexivity|].
  destruct (p x); cbn [map Rsum]; rewrite IH; lra.
Qed.

Lemma Rsum_map_plus {A} (F G : A -> R) l :
  Rsum (map (fun x => F x + G x) l) = Rsum (map F l) + Rsum (map G l).
Proof. induction l as [|x l IH]; cbn [map Rsum]; [lra|rewrite IH; lra]. Qed.

Lemma Rsum_map_scal {A} (c : R) (F : A -> R) l :
  Rsum (map (fun x => F x * c) l) = Rsum (map F l) * c.
Proof. induction l as [|x l IH]; cbn [map Rsum]; [lra|rewrite IH; lra]. Qed.

Lemma dot_nil_l v : dot [] v = 0.
Proof. reflexivity. Qed.
Lemma dot_nil_r a : dot a [] = 0.
Proof. unfold dot. now destruct a. Qed.
Lemma dot_cons p ps x xs : dot (p :: ps) (x :: xs) = p * x + dot ps xs.
Proof. reflexivity. Qed.

Lemma nth_skipn_hd {A} (l : list A) a d : nth a l d = hd d (skipn a l).
Proof.
  revert l; induction a as [|a IH]; intros [|x l]; cbn [nth skipn hd]; try reflexivity.
  apply IH.
Qed.

Lemma skipn_S_tl {A} (l : list A) a : skipn (S a) l = tl (skipn a l).
Proof.
  revert l; induction a as [|a IH]; intros [|x l]; try reflexivity.
  change (skipn (S (S a)) (x :: l)) with (skipn (S a) l).
  change (skipn (S a) (x :: l)) with (skipn a l). apply IH.
Qed.

Record dn := mkDn { d_hs : hist; d_i : nat; d_rho : R; d_kids : list dtree }.

Section DnNat.
  Context (f : dtree -> list dn).
  Fixpoint dn_nat (ks : list dtree) : list dn :=
    match ks with [] => [] | k :: r => dn_nat r ++ f k end.
End DnNat.

Section DnDec.
  Context (f : hist -> dtree -> list dn) (hs : hist) (i : nat).
  Fixpoint dn_dec (ks : list dtree) (a : nat) : list dn :=
    match ks with [] => [] | k :: r => dn_dec r (S a) ++ f (hs ++ [(i, a)]) k end.
End DnDec.

(** the order is that of the first pass of [optimal_deviations] ([collect]) *)
Fixpoint dnodes (hs : hist) (rho : R) (t : dtree) : list dn :=
  match t with
  | Leaf _ => []
  | Scale w t' => dnodes hs (w * rho) t'
  | Nat ks =>
      (fix go (ks : list dtree) : list dn :=
         match ks with [] => [] | k :: r => go r ++ dnodes hs rho k end) ks
  | Dec i kids =>
      mkDn hs i rho kids ::
      (fix go (ks : list dtree) (a : nat) : list dn :=
         match ks with [] => [] | k :: r => go r (S a) ++ dnodes (hs ++ [(i, a)]) rho k end) kids O
  end.

Lemma dnodes_Nat hs rho ks : dnodes hs rho (Nat ks) = dn_nat (dnodes hs rho) ks.
Proof. reflexivity. Qed.

Lemma dnodes_Dec hs rho i kids :
  dnodes hs rho (Dec i kids) =
  mkDn hs i rho kids :: dn_dec (fun h t => dnodes h rho t) hs i kids O.
Proof. reflexivity. Qed.

Lemma In_dn_nat f ks d : In d (dn_nat f ks) <-> exists k, In k ks /\ In d (f k).
Proof.
  induction ks as [|k r IH]; cbn [dn_nat In].
  - split; [intros []|intros (k & [] & _)].
  - rewrite in_app_iff, IH. split.
    + intros [(k' & H1 & H2)|H]; [exists k'; auto|exists k; auto].
    + intros (k' & [<-|H1] & H2); [now right|left; exists k'; auto].
Qed.

Lemma In_dn_dec f hs i ks a d :
  In d (dn_dec f hs i ks a) <->
  exists b k, nth_error ks b = Some k /\ In d (f (hs ++ [(i, (a + b)%nat)]) k).
Proof.
  revert a; induction ks as [|k r IH]; intros a; cbn [dn_dec In].
  - split; [intros []|]. intros (b & k & H & _). now destruct b.
  - rewrite in_app_iff, IH. split.
    + intros [(b & k' & H1 & H2)|H].
      * exists (S b), k'. split; [exact H1|]. now rewrite <- Nat.add_succ_comm.
      * exists O, k. split; [reflexivity|]. now rewrite Nat.add_0_r.
    + intros (b & k' & H1 & H2). destruct b as [|b].
      * right. cbn in H1. inversion H1; subst. now rewrite Nat.add_0_r in H2.
      * left. exists b, k'. split; [exact H1|]. now rewrite Nat.add_succ_comm.
Qed.

Lemma In_dnodes_Nat hs rho ks d :
  In d (dnodes hs rho (Nat ks)) <-> exists k, In k ks /\ In d (dnodes hs rho k).
Proof. rewrite dnodes_Nat. apply In_dn_nat. Qed.

Lemma In_dnodes_Dec hs rho i kids d :
  In d (dnodes hs rho (Dec i kids)) <->
  d = mkDn hs i rho kids \/
  exists b k, nth_error kids b = Some k /\ In d (dnodes (hs ++ [(i, b)]) rho k).
Proof.
  rewrite dnodes_Dec. cbn [In]. rewrite In_dn_dec. cbn [Nat.add]. split; intros [H|H]; auto.
Qed.

Lemma dnodes_prefix t : forall hs rho d,
  In d (dnodes hs rho t) -> exists suf, d_hs d = hs ++ suf.
Proof.
  induction t as [v|w t IH|ks IH|i kids IH] using dtree_ind'; intros hs rho d Hd.
  - destruct Hd.
  - cbn [dnodes] in Hd. eapply IH, Hd.
  - apply In_dnodes_Nat in Hd. destruct Hd as (k & Hk & Hd).
    rewrite Forall_forall in IH. eapply IH; eassumption.
  - apply In_dnodes_Dec in Hd. destruct Hd as [->|(b & k & Hk & Hd)].
    + exists []. cbn [d_hs]. now rewrite app_nil_r.
    + rewrite Forall_forall in IH. apply nth_error_In in Hk.
      destruct (IH k Hk _ _ _ Hd) as [suf Hs]. exists ((i, b) :: suf).
      rewrite Hs, <- app_assoc. reflexivity.
Qed.

Lemma dnodes_sub t : forall hs rho d a k d',
  In d (dnodes hs rho t) -> nth_error (d_kids d) a = Some k ->
  In d' (dnodes (d_hs d ++ [(d_i d, a)]) (d_rho d) k) -> In d' (dnodes hs rho t).
Proof.
  induction t as [v|w t IH|ks IH|i kids IH] using dtree_ind'; intros hs rho d a k d' Hd Hk Hd'.
  - destruct Hd.
  - cbn [dnodes] in *. eapply IH; eassumption.
  - apply In_dnodes_Nat in Hd. destruct Hd as (k0 & Hk0 & Hd).
    rewrite Forall_forall in IH. apply In_dnodes_Nat. exists k0. split; [exact Hk0|]. eapply IH; eassumption.
  - apply In_dnodes_Dec in Hd. destruct Hd as [->|(b & k0 & Hk0 & Hd)].
    + cbn [d_kids d_hs d_i d_rho] in *. apply In_dnodes_Dec. eauto.
    + rewrite Forall_forall in IH. apply In_dnodes_Dec. right. exists b, k0. split; [exact Hk0|].
      eapply IH; [eapply nth_error_In; eassumption|eassumption..].
Qed.

Fixpoint val (tau : list (list R)) (t : dtree) : R :=
  match t with
  | Leaf v => v
  | Scale w t' => w * val tau t'
  | Nat ks => Rsum (map (val tau) ks)
  | Dec i kids => dot (rowR tau i) (map (val tau) kids)
  end.

(** [next_infoset_search]: stop at the first own decision nodes and read the table *)
Fixpoint sv (mu : nat -> R) (t : dtree) : R :=
  match t with
  | Leaf v => v
  | Scale w t' => w * sv mu t'
  | Nat ks => Rsum (map (sv mu) ks)
  | Dec i _ => mu i
  end.

(** hybrid: play [tau] at infosets [< j], read the table at infosets [>= j] *)
Fixpoint hv (tau : list (list R)) (mu : nat -> R) (j : nat) (t : dtree) : R :=
  match t with
  | Leaf v => v
  | Scale w t' => w * hv tau mu j t'
  | Nat ks => Rsum (map (hv tau mu j) ks)
  | Dec i kids => if (i <? j)%nat then dot (rowR tau i) (map (hv tau mu j) kids) else mu i
  end.

(** probability that [tau] plays the own history [hs] *)
Fixpoint ppi (tau : list (list R)) (hs : hist) : R :=
  match hs with
  | [] => 1
  | (k, a) :: r => nth a (rowR tau k) 0 * ppi tau r
  end.

Lemma ppi_app tau h1 h2 : ppi tau (h1 ++ h2) = ppi tau h1 * ppi tau h2.
Proof.
  induction h1 as [|[k a] r IH]; cbn [app ppi]; [lra|]. rewrite IH. lra.
Qed.

Lemma ppi_nonneg tau hs : NonnegRows tau -> 0 <= ppi tau hs.
Proof.
  intros H. induction hs as [|[k a] r IH]; cbn [ppi]; [lra|].
  apply Rmult_le_pos; [|exact IH].
  pose proof (Forall_row _ tau k H) as Hr. rewrite Forall_forall in Hr.
  destruct (Nat.lt_ge_cases a (length (rowR tau k))) as [Ha|Ha].
  - apply Hr. now apply nth_In.
  - rewrite nth_overflow by assumption. lra.
Qed.

Lemma Forall_kids_Nat (P : dtree -> Prop) (Q : dn -> Prop) hs rho ks :
  Forall (fun k => forall hs rho, (forall d, In d (dnodes hs rho k) -> Q d) -> P k) ks ->
  (forall d, In d (dnodes hs rho (Nat ks)) -> Q d) ->
  Forall P ks.
Proof.
  intros IH H. rewrite Forall_forall in IH |- *. intros k Hk. apply (IH k Hk hs rho).
  intros d Hd. apply H. apply In_dnodes_Nat. eauto.
Qed.

Lemma hv_n tau mu n t : forall hs rho,
  (forall d, In d (dnodes hs rho t) -> (d_i d < n)%nat) -> hv tau mu n t = val tau t.
Proof.
  induction t as [v|w t IH|ks IH|i kids IH] using dtree_ind'; intros hs rho H; cbn [hv val].
  - reflexivity.
  - apply f_equal. eapply IH. exact H.
  - apply f_equal. apply map_ext_Forall.
    exact (Forall_kids_Nat _ (fun d => (d_i d < n)%nat) hs rho ks IH H).
  - assert (Hi : (i < n)%nat) by (apply (H (mkDn hs i rho kids)); rewrite dnodes_Dec; now left).
    apply Nat.ltb_lt in Hi. rewrite Hi. apply f_equal. apply map_ext_in. intros k Hk.
    destruct (In_nth_error _ _ Hk) as [b Hb]. rewrite Forall_forall in IH.
    apply (IH k Hk (hs ++ [(i, b)]) rho). intros d Hd. apply H, In_dnodes_Dec. eauto.
Qed.

Lemma hv_below tau mu j t : forall hs rho,
  (forall d, In d (dnodes hs rho t) -> (j <= d_i d)%nat) -> hv tau mu j t = sv mu t.
Proof.
  induction t as [v|w t IH|ks IH|i kids IH] using dtree_ind'; intros hs rho H; cbn [hv sv].
  - reflexivity.
  - apply f_equal. eapply IH. exact H.
  - apply f_equal. apply map_ext_Forall.
    exact (Forall_kids_Nat _ (fun d => (j <= d_i d)%nat) hs rho ks IH H).
  - assert (Hi : (j <= i)%nat) by (apply (H (mkDn hs i rho kids)); rewrite dnodes_Dec; now left).
    assert (E : (i <? j)%nat = false) by (apply Nat.ltb_ge; lia). now rewrite E.
Qed.

Lemma sv_ext mu mu' t : forall hs rho,
  (forall d, In d (dnodes hs rho t) -> mu (d_i d) = mu' (d_i d)) -> sv mu t = sv mu' t.
Proof.
  induction t as [v|w t IH|ks IH|i kids IH] using dtree_ind'; intros hs rho H; cbn [sv].
  - reflexivity.
  - apply f_equal. eapply IH. exact H.
  - apply f_equal. apply map_ext_Forall.
    exact (Forall_kids_Nat _ (fun d => mu (d_i d) = mu' (d_i d)) hs rho ks IH H).
  - apply (H (mkDn hs i rho kids)). rewrite dnodes_Dec. now left.
Qed.

(** ** One step of the telescope: playing [tau] at infoset [j] instead of reading [mu j] *)
Section Step.
  Context (tau : list (list R)) (mu : nat -> R) (j : nat).

  Definition Fj (d : dn) : R :=
    if (d_i d =? j)%nat
    then ppi tau (d_hs d) * (d_rho d * (dot (rowR tau j) (map (hv tau mu (S j)) (d_kids d)) - mu j))
    else 0.

  Definition HistLt (d : dn) : Prop := Forall (fun ka => (fst ka < d_i d)%nat) (d_hs d).

  Lemma HistLt_gt hs rho i b k d :
    In d (dnodes (hs ++ [(i, b)]) rho k) -> HistLt d -> (i < d_i d)%nat.
  Proof.
    intros Hd HL. destruct (dnodes_prefix _ _ _ _ Hd) as [suf Hs].
    unfold HistLt in HL. rewrite Hs, Forall_forall in HL.
    apply (HL (i, b)). rewrite <- app_assoc. apply in_or_app. right. now left.
  Qed.

  Lemma hv_diff t : forall hs rho,
    (forall d, In d (dnodes hs rho t) -> HistLt d) ->
    ppi tau hs * rho * (hv tau mu (S j) t - hv tau mu j t) = Rsum (map Fj (dnodes hs rho t)).
  Proof.
    induction t as [v|w t IH|ks IH|i kids IH] using dtree_ind'; intros hs rho H.
    - cbn. lra.
    - cbn [hv dnodes]. rewrite <- IH by exact H. lra.
    - rewrite dnodes_Nat in *. cbn [hv].
      revert H. induction IH as [|k r Hk _ IHr]; intros H; cbn [map Rsum dn_nat]; [lra|].
      rewrite map_app, Rsum_app, <- IHr, <- Hk.
      + lra.
      + intros d Hd. apply H. cbn [dn_nat]. apply in_or_app. now right.
      + intros d Hd. apply H. cbn [dn_nat]. apply in_or_app. now left.
    - rewrite dnodes_Dec in *. cbn [map Rsum hv]. unfold Fj at 1. cbn [d_i d_hs d_rho d_kids].
      destruct (Nat.ltb_spec i j) as [Hlt|Hge].
      + (* i < j: both sides expand by tau *)
        rewrite (proj2 (Nat.ltb_lt i (S j))), (proj2 (Nat.eqb_neq i j)), Rplus_0_l by lia.
        assert (Hin : forall d, In d (dn_dec (fun h t => dnodes h rho t) hs i kids 0) -> HistLt d)
          by (intros d Hd; apply H; now right).
        clear H.
        (* the induction over the children needs the row from action [a] on: [ps] *)
        assert (Hps : skipn 0 (rowR tau i) = rowR tau i) by reflexivity.
        revert Hps Hin. generalize (rowR tau i) at 2 3 4 as ps. generalize O as a.
        induction IH as [|k r Hk _ IHr]; intros a ps Hps Hin.
        * cbn [map dn_dec Rsum]. rewrite !dot_nil_r. lra.
        * cbn [map dn_dec]. rewrite map_app, Rsum_app.
          rewrite <- (IHr (S a) (tl ps)).
          -- rewrite <- (Hk (hs ++ [(i, a)]) rho).
             ++ rewrite ppi_app. cbn [ppi]. rewrite nth_skipn_hd, Hps.
                destruct ps as [|p ps']; cbn [hd tl]; rewrite ?dot_nil_l, ?dot_cons; lra.
             ++ intros d Hd. apply Hin. cbn [dn_dec]. apply in_or_app. now right.
          -- rewrite skipn_S_tl, Hps. reflexivity.
          -- intros d Hd. apply Hin. cbn [dn_dec]. apply in_or_app. now left.
      + (* j <= i: the nodes below have larger indices, and only [i = j] contributes *)
        rewrite (Rsum_zero (Fj)), Rplus_0_r.
        * destruct (Nat.eqb_spec i j) as [->|Hne].
          -- rewrite (proj2 (Nat.ltb_lt j (S j))) by lia. lra.
          -- rewrite (proj2 (Nat.ltb_ge i (S j))) by lia. lra.
        * intros d Hd. pose proof (H d (or_intror Hd)) as HL. apply In_dn_dec in Hd.
          destruct Hd as (b & k & _ & Hd). pose proof (HistLt_gt _ _ _ _ _ _ Hd HL).
          unfold Fj. rewrite (proj2 (Nat.eqb_neq (d_i d) j)) by lia. reflexivity.
  Qed.
End Step.


Lemma fold_max_ge r : forall x,
  x <= fold_left Rmax r x /\ Forall (fun y => y <= fold_left Rmax r x) r.
Proof.
  induction r as [|y r IH]; intros x; cbn [fold_left]; [split; [lra|constructor]|].
  destruct (IH (Rmax x y)) as [H1 H2].
  pose proof (Rmax_l x y). pose proof (Rmax_r x y).
  split; [lra|]. constructor; [lra|exact H2].
Qed.

Lemma fold_max_in r : forall x, In (fold_left Rmax r x) (x :: r).
Proof.
  induction r as [|y r IH]; intros x; cbn [fold_left]; [now left|].
  destruct (IH (Rmax x y)) as [H|H].
  - destruct (Rmax_case x y (fun z => z = x \/ z = y)) as [C|C]; [now left|now right| |].
    + left. congruence.
    + right. left. congruence.
  - right. right. exact H.
Qed.

Fixpoint index_of (m : R) (l : list R) : nat :=
  match l with [] => O | x :: r => if Reqb x m then O else S (index_of m r) end.

Lemma index_of_spec m l : In m l -> (index_of m l < length l)%nat /\ nth (index_of m l) l 0 = m.
Proof.
  induction l as [|x r IH]; intros Hin; [destruct Hin|]. cbn [index_of length].
  destruct (Reqb x m) eqn:E.
  - apply Reqb_true in E. split; [lia|exact E].
  - apply Reqb_false in E. destruct Hin as [->|Hin]; [congruence|].
    destruct (IH Hin). split; [lia|assumption].
Qed.

Definition argmax (l : list R) : nat :=
  match @reduce_max RNum l with Some m => index_of m l | None => O end.

Lemma argmax_spec l :
  l <> [] ->
  (argmax l < length l)%nat /\ @reduce_max RNum l = Some (nth (argmax l) l 0) /\
  Forall (fun y => y <= nth (argmax l) l 0) l.
Proof.
  destruct l as [|x r]; [congruence|intros _]. unfold argmax. cbn [reduce_max T RNum].
  change (fmax RNum) with Rmax.
  destruct (index_of_spec _ _ (fold_max_in r x)) as [H1 H2]. destruct (fold_max_ge r x) as [G1 G2].
  split; [exact H1|split; [now f_equal|]]. rewrite H2. now constructor.
Qed.

Lemma dot_le_max tau v M :
  VRow tau -> length tau = length v -> Forall (fun y => y <= M) v -> dot tau v <= M.
Proof.
  intros [Hn Hs] Hl Hv. enough (dot tau v <= M * Rsum tau) by (rewrite Hs in *; lra). clear Hs.
  revert v Hl Hv. induction Hn as [|p tau Hp _ IH]; intros [|x v] Hl Hv; try discriminate.
  - unfold dot; cbn. lra.
  - inversion Hv as [|? ? Hx Hv']; subst. rewrite dot_cons. cbn [Rsum]. cbn [length] in Hl.
    specialize (IH v ltac:(lia) Hv'). nra.
Qed.

Lemma dot_repeat0_l n v : dot (repeat 0 n) v = 0.
Proof.
  revert v; induction n as [|n IH]; intros [|x v]; cbn [repeat]; try reflexivity.
  rewrite dot_cons, IH. lra.
Qed.

Lemma dot_repeatT0_r tau n : dot tau (@repeatT RNum 0 n) = 0.
Proof.
  revert tau; induction n as [|n IH]; intros [|x tau]; cbn [repeatT]; try reflexivity.
  rewrite dot_cons, IH. lra.
Qed.

Lemma dot_onehot n : forall a v,
  (a < n)%nat -> dot (onehot a n) v = nth a v 0.
Proof.
  induction n as [|n IH]; intros a v Ha; [lia|].
  destruct a as [|a]; destruct v as [|x v]; cbn [onehot nth]; rewrite ?dot_nil_r; try reflexivity.
  - rewrite dot_cons, dot_repeat0_l. lra.
  - rewrite dot_cons, IH by lia. lra.
Qed.

Lemma onehot_length n : forall a, length (onehot a n) = n.
Proof.
  induction n as [|n IH]; intros a; cbn [onehot]; [reflexivity|].
  destruct a; cbn [length]; [now rewrite repeat_length|now rewrite IH].
Qed.

Lemma onehot_VRow n : forall a, (a < n)%nat -> VRow (onehot a n).
Proof.
  induction n as [|n IH]; intros a Ha; [lia|]. destruct a as [|a]; cbn [onehot].
  - split.
    + constructor; [lra|]. apply Forall_forall. intros x Hx. apply repeat_spec in Hx. lra.
    + cbn [Rsum]. rewrite Rsum_repeat0. lra.
  - destruct (IH a ltac:(lia)) as [H1 H2]. split.
    + constructor; [lra|exact H1].
    + cbn [Rsum]. rewrite H2. lra.
Qed.

(** ** The table computed by [resolve_one], at the level of the single-agent view *)
Definition ventry := (nat * (list dtree * R))%type.
Definition e_kids (e : ventry) : list dtree := fst (snd e).
Definition e_p (e : ventry) : R := snd (snd e).

Definition forget (d : dn) : ventry := (d_i d, (d_kids d, d_rho d)).

Definition vstep (mu : nat -> R) (pays : list R) (e : ventry) : list R :=
  map (fun pk => fst pk + sv mu (snd pk) * e_p e) (combine pays (e_kids e)).

Definition vpayoffs (mu : nat -> R) (mine : list ventry) (ar : nat) : list R :=
  fold_left (vstep mu) mine (@repeatT RNum 0 ar).

Definition vmine (nodes : list ventry) (i : nat) : list ventry :=
  filter (fun e => Nat.eqb (fst e) i) nodes.

Definition vresolve (nodes : list ventry) (ar : nat) (mu : nat -> R) (i : nat) : R :=
  match vmine nodes i with
  | [] => 0
  | _ :: _ =>
      match @reduce_max RNum (vpayoffs mu (vmine nodes i) ar) with
      | Some m => if Rltb 0 (Rsum (map e_p (vmine nodes i)))
                  then m / Rsum (map e_p (vmine nodes i)) else 0
      | None => 0
      end
  end.

Lemma vresolve_nonempty nodes ar mu i :
  vmine nodes i <> [] ->
  vresolve nodes ar mu i =
  match @reduce_max RNum (vpayoffs mu (vmine nodes i) ar) with
  | Some m => if Rltb 0 (Rsum (map e_p (vmine nodes i)))
              then m / Rsum (map e_p (vmine nodes i)) else 0
  | None => 0
  end.
Proof. unfold vresolve. destruct (vmine nodes i); [congruence|reflexivity]. Qed.

Lemma vresolve_empty nodes ar mu i : vmine nodes i = [] -> vresolve nodes ar mu i = 0.
Proof. unfold vresolve. now intros ->. Qed.

Lemma vstep_length mu pays e :
  length (e_kids e) = length pays -> length (vstep mu pays e) = length pays.
Proof. intros H. unfold vstep. rewrite map_length, combine_length, H. apply Nat.min_id. Qed.

Lemma dot_vstep tau : forall pays kids (f : dtree -> R) p,
  length kids = length pays ->
  dot tau (map (fun pk => fst pk + f (snd pk) * p) (combine pays kids)) =
  dot tau pays + p * dot tau (map f kids).
Proof.
  induction tau as [|t tau IH]; intros pays kids f p Hl.
  - rewrite !dot_nil_l. lra.
  - destruct pays as [|x pays]; destruct kids as [|k kids]; try discriminate.
    + cbn [combine map]. rewrite !dot_nil_r. lra.
    + cbn [combine map fst snd]. rewrite !dot_cons, IH by (cbn [length] in Hl; lia). lra.
Qed.

Lemma vpayoffs_fold_length mu : forall l pays,
  (forall e, In e l -> length (e_kids e) = length pays) ->
  length (fold_left (vstep mu) l pays) = length pays.
Proof.
  induction l as [|e l IH]; intros pays H; cbn [fold_left]; [reflexivity|].
  assert (He : length (vstep mu pays e) = length pays)
    by (apply vstep_length, H; now left).
  rewrite IH; [exact He|]. intros e' He'. rewrite He. apply H. now right.
Qed.

Lemma dot_vpayoffs_fold tau mu : forall l pays,
  (forall e, In e l -> length (e_kids e) = length pays) ->
  dot tau (fold_left (vstep mu) l pays) =
  dot tau pays + Rsum (map (fun e => e_p e * dot tau (map (sv mu) (e_kids e))) l).
Proof.
  induction l as [|e l IH]; intros pays H; cbn [fold_left map Rsum]; [lra|].
  assert (He : length (vstep mu pays e) = length pays)
    by (apply vstep_length, H; now left).
  rewrite IH.
  - unfold vstep at 1. rewrite dot_vstep by (apply H; now left). lra.
  - intros e' He'. rewrite He. apply H. now right.
Qed.

Lemma fold_left_ext_in {A B} (f g : A -> B -> A) l : forall a,
  (forall a x, In x l -> f a x = g a x) -> fold_left f l a = fold_left g l a.
Proof.
  induction l as [|x l IH]; intros a H; cbn [fold_left]; [reflexivity|].
  rewrite (H a x (or_introl eq_refl)). apply IH. intros a' y Hy. apply H. now right.
Qed.

Lemma vresolve_ext nodes ar mu mu' i :
  (forall e k, In e (vmine nodes i) -> In k (e_kids e) -> sv mu k = sv mu' k) ->
  vresolve nodes ar mu i = vresolve nodes ar mu' i.
Proof.
  intros H. unfold vresolve.
  assert (E : vpayoffs mu (vmine nodes i) ar = vpayoffs mu' (vmine nodes i) ar).
  { unfold vpayoffs. apply fold_left_ext_in. intros pays e He. unfold vstep.
    apply map_ext_in. intros pk Hpk. rewrite (H e (snd pk) He); [reflexivity|].
    destruct pk as [x k]. eapply in_combine_r. exact Hpk. }
  now rewrite E.
Qed.

Lemma filter_map_comm {A B} (p : B -> bool) (q : A -> bool) (f : A -> B) l :
  (forall x, p (f x) = q x) -> filter p (map f l) = map f (filter q l).
Proof.
  intros H. induction l as [|x l IH]; cbn [map filter]; [reflexivity|].
  rewrite H, IH. now destruct (q x).
Qed.

Lemma vmine_forget l j :
  vmine (map forget l) j = map forget (filter (fun d => Nat.eqb (d_i d) j) l).
Proof. apply filter_map_comm. reflexivity. Qed.

Section Core.
  Context (t0 : dtree) (n : nat) (ars : list nat) (mu : nat -> R) (HH : nat -> hist).
  Let D := dnodes [] 1 t0.
  Let E := map forget D.
  Context (HPR : forall d, In d D -> d_hs d = HH (d_i d))
          (HLt : forall d, In d D -> HistLt d)
          (Hpos : forall d, In d D -> 0 < d_rho d)
          (Hshape : forall d, In d D -> (d_i d < n)%nat /\ length (d_kids d) = nth (d_i d) ars O)
          (Hars : forall j, (j < n)%nat -> (1 <= nth j ars O)%nat)
          (Hmu : forall j, (j < n)%nat -> mu j = vresolve E (nth j ars O) mu j).

  Definition Dj (j : nat) : list dn := filter (fun d => Nat.eqb (d_i d) j) D.

  Lemma vmine_E j : vmine E j = map forget (Dj j).
  Proof.
    unfold E, Dj. apply vmine_forget.
  Qed.

  Definition pays (j : nat) : list R := vpayoffs mu (vmine E j) (nth j ars O).

  Lemma In_Dj j d : In d (Dj j) -> In d D /\ d_i d = j.
  Proof. unfold Dj. rewrite filter_In, Nat.eqb_eq. tauto. Qed.

  Lemma mine_lengths j e :
    In e (vmine E j) -> length (e_kids e) = length (@repeatT RNum 0 (nth j ars O)).
  Proof.
    intros He. rewrite vmine_E in He. apply in_map_iff in He. destruct He as (d & <- & Hd).
    apply In_Dj in Hd. destruct Hd as [Hd <-]. rewrite repeatT_length.
    cbn [forget e_kids fst snd]. apply Hshape, Hd.
  Qed.

  Lemma pays_length j : length (pays j) = nth j ars O.
  Proof.
    unfold pays, vpayoffs. rewrite vpayoffs_fold_length; [apply repeatT_length|apply mine_lengths].
  Qed.

  Lemma pays_nonempty j : (j < n)%nat -> pays j <> [].
  Proof.
    intros Hj C. pose proof (pays_length j) as L. rewrite C in L. pose proof (Hars j Hj).
    cbn [length] in L. lia.
  Qed.

  Lemma dot_pays tau j :
    dot tau (pays j) =
    Rsum (map (fun d => d_rho d * dot tau (map (sv mu) (d_kids d))) (Dj j)).
  Proof.
    unfold pays, vpayoffs. rewrite dot_vpayoffs_fold by apply mine_lengths.
    rewrite dot_repeatT0_r, vmine_E, map_map. cbn [forget e_p e_kids fst snd]. lra.
  Qed.

  Lemma below_gt d a k d' :
    In d D -> nth_error (d_kids d) a = Some k ->
    In d' (dnodes (d_hs d ++ [(d_i d, a)]) (d_rho d) k) -> (d_i d < d_i d')%nat.
  Proof.
    intros Hd Hk Hd'. eapply HistLt_gt; [exact Hd'|]. apply HLt. eapply dnodes_sub; eassumption.
  Qed.

  Lemma total_pos j : Dj j <> [] -> 0 < Rsum (map d_rho (Dj j)).
  Proof.
    intros Hne. apply Rsum_pos_nonempty.
    - intros C. apply map_eq_nil in C. contradiction.
    - apply Forall_forall. intros x Hx. apply in_map_iff in Hx. destruct Hx as (d & <- & Hd).
      apply Hpos, (In_Dj j d Hd).
  Qed.

  Lemma argmax_pays_lt j : (j < n)%nat -> (argmax (pays j) < nth j ars O)%nat.
  Proof.
    intros Hj. destruct (argmax_spec (pays j) (pays_nonempty j Hj)) as (Hlt & _).
    now rewrite pays_length in Hlt.
  Qed.

  (** value of [mu j] times the total reach of infoset [j] = the best action value (both
      are zero when no node of infoset [j] is reached) *)
  Lemma mu_total j :
    (j < n)%nat -> mu j * Rsum (map d_rho (Dj j)) = nth (argmax (pays j)) (pays j) 0.
  Proof.
    intros Hj. destruct (Dj j) as [|d0 l0] eqn:EDj.
    - rewrite <- (dot_onehot (nth j ars O)), dot_pays, EDj by now apply argmax_pays_lt.
      cbn [map Rsum]. lra.
    - assert (Hne : Dj j <> []) by (rewrite EDj; discriminate). rewrite <- EDj, (Hmu j Hj).
      rewrite vresolve_nonempty
        by (rewrite vmine_E; intros C; apply map_eq_nil in C; congruence).
      fold (pays j). rewrite vmine_E.
      rewrite (proj1 (proj2 (argmax_spec _ (pays_nonempty j Hj)))), map_map. cbn [forget e_p snd].
      pose proof (total_pos j Hne) as Ht. change (fun x : dn => d_rho x) with d_rho.
      rewrite (proj2 (Rltb_true _ _) Ht). field. lra.
  Qed.

  (** one step of the telescope, for any [tau]: perfect recall gives every node of
      infoset [j] the factor [ppi tau (HH j)], and below such a node [hv (S j)] is [sv] *)
  Lemma step_eq tau j :
    (j < n)%nat ->
    hv tau mu (S j) t0 - hv tau mu j t0 =
    ppi tau (HH j) * (dot (rowR tau j) (pays j) - nth (argmax (pays j)) (pays j) 0).
  Proof.
    intros Hj.
    pose proof (hv_diff tau mu j t0 [] 1 HLt) as Hd. cbn [ppi] in Hd. fold D in Hd.
    rewrite !Rmult_1_l in Hd. rewrite Hd. unfold Fj. rewrite Rsum_filter. fold (Dj j).
    rewrite (Rsum_map_ext_in _
               (fun d => (d_rho d * dot (rowR tau j) (map (sv mu) (d_kids d)) + d_rho d * - mu j)
                         * ppi tau (HH j))).
    - rewrite Rsum_map_scal, Rsum_map_plus, <- dot_pays, Rsum_map_scal, <- mu_total by exact Hj.
      lra.
    - intros d Hd'. apply In_Dj in Hd'. destruct Hd' as [HdD Ei]. rewrite (HPR d HdD), Ei.
      replace (map (hv tau mu (S j)) (d_kids d)) with (map (sv mu) (d_kids d)); [lra|].
      apply map_ext_in. intros k Hk. destruct (In_nth_error _ _ Hk) as [a Ha]. symmetry.
      apply (hv_below tau mu (S j) k (d_hs d ++ [(d_i d, a)]) (d_rho d)).
      intros d' Hd'. rewrite <- Ei. eapply Nat.le_succ_l, below_gt; eassumption.
  Qed.

  Lemma step_le tau j :
    NonnegRows tau -> (j < n)%nat ->
    VRow (rowR tau j) -> length (rowR tau j) = nth j ars O ->
    hv tau mu (S j) t0 <= hv tau mu j t0.
  Proof.
    intros Hnn Hj Hv Hl. pose proof (step_eq tau j Hj) as Hs.
    pose proof (ppi_nonneg tau (HH j) Hnn) as Hp.
    destruct (argmax_spec (pays j) (pays_nonempty j Hj)) as (_ & _ & Hmax).
    pose proof (dot_le_max (rowR tau j) (pays j) _ Hv
                  ltac:(rewrite pays_length; exact Hl) Hmax) as Hle.
    nra.
  Qed.

  Lemma hv_chain tau (Rl : R -> R -> Prop) :
    (forall x, Rl x x) -> (forall x y z, Rl x y -> Rl y z -> Rl x z) ->
    (forall j, (j < n)%nat -> Rl (hv tau mu (S j) t0) (hv tau mu j t0)) ->
    Rl (val tau t0) (sv mu t0).
  Proof.
    intros Hrefl Htrans Hstep.
    rewrite <- (hv_n tau mu n t0 [] 1) by (intros d Hd; apply Hshape, Hd).
    rewrite <- (hv_below tau mu 0 t0 [] 1) by (intros; lia).
    assert (H : forall j, (j <= n)%nat -> Rl (hv tau mu j t0) (hv tau mu 0 t0)).
    { induction j as [|j IH]; intros Hj; [apply Hrefl|].
      eapply Htrans; [apply Hstep|apply IH]; lia. }
    apply H. lia.
  Qed.

  Theorem core_upper tau :
    NonnegRows tau ->
    (forall j, (j < n)%nat -> VRow (rowR tau j) /\ length (rowR tau j) = nth j ars O) ->
    val tau t0 <= sv mu t0.
  Proof.
    intros Hnn Hrows. apply (hv_chain tau Rle); [apply Rle_refl|apply Rle_trans|].
    intros j Hj. destruct (Hrows j Hj). now apply step_le.
  Qed.

  Definition sstar : list (list R) :=
    map (fun j => onehot (argmax (pays j)) (nth j ars O)) (seq 0 n).

  Lemma sstar_row j :
    (j < n)%nat -> rowR sstar j = onehot (argmax (pays j)) (nth j ars O).
  Proof. intros Hj. apply (nth_map_seq (fun j => onehot (argmax (pays j)) (nth j ars O))), Hj. Qed.

  Lemma sstar_lengths : length ars = n -> map (@length R) sstar = ars.
  Proof.
    intros Hl. unfold sstar. rewrite map_map.
    apply (nth_ext _ _ O O); rewrite map_length, seq_length; [now symmetry|].
    intros j Hj. rewrite nth_map_seq by exact Hj. apply onehot_length.
  Qed.

  Lemma sstar_pure :
    Forall (fun r => exists a, (a < length r)%nat /\ r = onehot a (length r)) sstar.
  Proof.
    unfold sstar. apply Forall_forall. intros r Hr. apply in_map_iff in Hr.
    destruct Hr as (j & <- & Hj). apply in_seq in Hj.
    exists (argmax (pays j)). rewrite onehot_length. split; [apply argmax_pays_lt; lia|reflexivity].
  Qed.

  Theorem core_attained : val sstar t0 = sv mu t0.
  Proof.
    apply (hv_chain sstar eq); [reflexivity|apply eq_trans|].
    intros j Hj. pose proof (step_eq sstar j Hj) as Hs.
    rewrite sstar_row, dot_onehot in Hs by (try apply argmax_pays_lt; exact Hj). nra.
  Qed.
End Core.

(** ** [HistLt] from the recorded previous infosets and the index order *)
Section HistOrder.
  Context (n : nat) (prev : nat -> option (nat * nat)).
  Context (Hord : forall i j a, (i < n)%nat -> prev i = Some (j, a) -> (j < i)%nat).

  Definition good (d : dn) : Prop :=
    (d_i d < n)%nat /\ prev (d_i d) = last (map Some (d_hs d)) None.

  Definition lastlt (hs : hist) (b : nat) : Prop :=
    match last (map Some hs) None with
    | None => True
    | Some (k, _) => (k < b)%nat
    end.

  Lemma hist_lt t : forall hs rho,
    (forall d, In d (dnodes hs rho t) -> good d) ->
    (forall b, lastlt hs b -> Forall (fun ka => (fst ka < b)%nat) hs) ->
    forall d, In d (dnodes hs rho t) -> HistLt d.
  Proof.
    induction t as [v|w t IH|ks IH|i kids IH] using dtree_ind'; intros hs rho Hg HQ d Hd.
    - destruct Hd.
    - cbn [dnodes] in *. eapply IH; eassumption.
    - apply In_dnodes_Nat in Hd. destruct Hd as (k & Hk & Hd).
      rewrite Forall_forall in IH. eapply (IH k Hk hs rho); [|exact HQ|exact Hd].
      intros d' Hd'. apply Hg. apply In_dnodes_Nat. eauto.
    - assert (Hthis : Forall (fun ka => (fst ka < i)%nat) hs).
      { apply HQ. unfold lastlt.
        destruct (Hg (mkDn hs i rho kids)) as [Hi Hp]; [rewrite dnodes_Dec; now left|].
        cbn [d_i d_hs] in Hi, Hp. destruct (last (map Some hs) None) as [[k a]|]; [|exact I].
        eapply Hord; eassumption. }
      apply In_dnodes_Dec in Hd. destruct Hd as [->|(b & k & Hk & Hd)].
      + exact Hthis.
      + rewrite Forall_forall in IH.
        eapply (IH k (nth_error_In _ _ Hk) (hs ++ [(i, b)]) rho); [| |exact Hd].
        * intros d' Hd'. apply Hg. apply In_dnodes_Dec. eauto.
        * intros b' Hb'. unfold lastlt in Hb'. rewrite map_app in Hb'. cbn [map] in Hb'.
          rewrite last_last in Hb'. apply Forall_app. split.
          -- eapply Forall_impl; [|exact Hthis]. cbn beta. intros ka Hka. lia.
          -- constructor; [exact Hb'|constructor].
  Qed.
End HistOrder.


(** ** The local loops of the model, as top-level functions *)
Section Loops.
  Context {A : Type} (f : node -> R -> A -> A) (reach : R).

  Fixpoint lgo_c (ps : list R) (ks : list node) (acc : A) {struct ks} : A :=
    match ps, ks with
    | p :: ps', k :: ks' => f k (p * reach) (lgo_c ps' ks' acc)
    | _, _ => acc
    end.

  Fixpoint lgo_p (ps : list R) (ks : list node) (acc : A) {struct ks} : A :=
    match ps, ks with
    | p :: ps', k :: ks' =>
        if Rltb 0 p then f k (p * reach) (lgo_p ps' ks' acc) else lgo_p ps' ks' acc
    | _, _ => acc
    end.

  Fixpoint lgo_me (ks : list node) (acc : A) : A :=
    match ks with
    | [] => acc
    | k :: r => f k reach (lgo_me r acc)
    end.
End Loops.

(** [lgo_c] is [lgo (fun _ => true)] and [lgo_p] is [lgo (Rltb 0)], by computation *)
Section Loop.
  Context {A : Type} (keep : R -> bool) (f : node -> R -> A -> A) (reach : R).
  Fixpoint lgo (ps : list R) (ks : list node) (acc : A) {struct ks} : A :=
    match ps, ks with
    | p :: ps', k :: ks' => if keep p then f k (p * reach) (lgo ps' ks' acc) else lgo ps' ks' acc
    | _, _ => acc
    end.
End Loop.

Definition centry := (nat * (list node * R))%type.

Lemma search_Term chance so me mu x reach acc :
  @search RNum chance so me mu (Term x) reach acc =
  if me then acc + x * reach else acc - x * reach.
Proof. reflexivity. Qed.

Lemma search_Chance chance so me mu ci kids reach acc :
  @search RNum chance so me mu (Chance ci kids) reach acc =
  lgo_c (@search RNum chance so me mu) reach (rowR chance ci) kids acc.
Proof. reflexivity. Qed.

Lemma search_Player chance so me mu pl i kids reach acc :
  @search RNum chance so me mu (Player pl i kids) reach acc =
  if Bool.eqb pl me then acc + mu i * reach
  else lgo_p (@search RNum chance so me mu) reach (rowR so i) kids acc.
Proof. reflexivity. Qed.

Lemma collect_Term chance so me x reach (acc : list centry) :
  @collect RNum chance so me (Term x) reach acc = acc.
Proof. reflexivity. Qed.

Lemma collect_Chance chance so me ci kids reach (acc : list centry) :
  @collect RNum chance so me (Chance ci kids) reach acc =
  lgo_c (@collect RNum chance so me) reach (rowR chance ci) kids acc.
Proof. reflexivity. Qed.

Lemma collect_Player chance so me pl i kids reach (acc : list centry) :
  @collect RNum chance so me (Player pl i kids) reach acc =
  if Bool.eqb pl me
  then lgo_me (@collect RNum chance so me) reach kids (acc ++ [(i, (kids, reach))])
  else lgo_p (@collect RNum chance so me) reach (rowR so i) kids acc.
Proof. reflexivity. Qed.

Lemma hists_kid_Chance ci kids h1 h2 k x :
  In k kids -> In x (@hists RNum k h1 h2) -> In x (@hists RNum (Chance ci kids) h1 h2).
Proof.
  intros Hk Hx. cbn [hists]. induction kids as [|k0 r IH]; [destruct Hk|]. apply in_or_app.
  destruct Hk as [->|Hk]; [now left|right; now apply IH].
Qed.

Lemma hists_kid_Player (pl : bool) i kids h1 h2 b k x :
  nth_error kids b = Some k ->
  In x (@hists RNum k (if pl then h1 ++ [(i, b)] else h1) (if pl then h2 else h2 ++ [(i, b)])) ->
  In x (@hists RNum (Player pl i kids) h1 h2).
Proof.
  intros Hk Hx. cbn [hists]. right. change b with (0 + b)%nat in Hx. revert b Hk Hx.
  generalize O. induction kids as [|k0 r IH]; intros a b Hk Hx; [now destruct b|].
  apply in_or_app. destruct b as [|b].
  - injection Hk as ->. rewrite Nat.add_0_r in Hx. now left.
  - right. apply (IH (S a) b Hk). now rewrite Nat.add_succ_comm.
Qed.

Definition pinfo0 : pinfo := mkPinfo 0%N [] None.

Lemma nth_arities (g : game) me i :
  nth i (arities g me) O = length (pi_actions (nth i (g_infos g me) pinfo0)).
Proof.
  unfold arities.
  exact (map_nth (fun pi : pinfo => length (pi_actions pi)) (g_infos g me) pinfo0 i).
Qed.

Lemma shaped_Chance (g : game) ci kids :
  shaped g (Chance ci kids) ->
  (ci < length (g_chance g))%nat /\ length kids = length (nth ci (g_chance g) []) /\
  (2 <= length kids)%nat /\ Forall (shaped g) kids.
Proof. intros (H1 & H2 & H3 & H4). auto using shaped_kids_Forall. Qed.

Lemma shaped_Player (g : game) pl i kids :
  shaped g (Player pl i kids) ->
  (i < length (g_infos g pl))%nat /\ length kids = nth i (arities g pl) O /\
  (2 <= length kids)%nat /\ Forall (shaped g) kids.
Proof. intros (H1 & H2 & H3 & H4). rewrite nth_arities. auto using shaped_kids_Forall. Qed.

Definition zipK (keep : R -> bool) (ps : list R) (ts : list dtree) : list dtree :=
  map (fun pt => Scale (fst pt) (snd pt)) (filter (fun pt => keep (fst pt)) (combine ps ts)).

Lemma Rsum_zipK keep (gv : dtree -> R) ps ts :
  (forall w t, gv (Scale w t) = w * gv t) -> Skips0 keep ps ->
  Rsum (map gv (zipK keep ps ts)) = dot ps (map gv ts).
Proof.
  intros Hg Hps. unfold zipK. revert ts; induction Hps as [|p ps Hp _ IH]; intros [|t ts];
    cbn [combine map Rsum filter]; rewrite ?dot_nil_l, ?dot_nil_r; try reflexivity.
  cbn [fst snd]. rewrite dot_cons. destruct (keep p) eqn:E.
  - cbn [map Rsum fst snd]. rewrite Hg, IH. reflexivity.
  - rewrite (Hp eq_refl), IH. lra.
Qed.

Section View.
  Context (chance so : list (list R)) (me : bool).

  Fixpoint view (n : node) : dtree :=
    match n with
    | Term x => Leaf (if me then x else - x)
    | Chance ci kids => Nat (zipK (fun _ => true) (rowR chance ci) (map view kids))
    | Player pl i kids =>
        if Bool.eqb pl me then Dec i (map view kids)
        else Nat (zipK (Rltb 0) (rowR so i) (map view kids))
    end.

  Lemma In_zipK_view keep ks : forall ps t,
    In t (zipK keep ps (map view ks)) ->
    exists b p k, nth_error ps b = Some p /\ keep p = true /\ nth_error ks b = Some k /\
                  t = Scale p (view k).
  Proof.
    unfold zipK. induction ks as [|k ks IH]; intros [|p ps] t Ht;
      cbn [map combine filter In] in Ht; try contradiction.
    cbn [fst] in Ht. destruct (keep p) eqn:E.
    - destruct Ht as [<-|Ht].
      + exists O, p, k. repeat split. exact E.
      + destruct (IH ps t Ht) as (b & p' & k' & H1 & H2 & H3 & H4). exists (S b), p', k'. auto.
    - destruct (IH ps t Ht) as (b & p' & k' & H1 & H2 & H3 & H4). exists (S b), p', k'. auto.
  Qed.

  (** where a decision node of the view of [n] comes from *)
  Lemma dnodes_view_inv n hs rho d :
    In d (dnodes hs rho (view n)) ->
    match n with
    | Term _ => False
    | Chance ci kids =>
        exists b p k, nth_error (rowR chance ci) b = Some p /\ nth_error kids b = Some k /\
                      In d (dnodes hs (p * rho) (view k))
    | Player pl i kids =>
        if Bool.eqb pl me
        then d = mkDn hs i rho (map view kids) \/
             exists b k, nth_error kids b = Some k /\ In d (dnodes (hs ++ [(i, b)]) rho (view k))
        else exists b p k, nth_error (rowR so i) b = Some p /\ 0 < p /\ nth_error kids b = Some k /\
                           In d (dnodes hs (p * rho) (view k))
    end.
  Proof.
    assert (HN : forall keep ps kids,
               In d (dnodes hs rho (Nat (zipK keep ps (map view kids)))) ->
               exists b p k, nth_error ps b = Some p /\ keep p = true /\ nth_error kids b = Some k /\
                             In d (dnodes hs (p * rho) (view k))).
    { intros keep ps kids Hd. apply In_dnodes_Nat in Hd.
      destruct Hd as (t & Ht & Hd). apply In_zipK_view in Ht.
      destruct Ht as (b & p & k & Hp & Hpp & Hk & ->). exists b, p, k. auto. }
    destruct n as [x|ci kids|pl i kids]; cbn [view]; [intros []| |destruct (Bool.eqb pl me)].
    - intros Hd. destruct (HN _ _ _ Hd) as (b & p & k & Hp & _ & Hk & Hd'). exists b, p, k. auto.
    - intros Hd. apply In_dnodes_Dec in Hd. destruct Hd as [->|(b & k' & Hk' & Hd)]; [now left|right].
      rewrite nth_error_map in Hk'. destruct (nth_error kids b) as [k|] eqn:Hk; [|discriminate].
      injection Hk' as <-. exists b, k. auto.
    - intros Hd. destruct (HN _ _ _ Hd) as (b & p & k & Hp & Hpp & Hk & Hd'). apply Rltb_true in Hpp.
      exists b, p, k. auto.
  Qed.

  Lemma lgo_view keep (f : node -> R -> R -> R) (gv : dtree -> R) reach ps kids acc :
    (forall w t, gv (Scale w t) = w * gv t) ->
    Forall (fun k => forall r a, f k r a = a + r * gv (view k)) kids ->
    lgo keep f reach ps kids acc = acc + reach * Rsum (map gv (zipK keep ps (map view kids))).
  Proof.
    intros Hg HF. unfold zipK. revert ps. induction HF as [|k ks Hk _ IH]; intros [|p ps];
      cbn [lgo map combine filter Rsum fst]; try lra.
    destruct (keep p); cbn [map Rsum fst snd]; rewrite ?Hk, IH, ?Hg; lra.
  Qed.

  Lemma search_view mu n : forall reach acc,
    @search RNum chance so me mu n reach acc = acc + reach * sv mu (view n).
  Proof.
    induction n as [x|ci kids IH|pl i kids IH] using node_ind'; intros reach acc.
    - rewrite search_Term. cbn [view sv]. destruct me; lra.
    - rewrite search_Chance. cbn [view sv]. now apply (lgo_view (fun _ => true)).
    - rewrite search_Player. cbn [view]. destruct (Bool.eqb pl me); cbn [sv]; [lra|].
      now apply (lgo_view (Rltb 0)).
  Qed.

  Context (Hso : NonnegRows so).

  Definition signed (x : R) : R := if me then x else - x.

  Lemma dot_signed ps (f : node -> R) ks :
    dot ps (map (fun k => signed (f k)) ks) = signed (dot ps (map f ks)).
  Proof.
    revert ks; induction ps as [|p ps IH]; intros [|k ks]; cbn [map];
      rewrite ?dot_nil_l, ?dot_nil_r; try (unfold signed; destruct me; lra).
    rewrite !dot_cons, IH. unfold signed. destruct me; lra.
  Qed.

  Lemma u_view tau n :
    signed (u chance (if me then tau else so) (if me then so else tau) n) = val tau (view n).
  Proof.
    induction n as [x|ci kids IH|pl i kids IH] using node_ind'.
    - reflexivity.
    - cbn [u view val]. rewrite (Rsum_zipK _ (val tau) _ _ (fun _ _ => eq_refl) (skips_none _)), map_map, <- dot_signed.
      apply f_equal. apply map_ext_Forall. exact IH.
    - cbn [u view].
      replace (if pl then if me then tau else so else if me then so else tau)
        with (if Bool.eqb pl me then tau else so) by (destruct pl, me; reflexivity).
      destruct (Bool.eqb pl me); cbn [val].
      + rewrite map_map, <- dot_signed. apply f_equal. apply map_ext_Forall. exact IH.
      + rewrite (Rsum_zipK _ (val tau) _ _ (fun _ _ => eq_refl)) by apply skips_nonneg, Forall_row, Hso.
        rewrite map_map, <- dot_signed. apply f_equal. apply map_ext_Forall. exact IH.
  Qed.

  Definition vlift (e : centry) : ventry := (fst e, (map view (fst (snd e)), snd (snd e))).

  Lemma lgo_collect keep hs reach kids :
    Forall (fun k => forall hs reach (acc : list centry),
              map vlift (@collect RNum chance so me k reach acc) =
              map vlift acc ++ map forget (dnodes hs reach (view k))) kids ->
    forall ps (acc : list centry),
    map vlift (lgo keep (@collect RNum chance so me) reach ps kids acc) =
    map vlift acc ++ map forget (dnodes hs reach (Nat (zipK keep ps (map view kids)))).
  Proof.
    intros IH ps acc. rewrite dnodes_Nat. unfold zipK. revert acc ps.
    induction IH as [|k ks Hk _ IHks]; intros acc [|p ps];
      cbn [lgo map combine filter dn_nat]; rewrite ?app_nil_r; try reflexivity.
    cbn [fst]. destruct (keep p); [|apply IHks].
    rewrite (Hk hs), IHks. cbn [map dn_nat fst snd dnodes]. now rewrite map_app, app_assoc.
  Qed.

  Lemma collect_view n : forall hs reach (acc : list centry),
    map vlift (@collect RNum chance so me n reach acc) =
    map vlift acc ++ map forget (dnodes hs reach (view n)).
  Proof.
    induction n as [x|ci kids IH|pl i kids IH] using node_ind'; intros hs reach acc.
    - rewrite collect_Term. cbn [view dnodes map]. now rewrite app_nil_r.
    - rewrite collect_Chance. cbn [view]. now apply (lgo_collect (fun _ => true)).
    - rewrite collect_Player. cbn [view]. destruct (Bool.eqb pl me); [|now apply (lgo_collect (Rltb 0))].
      rewrite dnodes_Dec. cbn [map].
      assert (Hin : forall a (acc0 : list centry),
                 map vlift (lgo_me (@collect RNum chance so me) reach kids acc0) =
                 map vlift acc0 ++
                 map forget (dn_dec (fun h t => dnodes h reach t) hs i (map view kids) a)).
      { clear acc. induction IH as [|k ks Hk _ IHks]; intros a acc0; cbn [lgo_me map dn_dec].
        - now rewrite app_nil_r.
        - rewrite (Hk (hs ++ [(i, a)])), (IHks (S a)), map_app, app_assoc. reflexivity. }
      rewrite (Hin O), map_app, <- app_assoc. reflexivity.
  Qed.
End View.


Section Props.
  Context (g : game) (so : list (list R)) (me : bool).
  Context (Hch : Forall (Forall (fun p => 0 < p)) (g_chance g)).
  Local Notation viewg := (view (g_chance g) so me).

  Lemma dn_props n : forall h1 h2 hs rho d,
    hs = (if me then h1 else h2) -> shaped g n -> 0 < rho ->
    In d (dnodes hs rho (viewg n)) ->
    In (me, d_i d, d_hs d) (@hists RNum n h1 h2) /\ 0 < d_rho d /\
    exists kids, shaped g (Player me (d_i d) kids) /\ d_kids d = map viewg kids.
  Proof.
    induction n as [x|ci kids IH|pl i kids IH] using node_ind'; intros h1 h2 hs rho d Hhs Hsh Hrho Hd;
      apply dnodes_view_inv in Hd; [destruct Hd| |]; rewrite Forall_forall in IH.
    - destruct Hd as (b & p & k & Hp & Hk & Hd).
      destruct (shaped_Chance g ci kids Hsh) as (_ & _ & _ & Hall). rewrite Forall_forall in Hall.
      pose proof (nth_error_In _ _ Hk) as HkIn.
      assert (Hpp : 0 < p).
      { eapply Forall_forall; [apply (Forall_row _ _ ci Hch)|eapply nth_error_In, Hp]. }
      destruct (IH k HkIn h1 h2 hs (p * rho) d Hhs (Hall k HkIn)
                   (Rmult_lt_0_compat _ _ Hpp Hrho) Hd) as (A1 & A2).
      split; [|exact A2]. eapply hists_kid_Chance; eassumption.
    - destruct (shaped_Player g pl i kids Hsh) as (_ & _ & _ & Hall). rewrite Forall_forall in Hall.
      destruct (Bool.eqb pl me) eqn:Epl.
      + apply eqb_prop in Epl. subst pl. destruct Hd as [->|(b & k & Hk & Hd)].
        * cbn [d_i d_hs d_rho d_kids hists].
          split; [left; now subst hs|]. split; [assumption|]. exists kids. auto.
        * pose proof (nth_error_In _ _ Hk) as HkIn.
          destruct (IH k HkIn (if me then h1 ++ [(i, b)] else h1)
                       (if me then h2 else h2 ++ [(i, b)]) (hs ++ [(i, b)]) rho d
                       ltac:(subst hs; destruct me; reflexivity) (Hall k HkIn) Hrho Hd) as (A1 & A2).
          split; [|exact A2]. eapply hists_kid_Player; eassumption.
      + destruct Hd as (b & p & k & Hp & Hpp & Hk & Hd). pose proof (nth_error_In _ _ Hk) as HkIn.
        destruct (IH k HkIn (if pl then h1 ++ [(i, b)] else h1)
                     (if pl then h2 else h2 ++ [(i, b)]) hs (p * rho) d
                     ltac:(subst hs; destruct pl, me; try discriminate; reflexivity)
                     (Hall k HkIn) (Rmult_lt_0_compat _ _ Hpp Hrho) Hd) as (A1 & A2).
        split; [|exact A2]. eapply hists_kid_Player; eassumption.
  Qed.
End Props.

Lemma combine_map_r {A B C} (f : B -> C) (l : list A) : forall l' : list B,
  combine l (map f l') = map (fun pk => (fst pk, f (snd pk))) (combine l l').
Proof.
  induction l as [|x l IH]; intros [|y l']; cbn [combine map]; try reflexivity.
  now rewrite IH.
Qed.

Lemma fold_left_map {A B C} (f : A -> B -> A) (gm : C -> B) l : forall a,
  fold_left f (map gm l) a = fold_left (fun a x => f a (gm x)) l a.
Proof. induction l as [|x l IH]; intros a; cbn [map fold_left]; [reflexivity|apply IH]. Qed.

Lemma match_nonempty {A B} (l : list A) (z x : B) :
  l <> [] -> match l with [] => z | _ :: _ => x end = x.
Proof. destruct l; [congruence|reflexivity]. Qed.

Section Resolve.
  Context (chance so : list (list R)) (me : bool).
  Local Notation vliftc := (vlift chance so me).

  Lemma filter_vlift (nodes : list centry) i :
    vmine (map vliftc nodes) i = map vliftc (filter (fun e => Nat.eqb (fst e) i) nodes).
  Proof. apply filter_map_comm. reflexivity. Qed.

  Lemma vpayoffs_lift mu (mine : list centry) ar :
    vpayoffs mu (map vliftc mine) ar =
    fold_left (fun pays (e : centry) =>
                 let '(_, (kids, p)) := e in
                 map (fun pk => fst pk + @search RNum chance so me mu (snd pk) 1 0 * p)
                     (combine pays kids))
              mine (@repeatT RNum 0 ar).
  Proof.
    unfold vpayoffs. rewrite fold_left_map. apply fold_left_ext_in.
    intros pays [i' [kids p]] _. unfold vstep. cbn [vlift e_kids e_p fst snd].
    rewrite combine_map_r, map_map. apply map_ext. intros [x k]. cbn [fst snd].
    rewrite search_view. lra.
  Qed.

  Lemma resolve_one_view (nodes : list centry) ar mu i :
    @resolve_one RNum chance so me nodes ar mu i = vresolve (map vliftc nodes) ar mu i.
  Proof.
    unfold resolve_one, vresolve. rewrite filter_vlift. cbn [T RNum].
    destruct (filter (fun e : nat * (list node * R) => (fst e =? i)%nat) nodes) as [|e0 l0];
      [reflexivity|].
    rewrite vpayoffs_lift, map_map, <- sum_Rsum. reflexivity.
  Qed.

  Context (nodes : list centry) (ars : list nat).
  Local Notation rf := (@resolve_from RNum chance so me nodes ars).

  Lemma rf_S i k :
    rf i (S k) =
    @resolve_one RNum chance so me nodes (nth i ars O)
                 (fun j => nth (j - S i) (rf (S i) k) 0) i :: rf (S i) k.
  Proof. reflexivity. Qed.

  Lemma rf_nth a : forall i b c, nth (a + c) (rf i (a + b)) 0 = nth c (rf (i + a) b) 0.
  Proof.
    induction a as [|a IH]; intros i b c; cbn [Nat.add].
    - now rewrite Nat.add_0_r.
    - rewrite rf_S. cbn [nth]. rewrite IH. do 2 f_equal. lia.
  Qed.

  Definition table (n : nat) : nat -> R := fun j => nth j (rf O n) 0.

  Lemma table_stable n j :
    (j < n)%nat ->
    exists mu' : nat -> R,
      (forall j', (j < j')%nat -> mu' j' = table n j') /\
      table n j = @resolve_one RNum chance so me nodes (nth j ars O) mu' j.
  Proof.
    intros Hj. set (m := (n - S j)%nat).
    exists (fun j' => nth (j' - S j) (rf (S j) m) 0). unfold table. split.
    - intros j' Hj'. rewrite <- (rf_nth (S j) O m).
      replace (S j + m)%nat with n by (unfold m; lia). f_equal. lia.
    - pose proof (rf_nth j O (S m) O) as E. rewrite rf_S, Nat.add_0_r in E.
      replace (j + S m)%nat with n in E by (unfold m; lia). exact E.
  Qed.
End Resolve.


Lemma chance_pos (g : game) : ChanceOK g -> Forall (Forall (fun p => 0 < p)) (g_chance g).
Proof.
  unfold ChanceOK. intros H. eapply Forall_impl; [|exact H]. cbn beta. now intros row [Hr _].
Qed.

Lemma WF_arity_pos (g : game) me j :
  WFgame g -> (j < length (g_infos g me))%nat -> (1 <= nth j (arities g me) O)%nat.
Proof.
  intros (_ & [_ H1] & [_ H2] & _) Hj. rewrite nth_arities.
  assert (H : Forall (fun pi : pinfo => NoDup (pi_actions pi) /\ (2 <= length (pi_actions pi))%nat)
                     (g_infos g me)) by (destruct me; assumption).
  rewrite Forall_forall in H. destruct (H (nth j (g_infos g me) pinfo0)) as [_ Hl].
  - now apply nth_In.
  - lia.
Qed.

Lemma root_props (g : game) so me d :
  ChanceOK g -> shaped g (g_root g) ->
  In d (dnodes [] 1 (view (g_chance g) so me (g_root g))) ->
  In (me, d_i d, d_hs d) (@hists RNum (g_root g) [] []) /\ 0 < d_rho d /\
  exists kids, shaped g (Player me (d_i d) kids) /\ d_kids d = map (view (g_chance g) so me) kids.
Proof.
  intros HC Hsh. apply (dn_props g so me (chance_pos g HC) (g_root g) [] [] [] 1 d);
    [now destruct me|exact Hsh|lra].
Qed.

Section Final.
  Context (g : game) (me : bool) (so : list (list R)).
  Context (HWF : WFgame g) (HPRc : PerfectRecall g) (HCh : ChanceOK g) (Hso : NonnegRows so).

  Definition the_view : dtree := view (g_chance g) so me (g_root g).
  Definition the_nodes : list centry := @collect RNum (g_chance g) so me (g_root g) 1 [].
  Definition the_mu : nat -> R :=
    table (g_chance g) so me the_nodes (arities g me) (length (g_infos g me)).

  Lemma br_value_view : @br_value RNum g me so = sv the_mu the_view.
  Proof.
    unfold br_value. cbv zeta. rewrite (search_view (g_chance g) so me).
    rewrite arities_length. cbn [one zero RNum]. rewrite Rplus_0_l, Rmult_1_l. reflexivity.
  Qed.

  Lemma u_me_view tau : u_me g me tau so = val tau the_view.
  Proof.
    unfold u_me, u_game, the_view. rewrite <- (u_view (g_chance g) so me Hso tau).
    unfold signed. destruct me; reflexivity.
  Qed.

  Lemma nodes_view : map (vlift (g_chance g) so me) the_nodes = map forget (dnodes [] 1 the_view).
  Proof. exact (collect_view (g_chance g) so me (g_root g) [] 1 []). Qed.

  Definition D_props d := root_props g so me d HCh (proj1 HWF).

  Lemma D_shape d :
    In d (dnodes [] 1 the_view) ->
    (d_i d < length (g_infos g me))%nat /\ length (d_kids d) = nth (d_i d) (arities g me) O.
  Proof.
    intros Hd. destruct (D_props d Hd) as (_ & _ & kids & Hsh & ->). rewrite map_length.
    destruct (shaped_Player g me _ kids Hsh) as (H1 & H2 & _). now split.
  Qed.

  Lemma D_HistLt d : In d (dnodes [] 1 the_view) -> HistLt d.
  Proof.
    destruct HWF as (_ & _ & _ & Hprev & Hord).
    apply (hist_lt (length (g_infos g me))
                   (fun i => pi_prev (nth i (g_infos g me) pinfo0))).
    - intros i j a Hi Hp. exact (Hord me i j a Hi Hp).
    - intros d' Hd'. split; [apply (D_shape d' Hd')|].
      exact (Hprev me (d_i d') (d_hs d') (proj1 (D_props d' Hd'))).
    - intros b _. constructor.
  Qed.

  Lemma the_mu_stable j :
    (j < length (g_infos g me))%nat ->
    the_mu j = vresolve (map forget (dnodes [] 1 the_view)) (nth j (arities g me) O) the_mu j.
  Proof.
    intros Hj. unfold the_mu.
    destruct (table_stable (g_chance g) so me the_nodes (arities g me) _ j Hj)
      as (mu' & Hag & Heq).
    rewrite Heq, (resolve_one_view (g_chance g) so me), nodes_view.
    apply vresolve_ext. intros e k He Hk.
    rewrite vmine_forget in He. apply in_map_iff in He. destruct He as (d & <- & Hd).
    apply filter_In in Hd. destruct Hd as [Hd Hdi]. apply Nat.eqb_eq in Hdi.
    cbn [forget e_kids fst snd] in Hk. destruct (In_nth_error _ _ Hk) as [a Ha].
    apply (sv_ext mu' _ k (d_hs d ++ [(d_i d, a)]) (d_rho d)).
    intros d' Hd'. apply Hag. rewrite <- Hdi.
    exact (below_gt the_view D_HistLt d a k d' Hd Ha Hd').
  Qed.

  Lemma StratOf_rows tau j :
    StratOf g me tau -> (j < length (g_infos g me))%nat ->
    VRow (rowR tau j) /\ length (rowR tau j) = nth j (arities g me) O.
  Proof.
    intros [Hv Hl] Hj.
    assert (Hlen : length tau = length (g_infos g me)).
    { rewrite <- arities_length, <- Hl. now rewrite map_length. }
    split.
    - rewrite Forall_forall in Hv. apply Hv. unfold rowR. apply nth_In. lia.
    - rewrite <- Hl. unfold rowR. symmetry.
      exact (map_nth (@length R) tau [] j).
  Qed.

  Definition the_sstar : list (list R) :=
    sstar the_view (length (g_infos g me)) (arities g me) the_mu.

  (** no strategy of [me] does better than [br_value], and the pure strategy read off the
      table attains it *)
  Theorem br_sec :
    (forall tau, StratOf g me tau -> u_me g me tau so <= @br_value RNum g me so) /\
    PureOf g me the_sstar /\ u_me g me the_sstar so = @br_value RNum g me so.
  Proof.
    destruct HPRc as [H HH].
    assert (HPR : forall d, In d (dnodes [] 1 the_view) -> d_hs d = H me (d_i d))
      by (intros d Hd; exact (HH me _ _ (proj1 (D_props d Hd)))).
    assert (Hpos : forall d, In d (dnodes [] 1 the_view) -> 0 < d_rho d)
      by (intros d Hd; apply (D_props d Hd)).
    assert (Hars : forall j, (j < length (g_infos g me))%nat -> (1 <= nth j (arities g me) O)%nat)
      by (intros j Hj; now apply WF_arity_pos).
    split; [|split; [split|]].
    - intros tau Htau. rewrite u_me_view, br_value_view.
      apply (core_upper the_view _ (arities g me) the_mu (H me)
                        HPR D_HistLt Hpos D_shape Hars the_mu_stable).
      + eapply StratOf_nonneg, Htau.
      + intros j Hj. now apply StratOf_rows.
    - apply sstar_lengths, arities_length.
    - apply (sstar_pure the_view _ (arities g me) the_mu D_shape Hars).
    - rewrite u_me_view, br_value_view.
      apply (core_attained the_view _ (arities g me) the_mu (H me)
                           HPR D_HistLt Hpos D_shape Hars the_mu_stable).
  Qed.
End Final.

Lemma PureOf_StratOf (g : game) me s : PureOf g me s -> StratOf g me s.
Proof.
  intros [Hl Hp]. split; [|exact Hl]. eapply Forall_impl; [|exact Hp].
  intros r (a & Ha & Hr). rewrite Hr. now apply onehot_VRow.
Qed.

Theorem br_upper (g : game) (me : bool) (so : list (list R)) :
  WFgame g -> PerfectRecall g -> ChanceOK g -> NonnegRows so ->
  forall tau, StratOf g me tau -> u_me g me tau so <= @br_value RNum g me so.
Proof. intros H1 H2 H3 H4. now apply br_sec. Qed.

Theorem br_attained (g : game) (me : bool) (so : list (list R)) :
  WFgame g -> PerfectRecall g -> ChanceOK g -> NonnegRows so ->
  exists s, PureOf g me s /\ u_me g me s so = @br_value RNum g me so.
Proof.
  intros H1 H2 H3 H4. exists (the_sstar g me so). now apply br_sec.
Qed.

Corollary br_value_is_max (g : game) (me : bool) (so : list (list R)) :
  WFgame g -> PerfectRecall g -> ChanceOK g -> NonnegRows so ->
  (forall tau, StratOf g me tau -> u_me g me tau so <= @br_value RNum g me so) /\
  (exists s, StratOf g me s /\ u_me g me s so = @br_value RNum g me so).
Proof.
  intros H1 H2 H3 H4. split; [now apply br_upper|].
  destruct (br_attained g me so H1 H2 H3 H4) as (s & Hs & He).
  exists s. split; [now apply PureOf_StratOf|exact He].
Qed.

Section Info.
  Context (g : game) (prof : list R * list R).
  Context (HWF : WFgame g) (HPR : PerfectRecall g) (HCh : ChanceOK g) (HV : Valid g prof).
  Let s1 := strat1 g prof.
  Let s2 := strat2 g prof.
  Local Notation st := (prof_strat g prof).
  Local Notation reg := (si_reg (@info RNum g prof)).

  Lemma info_reg_exact me :
    reg me = @br_value RNum g me (st (negb me)) - u_me g me (st me) (st (negb me)) /\ 0 <= reg me.
  Proof.
    rewrite info_reg_def by exact HV.
    pose proof (br_upper g me _ HWF HPR HCh (StratOf_nonneg _ _ _ (Valid_strat g prof (negb me) HV))
                         _ (Valid_strat g prof me HV)) as H.
    rewrite Rmax_left by lra. split; lra.
  Qed.

  (** the reported regret of player [me] is the largest gain from a unilateral deviation *)
  Lemma info_reg_largest_gain me :
    (forall tau, StratOf g me tau ->
                 u_me g me tau (st (negb me)) - u_me g me (st me) (st (negb me)) <= reg me) /\
    (exists s, PureOf g me s /\
               u_me g me s (st (negb me)) - u_me g me (st me) (st (negb me)) = reg me).
  Proof.
    destruct (info_reg_exact me) as [-> _].
    pose proof (StratOf_nonneg _ _ _ (Valid_strat g prof (negb me) HV)) as Hnn. split.
    - intros tau Ht. pose proof (br_upper g me _ HWF HPR HCh Hnn tau Ht). lra.
    - destruct (br_attained g me _ HWF HPR HCh Hnn) as (s & Hs & He).
      exists s. split; [exact Hs|]. lra.
  Qed.

  Theorem info_reg1_exact :
    si_reg1 (@info RNum g prof) = @br_value RNum g true s2 - u_me g true s1 s2 /\
    0 <= si_reg1 (@info RNum g prof).
  Proof. exact (info_reg_exact true). Qed.

  Theorem info_reg2_exact :
    si_reg2 (@info RNum g prof) = @br_value RNum g false s1 - u_me g false s2 s1 /\
    0 <= si_reg2 (@info RNum g prof).
  Proof. exact (info_reg_exact false). Qed.

  Theorem info_reg1_largest_gain :
    (forall tau, StratOf g true tau ->
                 u_me g true tau s2 - u_me g true s1 s2 <= si_reg1 (@info RNum g prof)) /\
    (exists s, PureOf g true s /\
               u_me g true s s2 - u_me g true s1 s2 = si_reg1 (@info RNum g prof)).
  Proof. exact (info_reg_largest_gain true). Qed.

  Theorem info_reg2_largest_gain :
    (forall tau, StratOf g false tau ->
                 u_me g false tau s1 - u_me g false s2 s1 <= si_reg2 (@info RNum g prof)) /\
    (exists s, PureOf g false s /\
               u_me g false s s1 - u_me g false s2 s1 = si_reg2 (@info RNum g prof)).
  Proof. exact (info_reg_largest_gain false). Qed.

  (** the profile is an equilibrium exactly when the reported regret is zero *)
  Theorem info_regret_zero_iff_equilibrium :
    @si_regret RNum (@info RNum g prof) = 0 <->
    (forall tau, StratOf g true tau -> u_me g true tau s2 <= u_me g true s1 s2) /\
    (forall tau, StratOf g false tau -> u_me g false tau s1 <= u_me g false s2 s1).
  Proof.
    rewrite info_regret_def.
    destruct info_reg1_exact as [_ P1], info_reg2_exact as [_ P2].
    destruct info_reg1_largest_gain as [U1 (x1 & Hx1 & A1)].
    destruct info_reg2_largest_gain as [U2 (x2 & Hx2 & A2)].
    apply PureOf_StratOf in Hx1, Hx2.
    set (r1 := si_reg1 (@info RNum g prof)) in *. set (r2 := si_reg2 (@info RNum g prof)) in *.
    split.
    - intros H0. pose proof (Rmax_l r1 r2). pose proof (Rmax_r r1 r2).
      split; intros tau Ht; [pose proof (U1 tau Ht)|pose proof (U2 tau Ht)]; lra.
    - intros [B1 B2]. pose proof (B1 x1 Hx1). pose proof (B2 x2 Hx2).
      unfold Rmax. destruct (Rle_dec r1 r2); lra.
  Qed.
End Info.

(** * Non-vacuity: matching pennies

    Player one picks a side, player two (one infoset holding both of its nodes) picks a
    side without seeing it; player one wins the stake [x] on a match and loses it
    otherwise.  The compact game is written by hand. *)
Definition mp_game (x : R) : game :=
  @mkGame RNum [] [mkPinfo 1%N [0%N; 1%N] None] [mkPinfo 2%N [0%N; 1%N] None] [] []
    (@Player RNum true 0 [@Player RNum false 0 [@Term RNum x; @Term RNum (- x)];
                           @Player RNum false 0 [@Term RNum (- x); @Term RNum x]]).

(** both players play their first action with probability one *)
Definition mp_prof : list R * list R := ([1; 0], [1; 0]).

Lemma mp_WFtables name : WFtables [mkPinfo name [0%N; 1%N] None] [].
Proof.
  split.
  - cbn. constructor; [intros []|constructor].
  - constructor; [|constructor]. cbn. split; [|lia].
    constructor; [intros [H|[]]; discriminate H|]. constructor; [intros []|constructor].
Qed.

Lemma mp_hists x pl i h :
  In (pl, i, h) (@hists RNum (g_root (mp_game x)) [] []) -> i = O /\ h = [].
Proof. cbn. intros [H|[H|[H|[]]]]; injection H as _ <- <-; split; reflexivity. Qed.

Lemma mp_WFgame x : WFgame (mp_game x).
Proof.
  split; [|split; [|split; [|split]]].
  - cbn. repeat split; lia.
  - apply mp_WFtables.
  - apply mp_WFtables.
  - intros pl i h H. destruct (mp_hists x pl i h H) as [-> ->]. now destruct pl.
  - intros pl i j a Hi Hp. destruct pl; cbn in Hi, Hp;
      (destruct i as [|i]; [discriminate Hp|lia]).
Qed.

Lemma mp_PerfectRecall x : PerfectRecall (mp_game x).
Proof. exists (fun _ _ => []). intros pl i h H. apply (mp_hists x pl i h H). Qed.

Lemma mp_ChanceOK x : ChanceOK (mp_game x).
Proof. constructor. Qed.

Lemma mp_VRow : VRow [1; 0].
Proof. split; [repeat constructor; lra|cbn; lra]. Qed.

Lemma mp_Valid x : Valid (mp_game x) mp_prof.
Proof.
  split; (split; [reflexivity|]); cbn; (constructor; [apply mp_VRow|constructor]).
Qed.

Lemma Rltb_0_1 : Rltb 0 1 = true.
Proof. apply Rltb_true. lra. Qed.
Lemma Rltb_0_0 : Rltb 0 0 = false.
Proof. apply Rltb_false. lra. Qed.

Lemma mp_expected x : @expected RNum (mp_game x) [[1; 0]] [[1; 0]] = x.
Proof.
  rewrite expected_exact by (repeat constructor; lra). unfold u_game, mp_game, dot. cbn. lra.
Qed.

(** against the first action, the better reply of either player wins the stake *)
Lemma mp_br_one x : 0 <= x -> @br_value RNum (mp_game x) true [[1; 0]] = x.
Proof.
  intros Hx. unfold br_value, mp_game.
  do 2 (cbn -[Rltb]; rewrite ?Rltb_0_1, ?Rltb_0_0).
  rewrite (proj2 (Rltb_true 0 (0 + 1))), Rmax_left by lra. lra.
Qed.

Lemma mp_br_two x : 0 <= x -> @br_value RNum (mp_game x) false [[1; 0]] = x.
Proof.
  intros Hx. unfold br_value, mp_game.
  do 2 (cbn -[Rltb]; rewrite ?Rltb_0_1, ?Rltb_0_0).
  rewrite (proj2 (Rltb_true 0 (0 + 1 * 1))), Rmax_right by lra. lra.
Qed.

Lemma mp_info x :
  0 <= x ->
  si_util (@info RNum (mp_game x) mp_prof) = x /\
  si_reg1 (@info RNum (mp_game x) mp_prof) = 0 /\
  si_reg2 (@info RNum (mp_game x) mp_prof) = 2 * x.
Proof.
  intros Hx. unfold info. cbn [si_util si_reg1 si_reg2].
  change (split_by (fst mp_prof) (arities (mp_game x) true)) with [[1; 0]].
  change (split_by (snd mp_prof) (arities (mp_game x) false)) with [[1; 0]].
  rewrite mp_expected, mp_br_one, mp_br_two by exact Hx. cbn [fmax sub add zero RNum].
  rewrite Rmax_right, Rmax_left by lra. repeat split; lra.
Qed.

Lemma mp_regret x : 0 <= x -> @si_regret RNum (@info RNum (mp_game x) mp_prof) = 2 * x.
Proof.
  intros Hx. destruct (mp_info x Hx) as (_ & H1 & H2).
  rewrite info_regret_def, H1, H2. apply Rmax_right. lra.
Qed.

Lemma mp_example x :
  0 <= x ->
  WFgame (mp_game x) /\ PerfectRecall (mp_game x) /\ ChanceOK (mp_game x) /\
  Valid (mp_game x) mp_prof /\ @si_regret RNum (@info RNum (mp_game x) mp_prof) = 2 * x.
Proof.
  intros Hx. split; [apply mp_WFgame|]. split; [apply mp_PerfectRecall|].
  split; [apply mp_ChanceOK|]. split; [apply mp_Valid|]. now apply mp_regret.
Qed.

(** with the stake [1/2] the pure profile has regret one (the loser gains [2 * 1/2] by
    switching sides); with the usual stake [1] it has regret two *)
Example matching_pennies_regret_one :
  WFgame (mp_game (1 / 2)) /\ PerfectRecall (mp_game (1 / 2)) /\ ChanceOK (mp_game (1 / 2)) /\
  Valid (mp_game (1 / 2)) mp_prof /\
  @si_regret RNum (@info RNum (mp_game (1 / 2)) mp_prof) = 1.
Proof.
  pose proof (mp_example (1 / 2)) as H. replace (2 * (1 / 2)) with 1 in H by lra. apply H. lra.
Qed.

Example matching_pennies_regret_two :
  WFgame (mp_game 1) /\ PerfectRecall (mp_game 1) /\ ChanceOK (mp_game 1) /\
  Valid (mp_game 1) mp_prof /\
  @si_regret RNum (@info RNum (mp_game 1) mp_prof) = 2.
Proof.
  pose proof (mp_example 1) as H. replace (2 * 1) with 2 in H by lra. apply H. lra.
Qed.

(** the theorems of this file apply to the example: the reported regret of player two is
    the gain of its best pure deviation *)
Example matching_pennies_reg2_gain :
  exists s, PureOf (mp_game 1) false s /\
            u_me (mp_game 1) false s (strat1 (mp_game 1) mp_prof)
            - u_me (mp_game 1) false (strat2 (mp_game 1) mp_prof) (strat1 (mp_game 1) mp_prof) = 2.
Proof.
  destruct (info_reg2_largest_gain (mp_game 1) mp_prof (mp_WFgame 1) (mp_PerfectRecall 1)
              (mp_ChanceOK 1) (mp_Valid 1)) as [_ (s & Hs & He)].
  exists s. split; [exact Hs|]. rewrite He.
  destruct (mp_info 1 ltac:(lra)) as (_ & _ & H2). rewrite H2. lra.
Qed.
