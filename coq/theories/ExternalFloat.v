(** * ExternalFloat: external sampling stays finite at binary64 (instance [FNum]).

    The whole-solve theorem of [SolveFloat.v] for the third method.  [SolveFloat.v] covers
    the unsampled and the chance-sampled traversal [vrec]; here the external-sampling
    traversal [erec] (the updating player's nodes expand every action, the opponent's nodes
    and the chance nodes follow one sampled child; the sampling oracle [draw] is arbitrary,
    an index out of range ends the walk with the value 0, as in [Solve.v]).

    Same constants as [SolveFloat.v]: [nleaves], [rcount], [scount], [reg_cap].  One pass for
    the player [me] moves every cumulative regret *of [me]* by at most [rcount * 2^e] and
    every cumulative strategy entry *of the opponent* by at most [scount]; the other two
    families of accumulators are untouched.  Hence one iteration (two passes, one per
    player, each followed by the [advance] of that player's infosets) moves every
    accumulator by the same amount as one iteration of the other two methods, and the very
    same cap [reg_cap g T] works for the three methods.

    The only hypothesis that is new with respect to [SolveFloat.v]: for a parameter set with
    a positive average-strategy exponent, the factor of the very first [advance] of player
    one, [(0/(0+1))^gamma] (the code discounts player one's average strategy with [it - 1]),
    has to be a probability too: [strat_factor_ok p 0]. *)
From Coq Require Import List ZArith NArith Reals Floats Bool Lia Lra Arith.
From Flocq Require Import Core IEEE754.BinarySingleNaN IEEE754.PrimFloat.
From Cfr.theories Require Import Num FInst Tree GameWF Strat Eval Solve
  TruncFloat NormFloat EvalFloat SolveFloat.
Import ListNotations.

Local Existing Instance Flocq.IEEE754.PrimFloat.Hprec.
Local Existing Instance Flocq.IEEE754.PrimFloat.Hmax.

Local Open Scope R_scope.
Local Notation float := PrimFloat.float.
Local Notation node := (@node FNum).
Local Notation game := (@game FNum).
Local Notation rinfo := (@rinfo FNum).
Local Notation pstate := (@pstate FNum).

Local Notation Lsum ks := (list_sum (map nleaves ks)).
Local Notation Rsum ks := (list_sum (map rcount ks)).
Local Notation Ssum ks := (list_sum (map scount ks)).

Section InnerLoopsE.
  Context (rec : node -> pstate -> float * pstate).

  (** follow the sampled child (chance node, opponent's node) *)
  Definition epick (st : pstate) :=
    fix pick (ks : list node) (k : nat) {struct ks} : float * pstate :=
      match ks with
      | [] => (0%float, st)
      | c :: r => match k with
                  | O => rec c st
                  | S k' => pick r k'
                  end
      end.

  (** [ActiveInfo::recurse], first loop *)
  Definition ego (pl : bool) (i : nat) :=
    fix go (ks : list node) (ss : list float) (ai : nat) (e : float) (st : pstate)
           {struct ks} : float * pstate :=
      match ks, ss with
      | c :: ks', prob :: ss' =>
          let (util, st') := rec c st in
          let ri' := @ri_get FNum st' pl i in
          let cr := cum_regret ri' in
          go ks' ss' (S ai) (e + prob * util)%float
             (@ri_set FNum st' pl i
                      (@mkRinfo FNum (upd cr ai (nth ai cr 0 + util)%float)
                                (cum_strat ri') (strat ri')))
      | _, _ => (e, st)
      end.
End InnerLoopsE.

Lemma ferec_Term chance draw cpass ppass noff me x st :
  @erec FNum chance draw cpass ppass noff me (Term x) st =
  (if me then x else (- x)%float, st).
Proof. reflexivity. Qed.

Lemma ferec_Chance chance draw cpass ppass noff me ci kids st :
  @erec FNum chance draw cpass ppass noff me (Chance ci kids) st =
  epick (@erec FNum chance draw cpass ppass noff me) st kids
        (draw true ci cpass (@row FNum chance ci)).
Proof. reflexivity. Qed.

Lemma ferec_Player chance draw cpass ppass noff me pl i kids st :
  @erec FNum chance draw cpass ppass noff me (Player pl i kids) st =
  let ri := @ri_get FNum st pl i in
  if Bool.eqb pl me then
    let (e, st2) := ego (@erec FNum chance draw cpass ppass noff me) pl i kids (strat ri) O
                        0%float st in
    let ri2 := @ri_get FNum st2 pl i in
    (e, @ri_set FNum st2 pl i (@mkRinfo FNum (map (fun v => (v - e)%float) (cum_regret ri2))
                                       (cum_strat ri2) (strat ri2)))
  else
    let cs := map (fun vc : float * float => (snd vc + fst vc)%float)
                  (combine (strat ri) (cum_strat ri)) in
    let st0 := @ri_set FNum st pl i (@mkRinfo FNum (cum_regret ri) cs (strat ri)) in
    epick (@erec FNum chance draw cpass ppass noff me) st0 kids
          (draw false (if pl then i else (noff + i)%nat) ppass (strat ri)).
Proof. reflexivity. Qed.

(** the infosets of [me] satisfy [RiOK ra sa], those of the opponent [RiOK rp sp] *)
Definition StOK2 (e : Z) (me : bool) (ra sa rp sp : nat) (st : pstate) : Prop :=
  Forall (RiOK e ra sa) (@ps_get FNum st me) /\ Forall (RiOK e rp sp) (@ps_get FNum st (negb me)).

Lemma StOK2_weaken : forall e me ra sa rp sp ra' sa' rp' sp' st,
  StOK2 e me ra sa rp sp st ->
  (ra <= ra')%nat -> (sa <= sa')%nat -> (rp <= rp')%nat -> (sp <= sp')%nat ->
  StOK2 e me ra' sa' rp' sp' st.
Proof.
  intros e me ra sa rp sp ra' sa' rp' sp' st [H1 H2] Ha Hb Hc Hd.
  split; [apply Forall_impl with (2 := H1) | apply Forall_impl with (2 := H2)];
    intros ri Hri; eapply RiOK_weaken; eauto.
Qed.

Lemma StOK2_get_a : forall e me ra sa rp sp st i,
  StOK2 e me ra sa rp sp st -> RiOK e ra sa (@ri_get FNum st me i).
Proof.
  intros e me ra sa rp sp st i [H1 _]. unfold ri_get.
  apply nth_Forall; [exact H1 | apply RiOK_default].
Qed.

Lemma StOK2_get_p : forall e me ra sa rp sp st i,
  StOK2 e me ra sa rp sp st -> RiOK e rp sp (@ri_get FNum st (negb me) i).
Proof.
  intros e me ra sa rp sp st i [_ H2]. unfold ri_get.
  apply nth_Forall; [exact H2 | apply RiOK_default].
Qed.

Lemma StOK2_set_a : forall e me ra sa rp sp st i ri,
  StOK2 e me ra sa rp sp st -> RiOK e ra sa ri ->
  StOK2 e me ra sa rp sp (@ri_set FNum st me i ri).
Proof.
  intros e me ra sa rp sp st i ri [H1 H2] Hri. unfold StOK2, ri_set, ps_set, ps_get in *.
  destruct me; cbn [negb fst snd] in *; split; try assumption; apply Forall_upd; assumption.
Qed.

Lemma StOK2_set_p : forall e me ra sa rp sp st i ri,
  StOK2 e me ra sa rp sp st -> RiOK e rp sp ri ->
  StOK2 e me ra sa rp sp (@ri_set FNum st (negb me) i ri).
Proof.
  intros e me ra sa rp sp st i ri [H1 H2] Hri. unfold StOK2, ri_set, ps_set, ps_get in *.
  destruct me; cbn [negb fst snd] in *; split; try assumption; apply Forall_upd; assumption.
Qed.

Lemma StOK2_of_StOK : forall e me mr ms st, StOK e mr ms st -> StOK2 e me mr ms mr ms st.
Proof.
  intros e me mr ms st [H1 H2]. unfold StOK2, ps_get. destruct me; cbn [negb]; split; assumption.
Qed.

Section Erec.
  Context (e : Z) (He : (-1074 <= e)%Z).
  Context (Mx : nat) (HMx : (Z.of_nat Mx < 2 ^ 53)%Z).
  Context (Hov : INR Mx * bpow radix2 e < bpow radix2 emax).
  Context (Ms : nat) (HMs : (Z.of_nat Ms < 2 ^ 53)%Z).
  Context (me : bool).

  Local Notation bnd := (bnd e).
  Local Notation StOK2 := (StOK2 e me).

  Definition EPf (rec : node -> pstate -> float * pstate) (c : node) : Prop :=
    forall st ra sa rp sp,
      StOK2 ra sa rp sp st ->
      (nleaves c <= Mx)%nat -> (ra + rcount c <= Mx)%nat -> (sp + scount c <= Ms)%nat ->
      bnd (nleaves c) (fst (rec c st)) /\
      StOK2 (ra + rcount c) sa rp (sp + scount c) (snd (rec c st)).

  Lemma bnd_StOK2_weaken : forall a ra sp a' ra' sp' sa rp x st,
    bnd a x -> StOK2 ra sa rp sp st -> (a <= a' /\ ra <= ra' /\ sp <= sp')%nat ->
    bnd a' x /\ StOK2 ra' sa rp sp' st.
  Proof.
    intros a ra sp a' ra' sp' sa rp x st Hx Hst (Ha & Hr & Hs).
    split; [exact (bnd_weaken e a a' x Hx Ha)|].
    exact (StOK2_weaken _ _ _ _ _ _ _ _ _ _ _ Hst Hr (le_n _) (le_n _) Hs).
  Qed.

  Context (rec : node -> pstate -> float * pstate).

  (** As in [SolveFloat.v], the inner loops have free result indices [a'], [ra'], [sp']
      and one arithmetic hypothesis. *)

  Lemma epick_ok : forall st ra sa rp sp ks,
    Forall (EPf rec) ks -> StOK2 ra sa rp sp st ->
    forall k a' ra' sp',
    (Lsum ks <= a' <= Mx /\ ra + Rsum ks <= ra' <= Mx /\ sp + Ssum ks <= sp' <= Ms)%nat ->
    bnd a' (fst (epick rec st ks k)) /\ StOK2 ra' sa rp sp' (snd (epick rec st ks k)).
  Proof.
    intros st ra sa rp sp ks HK Hst.
    induction HK as [|c ks Hc HK IH]; intros k a' ra' sp' Hcap; cbn [epick].
    - apply (bnd_StOK2_weaken 0 ra sp); [apply bnd_zero | exact Hst | lia].
    - rewrite !list_sum_map_cons in Hcap.
      destruct k as [|k]; [|apply IH; lia].
      assert (nleaves c <= Mx /\ ra + rcount c <= Mx /\ sp + scount c <= Ms)%nat
        as (Nl & Nr & Ns) by lia.
      destruct (Hc st ra sa rp sp Hst Nl Nr Ns) as [Hv Hs'].
      apply (bnd_StOK2_weaken _ _ _ _ _ _ _ _ _ _ Hv Hs'); lia.
  Qed.

  Lemma ego_ok : forall i ks,
    Forall (EPf rec) ks ->
    forall ss ai ee st a ra sa rp sp a' ra' sp',
    Forall fin01 ss -> bnd a ee -> StOK2 ra sa rp sp st ->
    (a + Lsum ks <= a' <= Mx /\ ra + Rsum ks + Lsum ks <= ra' <= Mx /\ sp + Ssum ks <= sp' <= Ms)%nat ->
    let r := ego rec me i ks ss ai ee st in
    bnd a' (fst r) /\ StOK2 ra' sa rp sp' (snd r).
  Proof.
    intros i ks HK.
    induction HK as [|c ks Hc HK IH];
      intros ss ai ee st a ra sa rp sp a' ra' sp' Hss Hee Hst Hcap r; unfold r; clear r.
    - cbn [ego fst snd]. apply (bnd_StOK2_weaken a ra sp); (assumption || lia).
    - rewrite !list_sum_map_cons in Hcap.
      destruct Hss as [|prob ss Hprob Hss]; cbn [ego].
      + apply (bnd_StOK2_weaken a ra sp); (assumption || lia).
      + assert (nleaves c <= Mx /\ ra + rcount c <= Mx /\ sp + scount c <= Ms /\
                a + nleaves c <= Mx /\ ra + rcount c <= ra + rcount c + nleaves c <= Mx)%nat
          as (Nl & Nr & Ns & Na & Nw & Nu) by lia.
        destruct (Hc st ra sa rp sp Hst Nl Nr Ns) as [Hv Hs'].
        destruct (rec c st) as [u st']. cbn [fst snd] in Hv, Hs'. cbv zeta.
        apply (IH ss (S ai) _ _ (a + nleaves c)%nat (ra + rcount c + nleaves c)%nat sa rp
                  (sp + scount c)%nat); [exact Hss | | | lia].
        * apply (bnd_add e He Mx HMx Hov); [exact Hee | | exact Na].
          apply (bnd_mul_l e He Mx HMx Hov); [apply fin01_fin11; exact Hprob | exact Hv | exact Nl].
        * apply StOK2_set_a;
            [exact (StOK2_weaken _ _ _ _ _ _ _ _ _ _ _ Hs' Nw (le_n _) (le_n _) (le_n _))|].
          apply (RiOK_reg_add e He Mx HMx Hov);
            [apply (StOK2_get_a _ _ _ _ _ _ _ _ Hs') | exact Hv | exact Nu].
  Qed.
End Erec.

Lemma eqb_false_negb : forall a b : bool, Bool.eqb a b = false -> a = negb b.
Proof. intros [] []; cbn; intros H; try reflexivity; discriminate H. Qed.

(** One pass, every oracle, both players, from any state [StOK2]. *)
Theorem erec_float_ok : forall (e : Z) (Mx Ms : nat),
  (-1074 <= e)%Z ->
  (Z.of_nat Mx < 2 ^ 53)%Z -> INR Mx * bpow radix2 e < bpow radix2 emax ->
  (Z.of_nat Ms < 2 ^ 53)%Z ->
  forall (chance : list (list float)) (draw : @oracle FNum) (cpass ppass : N) (noff : nat)
         (me : bool),
  forall n : node, PayOK (bpow radix2 e) n ->
  EPf e Mx Ms me (@erec FNum chance draw cpass ppass noff me) n.
Proof.
  intros e Mx Ms He HMx Hov HMs chance draw cpass ppass noff me. apply PayOK_ind'.
  - intros x Hxf HxB st ra sa rp sp Hst HL HR HS.
    rewrite ferec_Term. cbn [fst snd nleaves rcount scount].
    apply (bnd_StOK2_weaken e me 1 ra sp); [|exact Hst|lia].
    cbn [INR]. unfold bnd. rewrite Rmult_1_l. destruct me.
    + split; assumption.
    + split; [apply Ffin_opp; exact Hxf | rewrite FR_opp, Rabs_Ropp; exact HxB].
  - intros ci kids _ HK st ra sa rp sp Hst HL HR HS.
    rewrite ferec_Chance. cbn [nleaves rcount scount] in HL, HR, HS |- *.
    apply (epick_ok e Mx Ms me _ st ra sa rp sp kids HK Hst); lia.
  - intros pl i kids _ HK st ra sa rp sp Hst HL HR HS.
    rewrite ferec_Player. cbv zeta.
    cbn [nleaves rcount scount] in HL, HR, HS |- *.
    destruct (Bool.eqb pl me) eqn:Epl.
    + apply Bool.eqb_prop in Epl. subst pl.
      assert (Nw : (ra + Rsum kids + Lsum kids <= ra + Rsum kids + Lsum kids + Lsum kids <= Mx)%nat) by lia.
      destruct (ego_ok e He Mx HMx Hov Ms me _ i kids HK
                  (strat (@ri_get FNum st me i)) O 0%float st O ra sa rp sp
                  (Lsum kids) (ra + Rsum kids + Lsum kids)%nat (sp + Ssum kids)%nat
                  (proj1 (StOK2_get_a e me _ _ _ _ st i Hst)) (bnd_zero e O) Hst ltac:(lia))
        as [G1 G2].
      destruct (ego _ _ _ _ _ _ _ _) as [ee st2].
      cbn [fst snd] in G1, G2 |- *.
      apply (bnd_StOK2_weaken e me (Lsum kids) (ra + Rsum kids + Lsum kids + Lsum kids) (sp + Ssum kids));
        [exact G1 | | lia].
      apply StOK2_set_a;
        [exact (StOK2_weaken _ _ _ _ _ _ _ _ _ _ _ G2 (proj1 Nw) (le_n _) (le_n _) (le_n _))|].
      apply (RiOK_reg_sub e He Mx HMx Hov); [eapply StOK2_get_a; exact G2 | exact G1 | exact (proj2 Nw)].
    + apply eqb_false_negb in Epl. subst pl.
      set (st0 := @ri_set FNum st (negb me) i _).
      assert (Hst0 : StOK2 e me ra sa rp (S sp) st0).
      { apply StOK2_set_p;
          [exact (StOK2_weaken _ _ _ _ _ _ _ _ _ _ _ Hst (le_n _) (le_n _) (le_n _) (le_S _ _ (le_n _)))|].
        apply (RiOK_cum_strat e (fun s c => (c + s)%float)); [|eapply StOK2_get_p; exact Hst].
        intros s c Hs Hc. apply cs_ok_add; [exact Hc | exact Hs | lia]. }
      apply (epick_ok e Mx Ms me _ st0 ra sa rp (S sp) kids HK Hst0); lia.
Qed.

Corollary erec_float_finite : forall (e : Z) (Mx Ms : nat),
  (-1074 <= e)%Z ->
  (Z.of_nat Mx < 2 ^ 53)%Z -> INR Mx * bpow radix2 e < bpow radix2 emax ->
  (Z.of_nat Ms < 2 ^ 53)%Z ->
  forall (chance : list (list float)) (draw : @oracle FNum) (cpass ppass : N) (noff : nat)
         (me : bool),
  forall n : node, PayOK (bpow radix2 e) n ->
  forall (st : pstate) (ra sa rp sp : nat),
  StOK2 e me ra sa rp sp st ->
  (nleaves n <= Mx)%nat -> (ra + rcount n <= Mx)%nat -> (sp + scount n <= Ms)%nat ->
  let r := @erec FNum chance draw cpass ppass noff me n st in
  Ffin (fst r) /\ Rabs (FR (fst r)) <= INR (nleaves n) * bpow radix2 e /\
  StOK2 e me (ra + rcount n) sa rp (sp + scount n) (snd r).
Proof.
  intros e Mx Ms He HMx Hov HMs chance draw cpass ppass noff me n Hpay st ra sa rp sp
         Hst HL HR HS r.
  destruct (erec_float_ok e Mx Ms He HMx Hov HMs chance draw cpass ppass noff me n Hpay
              st ra sa rp sp Hst HL HR HS) as [[Hf Hb] Hs].
  split; [exact Hf|]. split; [exact Hb | exact Hs].
Qed.

Section ShapeE.
  Context {NN : Num}.

  Lemma erec_lens2 : forall chance draw cpass ppass noff me n (st : @Solve.pstate NN),
    lens2 (snd (erec chance draw cpass ppass noff me n st)) = lens2 st.
  Proof.
    intros chance draw cpass ppass noff me.
    induction n as [x|ci kids IH|pl i kids IH] using node_ind'; intros st; cbn [erec].
    - reflexivity.
    - generalize (draw true ci cpass (row chance ci)).
      induction IH as [|c ks Hc _ IHks]; intros [|k]; try reflexivity; [apply Hc | apply IHks].
    - cbv zeta. destruct (Bool.eqb pl me).
      + match goal with |- context [?go kids _ O _ st] =>
          assert (Hgo : forall ss ai e s, lens2 (snd (go kids ss ai e s)) = lens2 s)
        end.
        { induction IH as [|c ks Hc _ IHks]; intros [|prob ss] ai e s; try reflexivity.
          specialize (Hc s). destruct (erec _ _ _ _ _ _ c _) as [u s'].
          rewrite IHks, ri_set_lens2. exact Hc. }
        specialize (Hgo (strat (ri_get st pl i)) O (zero NN) st).
        destruct (_ kids _ O _ st) as [e st2].
        cbn [snd] in Hgo |- *. rewrite ri_set_lens2. exact Hgo.
      + set (st0 := ri_set st pl i _). transitivity (lens2 st0); [|apply ri_set_lens2].
        set (k := draw false _ _ _). clearbody k. revert k.
        induction IH as [|c ks Hc _ IHks]; intros [|k]; try reflexivity; [apply Hc | apply IHks].
  Qed.
End ShapeE.

Section IterE.
  Context (e : Z) (He : (-1074 <= e)%Z).
  Context (Mx : nat) (HMx : (Z.of_nat Mx < 2 ^ 53)%Z).
  Context (Hov : INR Mx * bpow radix2 e < bpow radix2 emax).
  Context (Ms : nat) (HMs : (Z.of_nat Ms < 2 ^ 53)%Z).
  Context (g : game) (Hch : TblOK (g_chance g)) (Hpay : PayOK (bpow radix2 e) (g_root g)).
  Context (draw : @oracle FNum).
  Context (Tb : nat) (HTb : (Z.of_nat Tb < 2 ^ 53)%Z).
  Context (p : @params FNum) (Hns : nosoftmax p).
  Context (Hdisc : forall k : nat, (k < Tb)%nat -> disc_ok p (N.of_nat (S k)) (N.of_nat (S k))).
  Context (N1 N2 Nm : nat) (HNm : (1 <= Nm)%nat) (HN1 : (N1 <= Nm)%nat) (HN2 : (N2 <= Nm)%nat).

  Local Notation Rr := (rcount (g_root g)).
  Local Notation Sr := (scount (g_root g)).

  Context (HcapL : (nleaves (g_root g) <= Mx)%nat).
  Context (HcapR : (2 * Nm * (Tb * Rr) <= Mx)%nat).
  Context (HcapS : (Tb * Sr <= Ms)%nat).

  Local Notation SInv := (SInv e g N1 N2).

  (** the discount factors of player one's [advance] in iteration [k+1]: the average
      strategy is discounted with [k] instead of [k+1] *)
  Lemma disc_ok_first : forall k, strat_factor_ok p 0%N -> (k < Tb)%nat ->
    disc_ok p (N.of_nat (S k)) (N.of_nat k).
  Proof.
    intros k Hsf0 Hk. destruct (Hdisc k Hk) as [D1 [D2 _]].
    split; [exact D1|]. split; [exact D2|].
    destruct k as [|k']; [exact Hsf0|].
    destruct (Hdisc k' ltac:(lia)) as [_ [_ D3]]. exact D3.
  Qed.

  Lemma erec_pass : forall cpass ppass me st ra sa rp sp ra' sp' x st1,
    @erec FNum (g_chance g) draw cpass ppass (length (g_infos1 g)) me (g_root g) st = (x, st1) ->
    StOK2 e me ra sa rp sp st -> lens2 st = (N1, N2) ->
    (ra + Rr <= ra' <= Mx /\ sp + Sr <= sp' <= Ms)%nat ->
    StOK2 e me ra' sa rp sp' st1 /\ length (fst st1) = N1 /\ length (snd st1) = N2.
  Proof.
    intros cpass ppass me st ra sa rp sp ra' sp' x st1 E Hst Hlen [[Hr Hr'] [Hs Hs']].
    pose proof (erec_float_ok e Mx Ms He HMx Hov HMs (g_chance g) draw cpass ppass
                  (length (g_infos1 g)) me (g_root g) Hpay st ra sa rp sp Hst HcapL
                  (Nat.le_trans _ _ _ Hr Hr') (Nat.le_trans _ _ _ Hs Hs')) as [_ Hst1].
    pose proof (erec_lens2 (g_chance g) draw cpass ppass (length (g_infos1 g)) me (g_root g) st)
      as Hlen1.
    rewrite E in Hst1, Hlen1. cbn [snd] in Hst1, Hlen1.
    rewrite Hlen in Hlen1. injection Hlen1 as HL1 HL2. split; [|split; assumption].
    exact (StOK2_weaken _ _ _ _ _ _ _ _ _ _ _ Hst1 Hr (le_n _) (le_n _) Hs).
  Qed.

  Lemma external_iter_ok : forall k st,
    strat_factor_ok p 0%N -> (k < Tb)%nat -> SInv k st ->
    let res := @external_iter FNum g draw p (N.of_nat (S k)) st in
    SInv (S k) (fst res) /\ bnn e Mx (fst (snd res)) /\ bnn e Mx (snd (snd res)).
  Proof.
    intros k st Hsf0 Hk [Hst Hlen] res. unfold res, external_iter. clear res.
    replace (N.of_nat (S k) - 1)%N with (N.of_nat k) by lia.
    destruct (iter_caps Mx Ms HMs g Tb N1 N2 Nm HNm HN1 HN2 HcapL HcapR HcapS k Hk)
      as [Hcap [HSz HSz']].
    pose proof (fun ia l ms => advance_all_iter e He Mx HMx Hov Ms g Tb HTb p Hns N1 N2 Nm HNm HN1 HN2
                                                HcapL HcapR HcapS k ia l ms Hk)
      as Hadv.
    (* player one's pass moves the regrets of player one and the cumulative strategy of
       player two; then the advance of player one's infosets.  [StOK2 e true] speaks of
       the first, then of the second list of the state, [StOK2 e false] the other way
       round, by computation. *)
    destruct (erec _ _ _ _ _ true _ st) as [x st1] eqn:E1.
    destruct (erec_pass _ _ true st _ (k * Sr)%nat (k * Rr)%nat _ _ _ x st1 E1
                (StOK2_of_StOK e true _ _ st Hst) Hlen Hcap) as [Hst1 [HL1 HL2]].
    destruct Hst1 as [HA HB].
    destruct (Hadv (N.of_nat k) (fst st1) (k * Sr)%nat (disc_ok_first k Hsf0 Hk) HA
                ltac:(rewrite HL1; exact HN1) HSz) as [A1 [A2 A3]].
    destruct (advance_all p _ (N.of_nat k) (fst st1) _) as [l1 r1]. cbn [fst snd] in A1, A2, A3.
    (* player two's pass, then the advance of player two's infosets *)
    destruct (erec _ _ _ _ _ false _ (l1, snd st1)) as [y st3] eqn:E3.
    destruct (erec_pass _ _ false (l1, snd st1) _ (S k * Sr)%nat (S k * Rr)%nat _ _ _ y st3 E3
                (conj HB A1 : StOK2 e false _ _ _ _ (l1, snd st1))
                (f_equal2 pair (eq_trans A2 HL1) HL2) Hcap) as [Hst3 [HL3 HL4]].
    destruct Hst3 as [HC HD].
    destruct (Hadv (N.of_nat (S k)) (snd st3) (S k * Sr)%nat (Hdisc k Hk) HC
                ltac:(rewrite HL4; exact HN2) HSz') as [B1 [B2 B3]].
    destruct (advance_all p _ (N.of_nat (S k)) (snd st3) _) as [l2 r2]. cbn [fst snd] in B1, B2, B3 |- *.
    split; [split; [split; assumption|] | split; assumption].
    unfold lens2. cbn [fst snd]. rewrite B2, HL3, HL4. reflexivity.
  Qed.

  Lemma one_iter_ok_all : forall m,
    (m = External -> strat_factor_ok p 0%N) -> IterOK e Mx g N1 N2 m draw p Tb.
  Proof.
    intros m Hm. destruct m.
    - apply (one_iter_ok e He Mx HMx Hov Ms HMs g Hch Hpay draw Tb HTb p Hns Hdisc N1 N2 Nm
               HNm HN1 HN2 HcapL HcapR HcapS Full). discriminate.
    - apply (one_iter_ok e He Mx HMx Hov Ms HMs g Hch Hpay draw Tb HTb p Hns Hdisc N1 N2 Nm
               HNm HN1 HN2 HcapL HcapR HcapS Sampled). discriminate.
    - intros k st Hk Hst. apply external_iter_ok; [apply Hm; reflexivity | exact Hk | exact Hst].
  Qed.
End IterE.

Lemma one_iter_ok_all_cap :
  forall (g : game) (m : method) (draw : @oracle FNum) (p : @params FNum) (budget : nat) (e : Z),
  nosoftmax p ->
  (forall k : nat, (k < budget)%nat -> disc_ok p (N.of_nat (S k)) (N.of_nat (S k))) ->
  (m = External -> strat_factor_ok p 0%N) ->
  TblOK (g_chance g) ->
  (-1074 <= e)%Z ->
  PayOK (bpow radix2 e) (g_root g) ->
  (Z.of_nat budget < 2 ^ 53)%Z ->
  (Z.of_nat (budget * scount (g_root g)) < 2 ^ 53)%Z ->
  (Z.of_nat (reg_cap g budget) < 2 ^ 53)%Z ->
  INR (reg_cap g budget) * bpow radix2 e < bpow radix2 emax ->
  IterOK e (reg_cap g budget) g (length (g_infos1 g)) (length (g_infos2 g)) m draw p budget.
Proof.
  intros g m draw p budget e Hns Hdisc Hm Hch He Hpay HT HS HMx Hov.
  apply (one_iter_ok_all e He _ HMx Hov _ HS g Hch Hpay draw budget HT p Hns Hdisc _ _
           (Nat.max 1 (Nat.max (length (g_infos1 g)) (length (g_infos2 g)))));
    [lia | lia | lia | apply Nat.le_max_l | apply Nat.le_max_r | apply le_n | exact Hm].
Qed.

Theorem solve_single_float_valid_params_all :
  forall (g : @Tree.game FNum) (m : method) (draw : @oracle FNum) (p : @params FNum)
         (budget : nat) (stop : float -> bool) (e : Z),
  nosoftmax p ->
  (forall k : nat, (k < budget)%nat -> disc_ok p (N.of_nat (S k)) (N.of_nat (S k))) ->
  (m = External -> strat_factor_ok p 0%N) ->
  TblOK (g_chance g) ->
  arities_small g ->
  (-1074 <= e)%Z ->
  PayOK (bpow radix2 e) (g_root g) ->
  (Z.of_nat budget < 2 ^ 53)%Z ->
  (Z.of_nat (budget * scount (g_root g)) < 2 ^ 53)%Z ->
  (Z.of_nat (reg_cap g budget) < 2 ^ 53)%Z ->
  INR (reg_cap g budget) * bpow radix2 e < bpow radix2 emax ->
  res_ok e (reg_cap g budget) (@solve_single FNum g m draw p budget stop).
Proof.
  intros g m draw p budget stop e Hns Hdisc Hm Hch Har He Hpay HT HS HMx Hov.
  apply solve_single_res_ok; [exact Har | apply one_iter_ok_all_cap; assumption].
Qed.

Lemma strat_factor_ok_vanilla0 : strat_factor_ok (@p_vanilla FNum) 0%N.
Proof. destruct (disc_ok_vanilla 1%N 0%N) as [_ [_ H]]. exact H. Qed.

Lemma strat_factor_ok_cfr_plus0 : strat_factor_ok (@p_cfr_plus FNum) 0%N.
Proof.
  destruct (disc_ok_cfr_plus 1%N 0%N) as [_ [_ H]]; [reflexivity | exact H].
Qed.

Theorem solve_single_float_valid_all :
  forall (g : @Tree.game FNum) (m : method) (draw : @oracle FNum) (budget : nat)
         (stop : float -> bool) (e : Z),
  TblOK (g_chance g) ->
  arities_small g ->
  (-1074 <= e)%Z ->
  PayOK (bpow radix2 e) (g_root g) ->
  (Z.of_nat budget < 2 ^ 53)%Z ->
  (Z.of_nat (budget * scount (g_root g)) < 2 ^ 53)%Z ->
  (Z.of_nat (reg_cap g budget) < 2 ^ 53)%Z ->
  INR (reg_cap g budget) * bpow radix2 e < bpow radix2 emax ->
  res_ok e (reg_cap g budget) (@solve_single FNum g m draw (@p_vanilla FNum) budget stop).
Proof.
  intros g m draw budget stop e.
  apply (solve_single_float_valid_params_all g m draw (@p_vanilla FNum) budget stop e
           nosoftmax_vanilla).
  - intros k _. apply disc_ok_vanilla.
  - intros _. exact strat_factor_ok_vanilla0.
Qed.

Theorem solve_single_float_valid_cfr_plus_all :
  forall (g : @Tree.game FNum) (m : method) (draw : @oracle FNum) (budget : nat)
         (stop : float -> bool) (e : Z),
  TblOK (g_chance g) ->
  arities_small g ->
  (-1074 <= e)%Z ->
  PayOK (bpow radix2 e) (g_root g) ->
  (Z.of_nat budget + 1 < 2 ^ 53)%Z ->
  (Z.of_nat (budget * scount (g_root g)) < 2 ^ 53)%Z ->
  (Z.of_nat (reg_cap g budget) < 2 ^ 53)%Z ->
  INR (reg_cap g budget) * bpow radix2 e < bpow radix2 emax ->
  res_ok e (reg_cap g budget) (@solve_single FNum g m draw (@p_cfr_plus FNum) budget stop).
Proof.
  intros g m draw budget stop e Hch Har He Hpay HT.
  apply (solve_single_float_valid_params_all g m draw (@p_cfr_plus FNum) budget stop e
           nosoftmax_cfr_plus); try assumption; [| |lia].
  - intros k Hk. apply disc_ok_cfr_plus. rewrite nat_N_Z. lia.
  - intros _. exact strat_factor_ok_cfr_plus0.
Qed.

Theorem solve_loop_float_state_external :
  forall (g : @Tree.game FNum) (draw : @oracle FNum) (p : @params FNum)
         (budget : nat) (stop : float -> bool) (e : Z),
  nosoftmax p ->
  (forall k : nat, (k < budget)%nat -> disc_ok p (N.of_nat (S k)) (N.of_nat (S k))) ->
  strat_factor_ok p 0%N ->
  TblOK (g_chance g) ->
  arities_small g ->
  (-1074 <= e)%Z ->
  PayOK (bpow radix2 e) (g_root g) ->
  (Z.of_nat budget < 2 ^ 53)%Z ->
  (Z.of_nat (budget * scount (g_root g)) < 2 ^ 53)%Z ->
  (Z.of_nat (reg_cap g budget) < 2 ^ 53)%Z ->
  INR (reg_cap g budget) * bpow radix2 e < bpow radix2 emax ->
  let st := fst (fst (@solve_loop FNum g External draw p stop budget 1%N
                                  (@init_state FNum g) None 0%N)) in
  exists k : nat, (k <= budget)%nat /\
    forall (pl : bool) (i : nat),
      let ri := @ri_get FNum st pl i in
      Forall fin01 (strat ri) /\
      Forall (fun x => Ffin x /\ Rabs (FR x) <= INR (k * rcount (g_root g)) * bpow radix2 e)
             (cum_regret ri) /\
      Forall (fun x => Ffin x /\ 0 <= FR x <= INR (k * scount (g_root g))) (cum_strat ri).
Proof.
  intros g draw p budget stop e Hns Hdisc Hsf0 Hch Har He Hpay HT HS HMx Hov.
  apply solve_loop_state; [exact Har | apply one_iter_ok_all_cap; auto].
Qed.

Theorem solve_single_float_valid_params_external :
  forall (g : @Tree.game FNum) (draw : @oracle FNum) (p : @params FNum)
         (budget : nat) (stop : float -> bool) (e : Z),
  nosoftmax p ->
  (forall k : nat, (k < budget)%nat -> disc_ok p (N.of_nat (S k)) (N.of_nat (S k))) ->
  strat_factor_ok p 0%N ->
  TblOK (g_chance g) ->
  arities_small g ->
  (-1074 <= e)%Z ->
  PayOK (bpow radix2 e) (g_root g) ->
  (Z.of_nat budget < 2 ^ 53)%Z ->
  (Z.of_nat (budget * scount (g_root g)) < 2 ^ 53)%Z ->
  (Z.of_nat (reg_cap g budget) < 2 ^ 53)%Z ->
  INR (reg_cap g budget) * bpow radix2 e < bpow radix2 emax ->
  let res := @solve_single FNum g External draw p budget stop in
  Forall fin01 (fst (fst (fst res))) /\
  Forall fin01 (snd (fst (fst res))) /\
  match snd (fst res) with
  | None => True
  | Some (r1, r2) =>
      (Ffin r1 /\ 0 <= FR r1 <= INR (reg_cap g budget) * bpow radix2 e) /\
      (Ffin r2 /\ 0 <= FR r2 <= INR (reg_cap g budget) * bpow radix2 e)
  end.
Proof.
  intros g draw p budget stop e Hns Hdisc Hsf0.
  apply (solve_single_float_valid_params_all g External draw p budget stop e Hns Hdisc
           (fun _ => Hsf0)).
Qed.

Theorem solve_single_float_valid_external :
  forall (g : @Tree.game FNum) (draw : @oracle FNum) (budget : nat)
         (stop : float -> bool) (e : Z),
  TblOK (g_chance g) ->
  arities_small g ->
  (-1074 <= e)%Z ->
  PayOK (bpow radix2 e) (g_root g) ->
  (Z.of_nat budget < 2 ^ 53)%Z ->
  (Z.of_nat (budget * scount (g_root g)) < 2 ^ 53)%Z ->
  (Z.of_nat (reg_cap g budget) < 2 ^ 53)%Z ->
  INR (reg_cap g budget) * bpow radix2 e < bpow radix2 emax ->
  let res := @solve_single FNum g External draw (@p_vanilla FNum) budget stop in
  Forall fin01 (fst (fst (fst res))) /\
  Forall fin01 (snd (fst (fst res))) /\
  match snd (fst res) with
  | None => True
  | Some (r1, r2) =>
      (Ffin r1 /\ 0 <= FR r1 <= INR (reg_cap g budget) * bpow radix2 e) /\
      (Ffin r2 /\ 0 <= FR r2 <= INR (reg_cap g budget) * bpow radix2 e)
  end.
Proof. intros g. apply (solve_single_float_valid_all g External). Qed.

(** ** Example: the game of [SolveFloat.v], external sampling, an oracle that alternates *)

(** chance nodes: the second child in every third pass, the first child otherwise;
    decision nodes: child [(pass + id) mod 2] *)
Definition exe_draw : @oracle FNum :=
  fun is_chance id pass _ =>
    if is_chance then (if N.eqb (pass mod 3) 2 then 1%nat else 0%nat)
    else ((N.to_nat pass + id) mod 2)%nat.

Example exe_run :
  @solve_single FNum exs_g External exe_draw (@p_vanilla FNum) 10 (fun _ => false) =
  (* = ([0.2258...; 0.7741...], [0.2952...; 0.7047...], Some (0.72, 0.92), 10) *)
  (([0x1.ce739ce739ce7p-3; 0x1.8c6318c6318c6p-1]%float,
    [0x1.2e52e52e52e53p-2; 0x1.68d68d68d68d7p-1]%float),
   Some (0x1.70a3d70a3d70ap-1, 0x1.d70a3d70a3d7p-1)%float, 10%N).
Proof. vm_compute. reflexivity. Qed.

Example exe_run_cfr_plus :
  @solve_single FNum exs_g External exe_draw (@p_cfr_plus FNum) 10 (fun _ => false) =
  (* = ([0.6782...; 0.3217...], [0.3027...; 0.6972...], Some (0.9226..., 1.0952...), 10) *)
  (([0x1.5b48279e171eap-1; 0x1.496fb0c3d1c2dp-2]%float,
    [0x1.35f73e16cf05cp-2; 0x1.650460f4987d2p-1]%float),
   Some (0x1.d867791c4cc2ap-1, 0x1.186482866f931p+0)%float, 10%N).
Proof. vm_compute. reflexivity. Qed.

(** the hypotheses are satisfiable for [External] (payoffs of magnitude at most [2^2],
    [reg_cap exs_g 10 = 320]) *)
Example exe_valid :
  let res := @solve_single FNum exs_g External exe_draw (@p_vanilla FNum) 10 (fun _ => false) in
  Forall fin01 (fst (fst (fst res))) /\ Forall fin01 (snd (fst (fst res))) /\
  match snd (fst res) with None => True | Some (r1, r2) => finnn r1 /\ finnn r2 end.
Proof.
  apply (res_ok_finnn 2 (reg_cap exs_g 10)).
  apply solve_single_float_valid_external;
    [exact exs_TblOK | exact exs_arities | lia | exact exs_PayOK | lia | apply exs_caps..].
Qed.

Example exe_valid_cfr_plus :
  let res := @solve_single FNum exs_g External exe_draw (@p_cfr_plus FNum) 10 (fun _ => false) in
  Forall fin01 (fst (fst (fst res))) /\ Forall fin01 (snd (fst (fst res))) /\
  match snd (fst res) with
  | None => True
  | Some (r1, r2) =>
      (Ffin r1 /\ 0 <= FR r1 <= INR (reg_cap exs_g 10) * bpow radix2 2) /\
      (Ffin r2 /\ 0 <= FR r2 <= INR (reg_cap exs_g 10) * bpow radix2 2)
  end.
Proof.
  apply (solve_single_float_valid_cfr_plus_all exs_g External);
    [exact exs_TblOK | exact exs_arities | lia | exact exs_PayOK | lia | apply exs_caps..].
Qed.
