(** * ParallelProofs: the multi-threaded vanilla / chance-sampled solver computes the
    same state, bounds and iteration count as the single-threaded one, for every
    schedule of the atomic increments (property C06).

    - [vrec_cached_prune]: the cached traversal is the plain traversal of the tree in
      which every cached node is replaced by a terminal carrying the cached payoff;
    - [cut_lemma]: for *any* antichain [F] of nodes of the (sampled) tree with the
      reaches the root traversal carries to them, the cached traversal returns the
      root value, and its increments together with the increments of the tasks of
      [F] are a permutation of the increments of the full traversal;
    - [frontier_ok]: [thread_threshold] returns such an antichain (any target, any fuel);
    - [multi_iter_eq_single], [solve_multi_eq_single];
    - complements: [vrec_cached_nil] (a task, i.e. the traversal with the empty cache,
      is [vrec]), [regall_cells] ([IRegAll] is a sequence of per-cell [IReg]s, so the
      per-cell [fetch_sub]s may interleave with other threads as well),
      [frontier_fuel_enough] (the fuel of [frontier] never runs out).

    Everything is about the real-number instance [RNum]. *)
From Coq Require Import Reals List Lia Bool Arith NArith Permutation.
From Cfr.theories Require Import Num RInst Tree Strat Eval Solve StratImportProofs SolveValidProofs Incr VanillaMulti.
Import ListNotations.
Local Open Scope nat_scope.

Local Notation nodeR := (@node RNum).
Local Notation pstateR := (@pstate RNum).
Local Notation incrR := (@incr RNum).
Local Notation taskR := (@task RNum).
Local Notation fentryR := (@fentry RNum).

Lemma path_eqb_spec p q : reflect (p = q) (path_eqb p q).
Proof.
  revert q; induction p as [|a p IH]; intros q; destruct q as [|b q]; cbn [path_eqb];
    try (constructor; congruence).
  destruct (Nat.eqb_spec a b) as [->|Hne]; cbn [andb].
  - destruct (IH q) as [->|Hne]; constructor; congruence.
  - constructor; congruence.
Qed.

Lemma path_eqb_refl p : path_eqb p p = true.
Proof. destruct (path_eqb_spec p p); congruence. Qed.

Section RelCache.
  Context {A : Type}.

  (** the entries below child 0, made relative to it *)
  Fixpoint strip0 (l : list (path * A)) : list (path * A) :=
    match l with
    | [] => []
    | (p, v) :: r => match p with
                     | O :: q => (q, v) :: strip0 r
                     | _ => strip0 r
                     end
    end.

  (** the entries below the other children, child [S k] renamed [k] *)
  Fixpoint dec (l : list (path * A)) : list (path * A) :=
    match l with
    | [] => []
    | (p, v) :: r => match p with
                     | S k :: q => (k :: q, v) :: dec r
                     | _ => dec r
                     end
    end.

  Lemma lookup_strip0 q l : lookup q (strip0 l) = lookup (O :: q) l.
  Proof.
    induction l as [|[p v] r IH]; [reflexivity|].
    destruct p as [|[|k] q']; cbn [strip0 lookup path_eqb Nat.eqb andb]; try exact IH.
    destruct (path_eqb q q'); [reflexivity|exact IH].
  Qed.

  Lemma lookup_dec k q l : lookup (k :: q) (dec l) = lookup (S k :: q) l.
  Proof.
    induction l as [|[p v] r IH]; [reflexivity|].
    destruct p as [|[|k'] q']; cbn [dec lookup path_eqb Nat.eqb andb]; try exact IH.
    destruct (Nat.eqb k k' && path_eqb q q'); [reflexivity|exact IH].
  Qed.
End RelCache.

Section Prune.
  Context {NN : Num}.
  Local Notation T := (T NN).
  Local Notation node := (@node NN).

  Definition prune_kids (rec : list (path * T) -> node -> node) :=
    fix pk (rc : list (path * T)) (ks : list node) {struct ks} : list node :=
      match ks with
      | [] => []
      | c :: r => rec (strip0 rc) c :: pk (dec rc) r
      end.

  (** [rc]: the cache, with paths relative to [n] *)
  Fixpoint prune (rc : list (path * T)) (n : node) {struct n} : node :=
    match lookup [] rc with
    | Some v => Term v
    | None =>
        match n with
        | Term x => Term x
        | Chance ci kids => Chance ci (prune_kids prune rc kids)
        | Player pl i kids => Player pl i (prune_kids prune rc kids)
        end
    end.

  Lemma prune_eq rc n :
    prune rc n =
    match lookup [] rc with
    | Some v => Term v
    | None =>
        match n with
        | Term x => Term x
        | Chance ci kids => Chance ci (prune_kids prune rc kids)
        | Player pl i kids => Player pl i (prune_kids prune rc kids)
        end
    end.
  Proof. destruct n; reflexivity. Qed.
End Prune.

Local Open Scope R_scope.
Local Notation pruneR := (@prune RNum).
Local Notation prune_kidsR := (@prune_kids RNum).

Section CachedPrune.
  Context (chance : list (list R)) (sampled : bool) (draw : @oracle RNum) (pass : N).
  Context (cache : list (path * T RNum)).

  Local Notation vrecR := (@vrec RNum chance sampled draw pass).
  Local Notation vrec_cachedR := (@vrec_cached RNum chance sampled draw pass cache).

  (** [rc] is the part of the cache below [p], relative to [p] *)
  Definition CacheBelow (p : path) (rc : list (path * T RNum)) : Prop :=
    forall q, lookup (p ++ q) cache = lookup q rc.

  (** [rc] is the part of the cache below the children [j], [j + 1], ... of [p],
      relative to [p], child [j + k] renamed [k] *)
  Definition CacheBelowKids (p : path) (j : nat) (rc : list (path * T RNum)) : Prop :=
    forall k q, lookup (p ++ (j + k)%nat :: q) cache = lookup (k :: q) rc.

  Lemma CacheBelow_kids p rc : CacheBelow p rc -> CacheBelowKids p 0 rc.
  Proof. intros H k q. apply H. Qed.

  Lemma CacheBelow_head [p j rc] : CacheBelowKids p j rc -> CacheBelow (p ++ [j]) (strip0 rc).
  Proof.
    intros H q. rewrite lookup_strip0, <- H, Nat.add_0_r, <- app_assoc. reflexivity.
  Qed.

  Lemma CacheBelow_tail [p j rc] : CacheBelowKids p j rc -> CacheBelowKids p (S j) (dec rc).
  Proof. intros H k q. rewrite lookup_dec, <- H, Nat.add_succ_r. reflexivity. Qed.

  Definition PrunedEq (c : nodeR) : Prop :=
    forall p rc pc p1 p2 st,
      CacheBelow p rc -> vrec_cachedR p c pc p1 p2 st = vrecR (pruneR rc c) pc p1 p2 st.

  Lemma cpick_prune p pc p1 p2 st ks :
    Forall PrunedEq ks -> forall j k rc, CacheBelowKids p j rc ->
    cpick (fun j c => vrec_cachedR (p ++ [j]) c) pc p1 p2 st (j + k) ks k =
    vpick vrecR pc p1 p2 st (prune_kidsR pruneR rc ks) k.
  Proof.
    induction 1 as [|c ks Hc HK IH]; intros j k rc H; cbn [cpick prune_kids vpick];
      [reflexivity|].
    destruct k as [|k].
    - rewrite Nat.add_0_r, (Hc _ _ _ _ _ _ (CacheBelow_head H)). reflexivity.
    - rewrite Nat.add_succ_r. apply (IH (S j)), CacheBelow_tail, H.
  Qed.

  Lemma cgo_chance_prune p pc p1 p2 ks :
    Forall PrunedEq ks -> forall ps j rc ex st, CacheBelowKids p j rc ->
    cgo_chance (fun j c => vrec_cachedR (p ++ [j]) c) pc p1 p2 ps ks j ex st =
    vgo_chance vrecR pc p1 p2 ps (prune_kidsR pruneR rc ks) ex st.
  Proof.
    induction 1 as [|c ks Hc HK IH]; intros ps j rc ex st H; destruct ps as [|pr ps];
      cbn [cgo_chance prune_kids vgo_chance]; try reflexivity.
    rewrite (Hc _ _ _ _ _ _ (CacheBelow_head H)).
    destruct (vrecR _ _ p1 p2 st) as [pay st']. apply IH, CacheBelow_tail, H.
  Qed.

  Lemma cgo_player_prune p pl i pc p1 p2 mult ks :
    Forall PrunedEq ks -> forall ss ai rc e1 e st, CacheBelowKids p ai rc ->
    cgo_player (fun j c => vrec_cachedR (p ++ [j]) c) pl i pc p1 p2 mult ks ss ai e1 e st =
    vgo_player vrecR pl i pc p1 p2 mult (prune_kidsR pruneR rc ks) ss ai e1 e st.
  Proof.
    induction 1 as [|c ks Hc HK IH]; intros ss ai rc e1 e st H; destruct ss as [|prob ss];
      cbn [cgo_player prune_kids vgo_player]; try reflexivity.
    destruct pl; cbv beta iota zeta; rewrite (Hc _ _ _ _ _ _ (CacheBelow_head H));
      destruct (vrecR _ pc _ _ st) as [u st']; apply IH, CacheBelow_tail, H.
  Qed.

End CachedPrune.

Theorem vrec_cached_prune chance sampled draw pass cache n :
  PrunedEq chance sampled draw pass cache n.
Proof.
  induction n as [x|ci kids IH|pl i kids IH] using node_ind'; intros p rc pc p1 p2 st H;
    cbn [vrec_cached prune]; rewrite <- (H []), app_nil_r;
    destruct (lookup p cache) as [v|]; try reflexivity; apply CacheBelow_kids in H.
  - rewrite vrec_Chance. destruct sampled.
    + exact (cpick_prune _ _ _ _ _ p pc p1 p2 st kids IH 0 _ rc H).
    + exact (cgo_chance_prune _ _ _ _ _ p pc p1 p2 kids IH _ 0 rc _ st H).
  - rewrite vrec_Player. cbv zeta.
    rewrite (cgo_player_prune _ _ _ _ _ p pl i pc p1 p2 _ kids IH _ 0 rc _ _ _ H).
    reflexivity.
Qed.

Definition prefix (p q : path) : Prop := exists r, q = (p ++ r)%list.
Definition incomparable (p q : path) : Prop := ~ prefix p q /\ ~ prefix q p.
Definition antichain {A} (F : list (path * A)) : Prop :=
  ForallOrdPairs (fun e e' => incomparable (fst e) (fst e')) F.

Lemma prefix_nil p : prefix [] p.
Proof. exists p. reflexivity. Qed.

Lemma prefix_refl p : prefix p p.
Proof. exists []. now rewrite app_nil_r. Qed.

Lemma prefix_cons k p q : prefix p q -> prefix (k :: p) (k :: q).
Proof. intros [r ->]. exists r. reflexivity. Qed.

Lemma incomparable_sym p q : incomparable p q -> incomparable q p.
Proof. unfold incomparable; tauto. Qed.

Lemma incomparable_tail k p q : incomparable (k :: p) (k :: q) -> incomparable p q.
Proof. intros [H1 H2]. split; intros H; [apply H1|apply H2]; now apply prefix_cons. Qed.

Lemma incomparable_dec_heads k k' p q :
  incomparable (S k :: p) (S k' :: q) -> incomparable (k :: p) (k' :: q).
Proof.
  intros [H1 H2]. split; intros [r Hr]; [apply H1|apply H2]; cbn [app] in Hr;
    injection Hr as -> ->; exists r; reflexivity.
Qed.

Lemma FOP_cons {A} (Q : A -> A -> Prop) x l :
  ForallOrdPairs Q (x :: l) <-> Forall (Q x) l /\ ForallOrdPairs Q l.
Proof. split; [inversion 1; auto|intros [H1 H2]; constructor; assumption]. Qed.

Lemma FOP_app {A} (Q : A -> A -> Prop) l1 l2 :
  ForallOrdPairs Q (l1 ++ l2) <->
  ForallOrdPairs Q l1 /\ ForallOrdPairs Q l2 /\ Forall (fun x => Forall (Q x) l2) l1.
Proof.
  induction l1 as [|x l1 IH]; cbn [app].
  - split; [intros H|tauto]. repeat split; [constructor|exact H|constructor].
  - rewrite !FOP_cons, IH, Forall_app, Forall_cons_iff. tauto.
Qed.

Lemma Forall_strip0 {A} (P Q : path * A -> Prop) l :
  (forall q v, P (O :: q, v) -> Q (q, v)) -> Forall P l -> Forall Q (strip0 l).
Proof.
  intros HPQ. induction 1 as [|[[|[|k] q] v] r Hx _ IH]; cbn [strip0];
    [constructor|exact IH| |exact IH].
  constructor; [exact (HPQ _ _ Hx)|exact IH].
Qed.

Lemma Forall_dec {A} (P Q : path * A -> Prop) l :
  (forall k q v, P (S k :: q, v) -> Q (k :: q, v)) -> Forall P l -> Forall Q (dec l).
Proof.
  intros HPQ. induction 1 as [|[[|[|k] q] v] r Hx _ IH]; cbn [dec];
    [constructor|exact IH|exact IH|].
  constructor; [exact (HPQ _ _ _ Hx)|exact IH].
Qed.

Lemma antichain_strip0 {A} (F : list (path * A)) : antichain F -> antichain (strip0 F).
Proof.
  induction 1 as [|[[|[|k] q] v] r Hx _ IH]; cbn [strip0];
    [constructor|exact IH| |exact IH].
  constructor; [|exact IH]. refine (Forall_strip0 _ _ _ _ Hx). intros q' v'.
  apply incomparable_tail.
Qed.

Lemma antichain_dec {A} (F : list (path * A)) : antichain F -> antichain (dec F).
Proof.
  induction 1 as [|[[|[|k] q] v] r Hx _ IH]; cbn [dec];
    [constructor|exact IH|exact IH|].
  constructor; [|exact IH]. refine (Forall_dec _ _ _ _ Hx). intros k' q' v'.
  apply incomparable_dec_heads.
Qed.

Definition tnode (t : taskR) : nodeR := fst (fst (fst t)).

Section Cut.
  Context (chance : list (list R)) (sampled : bool) (draw : @oracle RNum) (pass : N).
  Context (sg : bool -> nat -> list R).

  (** the child [k] the traversal visits from [t], with the reaches it carries there *)
  Definition child (t : taskR) (k : nat) : option taskR :=
    let '(n, pc, p1, p2) := t in
    match n with
    | Term _ => None
    | Chance ci kids =>
        if sampled then
          if Nat.eqb k (draw true ci pass (@row RNum chance ci))
          then match nth_error kids k with
               | Some c => Some (c, pc * 1, p1, p2)
               | None => None
               end
          else None
        else match nth_error kids k, nth_error (@row RNum chance ci) k with
             | Some c, Some pr => Some (c, pc * pr, p1, p2)
             | _, _ => None
             end
    | Player pl i kids =>
        match nth_error kids k, nth_error (sg pl i) k with
        | Some c, Some pr => Some (c, pc, if pl then p1 * pr else p1, if pl then p2 else p2 * pr)
        | _, _ => None
        end
    end.

  (** [Sub t p t']: following the path [p] from [t] arrives at [t'] *)
  Fixpoint Sub (t : taskR) (p : path) (t' : taskR) : Prop :=
    match p with
    | [] => t' = t
    | k :: q => exists tc, child t k = Some tc /\ Sub tc q t'
    end.

  (** an antichain of descendants of [t] with the right reaches *)
  Definition good_frontier (t : taskR) (F : list fentryR) : Prop :=
    antichain F /\ Forall (fun e => Sub t (fst e) (snd e)) F.
End Cut.

Section CutLoops.
  Context (chance : list (list R)) (sampled : bool) (draw : @oracle RNum) (pass : N).
  Context (sg : bool -> nat -> list R).

  Local Notation vvalR := (@vval RNum chance sampled draw pass sg).
  Local Notation vincsR := (@vincs RNum chance sampled draw pass sg).
  Local Notation SubR := (Sub chance sampled draw pass sg).
  Local Notation goodR := (good_frontier chance sampled draw pass sg).
  Local Notation tasks := (@task_incs RNum chance sampled draw pass sg).
  Local Notation rcache := (@task_payoffs RNum chance sampled draw pass sg).

  Local Notation tincs t := (vincsR (tnode t) (snd (fst (fst t))) (snd (fst t)) (snd t)).

  Lemma rcache_cons p t r : rcache ((p, t) :: r) = (p, vvalR (tnode t)) :: rcache r.
  Proof. destruct t as [[[n pc] p1] p2]. reflexivity. Qed.

  Lemma tasks_cons p t r : tasks ((p, t) :: r) = (tincs t ++ tasks r)%list.
  Proof. destruct t as [[[n pc] p1] p2]. reflexivity. Qed.

  Lemma rcache_strip0 F : strip0 (rcache F) = rcache (strip0 F).
  Proof.
    induction F as [|[p t] r IH]; [reflexivity|]. rewrite rcache_cons.
    destruct p as [|[|k] q]; cbn [strip0]; rewrite ?rcache_cons, IH; reflexivity.
  Qed.

  Lemma rcache_dec F : dec (rcache F) = rcache (dec F).
  Proof.
    induction F as [|[p t] r IH]; [reflexivity|]. rewrite rcache_cons.
    destruct p as [|[|k] q]; cbn [dec]; rewrite ?rcache_cons, IH; reflexivity.
  Qed.

  (** [F] is a frontier strictly below a node whose children are given by [chf] *)
  Definition below (chf : nat -> option taskR) (F : list fentryR) : Prop :=
    antichain F /\
    Forall (fun e => match fst e with
                     | [] => False
                     | k :: q => exists tc, chf k = Some tc /\ SubR tc q (snd e)
                     end) F.

  Lemma good_cases [t F] :
    goodR t F -> F = [([], t)] \/ below (child chance sampled draw pass sg t) F.
  Proof.
    intros [HA HS]. destruct HA as [|[[|k q] t'] r Hx Hr].
    - right. split; constructor.
    - left. inversion HS as [|? ? Ht _]; subst. cbn [fst snd Sub] in Ht. subst t'.
      destruct Hx as [|e r [H1 _] _]; [reflexivity|]. destruct H1. apply prefix_nil.
    - right. split; [constructor; assumption|].
      inversion HS as [|? ? Ht Hr']; subst. constructor; [exact Ht|].
      eapply Forall_impl; [|exact (Forall_and Hx Hr')].
      intros [[|k' q'] t''] [[_ Hi] Hs]; [|exact Hs]. destruct Hi. apply prefix_nil.
  Qed.

  Lemma below_lookup [chf F] : below chf F -> lookup [] (rcache F) = None.
  Proof.
    intros [_ H]. induction H as [|[[|k q] t] r Hx _ IH]; [reflexivity|destruct Hx|].
    rewrite rcache_cons. exact IH.
  Qed.

  Lemma below_none chf F : (forall k, chf k = None) -> below chf F -> F = [].
  Proof.
    intros E [_ H]. destruct H as [|[[|k q] t] r Hx _]; [reflexivity|destruct Hx|].
    destruct Hx as (tc & Hc & _). rewrite E in Hc. discriminate.
  Qed.

  Lemma below_head [chf F] :
    below chf F ->
    match chf O with
    | Some tc => goodR tc (strip0 F)
    | None => strip0 F = []
    end.
  Proof.
    intros [HA H]. destruct (chf O) as [tc|] eqn:E.
    - split; [exact (antichain_strip0 _ HA)|].
      refine (Forall_strip0 _ _ _ _ H). intros q t (tc' & Hc & Hs).
      rewrite E in Hc. injection Hc as <-. exact Hs.
    - apply (Forall_strip0 _ (fun _ => False)) in H.
      + destruct H; [reflexivity|contradiction].
      + intros q t (tc & Hc & _). rewrite E in Hc. discriminate.
  Qed.

  Lemma below_tail [chf F] : below chf F -> below (fun k => chf (S k)) (dec F).
  Proof.
    intros [HA H]. split; [exact (antichain_dec _ HA)|].
    refine (Forall_dec _ _ _ _ H). intros k q t Hx. exact Hx.
  Qed.

  Lemma tasks_split [chf F] :
    below chf F -> Permutation (tasks F) (tasks (strip0 F) ++ tasks (dec F)).
  Proof.
    intros [_ H]. induction H as [|[p t] r Hx _ IH]; [constructor|]. rewrite tasks_cons.
    destruct p as [|[|k] q]; cbn [strip0 dec]; rewrite ?tasks_cons.
    - destruct Hx.
    - rewrite <- app_assoc. apply Permutation_app_head, IH.
    - eapply Permutation_trans; [apply Permutation_app_head, IH|apply Permutation_app_swap_app].
  Qed.

  Lemma below_join [chf F] [a a' b b' : list incrR] :
    below chf F ->
    Permutation (a ++ tasks (strip0 F)) a' -> Permutation (b ++ tasks (dec F)) b' ->
    Permutation ((a ++ b) ++ tasks F) (a' ++ b').
  Proof.
    intros H Ha Hb. rewrite <- Ha, <- Hb, (tasks_split H), <- !app_assoc.
    apply Permutation_app_head, Permutation_app_swap_app.
  Qed.

  (** the statement proved by induction on the tree.  Below a node that is not itself a
      task the frontier splits by the first step of its paths ([tasks_split]): the part
      below child 0 is served by the induction hypothesis, the rest by the loop's own
      induction, and [below_join] joins the two permutations. *)
  Definition CutP (n : nodeR) : Prop :=
    forall pc p1 p2 F,
      goodR (n, pc, p1, p2) F ->
      vvalR (pruneR (rcache F) n) = vvalR n /\
      Permutation (vincsR (pruneR (rcache F) n) pc p1 p2 ++ tasks F) (vincsR n pc p1 p2).

  (** the children of a sampled chance node: the drawn one only *)
  Definition chf_pick (pc p1 p2 : R) (ks : list nodeR) (ind : nat) : nat -> option taskR :=
    fun k => if Nat.eqb k ind
             then match nth_error ks k with
                  | Some c => Some (c, pc * 1, p1, p2)
                  | None => None
                  end
             else None.

  Lemma pick_cut pc p1 p2 ks :
    Forall CutP ks -> forall ind F,
    below (chf_pick pc p1 p2 ks ind) F ->
    val_pick vvalR (prune_kidsR pruneR (rcache F) ks) ind = val_pick vvalR ks ind /\
    Permutation (incs_pick vincsR pc p1 p2 (prune_kidsR pruneR (rcache F) ks) ind ++ tasks F)
                (incs_pick vincsR pc p1 p2 ks ind).
  Proof.
    induction 1 as [|c ks Hc HK IH]; intros ind F H.
    - rewrite (below_none _ F) with (2 := H); [split; [reflexivity|constructor]|].
      intros k. unfold chf_pick. destruct (Nat.eqb k ind); [now destruct k|reflexivity].
    - cbn [prune_kids val_pick incs_pick]. rewrite rcache_strip0, rcache_dec, (tasks_split H).
      destruct ind as [|ind].
      + destruct (Hc _ _ _ _ (below_head H)) as [Hv Hp].
        rewrite (below_none _ (dec F) (fun k => eq_refl) (below_tail H)), app_nil_r.
        split; [rewrite Hv; reflexivity|exact Hp].
      + rewrite (below_head H). exact (IH ind (dec F) (below_tail H)).
  Qed.

  (** the children of an unsampled chance node and of a player node: child [k] with a
      reach multiplied by the [k]-th probability *)
  Definition chf_zip (f : nodeR -> R -> taskR) (ks : list nodeR) (ps : list R)
    : nat -> option taskR :=
    fun k => match nth_error ks k, nth_error ps k with
             | Some c, Some pr => Some (f c pr)
             | _, _ => None
             end.

  Lemma below_zip_nil f ks ps F : below (chf_zip f ks ps) F -> combine ks ps = [] -> F = [].
  Proof.
    intros H E. apply (below_none _ F) in H; [exact H|]. intros k. unfold chf_zip.
    destruct ks as [|c ks]; [now destruct k|]. destruct ps; [|discriminate].
    destruct (nth_error (c :: ks) k); [now destruct k|reflexivity].
  Qed.

  Lemma chance_cut pc p1 p2 ks :
    Forall CutP ks -> forall ps F ex,
    below (chf_zip (fun c pr => (c, pc * pr, p1, p2)) ks ps) F ->
    val_chance vvalR ps (prune_kidsR pruneR (rcache F) ks) ex = val_chance vvalR ps ks ex /\
    Permutation (incs_chance vincsR pc p1 p2 ps (prune_kidsR pruneR (rcache F) ks) ++ tasks F)
                (incs_chance vincsR pc p1 p2 ps ks).
  Proof.
    induction 1 as [|c ks Hc HK IH]; intros ps F ex H; destruct ps as [|pr ps].
    1-3: rewrite (below_zip_nil _ _ _ F H eq_refl); split; [reflexivity|constructor].
    cbn [prune_kids val_chance incs_chance]. rewrite rcache_strip0, rcache_dec.
    destruct (Hc _ _ _ _ (below_head H)) as [Hv Hp].
    destruct (IH ps (dec F) (add RNum ex (mul RNum pr (vvalR c))) (below_tail H))
      as [Hv' Hp'].
    split; [rewrite Hv; exact Hv'|exact (below_join H Hp Hp')].
  Qed.

  Lemma player_cut (pl : bool) i pc p1 p2 mult ks :
    Forall CutP ks -> forall ss F ai e1 e,
    below (chf_zip (fun c pr => (c, pc, if pl then p1 * pr else p1, if pl then p2 else p2 * pr))
                   ks ss) F ->
    val_player vvalR (prune_kidsR pruneR (rcache F) ks) ss e1 = val_player vvalR ks ss e1 /\
    exp_player vvalR mult (prune_kidsR pruneR (rcache F) ks) ss e = exp_player vvalR mult ks ss e /\
    Permutation (incs_player vvalR vincsR pl i pc p1 p2 mult
                             (prune_kidsR pruneR (rcache F) ks) ss ai ++ tasks F)
                (incs_player vvalR vincsR pl i pc p1 p2 mult ks ss ai).
  Proof.
    induction 1 as [|c ks Hc HK IH]; intros ss F ai e1 e H; destruct ss as [|pr ss].
    1-3: rewrite (below_zip_nil _ _ _ F H eq_refl); split; [reflexivity|];
      split; [reflexivity|constructor].
    cbn [prune_kids val_player exp_player incs_player]. rewrite rcache_strip0, rcache_dec.
    destruct (Hc _ _ _ _ (below_head H)) as [Hv Hp].
    destruct (IH ss (dec F) (S ai) (add RNum e1 (mul RNum pr (vvalR c)))
                 (add RNum e (mul RNum (mul RNum (vvalR c) mult) pr)) (below_tail H))
      as (Hv1 & Hv2 & Hp').
    rewrite Hv. split; [exact Hv1|]. split; [exact Hv2|].
    destruct pl; refine (below_join H Hp _); apply perm_skip, Hp'.
  Qed.
End CutLoops.

Theorem cut_rel chance sampled draw pass sg n : CutP chance sampled draw pass sg n.
Proof.
  induction n as [x|ci kids IH|pl i kids IH] using node_ind'; intros pc p1 p2 F HG;
    rewrite prune_eq;
    (destruct (good_cases _ _ _ _ _ HG) as [-> | H];
     [split; [reflexivity|cbn [task_incs map concat]; rewrite app_nil_r; apply Permutation_refl]|]);
    rewrite (below_lookup _ _ _ _ _ H).
  - rewrite (below_none _ _ _ _ _ _ F (fun k => eq_refl) H). split; [reflexivity|constructor].
  - cbn [vval vincs]. destruct sampled; [apply pick_cut|apply chance_cut]; assumption.
  - cbn [vval vincs].
    destruct (player_cut _ _ _ _ _ pl i pc p1 p2
                (if pl then mul RNum pc p2 else mul RNum (neg RNum p1) pc)
                kids IH _ F O (zero RNum) (zero RNum) H) as (Hv1 & Hv2 & Hp).
    split; [exact Hv1|]. rewrite Hv2. cbn [app]. apply perm_skip.
    eapply Permutation_trans; [|apply Permutation_app_tail, Hp].
    rewrite <- !app_assoc. apply Permutation_app_head, Permutation_app_comm.
Qed.

Theorem cut_lemma chance sampled draw pass sg n pc p1 p2 (F : list fentryR) :
  good_frontier chance sampled draw pass sg (n, pc, p1, p2) F ->
  let cache := @task_payoffs RNum chance sampled draw pass sg F in
  let cincs := @vincs RNum chance sampled draw pass sg (pruneR cache n) pc p1 p2 in
  (forall st : pstateR, @strat_view RNum st = sg ->
     @vrec_cached RNum chance sampled draw pass cache [] n pc p1 p2 st =
     (@vval RNum chance sampled draw pass sg n, fold_left apply_incr cincs st)) /\
  Permutation (cincs ++ @task_incs RNum chance sampled draw pass sg F)
              (@vincs RNum chance sampled draw pass sg n pc p1 p2).
Proof.
  intros HG. cbv zeta.
  destruct (cut_rel chance sampled draw pass sg n pc p1 p2 F HG) as [Hv Hp].
  split; [|exact Hp].
  intros st Hst.
  rewrite (vrec_cached_prune chance sampled draw pass _ n [] _) by (intros q; reflexivity).
  rewrite vrec_incs, Hst, Hv. reflexivity.
Qed.

Corollary cut_state chance sampled draw pass n pc p1 p2 (F : list fentryR) (st : pstateR) l :
  good_frontier chance sampled draw pass (strat_view st) (n, pc, p1, p2) F ->
  Permutation (@task_incs RNum chance sampled draw pass (strat_view st) F) l ->
  @vrec_cached RNum chance sampled draw pass
               (@task_payoffs RNum chance sampled draw pass (strat_view st) F) [] n pc p1 p2
               (fold_left apply_incr l st) =
  @vrec RNum chance sampled draw pass n pc p1 p2 st.
Proof.
  intros HG Hl.
  destruct (cut_lemma chance sampled draw pass (strat_view st) n pc p1 p2 F HG) as [Hc Hp].
  cbv zeta in Hc, Hp. rewrite Hc by apply fold_incr_strat.
  rewrite vrec_incs, <- fold_left_app. f_equal. apply apply_perm.
  rewrite <- Hp, <- Hl. apply Permutation_app_comm.
Qed.

Lemma pop_back_spec {A} (l : list A) :
  match pop_back l with
  | Some (r, x) => l = r ++ [x]
  | None => l = []
  end.
Proof.
  induction l as [|a l IH]; cbn [pop_back]; [reflexivity|].
  destruct (pop_back l) as [[r y]|]; subst; reflexivity.
Qed.

Lemma incomparable_snoc_ne p j j' : j <> j' -> incomparable (p ++ [j]) (p ++ [j']).
Proof.
  intros Hne. split; intros [r Hr]; rewrite <- app_assoc in Hr; apply app_inv_head in Hr;
    cbn [app] in Hr; congruence.
Qed.

Lemma incomparable_snoc q p k : incomparable q p -> incomparable q (p ++ [k]).
Proof.
  intros [H1 H2]. split; intros [r Hr].
  - destruct r as [|x r _] using rev_ind.
    + apply H2. exists [k]. now rewrite app_nil_r in Hr.
    + apply H1. exists r. rewrite app_assoc in Hr. now apply app_inj_tail in Hr as [-> _].
  - apply H2. exists ([k] ++ r). rewrite Hr, <- app_assoc. reflexivity.
Qed.

(** [l]: the children [k >= j] of a node at path [p], which are given by [chf], each at
    the path [p ++ [k]], with pairwise different [k] *)
Definition kids_of (p : path) (chf : nat -> option taskR) (j : nat) (l : list fentryR) : Prop :=
  Forall (fun e => exists k, (j <= k)%nat /\ fst e = p ++ [k] /\ chf k = Some (snd e)) l /\
  antichain l.

Lemma zip_kids p chf (f : nodeR -> R -> taskR) ps : forall ks j,
  (forall k pr c, nth_error ps k = Some pr -> nth_error ks k = Some c ->
                  chf (j + k)%nat = Some (f c pr)) ->
  kids_of p chf j (map (fun '(k, pr, c) => (p ++ [k], f c pr)) (zip_idx j ps ks)).
Proof.
  induction ps as [|pr ps IH]; intros ks j Hf; [split; constructor|].
  destruct ks as [|c ks]; [split; constructor|]. cbn [zip_idx map].
  destruct (IH ks (S j)) as [HK HA].
  { intros k pr' c' Hp Hc. rewrite Nat.add_succ_comm. now apply Hf. }
  split; constructor; [| | |exact HA].
  - exists j. split; [apply le_n|]. split; [reflexivity|].
    cbn [snd]. rewrite <- (Nat.add_0_r j). now apply Hf.
  - eapply Forall_impl; [|exact HK]. intros e (k & Hk & He). exists k. split; [lia|exact He].
  - eapply Forall_impl; [|exact HK]. intros e (k & Hk & He & _).
    unfold path in *. cbn [fst]. rewrite He. apply incomparable_snoc_ne. lia.
Qed.

Section FrontierOK.
  Context (chance : list (list R)) (sampled : bool) (draw : @oracle RNum) (pass : N).
  Context (sg : bool -> nat -> list R).

  Local Notation childR := (child chance sampled draw pass sg).
  Local Notation SubR := (Sub chance sampled draw pass sg).
  Local Notation goodR := (good_frontier chance sampled draw pass sg).
  Local Notation expandR := (@expand RNum chance sampled draw pass sg).

  Lemma Sub_snoc t p t1 k tc : SubR t p t1 -> childR t1 k = Some tc -> SubR t (p ++ [k]) tc.
  Proof.
    revert t; induction p as [|j p IH]; intros t; cbn [Sub app].
    - intros -> Hc. exists tc. split; [exact Hc|reflexivity].
    - intros (t' & Hc' & Hs) Hc. exists t'. split; [exact Hc'|]. now apply IH.
  Qed.

  Lemma expand_kids (e : fentryR) : kids_of (fst e) (childR (snd e)) 0 (expandR e).
  Proof.
    destruct e as [p [[[n pc] p1] p2]]. destruct n as [x|ci kids|pl i kids]; cbn [expand fst snd].
    - split; constructor.
    - destruct sampled.
      + destruct (nth_error kids _) as [c|] eqn:E; [|split; constructor].
        split; [|constructor; constructor]. constructor; [|constructor].
        eexists. split; [apply Nat.le_0_l|]. split; [reflexivity|].
        cbn [snd child]. rewrite Nat.eqb_refl, E. reflexivity.
      + apply (zip_kids p _ (fun c pr => (c, pc * pr, p1, p2))).
        intros k pr c Hp Hc. cbn [child Nat.add]. change (Num.T RNum) with R.
        rewrite Hc, Hp. reflexivity.
    - apply (zip_kids p _ (fun c pr => (c, pc, if pl then p1 * pr else p1,
                                               if pl then p2 else p2 * pr))).
      intros k pr c Hp Hc. cbn [child Nat.add]. rewrite Hc, Hp. reflexivity.
  Qed.

  Lemma good_expand t0 (rest work : list fentryR) e :
    goodR t0 ((rest ++ [e]) ++ work) -> goodR t0 (rest ++ work ++ expandR e).
  Proof.
    intros [HA HS]. destruct (expand_kids e) as [HK HKA].
    apply FOP_app in HA as (HA & Hw & Hc). apply FOP_app in HA as (Hr & _ & Hre).
    apply Forall_app in Hc as [Hrw Hew]. apply Forall_app in HS as [HS Sw].
    apply Forall_app in HS as [Sr Se].
    inversion Hew as [|? ? Hew' _]; inversion Se as [|? ? Se' _]; subst.
    assert (Hk : forall x : fentryR, incomparable (fst x) (fst e) ->
                 Forall (fun y => incomparable (fst x) (fst y)) (expandR e)).
    { intros x Hx. eapply Forall_impl; [|exact HK]. intros y (k & _ & Ek & _).
      unfold path in *. rewrite Ek. apply incomparable_snoc, Hx. }
    rewrite app_assoc. split.
    - apply FOP_app. split; [apply FOP_app; repeat split; assumption|]. split; [exact HKA|].
      apply Forall_app. split.
      + eapply Forall_impl; [|exact Hre]. intros x Hx. inversion Hx; subst. apply Hk; assumption.
      + eapply Forall_impl; [|exact Hew']. intros x Hx. apply Hk, incomparable_sym, Hx.
    - apply Forall_app. split; [apply Forall_app; split; assumption|].
      eapply Forall_impl; [|exact HK]. intros y (k & _ & Ek & Hc).
      unfold path in *. rewrite Ek. eapply Sub_snoc; eassumption.
  Qed.

  Lemma frontier_loop_ok t0 fuel target :
    forall queue work,
      goodR t0 (queue ++ work) ->
      let '(q', w') := @frontier_loop RNum chance sampled draw pass sg fuel target queue work in
      goodR t0 (q' ++ w').
  Proof.
    induction fuel as [|f IH]; intros queue work HG; cbn [frontier_loop]; [exact HG|].
    destruct (_ && _); [|exact HG].
    pose proof (pop_back_spec queue) as HP. destruct (pop_back queue) as [[rest e]|]; subst queue.
    - apply IH. apply good_expand; assumption.
    - apply IH. cbn [app] in HG. rewrite app_nil_r; assumption.
  Qed.
End FrontierOK.

Theorem frontier_ok chance sampled draw pass sg fuel target root :
  good_frontier chance sampled draw pass sg (root, 1, 1, 1)%R
                (@frontier RNum chance sampled draw pass sg fuel target root).
Proof.
  unfold frontier.
  pose proof (frontier_loop_ok chance sampled draw pass sg (root, 1, 1, 1)%R fuel target
                [([], (root, 1, 1, 1)%R)] []) as H.
  change (one RNum) with 1%R.
  destruct (frontier_loop _ _ _ _ _ _ _ _ _) as [q w]. cbn [fst].
  destruct H as [HA HS].
  { split; [constructor; constructor|]. constructor; [reflexivity|constructor]. }
  split.
  - now apply FOP_app in HA as [HA _].
  - now apply Forall_app in HS as [HS _].
Qed.

Theorem multi_iter_eq_single (g : @game RNum) sampled draw p it target sched st :
  (forall l, Permutation l (sched l)) ->
  @multi_iter RNum g sampled draw p it target sched st =
  @vanilla_iter RNum g sampled draw p it st.
Proof.
  intros Hs. unfold multi_iter, vanilla_iter. cbv zeta.
  rewrite (cut_state (g_chance g) sampled draw (it - 1)%N (g_root g) (one RNum) (one RNum)
                     (one RNum) _ st _ (frontier_ok _ _ _ _ _ _ _ _) (Hs _)).
  reflexivity.
Qed.

Definition method_of (sampled : bool) : method := if sampled then Sampled else Full.

Lemma solve_multi_loop_eq (g : @game RNum) sampled draw p stop target scheds :
  (forall it l, Permutation l (scheds it l)) ->
  forall rem it st regs ran,
    @solve_multi_loop RNum g sampled draw p stop target scheds rem it st regs ran =
    @solve_loop RNum g (method_of sampled) draw p stop rem it st regs ran.
Proof.
  intros Hs. induction rem as [|r IH]; intros it st regs ran;
    cbn [solve_multi_loop solve_loop]; [reflexivity|].
  rewrite multi_iter_eq_single by apply Hs.
  replace (@one_iter RNum g (method_of sampled) draw p it st)
    with (@vanilla_iter RNum g sampled draw p it st) by (destruct sampled; reflexivity).
  destruct (vanilla_iter g sampled draw p it st) as [st' [r1 r2]].
  destruct (stop _); [reflexivity|apply IH].
Qed.

(** [solve_multi_eq_single]: every target (number of tasks aimed at), every budget,
    every early-termination predicate, every family of schedules (one permutation per
    iteration): the multi-threaded solve returns the strategies, the bounds and the
    iteration count of the single-threaded one *)
Theorem solve_multi_eq_single (g : @game RNum) sampled draw p budget stop target scheds :
  (forall it l, Permutation l (scheds it l)) ->
  @solve_multi RNum g sampled draw p budget stop target scheds =
  @solve_single RNum g (method_of sampled) draw p budget stop.
Proof.
  intros Hs. unfold solve_multi, solve_single.
  rewrite solve_multi_loop_eq by exact Hs. reflexivity.
Qed.

(** ** Non-vacuity: a tree on which [thread_threshold] hands out two tasks *)
Local Notation TermR := (@Term RNum).
Local Notation PlayerR := (@Player RNum).
Definition ex_root : nodeR :=
  @Chance RNum 0 [PlayerR true 0 [TermR 1%R; TermR (-1)%R];
                  PlayerR false 0 [TermR 2%R; TermR (-2)%R];
                  PlayerR true 1 [TermR 0%R; TermR 3%R]].
Definition ex_chance : list (list R) := [[1 / 3; 1 / 3; 1 / 3]%R].
Definition ex_sg : bool -> nat -> list R := fun _ _ => [1 / 2; 1 / 2]%R.
Definition ex_draw : @oracle RNum := fun _ _ _ _ => O.

(** target 4: the root is expanded, the three children are swapped into [queue], the
    last one is expanded ([queue.len() + work.len() = 4]); the tasks are children 0 and 1 *)
Example ex_frontier_two_tasks :
  map fst (@frontier RNum ex_chance false ex_draw 0%N ex_sg (frontier_fuel ex_root) 4 ex_root)
  = [[0%nat]; [1%nat]].
Proof. reflexivity. Qed.

(** target 3: the loop exits right after the root was expanded into [work]
    ([queue] is empty, [work] holds the three children): no task at all, the whole
    tree is traversed sequentially.  Only [queue] is handed to the thread pool. *)
Example ex_frontier_no_task :
  @frontier RNum ex_chance false ex_draw 0%N ex_sg (frontier_fuel ex_root) 3 ex_root = [].
Proof. reflexivity. Qed.

(** target 1 (the crate's own multi-threaded tests): the root itself is the only task *)
Example ex_frontier_root :
  map fst (@frontier RNum ex_chance true ex_draw 0%N ex_sg (frontier_fuel ex_root) 1 ex_root)
  = [[]].
Proof. reflexivity. Qed.

Example ex_reverse_schedule (g : @game RNum) sampled draw p budget stop target :
  @solve_multi RNum g sampled draw p budget stop target (fun _ l => rev l) =
  @solve_single RNum g (method_of sampled) draw p budget stop.
Proof. apply solve_multi_eq_single. intros it l. apply Permutation_rev. Qed.

(** *** a task runs [recurse_multi] with the empty cache [()]: that is [vrec] *)
Lemma prune_nil (n : nodeR) : pruneR [] n = n.
Proof.
  induction n as [x|ci kids IH|pl i kids IH] using node_ind'; rewrite prune_eq; cbn [lookup];
    try reflexivity; f_equal;
    (induction IH as [|c ks Hc _ IHk]; cbn [prune_kids strip0 dec]; [reflexivity|];
     rewrite Hc; f_equal; exact IHk).
Qed.

Theorem vrec_cached_nil chance sampled draw pass p n pc p1 p2 st :
  @vrec_cached RNum chance sampled draw pass [] p n pc p1 p2 st =
  @vrec RNum chance sampled draw pass n pc p1 p2 st.
Proof.
  rewrite (vrec_cached_prune chance sampled draw pass [] n p []) by (intros q; reflexivity).
  now rewrite prune_nil.
Qed.

(** *** [IRegAll] is a loop of one [fetch_sub] per cell: at that finer granularity too
    it is a sequence of commuting atomic increments *)
Lemma upd_middle {A} (pre : list A) s suf v :
  upd (pre ++ s :: suf) (length pre) v = pre ++ v :: suf.
Proof. induction pre as [|a pre IH]; cbn [app length upd]; [reflexivity|now rewrite IH]. Qed.

Lemma upd_at_id (st : pstateR) pl i : upd_at st pl i (fun r => r) = st.
Proof.
  destruct st as [l1 l2], pl; cbv [upd_at ri_set ri_get ps_set ps_get fst snd];
    now rewrite upd_nth_same.
Qed.

Lemma upd_at_upd_at (st : pstateR) pl i f g :
  upd_at (upd_at st pl i f) pl i g = upd_at st pl i (fun r => g (f r)).
Proof.
  destruct st as [l1 l2], pl; cbv [upd_at ri_set ri_get ps_set ps_get fst snd];
    rewrite nth_upd, upd_upd_same, Nat.eqb_refl; cbn [andb];
    [destruct (Nat.ltb_spec i (length l1))|destruct (Nat.ltb_spec i (length l2))];
    try reflexivity; rewrite !upd_oob by assumption; reflexivity.
Qed.

Lemma fold_incr_same_target pl i (l : list incrR) :
  Forall (fun x => incr_pl x = pl /\ incr_ix x = i) l ->
  forall st : pstateR,
    fold_left apply_incr l st =
    upd_at st pl i (fun r => fold_left (fun r x => incr_fn x r) l r).
Proof.
  induction 1 as [|x l [Hp Hi] Hl IH]; intros st; cbn [fold_left].
  - symmetry. apply upd_at_id.
  - rewrite IH, apply_incr_upd_at, Hp, Hi. apply upd_at_upd_at.
Qed.

Lemma regall_cells_fn pl i (x : R) cs s (suf : list R) : forall pre,
  fold_left (fun r y => incr_fn y r)
            (map (fun a => @IReg RNum pl i a (- x)%R) (seq (length pre) (length suf)))
            (@mkRinfo RNum (pre ++ suf) cs s) =
  @mkRinfo RNum (pre ++ map (fun c => c - x)%R suf) cs s.
Proof.
  induction suf as [|c suf IH]; intros pre; cbn [length seq map fold_left]; [reflexivity|].
  cbn [incr_fn cum_regret cum_strat strat]. rewrite nth_middle, upd_middle.
  specialize (IH (pre ++ [c + - x]%R)). rewrite last_length, <- !app_assoc in IH. exact IH.
Qed.

Theorem regall_cells (st : pstateR) pl i (x : R) :
  apply_incr st (@IRegAll RNum pl i x) =
  fold_left apply_incr
            (map (fun a => @IReg RNum pl i a (- x)%R)
                 (seq 0 (length (cum_regret (@ri_get RNum st pl i))))) st.
Proof.
  rewrite (fold_incr_same_target pl i).
  2:{ rewrite Forall_map. apply Forall_forall. intros a _. split; reflexivity. }
  rewrite apply_incr_upd_at. cbn [incr_pl incr_ix]. unfold upd_at. f_equal.
  destruct (@ri_get RNum st pl i) as [cr cs s]. symmetry.
  apply (regall_cells_fn pl i x cs s cr []).
Qed.

(** *** the fuel of [frontier] is enough: the [while] loop of [thread_threshold] has
    exited by its own condition, more fuel changes nothing *)
(** the sum over the children, as it stands in [nodes] *)
Definition ksum : list nodeR -> nat :=
  fix go ks := match ks with [] => O | c :: r => (@nodes RNum c + go r)%nat end.
Definition esum (l : list fentryR) : nat :=
  list_sum (map (fun e : fentryR => @nodes RNum (tnode (snd e))) l).

Lemma ksum_cons c ks : ksum (c :: ks) = (@nodes RNum c + ksum ks)%nat.
Proof. reflexivity. Qed.
Lemma esum_cons (e : fentryR) l : esum (e :: l) = (@nodes RNum (tnode (snd e)) + esum l)%nat.
Proof. reflexivity. Qed.
Lemma esum_nil : esum [] = O.
Proof. reflexivity. Qed.

Lemma nodes_pos (n : nodeR) : (1 <= @nodes RNum n)%nat.
Proof. destruct n; cbn [nodes]; lia. Qed.

Lemma esum_app l1 l2 : esum (l1 ++ l2) = (esum l1 + esum l2)%nat.
Proof. unfold esum. now rewrite map_app, list_sum_app. Qed.

Lemma esum_zip (f : nat * R * nodeR -> fentryR) :
  (forall j pr c, tnode (snd (f (j, pr, c))) = c) ->
  forall (ps : list R) (ks : list nodeR) j, (esum (map f (zip_idx j ps ks)) <= ksum ks)%nat.
Proof.
  intros Hf. induction ps as [|pr ps IH]; intros ks j; destruct ks as [|c ks];
    cbn [zip_idx map]; rewrite ?esum_nil; try lia.
  rewrite esum_cons, ksum_cons, Hf. specialize (IH ks (S j)). lia.
Qed.

Lemma ksum_nth (ks : list nodeR) k c : nth_error ks k = Some c -> (@nodes RNum c <= ksum ks)%nat.
Proof.
  revert k; induction ks as [|a ks IH]; intros k; destruct k as [|k]; cbn [nth_error];
    try discriminate; rewrite ksum_cons.
  - intros E; injection E as ->. lia.
  - intros E. specialize (IH _ E). lia.
Qed.

Lemma expand_small chance sampled draw pass sg (e : fentryR) :
  (esum (@expand RNum chance sampled draw pass sg e) < @nodes RNum (tnode (snd e)))%nat.
Proof.
  destruct e as [p [[[n pc] p1] p2]]. cbn [snd tnode fst].
  destruct n as [x|ci kids|pl i kids]; cbn [expand nodes]; fold ksum.
  - cbn. lia.
  - destruct sampled.
    + destruct (nth_error kids _) as [c|] eqn:E; [|cbn; lia].
      apply ksum_nth in E. unfold esum. cbn [map snd tnode fst list_sum fold_right]. lia.
    + apply Nat.lt_succ_r, esum_zip. reflexivity.
  - apply Nat.lt_succ_r, esum_zip. reflexivity.
Qed.

Definition fmeasure (q w : list fentryR) : nat :=
  (2 * esum (q ++ w) + match q with [] => 1 | _ => 0 end)%nat.

Lemma frontier_loop_stable chance sampled draw pass sg target fuel :
  forall q w, (fmeasure q w <= fuel)%nat -> forall k,
    @frontier_loop RNum chance sampled draw pass sg (fuel + k) target q w =
    @frontier_loop RNum chance sampled draw pass sg fuel target q w.
Proof.
  induction fuel as [|f IH]; intros q w Hm k.
  - exfalso. unfold fmeasure in Hm. destruct q as [|e q]; [lia|].
    cbn [app] in Hm. rewrite esum_cons in Hm.
    pose proof (nodes_pos (tnode (snd e))). lia.
  - cbn [Nat.add frontier_loop].
    destruct (negb _ && _) eqn:C; [|reflexivity].
    pose proof (pop_back_spec q) as HP. destruct (pop_back q) as [[rest e]|].
    + subst q. apply IH. unfold fmeasure in *.
      pose proof (expand_small chance sampled draw pass sg e) as Hs.
      rewrite !esum_app in *. rewrite esum_cons, esum_nil in Hm.
      assert (match rest ++ [e] with [] => 1 | _ => 0 end = 0)%nat as E0
          by (destruct rest; reflexivity).
      rewrite E0 in Hm. destruct rest; lia.
    + subst q. destruct w as [|e w]; [discriminate|]. apply IH.
      unfold fmeasure in *. cbn [app] in *. rewrite app_nil_r. lia.
Qed.

Theorem frontier_fuel_enough chance sampled draw pass sg target root k :
  @frontier RNum chance sampled draw pass sg (frontier_fuel root + k) target root =
  @frontier RNum chance sampled draw pass sg (frontier_fuel root) target root.
Proof.
  unfold frontier. rewrite frontier_loop_stable; [reflexivity|].
  unfold fmeasure, frontier_fuel. cbn [app]. rewrite esum_cons, esum_nil.
  cbn [snd tnode fst]. lia.
Qed.
