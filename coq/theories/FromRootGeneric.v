(** * FromRootGeneric: facts about [from_root] / [init] that hold for every instance
    of [Num] (in particular for binary64, [FNum]); no arithmetic law is used.

    The two local loops of [init] are instances of one state-threading loop [loopS];
    [from_root_data_ok]: an accepted tree has only finite payoffs, only positive finite
    chance weights, and no empty chance or decision node.

    Totality ("construction never panics"): [init] and [from_root] are Gallina
    functions of type [res _], defined by structural recursion on the raw tree, so
    they return [Ok _] or [Err _] on every input by construction; there is nothing
    to prove. *)
From Coq Require Import List NArith Bool Arith Lia.
From Cfr.theories Require Import Num Tree GameWF Strat StratAgreeProofs.
Import ListNotations.

Lemma list_eqb_eq {A} (eq : A -> A -> bool) :
  (forall x y, eq x y = true <-> x = y) -> forall a b, list_eqb eq a b = true <-> a = b.
Proof.
  intros Heq. induction a as [|x a IH]; intros [|y b]; cbn [list_eqb]; try easy.
  rewrite andb_true_iff, Heq, IH. split; [intros [-> ->]; reflexivity|].
  intros H; inversion H; auto.
Qed.

Section FromRootGeneric.
  Context {NN : Num}.
  Local Notation T := (T NN).
  Local Notation gnode := (@gnode NN).
  Local Notation node := (@node NN).
  Local Notation bst := (@bst NN).
  Local Notation game := (@game NN).

  Definition pprev := (option (nat * nat) * option (nat * nat))%type.

  Fixpoint gnode_ind' (P : gnode -> Prop)
           (HT : forall p, P (GTerm p))
           (HC : forall info outs, Forall (fun wc => P (snd wc)) outs -> P (GChance info outs))
           (HP : forall pl info acts, Forall (fun ac => P (snd ac)) acts -> P (GPlayer pl info acts))
           (n : gnode) : P n :=
    match n with
    | GTerm p => HT p
    | GChance info outs =>
        HC info outs ((fix go (l : list (T * gnode)) : Forall (fun wc => P (snd wc)) l :=
                         match l with
                         | [] => Forall_nil _
                         | wc :: r => Forall_cons wc (gnode_ind' P HT HC HP (snd wc)) (go r)
                         end) outs)
    | GPlayer pl info acts =>
        HP pl info acts ((fix go (l : list (N * gnode)) : Forall (fun ac => P (snd ac)) l :=
                            match l with
                            | [] => Forall_nil _
                            | ac :: r => Forall_cons ac (gnode_ind' P HT HC HP (snd ac)) (go r)
                            end) acts)
    end.

  Section Loops.
    Context (rec : gnode -> pprev -> bst -> res (node * bst)).
    Context (prev : pprev).

    Fixpoint goC (outs : list (T * gnode)) (s : bst) (probs : list T) (kids : list node)
      : res (list T * list node * bst) :=
      match outs with
      | [] => Ok (rev probs, rev kids, s)
      | (p, c) :: r =>
          if ltb NN (zero NN) p && is_fin NN p then
            match rec c prev s with
            | Ok (c', s') => goC r s' (p :: probs) (c' :: kids)
            | Err e => Err e
            end
          else Err NonPositiveChance
      end.

    Context (pl : bool) (ind : nat).

    Fixpoint goP (acts : list (N * gnode)) (ai : nat) (s : bst) (kids : list node)
      : res (list node * bst) :=
      match acts with
      | [] => Ok (rev kids, s)
      | (_, c) :: r =>
          match rec c (set_prev prev pl (Some (ind, ai))) s with
          | Ok (c', s') => goP r (S ai) s' (c' :: kids)
          | Err e => Err e
          end
      end.
  End Loops.

  Definition finishC (info : option N) (probs : list T) (kids : list node) (s' : bst)
    : res (node * bst) :=
    match kids with
    | [] => Err EmptyChance
    | [k] => Ok (k, s')
    | _ =>
        let probs := normalise probs in
        match info with
        | None =>
            let ind := length (b_chance s') in
            Ok (Chance ind kids, set_chance s' (b_chance s' ++ [(None, probs)]))
        | Some k =>
            match find_index (opt_key_eqb k) (b_chance s') with
            | Some (ind, (_, old)) =>
                if list_eqb (eqb NN) old probs then Ok (Chance ind kids, s')
                else Err ProbabilitiesNotEqual
            | None =>
                let ind := length (b_chance s') in
                Ok (Chance ind kids, set_chance s' (b_chance s' ++ [(Some k, probs)]))
            end
        end
    end.

  Definition found_info (prev : pprev) (pl : bool) (info : N) (actions : list N) (s : bst)
    : res (nat * bst) :=
    match find_index (fun pi => N.eqb (pi_name pi) info) (b_infos s pl) with
    | Some (ind, pi) =>
        if negb (list_eqb N.eqb (pi_actions pi) actions) then Err ActionsNotEqual
        else if negb (prev_eqb (pi_prev pi) (get_prev prev pl)) then Err ImperfectRecall
        else Ok (ind, s)
    | None =>
        if nodupb actions then
          Ok (length (b_infos s pl),
              set_infos s pl (b_infos s pl ++ [mkPinfo info actions (get_prev prev pl)]))
        else Err ActionsNotUnique
    end.

  Definition multiP (prev : pprev) (pl : bool) (info : N) (acts : list (N * gnode)) (s : bst)
    : res (node * bst) :=
    if existsb (fun e => N.eqb (fst e) info) (b_singles s pl)
    then Err ActionsNotEqual
    else
      match found_info prev pl info (map fst acts) s with
      | Err e => Err e
      | Ok (ind, s0) =>
          match goP init prev pl ind acts O s0 [] with
          | Err e => Err e
          | Ok (kids, s') => Ok (Player pl ind kids, s')
          end
      end.

  Definition singleP (prev : pprev) (pl : bool) (info : N) (a : N) (c : gnode) (s : bst)
    : res (node * bst) :=
    if existsb (fun pi => N.eqb (pi_name pi) info) (b_infos s pl)
    then Err ActionsNotEqual
    else
      match find_index (fun e => N.eqb (fst e) info) (b_singles s pl) with
      | Some (_, (_, a')) =>
          if N.eqb a' a then init c prev s else Err ActionsNotEqual
      | None => init c prev (set_singles s pl (b_singles s pl ++ [(info, a)]))
      end.

  Lemma init_GTerm p prev s :
    init (GTerm p) prev s = if is_fin NN p then Ok (Term p, s) else Err NonFinitePayoff.
  Proof. reflexivity. Qed.

  Lemma init_GChance info outs prev s :
    init (GChance info outs) prev s =
    match goC init prev outs s [] [] with
    | Err e => Err e
    | Ok (probs, kids, s') => finishC info probs kids s'
    end.
  Proof. reflexivity. Qed.

  Lemma init_GPlayer_nil pl info prev (s : bst) :
    init (GPlayer pl info []) prev s = Err EmptyPlayer.
  Proof. reflexivity. Qed.

  Lemma init_GPlayer_single pl info a c prev s :
    init (GPlayer pl info [(a, c)]) prev s = singleP prev pl info a c s.
  Proof. reflexivity. Qed.

  Lemma init_GPlayer_multi pl info x y r prev s :
    init (GPlayer pl info (x :: y :: r)) prev s = multiP prev pl info (x :: y :: r) s.
  Proof. destruct x as [a c]. reflexivity. Qed.

  Definition game_of (root : node) (s : bst) : game :=
    mkGame (map snd (b_chance s)) (b_infos1 s) (b_infos2 s)
           (b_singles1 s) (b_singles2 s) root.

  Lemma from_root_ok t g :
    from_root t = Ok g ->
    exists root s, init t (None, None) b_empty = Ok (root, s) /\ g = game_of root s.
  Proof.
    unfold from_root. destruct (init t (None, None) b_empty) as [[root s]|e]; [|discriminate].
    intros [= <-]. exists root, s. auto.
  Qed.

  (** ** One loop for both kinds of children

      [loopS f ai l s] calls [f] on the elements of [l] from left to right, numbering
      them from [ai] and threading the state, and collects the nodes produced. *)
  Section LoopS.
    Context {X : Type} (f : nat -> X -> bst -> res (node * bst)).

    Fixpoint loopS (ai : nat) (l : list X) (s : bst) : res (list node * bst) :=
      match l with
      | [] => Ok ([], s)
      | x :: r =>
          match f ai x s with
          | Ok (k, s1) =>
              match loopS (S ai) r s1 with
              | Ok (ks, s') => Ok (k :: ks, s')
              | Err e => Err e
              end
          | Err e => Err e
          end
      end.

    Lemma loopS_cons_ok ai x r s ks s' :
      loopS ai (x :: r) s = Ok (ks, s') ->
      exists k s1 ks1, f ai x s = Ok (k, s1) /\ loopS (S ai) r s1 = Ok (ks1, s') /\ ks = k :: ks1.
    Proof.
      cbn [loopS]. destruct (f ai x s) as [[k s1]|e]; [|discriminate].
      destruct (loopS (S ai) r s1) as [[ks1 s2]|e] eqn:Er; [|discriminate].
      intros [= <- <-]. exists k, s1, ks1. auto.
    Qed.

    Lemma loopS_length l : forall ai s ks s', loopS ai l s = Ok (ks, s') -> length ks = length l.
    Proof.
      induction l as [|x r IH]; intros ai s ks s' H.
      - now injection H as <- _.
      - apply loopS_cons_ok in H as (k & s1 & ks1 & _ & Hr & ->).
        cbn [length]. apply f_equal. eapply IH; exact Hr.
    Qed.

    Lemma loopS_ok_each l : forall ai s r, loopS ai l s = Ok r ->
      forall x, In x l -> exists aj sj rj, f aj x sj = Ok rj.
    Proof.
      induction l as [|y l IH]; intros ai s [ks s'] H x Hx; [destruct Hx|].
      apply loopS_cons_ok in H as (k & s1 & ks1 & Hy & Hr & _).
      destruct Hx as [<-|Hx]; [exists ai, s, (k, s1); auto|eapply IH; eassumption].
    Qed.

    Lemma loopS_res (I : bst -> Prop) (B : gerr -> Prop) l : forall ai,
      (forall j x s, nth_error l j = Some x -> I s ->
         match f (ai + j) x s with Ok (_, s1) => I s1 | Err e => B e end) ->
      forall s, I s -> match loopS ai l s with Ok (_, s') => I s' | Err e => B e end.
    Proof.
      induction l as [|x r IH]; intros ai Hf s Hs; cbn [loopS]; [exact Hs|].
      pose proof (Hf 0 x s eq_refl Hs) as H0. rewrite Nat.add_0_r in H0.
      destruct (f ai x s) as [[k s1]|e]; [|exact H0].
      assert (Hr : forall j y s2, nth_error r j = Some y -> I s2 ->
                     match f (S ai + j) y s2 with Ok (_, s3) => I s3 | Err e => B e end).
      { intros j y s2 E. specialize (Hf (S j) y s2 E). now rewrite Nat.add_succ_r in Hf. }
      specialize (IH (S ai) Hr s1 H0).
      destruct (loopS (S ai) r s1) as [[ks s']|e]; exact IH.
    Qed.
  End LoopS.

  Definition wok (w : T) : bool := ltb NN (zero NN) w && is_fin NN w.

  Definition stepC (prev : pprev) (_ : nat) (wc : T * gnode) (s : bst) : res (node * bst) :=
    if wok (fst wc) then init (snd wc) prev s else Err NonPositiveChance.

  Definition stepP (prev : pprev) (pl : bool) (ind : nat) (ai : nat) (ac : N * gnode) (s : bst)
    : res (node * bst) :=
    init (snd ac) (set_prev prev pl (Some (ind, ai))) s.

  Lemma goC_loopS prev outs : forall ai s probs kids,
    goC init prev outs s probs kids =
    match loopS (stepC prev) ai outs s with
    | Ok (ks, s') => Ok (rev probs ++ map fst outs, rev kids ++ ks, s')
    | Err e => Err e
    end.
  Proof.
    induction outs as [|[p c] r IH]; intros ai s probs kids; cbn [goC loopS map].
    - now rewrite !app_nil_r.
    - unfold stepC at 1, wok. cbn [fst snd].
      destruct (ltb NN (zero NN) p && is_fin NN p); [|reflexivity].
      destruct (init c prev s) as [[c' s']|e]; [|reflexivity].
      rewrite (IH (S ai)). destruct (loopS (stepC prev) (S ai) r s') as [[ks s'']|e]; [|reflexivity].
      cbn [rev]. now rewrite <- !app_assoc.
  Qed.

  Lemma goP_loopS prev pl ind acts : forall ai s kids,
    goP init prev pl ind acts ai s kids =
    match loopS (stepP prev pl ind) ai acts s with
    | Ok (ks, s') => Ok (rev kids ++ ks, s')
    | Err e => Err e
    end.
  Proof.
    induction acts as [|[a c] r IH]; intros ai s kids; cbn [goP loopS].
    - now rewrite app_nil_r.
    - unfold stepP at 1. cbn [snd].
      destruct (init c (set_prev prev pl (Some (ind, ai))) s) as [[c' s']|e]; [|reflexivity].
      rewrite IH. destruct (loopS (stepP prev pl ind) (S ai) r s') as [[ks s'']|e]; [|reflexivity].
      cbn [rev]. now rewrite <- app_assoc.
  Qed.

  Lemma init_chance info outs prev s :
    init (GChance info outs) prev s =
    match loopS (stepC prev) 0 outs s with
    | Err e => Err e
    | Ok (kids, s') => finishC info (map fst outs) kids s'
    end.
  Proof.
    rewrite init_GChance, (goC_loopS prev outs 0).
    destruct (loopS (stepC prev) 0 outs s) as [[ks s']|e]; reflexivity.
  Qed.

  Lemma init_multi pl info (x y : N * gnode) r prev (s : bst) :
    init (GPlayer pl info (x :: y :: r)) prev s =
    if existsb (fun e => N.eqb (fst e) info) (b_singles s pl)
    then Err ActionsNotEqual
    else
      match found_info prev pl info (map fst (x :: y :: r)) s with
      | Err e => Err e
      | Ok (ind, s0) =>
          match loopS (stepP prev pl ind) 0 (x :: y :: r) s0 with
          | Err e => Err e
          | Ok (kids, s') => Ok (Player pl ind kids, s')
          end
      end.
  Proof.
    rewrite init_GPlayer_multi. unfold multiP.
    destruct (existsb _ _); [reflexivity|].
    destruct (found_info _ _ _ _ _) as [[ind s0]|e]; [|reflexivity].
    rewrite goP_loopS.
    destruct (loopS _ _ _ _) as [[ks s']|e]; reflexivity.
  Qed.

  Lemma init_chance_ok info outs prev s r :
    init (GChance info outs) prev s = Ok r ->
    exists ks s1, loopS (stepC prev) 0 outs s = Ok (ks, s1) /\
                  finishC info (map fst outs) ks s1 = Ok r.
  Proof.
    rewrite init_chance. destruct (loopS (stepC prev) 0 outs s) as [[ks s1]|e]; [|discriminate].
    intros H. exists ks, s1; auto.
  Qed.

  Lemma stepC_ok prev ai wc s r :
    stepC prev ai wc s = Ok r -> wok (fst wc) = true /\ init (snd wc) prev s = Ok r.
  Proof. unfold stepC. destruct (wok (fst wc)); [now split|discriminate]. Qed.

  (** the node is built in [s] if the name is known with this action, and otherwise
      in [s] with the name added *)
  Lemma init_single_ok pl info a (c : gnode) prev (s : bst) r :
    init (GPlayer pl info [(a, c)]) prev s = Ok r ->
    existsb (fun pi => N.eqb (pi_name pi) info) (b_infos s pl) = false /\
    ((In (info, a) (b_singles s pl) /\ init c prev s = Ok r) \/
     (find_index (fun e => N.eqb (fst e) info) (b_singles s pl) = None /\
      init c prev (set_singles s pl (b_singles s pl ++ [(info, a)])) = Ok r)).
  Proof.
    rewrite init_GPlayer_single. unfold singleP.
    destruct (existsb _ _); [discriminate|]. intros H. split; [reflexivity|].
    destruct (find_index _ _) as [[i [n0 a']]|] eqn:Efi; [left|now right].
    destruct (N.eqb a' a) eqn:Ea; [|discriminate]. split; [|assumption].
    apply find_index_Some in Efi as (_ & Hn & Hf). apply nth_error_In in Hn.
    apply N.eqb_eq in Ea, Hf. cbn [fst] in Hf. now subst.
  Qed.

  Lemma init_multi_ok pl info (x y : N * gnode) r prev (s : bst) nd s' :
    init (GPlayer pl info (x :: y :: r)) prev s = Ok (nd, s') ->
    existsb (fun e => N.eqb (fst e) info) (b_singles s pl) = false /\
    exists ind s0 ks,
      found_info prev pl info (map fst (x :: y :: r)) s = Ok (ind, s0) /\
      loopS (stepP prev pl ind) 0 (x :: y :: r) s0 = Ok (ks, s') /\ nd = Player pl ind ks.
  Proof.
    rewrite init_multi. destruct (existsb _ _); [discriminate|].
    destruct (found_info _ _ _ _ _) as [[ind s0]|e]; [|discriminate].
    destruct (loopS _ _ _ _) as [[ks s1]|e] eqn:El; [|discriminate].
    intros [= <- <-]. split; [reflexivity|]. exists ind, s0, ks. auto.
  Qed.

  Inductive DataOK : gnode -> Prop :=
  | DOK_term p : is_fin NN p = true -> DataOK (GTerm p)
  | DOK_chance info outs :
      outs <> [] ->
      Forall (fun wc => ltb NN (zero NN) (fst wc) && is_fin NN (fst wc) = true /\ DataOK (snd wc))
             outs ->
      DataOK (GChance info outs)
  | DOK_player pl info acts :
      acts <> [] ->
      Forall (fun ac => DataOK (snd ac)) acts ->
      DataOK (GPlayer pl info acts).

  Lemma init_data_ok (n : gnode) : forall prev s r, init n prev s = Ok r -> DataOK n.
  Proof.
    induction n as [p|info outs IH|pl info acts IH] using gnode_ind'; intros prev s r H.
    - rewrite init_GTerm in H. destruct (is_fin NN p) eqn:E; [|discriminate].
      now constructor.
    - apply init_chance_ok in H as (ks & s1 & Hl & Hf). constructor.
      + intros ->. injection Hl as <- _. discriminate Hf.
      + rewrite Forall_forall in *. intros wc Hwc.
        destruct (loopS_ok_each _ _ _ _ _ Hl wc Hwc) as (aj & sj & rj & Hj).
        apply stepC_ok in Hj as [Hw Hj]. split; [exact Hw|]. eapply IH; eassumption.
    - destruct acts as [|[a c] [|y r']]; [discriminate H| |]; (constructor; [discriminate|]).
      + constructor; [|constructor]. apply Forall_inv in IH.
        apply init_single_ok in H as (_ & [[_ H]|[_ H]]); eapply IH; exact H.
      + destruct r as [nd s']. apply init_multi_ok in H as (_ & ind & s0 & ks & _ & Hl & _).
        rewrite Forall_forall in *. intros ac Hac.
        destruct (loopS_ok_each _ _ _ _ _ Hl ac Hac) as (aj & sj & rj & Hj).
        eapply IH; eassumption.
  Qed.

  Theorem from_root_data_ok (t : gnode) (g : game) : from_root t = Ok g -> DataOK t.
  Proof.
    intros H. apply from_root_ok in H as (root & s & H & _). eapply init_data_ok; exact H.
  Qed.
End FromRootGeneric.
