(** * RulesProofs: the update rules of [RegretParams] ([solve/data.rs]) mean what
    the documentation says (property C08): discount factors, average-strategy
    weights, regret matching and its fall-backs, the order of operations in
    [advance], and the named presets.  All statements are about the real-number
    instance. *)
From Coq Require Import Reals List NArith Bool Arith Lra Lia.
From Cfr.theories Require Import Num RInst Tree Strat Eval Solve TruncProofs SolveValidProofs.
Import ListNotations.
Open Scope R_scope.

Local Notation Rexp := Rtrigo_def.exp.
Local Notation Rln := Rpower.ln.

Lemma exp_plus_ln1p (x y : R) : Rexp (x + Rln (1 + Rexp y)) = Rexp x + Rexp (x + y).
Proof. pose proof (exp_pos y). rewrite !exp_plus, exp_ln by lra. lra. Qed.

Lemma ln_add_exp_spec (a b : R) : Rexp (@ln_add_exp RNum a b) = Rexp a + Rexp b.
Proof.
  unfold ln_add_exp, two. cbn [eqb is_nan ltb add sub neg zero one exp ln RNum].
  destruct (Reqb a b) eqn:E.
  - apply Reqb_true in E; subst b. rewrite exp_plus, exp_ln by lra. lra.
  - destruct (Rltb 0 (a - b)); rewrite exp_plus_ln1p.
    + replace (a + - (a - b)) with b by lra. reflexivity.
    + replace (b + (a - b)) with a by lra. apply Rplus_comm.
Qed.

(** holds for every [t]; for [t >= 1] the base [INR t] is positive and [Rpower] is
    the genuine real power *)
Lemma gen_discount_fin (t : N) (a : R) :
  @gen_discount RNum t (@Fin RNum a) =
  Rpower (INR (N.to_nat t)) a / (Rpower (INR (N.to_nat t)) a + 1).
Proof.
  unfold gen_discount, two. cbn [eqb zero one add div mul sub exp ln of_N RNum].
  destruct (Reqb a 0) eqn:E.
  - apply Reqb_true in E; subst a. unfold Rpower. rewrite Rmult_0_l, exp_0. reflexivity.
  - unfold Rpower. set (x := a * Rln (INR (N.to_nat t))).
    unfold Rminus. rewrite exp_plus, exp_Ropp, ln_add_exp_spec, exp_0. reflexivity.
Qed.

Lemma gen_discount_inf (t : N) :
  @gen_discount RNum t NegInf = 0 /\ @gen_discount RNum t PosInf = 1.
Proof. split; reflexivity. Qed.

Lemma gen_discount_fin_bounds (t : N) (a : R) : 0 < @gen_discount RNum t (@Fin RNum a) < 1.
Proof.
  rewrite gen_discount_fin. unfold Rpower. set (E := Rexp _).
  assert (0 < E) by apply exp_pos. assert (0 < / (E + 1)) by (apply Rinv_0_lt_compat; lra).
  split; [apply Rdiv_lt_0_compat; lra|].
  replace (E / (E + 1)) with (1 - / (E + 1)) by (field; lra). lra.
Qed.

Lemma gen_discount_range (t : N) (d : @ext RNum) : 0 <= @gen_discount RNum t d <= 1.
Proof.
  destruct d as [|a|].
  - cbn [gen_discount zero RNum]. lra.
  - pose proof (gen_discount_fin_bounds t a). lra.
  - cbn [gen_discount one RNum]. lra.
Qed.

Lemma gen_discount_pos (t : N) (d : @ext RNum) : d <> NegInf -> 0 < @gen_discount RNum t d.
Proof.
  intros Hd. destruct d as [|a|]; [congruence|apply gen_discount_fin_bounds|].
  cbn [gen_discount one RNum]. lra.
Qed.

Lemma INR_N_pos (t : N) : (1 <= t)%N -> 0 < INR (N.to_nat t).
Proof. intros H. apply lt_0_INR. lia. Qed.

Lemma gen_discount_nat (t : N) (n : nat) :
  (1 <= t)%N ->
  @gen_discount RNum t (@Fin RNum (INR n)) = INR (N.to_nat t) ^ n / (INR (N.to_nat t) ^ n + 1).
Proof.
  intros Ht. rewrite gen_discount_fin. rewrite Rpower_pow by now apply INR_N_pos. reflexivity.
Qed.

Lemma gen_discount_spec :
  forall t : N, (1 <= t)%N ->
    0 < INR (N.to_nat t) /\
    (forall a : R,
        @gen_discount RNum t (@Fin RNum a) =
        Rpower (INR (N.to_nat t)) a / (Rpower (INR (N.to_nat t)) a + 1)) /\
    @gen_discount RNum t NegInf = 0 /\
    @gen_discount RNum t (@Fin RNum 0) = 1 / 2 /\
    @gen_discount RNum t PosInf = 1.
Proof.
  intros t Ht. split; [now apply INR_N_pos|]. split; [intros a; apply gen_discount_fin|].
  split; [reflexivity|]. split; [|reflexivity].
  rewrite gen_discount_fin. unfold Rpower. rewrite Rmult_0_l, exp_0. lra.
Qed.

Lemma discount_cum_regret_spec (p : @params RNum) (t : N) (regs : list R) :
  @discount_cum_regret RNum p t regs =
  map (fun r => if Rlt_dec 0 r then r * @gen_discount RNum t (a_pos p)
                else if Rlt_dec r 0 then r * @gen_discount RNum t (a_neg p)
                     else r) regs.
Proof.
  unfold discount_cum_regret. cbn [ltb zero mul RNum]. apply map_ext. intros r. unfold Rltb.
  destruct (Rlt_dec 0 r); [reflexivity|]. destruct (Rlt_dec r 0); reflexivity.
Qed.

Lemma avg_weight_spec :
  forall (p : @params RNum) (t : N) (g : R) (avg : list R),
    a_strat p = @Fin RNum g ->
    (0 < g -> (1 <= t)%N ->
     @discount_average_strat RNum p t avg =
     map (fun a => a * Rpower (INR (N.to_nat t) / (INR (N.to_nat t) + 1)) g) avg) /\
    (0 < g -> @discount_average_strat RNum p 0%N avg = map (fun a => a * 0) avg) /\
    (g <= 0 -> @discount_average_strat RNum p t avg = avg).
Proof.
  intros p t g avg Hp. unfold discount_average_strat. rewrite Hp.
  cbn [ltb zero one add div mul pow of_N RNum]. unfold Rpowf.
  destruct (Rlt_dec 0 g) as [Hg|Hg].
  - rewrite (proj2 (Rltb_true 0 g) Hg). destruct (Req_EM_T g 0); [lra|].
    split; [intros _ Ht|split; [intros _|lra]].
    + pose proof (INR_N_pos t Ht). destruct (Rlt_dec 0 _) as [|Hn]; [reflexivity|].
      exfalso. apply Hn. apply Rdiv_lt_0_compat; lra.
    + (* iteration number 0 (player one's first advance in the external method):
         everything is forgotten *)
      change (INR (N.to_nat 0)) with 0. destruct (Rlt_dec 0 _) as [Hn|]; [|reflexivity].
      exfalso. unfold Rdiv in Hn. rewrite Rmult_0_l in Hn. lra.
  - rewrite (proj2 (Rltb_false 0 g)) by lra. split; [lra|split; [lra|reflexivity]].
Qed.

Lemma discount_average_strat_pos (p : @params RNum) (t : N) (g : R) (avg : list R) :
  a_strat p = @Fin RNum g -> 0 < g -> (1 <= t)%N ->
  @discount_average_strat RNum p t avg =
  map (fun a => a * Rpower (INR (N.to_nat t) / (INR (N.to_nat t) + 1)) g) avg.
Proof. intros Hp. apply (avg_weight_spec p t g avg Hp). Qed.

Lemma discount_average_strat_inf (p : @params RNum) (t : N) (avg : list R) :
  (a_strat p = PosInf -> @discount_average_strat RNum p t avg = map (fun _ => 0) avg) /\
  (a_strat p = NegInf -> @discount_average_strat RNum p t avg = avg).
Proof. split; intros Hp; unfold discount_average_strat; rewrite Hp; reflexivity. Qed.

(** the product of the ratios applied after iterations [s, s+1, .., s+n-1] *)
Fixpoint ratio_prod (g : R) (s n : nat) : R :=
  match n with
  | O => 1
  | S k => Rpower (INR s / (INR s + 1)) g * ratio_prod g (S s) k
  end.

Lemma Rpower_base_1 g : Rpower 1 g = 1.
Proof. unfold Rpower. rewrite ln_1, Rmult_0_r. apply exp_0. Qed.

Lemma ratio_prod_spec (g : R) (s n : nat) :
  (1 <= s)%nat -> ratio_prod g s n = Rpower (INR s / INR (s + n)) g.
Proof.
  revert s; induction n as [|k IH]; intros s Hs; cbn [ratio_prod];
    assert (0 < INR s) by (apply lt_0_INR; lia).
  - rewrite Nat.add_0_r. unfold Rdiv. rewrite Rinv_r by lra. now rewrite Rpower_base_1.
  - rewrite IH by lia.
    assert (0 < INR (S s + k)) by (apply lt_0_INR; lia).
    replace (s + S k)%nat with (S s + k)%nat by lia.
    rewrite S_INR in *.
    rewrite Rpower_mult_distr by (apply Rdiv_lt_0_compat; lra).
    f_equal. field. lra.
Qed.

Lemma Rpower_div_base (x y g : R) :
  0 < x -> 0 < y -> Rpower (x / y) g = Rpower x g / Rpower y g.
Proof.
  intros Hx Hy. unfold Rpower, Rdiv.
  rewrite ln_mult by (try apply Rinv_0_lt_compat; assumption). rewrite ln_Rinv by assumption.
  rewrite <- exp_Ropp, <- exp_plus. apply f_equal. lra.
Qed.

(** the telescoping product: [prod_{t=s}^{T} (t/(t+1))^g = (s/(T+1))^g = s^g / (T+1)^g] *)
Lemma ratio_prod_telescope (g : R) (s T : nat) :
  (1 <= s <= T)%nat ->
  ratio_prod g s (T - s + 1) = Rpower (INR s / INR (T + 1)) g /\
  ratio_prod g s (T - s + 1) = Rpower (INR s) g / Rpower (INR (T + 1)) g.
Proof.
  intros H. rewrite ratio_prod_spec by lia. replace (s + (T - s + 1))%nat with (T + 1)%nat by lia.
  split; [reflexivity|]. apply Rpower_div_base; apply lt_0_INR; lia.
Qed.

(** applying the model's discount after each of the iterations [s, .., s+n-1] *)
Fixpoint discount_iter (p : @params RNum) (s n : nat) (avg : list R) : list R :=
  match n with
  | O => avg
  | S k => discount_iter p (S s) k (@discount_average_strat RNum p (N.of_nat s) avg)
  end.

Lemma discount_iter_spec (p : @params RNum) (g : R) (s n : nat) (avg : list R) :
  a_strat p = @Fin RNum g -> 0 < g -> (1 <= s)%nat ->
  discount_iter p s n avg = map (fun a => a * ratio_prod g s n) avg.
Proof.
  intros Hp Hg. revert s avg; induction n as [|k IH]; intros s avg Hs; cbn [discount_iter ratio_prod].
  - rewrite <- (map_id avg) at 1. apply map_ext. intros; lra.
  - rewrite IH by lia. rewrite (discount_average_strat_pos p _ g avg Hp Hg) by lia.
    rewrite map_map, Nat2N.id. apply map_ext. intros a. lra.
Qed.

Lemma discount_iter_general :
  forall (p : @params RNum) (g : R) (s n : nat) (avg : list R),
    a_strat p = @Fin RNum g -> 0 < g -> (1 <= s)%nat ->
    discount_iter p s n avg = map (fun a => a * Rpower (INR s / INR (s + n)) g) avg.
Proof.
  intros p g s n avg Hp Hg Hs. rewrite (discount_iter_spec p g) by assumption.
  now rewrite ratio_prod_spec.
Qed.

(** a contribution made during iteration [s] has weight [(s/(T+1))^g] after iteration [T] *)
Lemma discount_iter_weight (p : @params RNum) (g : R) (s T : nat) (avg : list R) :
  a_strat p = @Fin RNum g -> 0 < g -> (1 <= s <= T)%nat ->
  discount_iter p s (T - s + 1) avg =
  map (fun a => a * (Rpower (INR s) g / Rpower (INR (T + 1)) g)) avg.
Proof.
  intros Hp Hg H. rewrite (discount_iter_spec p g) by (assumption || lia).
  destruct (ratio_prod_telescope g s T H) as [_ ->]. reflexivity.
Qed.

Definition posnorm (regs : list R) : R := Rsum (filter (fun v => Rltb 0 v) regs).

Lemma posnorm_ge (regs : list R) r : In r regs -> 0 < r -> r <= posnorm regs.
Proof.
  intros Hin Hr. apply Rsum_ge_In.
  - apply Forall_forall. intros y Hy. apply filter_In in Hy as [_ Hy]. apply Rltb_true in Hy. lra.
  - apply filter_In. split; [exact Hin|now apply Rltb_true].
Qed.

Lemma posnorm_nopos (regs : list R) :
  (forall r, In r regs -> r <= 0) -> Rltb 0 (posnorm regs) = false.
Proof.
  intros H. apply Rltb_false. unfold posnorm.
  induction regs as [|x l IH]; cbn [filter Rsum]; [lra|].
  rewrite (proj2 (Rltb_false 0 x)) by (apply H; now left). apply IH. intros r Hr. apply H. now right.
Qed.

Lemma regret_match_pos (p : @params RNum) (regs : list R) :
  (exists r, In r regs /\ 0 < r) ->
  0 < posnorm regs /\
  @regret_match RNum p regs = map (fun r => if Rlt_dec 0 r then r / posnorm regs else 0) regs.
Proof.
  intros (r0 & Hin & Hr0). pose proof (posnorm_ge regs r0 Hin Hr0) as Hge.
  assert (Hpos : 0 < posnorm regs) by lra. split; [exact Hpos|].
  rewrite regret_match_unfold. cbv zeta. fold (posnorm regs).
  rewrite (proj2 (Rltb_true 0 _) Hpos). apply map_ext. intros r. unfold Rltb.
  destruct (Rlt_dec 0 r); reflexivity.
Qed.

Lemma repeatT_map {A} (x : R) (l : list A) : @repeatT RNum x (length l) = map (fun _ => x) l.
Proof. induction l as [|y l IH]; cbn [repeatT length map]; [reflexivity|now rewrite IH]. Qed.

Lemma regret_match_uniform (p : @params RNum) (regs : list R) :
  (forall r, In r regs -> r <= 0) -> a_nopos p = @Fin RNum 0 ->
  @regret_match RNum p regs = map (fun _ => 1 / INR (length regs)) regs.
Proof.
  intros H Hp. rewrite regret_match_unfold, Hp. cbv zeta. fold (posnorm regs).
  rewrite (posnorm_nopos regs H), (proj2 (Reqb_true 0 0)) by reflexivity. apply repeatT_map.
Qed.

Lemma Rdiv_cancel_l (c x y : R) : c <> 0 -> (c * x) / (c * y) = x / y.
Proof.
  intros Hc. unfold Rdiv. rewrite Rinv_mult.
  replace (c * x * (/ c * / y)) with (c * / c * (x * / y)) by lra. rewrite Rinv_r by exact Hc. lra.
Qed.

Lemma exp_shift (s w r : R) : Rexp ((r - s) * w) = Rexp (- s * w) * Rexp (w * r).
Proof. rewrite <- exp_plus. apply f_equal. lra. Qed.

Lemma Rsum_exp_shift (s w : R) (l : list R) :
  Rsum (map (fun r => Rexp ((r - s) * w)) l) =
  Rexp (- s * w) * Rsum (map (fun b => Rexp (w * b)) l).
Proof.
  induction l as [|x l IH]; cbn [map Rsum]; [lra|]. rewrite IH, exp_shift. lra.
Qed.

Lemma regret_match_softmax (p : @params RNum) (w : R) (regs : list R) :
  (forall r, In r regs -> r <= 0) -> a_nopos p = @Fin RNum w -> w <> 0 ->
  @regret_match RNum p regs =
  map (fun r => Rexp (w * r) / Rsum (map (fun b => Rexp (w * b)) regs)) regs.
Proof.
  intros H Hp Hw. rewrite regret_match_unfold, Hp. cbv zeta. fold (posnorm regs).
  rewrite (posnorm_nopos regs H), (proj2 (Reqb_false w 0) Hw).
  set (s := match (if Rltb 0 w then @reduce_max RNum regs else @reduce_min RNum regs) with
            | Some m => m | None => 0 end).
  rewrite Rsum_exp_shift. apply map_ext. intros r. rewrite exp_shift.
  apply Rdiv_cancel_l. pose proof (exp_pos (- s * w)). lra.
Qed.

Lemma argmax_last_top :
  forall (v : R) (r : list R),
    let l := v :: r in
    let k := @argmax_last RNum r 1 0 v in
    (k < length l)%nat /\
    (forall j, (j < length l)%nat -> nth j l 0 <= nth k l 0) /\
    (forall j, (k < j < length l)%nat -> nth j l 0 < nth k l 0).
Proof.
  intros v r. cbv zeta. cbn [length]. destruct (argmax_last_head v r) as [Hk H].
  split; [exact Hk|]. split; intros j Hj; apply H; lia.
Qed.

Lemma argmin_first_top :
  forall (v : R) (r : list R),
    let l := v :: r in
    let k := @argmin_first RNum r 1 0 v in
    (k < length l)%nat /\
    (forall j, (j < length l)%nat -> nth k l 0 <= nth j l 0) /\
    (forall j, (j < k)%nat -> nth k l 0 < nth j l 0).
Proof.
  intros v r. cbv zeta. cbn [length]. destruct (argmin_first_head v r) as [Hk H].
  split; [exact Hk|]. split; intros j Hj; apply H; lia.
Qed.

Lemma one_hot_at_spec (n i k : nat) :
  @one_hot_at RNum n i k = map (fun j => if Nat.eqb j k then 1 else 0) (seq i n).
Proof.
  revert i; induction n as [|n IH]; intros i; cbn [one_hot_at seq map]; [reflexivity|].
  now rewrite IH.
Qed.

Lemma regret_match_best (p : @params RNum) (regs : list R) :
  (forall r, In r regs -> r <= 0) -> a_nopos p = PosInf -> regs <> [] ->
  exists k,
    (k < length regs)%nat /\
    (forall j, (j < length regs)%nat -> nth j regs 0 <= nth k regs 0) /\
    (forall j, (k < j < length regs)%nat -> nth j regs 0 < nth k regs 0) /\
    @regret_match RNum p regs = map (fun j => if Nat.eqb j k then 1 else 0) (seq 0 (length regs)).
Proof.
  intros H Hp Hne. rewrite regret_match_unfold, Hp. cbv zeta. fold (posnorm regs).
  rewrite (posnorm_nopos regs H). destruct regs as [|v r]; [congruence|].
  destruct (argmax_last_top v r) as (H1 & H2 & H3).
  exact (ex_intro _ _ (conj H1 (conj H2 (conj H3 (one_hot_at_spec _ _ _))))).
Qed.

Lemma regret_match_worst (p : @params RNum) (regs : list R) :
  (forall r, In r regs -> r <= 0) -> a_nopos p = NegInf -> regs <> [] ->
  exists k,
    (k < length regs)%nat /\
    (forall j, (j < length regs)%nat -> nth k regs 0 <= nth j regs 0) /\
    (forall j, (j < k)%nat -> nth k regs 0 < nth j regs 0) /\
    @regret_match RNum p regs = map (fun j => if Nat.eqb j k then 1 else 0) (seq 0 (length regs)).
Proof.
  intros H Hp Hne. rewrite regret_match_unfold, Hp. cbv zeta. fold (posnorm regs).
  rewrite (posnorm_nopos regs H). destruct regs as [|v r]; [congruence|].
  destruct (argmin_first_top v r) as (H1 & H2 & H3).
  exact (ex_intro _ _ (conj H1 (conj H2 (conj H3 (one_hot_at_spec _ _ _))))).
Qed.

Lemma regret_match_length (p : @params RNum) (regs : list R) :
  length (@regret_match RNum p regs) = length regs.
Proof. exact (SolveValidProofs.regret_match_length p regs). Qed.

Lemma regret_match_nil (p : @params RNum) : @regret_match RNum p [] = [].
Proof. apply length_zero_iff_nil. apply regret_match_length. Qed.

(** scaling the positive regrets by a common factor, without changing any sign,
    does not change the strategy *)
Lemma regret_match_rescale (p : @params RNum) (f : R -> R) (c : R) (regs : list R) :
  0 < c -> (forall r, 0 < r -> f r = r * c) -> (forall r, r <= 0 -> f r <= 0) ->
  (exists r, In r regs /\ 0 < r) ->
  @regret_match RNum p (map f regs) = @regret_match RNum p regs.
Proof.
  intros Hc Hfpos Hfneg Hex.
  assert (Hpos : forall r, 0 < r -> 0 < f r).
  { intros r Hr. rewrite Hfpos by assumption. now apply Rmult_lt_0_compat. }
  assert (Hnorm : posnorm (map f regs) = posnorm regs * c).
  { clear Hex. unfold posnorm. induction regs as [|x l IH]; cbn [map filter Rsum]; [lra|].
    destruct (Rlt_dec 0 x) as [Hx|Hx].
    - rewrite (proj2 (Rltb_true 0 x)), (proj2 (Rltb_true 0 (f x))) by auto.
      cbn [Rsum]. rewrite IH, Hfpos by assumption. lra.
    - rewrite (proj2 (Rltb_false 0 x)), (proj2 (Rltb_false 0 (f x))) by (try apply Hfneg; lra).
      exact IH. }
  destruct (regret_match_pos p regs Hex) as [Hn ->].
  destruct (regret_match_pos p (map f regs)) as [_ ->].
  { destruct Hex as (r & Hin & Hr). exists (f r). split; [now apply in_map|now apply Hpos]. }
  rewrite map_map, Hnorm. apply map_ext. intros r.
  specialize (Hpos r). specialize (Hfneg r).
  destruct (Rlt_dec 0 (f r)), (Rlt_dec 0 r); try lra.
  rewrite Hfpos by assumption. field. split; lra.
Qed.

(** Matching before or after the discount: with a positive regret and a positive
    alpha factor the two orders give the same strategy (the positive entries are
    scaled by a common positive factor and no sign changes). *)
Lemma regret_match_discount_invariant (p : @params RNum) (t : N) (regs : list R) :
  (exists r, In r regs /\ 0 < r) -> a_pos p <> NegInf ->
  @regret_match RNum p (@discount_cum_regret RNum p t regs) = @regret_match RNum p regs.
Proof.
  intros Hex Hp. rewrite discount_cum_regret_spec.
  apply (regret_match_rescale p _ (@gen_discount RNum t (a_pos p)));
    [now apply gen_discount_pos| | |exact Hex].
  - intros r Hr. destruct (Rlt_dec 0 r); [reflexivity|lra].
  - intros r Hr. destruct (Rlt_dec 0 r); [lra|]. destruct (Rlt_dec r 0); [|lra].
    pose proof (gen_discount_range t (a_neg p)). nra.
Qed.

Lemma advance_order (p : @params RNum) (it it_avg : N) (ri : @rinfo RNum) :
  @advance RNum p it it_avg ri =
  (mkRinfo (discount_cum_regret p it (cum_regret ri))
           (discount_average_strat p it_avg (cum_strat ri))
           (regret_match p (cum_regret ri)),
   cum_regret_bound it (discount_cum_regret p it (cum_regret ri))).
Proof. reflexivity. Qed.

Lemma cum_regret_bound_unfold (it : N) (cr : list R) :
  @cum_regret_bound RNum it cr =
  2 * Rmax (match cr with [] => 0 | x :: r => fold_left Rmax r x end) 0 / INR (N.to_nat it).
Proof.
  unfold cum_regret_bound, two, reduce_max. cbn [div mul add one zero fmax of_N RNum].
  replace (1 + 1) with 2 by lra. destruct cr; reflexivity.
Qed.

Lemma fold_max_spec (r : list R) (x : R) :
  In (fold_left Rmax r x) (x :: r) /\ forall y, In y (x :: r) -> y <= fold_left Rmax r x.
Proof.
  revert x; induction r as [|v r IH]; intros x; cbn [fold_left].
  - split; [now left|]. intros y [->|[]]. lra.
  - destruct (IH (Rmax x v)) as [Hin Hmax].
    pose proof (Hmax _ (or_introl eq_refl)). pose proof (Rmax_l x v). pose proof (Rmax_r x v). split.
    + destruct Hin as [<-|Hin]; [|right; now right].
      apply Rmax_case; [|right]; now left.
    + intros y [->|[->|Hy]]; [lra|lra|]. apply Hmax. now right.
Qed.

Lemma cum_regret_bound_spec (it : N) (cr : list R) :
  cr <> [] ->
  exists mx, In mx cr /\ (forall y, In y cr -> y <= mx) /\
             @cum_regret_bound RNum it cr = 2 * Rmax mx 0 / INR (N.to_nat it).
Proof.
  intros Hne. destruct cr as [|x r]; [congruence|].
  exists (fold_left Rmax r x). destruct (fold_max_spec r x) as [H1 H2].
  split; [exact H1|]. split; [exact H2|]. apply cum_regret_bound_unfold.
Qed.

Lemma cum_regret_bound_nil (it : N) : @cum_regret_bound RNum it [] = 0 :> R.
Proof.
  rewrite cum_regret_bound_unfold. rewrite Rmax_left by lra. unfold Rdiv. lra.
Qed.

(** which iteration numbers the two traversals pass to [advance] *)
Lemma vanilla_iter_unfold (g : @game RNum) sampled (draw : @oracle RNum) (p : @params RNum) it st :
  @vanilla_iter RNum g sampled draw p it st =
  let st1 := snd (vrec (g_chance g) sampled draw (it - 1)%N (g_root g) 1 1 1 st) in
  let '(l1, r1) := advance_all p it it (fst st1) 0 in
  let '(l2, r2) := advance_all p it it (snd st1) 0 in
  ((l1, l2), (r1, r2)).
Proof.
  rewrite vanilla_iter_eq. cbv zeta.
  destruct (advance_all p it it (fst _) 0), (advance_all p it it (snd _) 0). reflexivity.
Qed.

Lemma external_iter_unfold (g : @game RNum) (draw : @oracle RNum) (p : @params RNum) it st :
  @external_iter RNum g draw p it st =
  let noff := length (g_infos1 g) in
  let st1 := snd (erec (g_chance g) draw (2 * (it - 1))%N (it - 1)%N noff true (g_root g) st) in
  let '(l1, r1) := advance_all p it (it - 1)%N (fst st1) 0 in
  let st3 := snd (erec (g_chance g) draw (2 * (it - 1) + 1)%N it noff false (g_root g) (l1, snd st1)) in
  let '(l2, r2) := advance_all p it it (snd st3) 0 in
  ((fst st3, l2), (r1, r2)).
Proof.
  rewrite external_iter_eq. cbv zeta.
  destruct (advance_all p it (it - 1)%N (fst _) 0). cbn [fst snd].
  destruct (advance_all p it it (snd _) 0). reflexivity.
Qed.

Lemma presets_spec :
  @p_vanilla RNum = @mkParams RNum PosInf PosInf (@Fin RNum 0) (@Fin RNum 0) /\
  @p_lcfr RNum = @mkParams RNum (@Fin RNum 1) (@Fin RNum 1) (@Fin RNum 1) PosInf /\
  @p_cfr_plus RNum = @mkParams RNum PosInf NegInf (@Fin RNum 2) PosInf /\
  @p_dcfr RNum = @mkParams RNum (@Fin RNum (3 / 2)) (@Fin RNum 0) (@Fin RNum 2) PosInf /\
  @p_dcfr_prune RNum = @mkParams RNum (@Fin RNum (3 / 2)) (@Fin RNum (1 / 2)) (@Fin RNum 2) PosInf /\
  @p_default RNum = @p_dcfr RNum.
Proof.
  assert (H2 : @two RNum = 2) by (unfold two; cbn [add one RNum]; lra).
  assert (H3 : @of_nat_T RNum 3 = 3).
  { unfold of_nat_T. rewrite of_N_INR. cbn [INR]. lra. }
  unfold p_vanilla, p_lcfr, p_cfr_plus, p_default, p_dcfr, p_dcfr_prune.
  rewrite H2, H3. cbn [zero one div RNum]. repeat split; reflexivity.
Qed.

Lemma presets_ok :
  @params_ok RNum p_vanilla = true /\ @params_ok RNum p_lcfr = true /\
  @params_ok RNum p_cfr_plus = true /\ @params_ok RNum p_dcfr = true /\
  @params_ok RNum p_dcfr_prune = true.
Proof.
  unfold params_ok, p_vanilla, p_lcfr, p_cfr_plus, p_dcfr, p_dcfr_prune, two.
  cbn [a_strat leb zero one add RNum].
  repeat split; apply Rleb_true; lra.
Qed.

Lemma example_discount : @gen_discount RNum 2%N (@Fin RNum 1) = 2 / 3.
Proof.
  change (@Fin RNum 1) with (@Fin RNum (INR 1)). rewrite gen_discount_nat by lia.
  change (N.to_nat 2) with 2%nat. cbn [INR pow]. lra.
Qed.

Lemma example_ties :
  @regret_match RNum p_lcfr [-1; -1] = [0; 1] /\
  @regret_match RNum (@mkParams RNum PosInf PosInf (@Fin RNum 0) NegInf) [-1; -1] = [1; 0] /\
  @regret_match RNum p_vanilla [-1; -3] = [1 / 2; 1 / 2] /\
  @regret_match RNum p_vanilla [3; -1; 1] = [3 / 4; 0; 1 / 4].
Proof.
  assert (Hneg : Rltb 0 (posnorm [-1; -1]) = false).
  { apply posnorm_nopos. intros r [<-|[<-|[]]]; lra. }
  assert (E : Rltb (-1) (-1) = false) by (apply Rltb_false; lra).
  split; [|split; [|split]].
  - rewrite regret_match_unfold. cbv zeta. fold (posnorm [-1; -1]). rewrite Hneg.
    cbn [a_nopos p_lcfr argmax_last ltb RNum]. rewrite E. reflexivity.
  - rewrite regret_match_unfold. cbv zeta. fold (posnorm [-1; -1]). rewrite Hneg.
    cbn [a_nopos argmin_first ltb RNum]. rewrite E. reflexivity.
  - rewrite regret_match_uniform; [|intros r [<-|[<-|[]]]; lra|reflexivity].
    cbn [map length INR]. reflexivity.
  - assert (T3 : Rltb 0 3 = true) by (apply Rltb_true; lra).
    assert (T1 : Rltb 0 1 = true) by (apply Rltb_true; lra).
    assert (F1 : Rltb 0 (-1) = false) by (apply Rltb_false; lra).
    assert (N : posnorm [3; -1; 1] = 4).
    { unfold posnorm. cbn [filter]. rewrite T3, F1, T1. cbn [Rsum]. lra. }
    rewrite regret_match_unfold. cbv zeta. fold (posnorm [3; -1; 1]).
    rewrite N, (proj2 (Rltb_true 0 4)) by lra. cbn [map]. rewrite T3, F1, T1. reflexivity.
Qed.

Lemma example_weight :
  discount_iter p_lcfr 2 (5 - 2 + 1) [1] = [2 / 6].
Proof.
  rewrite (discount_iter_weight p_lcfr 1 2 5) by (reflexivity || lra || lia).
  cbn [map]. rewrite !Rpower_1 by (apply lt_0_INR; lia). cbn [INR Nat.add]. f_equal. lra.
Qed.
