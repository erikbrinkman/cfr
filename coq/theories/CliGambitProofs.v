(** * CliGambitProofs: the Gambit reader ([gambit.rs])
    (properties C15 — utilities of constant-sum files — and C17 — rejection categories).

    Everything is about the real-number instance [RNum]. *)
From Coq Require Import Reals List Lra Lia Bool Arith NArith Sorting.Permutation.
From Cfr.theories Require Import Num RInst Tree GameWF Eval Valid
     PresentationProofs FromRootGeneric Cli CliProofs CliNamesProofs.
Import ListNotations.
Open Scope R_scope.

Local Notation gameR := (@game RNum).
Local Notation nodeR := (@node RNum).
Local Notation gnodeR := (@gnode RNum).
Local Notation enodeR := (@enode RNum).
Local Notation csumR := (@csum RNum).
Local Notation bstR := (@bst RNum).

(** each player's own payoffs summed along the path, one pair per terminal: the file-level
    reading of the payoffs, independent of the crate *)
Definition own_pairs (root : enodeR) : list (R * R) :=
  terminal_pairs (outcomes_of root) root 0 0.

Lemma half_sum_R (p : R * R) : @half_sum RNum p = (fst p + snd p) / 2.
Proof. change (fst p + (snd p - fst p) / (1 + 1) = (fst p + snd p) / 2). field. Qed.

Lemma not_constant_sum_R (cs : csumR) :
  not_constant_sum cs = Rltb (cs_omax cs - cs_omin cs) ((cs_max cs - cs_min cs) * 1000).
Proof.
  unfold not_constant_sum, thousand. cbn [of_N ltb sub mul RNum].
  now rewrite INR_IZR_INZ, N_nat_Z.
Qed.

(** over the reals nothing is non-finite: the scan is a plain fold of this step, and only
    fails on a file without terminals *)
Definition scan_upd (st : option csumR) (p : R * R) : option csumR :=
  let s := @half_sum RNum p in
  Some (match st with
        | None => @mkCsum RNum s s (fst p) (fst p)
        | Some c => @mkCsum RNum (Rmin (cs_min c) s) (Rmax (cs_max c) s)
                            (Rmin (cs_omin c) (fst p)) (Rmax (cs_omax c) (fst p))
        end).

Lemma scan_sums_R (pairs : list (R * R)) : @scan_sums RNum pairs = fold_left scan_upd pairs None.
Proof.
  unfold scan_sums.
  assert (H : forall st, fold_left (@scan_step RNum) pairs (Some st) = Some (fold_left scan_upd pairs st)).
  { induction pairs as [|p l IH]; intros st; [reflexivity|]. exact (IH (scan_upd st p)). }
  rewrite H. now destruct (fold_left scan_upd pairs None).
Qed.

Lemma scan_upd_fold_some (l : list (R * R)) : forall st p, fold_left scan_upd l (scan_upd st p) <> None.
Proof. induction l as [|q l IH]; intros st p; [discriminate|apply IH]. Qed.

Theorem scan_sums_none_iff (pairs : list (R * R)) : @scan_sums RNum pairs = None <-> pairs = [].
Proof.
  rewrite scan_sums_R. destruct pairs as [|p l]; [split; reflexivity|].
  split; [intros H; now apply scan_upd_fold_some in H|discriminate].
Qed.

Section Constant.
  Context (c : R).

  Definition CInv (st : option csumR) : Prop :=
    match st with
    | None => True
    | Some cs => cs_min cs = c / 2 /\ cs_max cs = c / 2 /\ cs_omin cs <= cs_omax cs
    end.

  Lemma scan_upd_const st (p : R * R) : fst p + snd p = c -> CInv st -> CInv (scan_upd st p).
  Proof.
    intros Hp Hi. unfold scan_upd. rewrite half_sum_R, Hp.
    destruct st as [c0|]; cbn [CInv cs_min cs_max cs_omin cs_omax]; [|repeat split; lra].
    destruct Hi as (H1 & H2 & H3). rewrite H1, H2. repeat split.
    - apply Rmin_left; lra.
    - apply Rmax_left; lra.
    - eapply Rle_trans; [apply Rmin_l|]. eapply Rle_trans; [exact H3|apply Rmax_l].
  Qed.

  Theorem scan_sums_constant (pairs : list (R * R)) :
    (forall p, In p pairs -> fst p + snd p = c) -> pairs <> [] ->
    exists cs, @scan_sums RNum pairs = Some cs /\ cs_min cs = c / 2 /\ cs_max cs = c / 2 /\
               not_constant_sum cs = false /\ game_sum cs = c / 2.
  Proof.
    intros Hc Hne.
    assert (Hi : forall st, CInv st -> CInv (fold_left scan_upd pairs st)).
    { clear Hne. induction pairs as [|p l IH]; intros st Hst; [exact Hst|].
      apply IH; [intros q Hq; apply Hc; now right|]. apply scan_upd_const; [apply Hc; now left|exact Hst]. }
    destruct (@scan_sums RNum pairs) as [cs|] eqn:E; [|now apply scan_sums_none_iff in E].
    rewrite scan_sums_R in E. specialize (Hi None I). rewrite E in Hi. destruct Hi as (A & B & C).
    exists cs. repeat split; try assumption.
    - rewrite not_constant_sum_R, A, B. apply Rltb_false. lra.
    - change (cs_min cs + (cs_max cs - cs_min cs) / (1 + 1) = c / 2). rewrite A, B. field.
  Qed.

  Theorem gambit_constant (root : enodeR) :
    (forall p, In p (own_pairs root) -> fst p + snd p = c) -> own_pairs root <> [] ->
    exists cs, @scan_sums RNum (own_pairs root) = Some cs /\
               cs_min cs = c / 2 /\ cs_max cs = c / 2 /\
               not_constant_sum cs = false /\ game_sum cs = c / 2.
  Proof. apply scan_sums_constant. Qed.
End Constant.

(** ** The raw tree: the subtraction of the constant is a map over the payoffs *)

Fixpoint gmap_payoffs (f : R -> R) (t : gnodeR) : gnodeR :=
  match t with
  | GTerm p => @GTerm RNum (f p)
  | GChance info outs =>
      @GChance RNum info (map (fun pc => (fst pc, gmap_payoffs f (snd pc))) outs)
  | GPlayer pl info acts =>
      @GPlayer RNum pl info (map (fun ac => (fst ac, gmap_payoffs f (snd ac))) acts)
  end.

(** the same on compact games (these two definitions are those of [PayoffEvalProofs]) *)
Fixpoint map_payoffs (f : R -> R) (n : nodeR) : nodeR :=
  match n with
  | Term x => @Term RNum (f x)
  | Chance ci kids => @Chance RNum ci (map (map_payoffs f) kids)
  | Player pl i kids => @Player RNum pl i (map (map_payoffs f) kids)
  end.

Definition game_map_payoffs (f : R -> R) (g : gameR) : gameR :=
  @mkGame RNum (g_chance g) (g_infos1 g) (g_infos2 g) (g_singles1 g) (g_singles2 g)
         (map_payoffs f (g_root g)).

(** the order in which [joined] sorts the outcomes of a chance node *)
Definition chance_cmp (x y : N * (R * gnodeR)) : bool :=
  N.ltb (fst x) (fst y) || (N.eqb (fst x) (fst y) && Rleb (fst (snd x)) (fst (snd y))).

Section Joined.
  Context (tab : list (N * (R * R))) (n1 n2 : list (N * N)).

  Local Notation jn := (@joined RNum tab n1 n2).

  Lemma joined_ETerm sum oid pay cum :
    jn sum (@ETerm RNum oid pay) cum = @GTerm RNum (cum + fst (@pay_of RNum tab oid) - sum).
  Proof. reflexivity. Qed.

  Lemma joined_EChance sum info (acts : list (N * R * enodeR)) oid pay cum :
    jn sum (@EChance RNum info acts oid pay) cum =
    @GChance RNum (Some info)
      (map snd (sort_by chance_cmp
                  (map (fun e => (fst (fst e),
                                  (snd (fst e), jn sum (snd e) (cum + fst (@pay_of RNum tab oid)))))
                       acts))).
  Proof.
    cbn [joined]. apply f_equal, f_equal, f_equal.
    induction acts as [|[[a p] c] r IH]; [reflexivity|]. cbn [map fst snd]. now rewrite <- IH.
  Qed.

  Lemma joined_EPlayer sum pl info name (acts : list (N * enodeR)) oid pay cum :
    jn sum (@EPlayer RNum pl info name acts oid pay) cum =
    @GPlayer RNum pl (name_of (if pl then n1 else n2) info)
      (sort_by key_leb
         (map (fun e => (fst e, jn sum (snd e) (cum + fst (@pay_of RNum tab oid)))) acts)).
  Proof.
    cbn [joined]. unfold key_leb. apply f_equal, f_equal.
    induction acts as [|[a c] r IH]; [reflexivity|]. cbn [map fst snd]. now rewrite <- IH.
  Qed.

  Theorem gambit_terminal_payoffs sum (root : enodeR) : forall cum,
    jn sum root cum = gmap_payoffs (fun x => x - sum) (jn 0 root cum).
  Proof.
    induction root as [oid pay|info acts oid pay IH|pl info name acts oid pay IH] using enode_ind';
      intros cum.
    - rewrite !joined_ETerm. cbn [gmap_payoffs]. apply f_equal. lra.
    - rewrite !joined_EChance. cbn [gmap_payoffs]. rewrite map_payload_snd. apply f_equal, f_equal.
      rewrite <- (sort_by_map _ chance_cmp chance_cmp) by reflexivity. rewrite map_map.
      apply f_equal, map_ext_in. intros e He. rewrite Forall_forall in IH. cbn [fst snd]. now rewrite (IH e He).
    - rewrite !joined_EPlayer. cbn [gmap_payoffs]. apply f_equal.
      rewrite <- (sort_by_map _ key_leb key_leb) by reflexivity. rewrite map_map.
      apply f_equal, map_ext_in. intros e He. rewrite Forall_forall in IH. cbn [fst snd]. now rewrite (IH e He).
  Qed.
End Joined.

(** *** [from_root] commutes with a map over the payoffs (over the reals every payoff is
    finite, and [init] looks at the payoffs in no other way) *)
Lemma init_GTerm p prev s : @init RNum (GTerm p) prev s = Ok (@Term RNum p, s).
Proof. reflexivity. Qed.

Section InitMap.
  Context (f : R -> R).
  Local Notation mp := (map_payoffs f).
  Local Notation gm := (gmap_payoffs f).
  Local Notation on_node := (fun x : nodeR * bstR => (mp (fst x), snd x)).
  Local Notation on_kids := (fun x : list nodeR * bstR => (map mp (fst x), snd x)).
  Local Notation gmc := (fun pc : R * gnodeR => (fst pc, gm (snd pc))).
  Local Notation gmp := (fun ac : N * gnodeR => (fst ac, gm (snd ac))).

  Definition init_map_stmt (n : gnodeR) : Prop :=
    forall prev s, @init RNum (gm n) prev s = map_res on_node (@init RNum n prev s).

  Lemma loopS_map {X} (step' step : nat -> X -> bstR -> res (nodeR * bstR)) (phi : X -> X) l :
    Forall (fun x => forall ai s, step' ai (phi x) s = map_res on_node (step ai x s)) l ->
    forall ai s, loopS step' ai (map phi l) s = map_res on_kids (loopS step ai l s).
  Proof.
    induction 1 as [|x r Hx _ IH]; intros ai s; cbn [map loopS]; [reflexivity|].
    rewrite Hx. destruct (step ai x s) as [[k s1]|e]; [|reflexivity].
    cbn [map_res fst snd]. rewrite IH. now destruct (loopS step (S ai) r s1) as [[ks s2]|e].
  Qed.

  Lemma finishC_map info ws kids s' :
    @finishC RNum info ws (map mp kids) s' = map_res on_node (@finishC RNum info ws kids s').
  Proof.
    destruct kids as [|k [|k2 r]]; cbn [finishC map map_res fst snd]; try reflexivity.
    destruct info as [k0|]; [|reflexivity].
    destruct (find_index (opt_key_eqb k0) (b_chance s')) as [[ind [o old]]|]; [|reflexivity].
    destruct (list_eqb _ old _); reflexivity.
  Qed.

  Lemma init_map (n : gnodeR) : init_map_stmt n.
  Proof.
    induction n as [p|info outs IH|pl info acts IH] using gnode_ind'; intros prev s;
      cbn [gmap_payoffs].
    - reflexivity.
    - rewrite !init_chance, (loopS_map (stepC prev) (stepC prev) gmc outs), map_map.
      + cbn [fst]. destruct (loopS (stepC prev) 0 outs s) as [[kids s']|e]; [apply finishC_map|reflexivity].
      + eapply Forall_impl, IH. intros [p c] Hx ai s0. unfold stepC. cbn [fst snd] in *.
        destruct (wok p); [apply Hx|reflexivity].
    - destruct acts as [|x [|y r]]; [reflexivity| |].
      + destruct x as [a c]. cbn [map fst snd]. rewrite !init_GPlayer_single. unfold singleP.
        apply Forall_inv in IH. cbn [snd] in IH.
        destruct (existsb _ (b_infos s pl)); [reflexivity|].
        destruct (find_index _ (b_singles s pl)) as [[i [k a']]|]; [|apply IH].
        destruct (N.eqb a' a); [apply IH|reflexivity].
      + cbn [map]. rewrite !init_multi.
        change ((fst x, gm (snd x)) :: (fst y, gm (snd y)) :: map gmp r) with (map gmp (x :: y :: r)).
        rewrite map_map. cbn [fst]. fold (@fst N gnodeR).
        destruct (existsb _ (b_singles s pl)); [reflexivity|].
        destruct (@found_info RNum prev pl info (map fst (x :: y :: r)) s) as [[ind s0]|e]; [|reflexivity].
        rewrite (loopS_map (stepP prev pl ind) (stepP prev pl ind) gmp (x :: y :: r)).
        * now destruct (loopS (stepP prev pl ind) 0 (x :: y :: r) s0) as [[kids s']|e].
        * eapply Forall_impl, IH. intros z Hz ai s1. apply Hz.
  Qed.

  Theorem from_root_gmap (t : gnodeR) :
    @from_root RNum (gm t) = map_res (game_map_payoffs f) (@from_root RNum t).
  Proof.
    unfold from_root. rewrite (init_map t).
    destruct (@init RNum t (None, None) b_empty) as [[root s]|e]; reflexivity.
  Qed.
End InitMap.

(** ** Rejection categories of the Gambit route (property C17) *)

Section Categories.
  Context (numname : N -> N) (root : enodeR).

  Definition names_fine : Prop :=
    exists n1 n2, final_names numname true root = Some n1 /\ final_names numname false root = Some n2.

  Lemma gambit_tree_eq :
    @gambit_tree RNum numname root =
    match final_names numname true root, final_names numname false root with
    | Some n1, Some n2 =>
        match @scan_sums RNum (own_pairs root) with
        | None => Rejected RNonFinite
        | Some cs =>
            if not_constant_sum cs then Rejected RNotConstantSum
            else Loaded (@joined RNum (outcomes_of root) n1 n2 (game_sum cs) root 0, game_sum cs)
        end
    | _, _ => Rejected RDuplicateInfosets
    end.
  Proof. reflexivity. Qed.

  (** the whole of [gambit_tree], outcome by outcome (total and disjoint by construction:
      it is a function into [loaded]) *)
  Theorem gambit_tree_cases :
    match @gambit_tree RNum numname root with
    | Rejected RDuplicateInfosets =>
        final_names numname true root = None \/ final_names numname false root = None
    | Rejected RNonFinite => names_fine /\ own_pairs root = []
    | Rejected RNotConstantSum =>
        names_fine /\
        exists cs, @scan_sums RNum (own_pairs root) = Some cs /\
                   (cs_max cs - cs_min cs) * 1000 > cs_omax cs - cs_omin cs
    | Rejected (RGame _) => False
    | Loaded (t, s) =>
        exists n1 n2 cs,
          final_names numname true root = Some n1 /\ final_names numname false root = Some n2 /\
          @scan_sums RNum (own_pairs root) = Some cs /\
          (cs_max cs - cs_min cs) * 1000 <= cs_omax cs - cs_omin cs /\
          s = game_sum cs /\
          t = @joined RNum (outcomes_of root) n1 n2 s root 0
    end.
  Proof.
    rewrite gambit_tree_eq. unfold names_fine.
    destruct (final_names numname true root) as [n1|]; [|now left].
    destruct (final_names numname false root) as [n2|]; [|now right].
    destruct (@scan_sums RNum (own_pairs root)) as [cs|] eqn:E.
    - destruct (not_constant_sum cs) eqn:Ec; rewrite not_constant_sum_R in Ec.
      + apply Rltb_true in Ec. split; [exists n1, n2; now split|]. exists cs. now split.
      + apply Rltb_false in Ec. exists n1, n2, cs. now repeat split.
    - split; [exists n1, n2; now split|]. now apply scan_sums_none_iff.
  Qed.

  Theorem gambit_not_constant_sum_iff :
    @gambit_tree RNum numname root = Rejected RNotConstantSum <->
    names_fine /\
    exists cs, @scan_sums RNum (own_pairs root) = Some cs /\
               (cs_max cs - cs_min cs) * 1000 > cs_omax cs - cs_omin cs.
  Proof.
    split.
    - intros E. pose proof gambit_tree_cases as H. now rewrite E in H.
    - intros ((n1 & n2 & H1 & H2) & cs & Hs & Hc). apply Rltb_true in Hc.
      now rewrite gambit_tree_eq, H1, H2, Hs, not_constant_sum_R, Hc.
  Qed.

  (** the duplicate-infosets category, declaratively: for some player, an unnamed infoset
      whose number (as a string) is a name given to another infoset of that player, or
      two infoset numbers with the same final name *)
  Theorem gambit_duplicate_iff :
    @gambit_tree RNum numname root = Rejected RDuplicateInfosets <->
    exists me, numeric_clash numname me root \/ same_name_clash numname me root.
  Proof.
    split.
    - intros E. pose proof gambit_tree_cases as H. rewrite E in H.
      destruct H as [H|H]; apply final_names_none_iff in H; eauto.
    - intros (me & Hme). apply final_names_none_iff in Hme. rewrite gambit_tree_eq.
      destruct me; rewrite Hme; [reflexivity|]. now destruct (final_names numname true root).
  Qed.

  (** over the reals the non-finite category only catches a file without any terminal
      (which the parser cannot produce) *)
  Theorem gambit_nonfinite_iff :
    @gambit_tree RNum numname root = Rejected RNonFinite <-> names_fine /\ own_pairs root = [].
  Proof.
    split.
    - intros E. pose proof gambit_tree_cases as H. now rewrite E in H.
    - intros ((n1 & n2 & H1 & H2) & Hs). now rewrite gambit_tree_eq, H1, H2, Hs.
  Qed.

  Theorem gambit_tree_never_game_error e : @gambit_tree RNum numname root <> Rejected (RGame e).
  Proof. intros E. pose proof gambit_tree_cases as H. now rewrite E in H. Qed.

  (** [gambit_load]: the tree stage, then [Game::from_root] *)
  Lemma gambit_load_eq :
    @gambit_load RNum numname root =
    match @gambit_tree RNum numname root with
    | Loaded (t, s) =>
        match @from_root RNum t with Ok g => Loaded (g, s) | Err e => Rejected (RGame e) end
    | Rejected r => Rejected r
    end.
  Proof. reflexivity. Qed.

  Theorem gambit_load_game_error_iff e :
    @gambit_load RNum numname root = Rejected (RGame e) <->
    exists t s, @gambit_tree RNum numname root = Loaded (t, s) /\ @from_root RNum t = Err e.
  Proof.
    rewrite gambit_load_eq. split.
    - pose proof (gambit_tree_never_game_error e) as Hn.
      destruct (@gambit_tree RNum numname root) as [[t s]|r]; [|congruence].
      destruct (@from_root RNum t) as [g|e'] eqn:E; intros H; inversion H; subst. exists t, s; auto.
    - intros (t & s & H1 & H2). now rewrite H1, H2.
  Qed.

  Theorem gambit_load_loaded_iff g s :
    @gambit_load RNum numname root = Loaded (g, s) <->
    exists t, @gambit_tree RNum numname root = Loaded (t, s) /\ @from_root RNum t = Ok g.
  Proof.
    rewrite gambit_load_eq. split.
    - destruct (@gambit_tree RNum numname root) as [[t s']|r]; [|discriminate].
      destruct (@from_root RNum t) as [g'|e'] eqn:E; intros H; inversion H; subst. exists t; auto.
    - intros (t & H1 & H2). now rewrite H1, H2.
  Qed.

  Theorem gambit_load_rejected_iff r :
    (forall e, r <> RGame e) ->
    (@gambit_load RNum numname root = Rejected r <-> @gambit_tree RNum numname root = Rejected r).
  Proof.
    intros Hr. rewrite gambit_load_eq.
    destruct (@gambit_tree RNum numname root) as [[t s']|r']; [|split; intros H; now inversion H].
    destruct (@from_root RNum t) as [g'|e']; split; try discriminate.
    intros H; inversion H; subst. now contradiction (Hr e').
  Qed.

  (** totality and disjointness: exactly one of "a game and its constant" / "a rejection
      category" — a rejected file produces no result *)
  Theorem gambit_load_total :
    (exists g s, @gambit_load RNum numname root = Loaded (g, s)) \/
    (exists r, @gambit_load RNum numname root = Rejected r).
  Proof.
    destruct (@gambit_load RNum numname root) as [[g s]|r]; [left; exists g, s; auto|right; exists r; auto].
  Qed.

  Theorem gambit_load_rejected_no_result r :
    @gambit_load RNum numname root = Rejected r ->
    forall g s, @gambit_load RNum numname root <> Loaded (g, s).
  Proof. intros H g s C. rewrite H in C. discriminate. Qed.

  (** every rejection of the Gambit route is one of the documented categories, each with
      its cause *)
  Theorem gambit_load_rejected_cases r :
    @gambit_load RNum numname root = Rejected r ->
    (r = RDuplicateInfosets /\
     exists me, numeric_clash numname me root \/ same_name_clash numname me root) \/
    (r = RNotConstantSum /\ names_fine /\
     exists cs, @scan_sums RNum (own_pairs root) = Some cs /\
                (cs_max cs - cs_min cs) * 1000 > cs_omax cs - cs_omin cs) \/
    (r = RNonFinite /\ names_fine /\ own_pairs root = []) \/
    (exists e t s, r = RGame e /\ @gambit_tree RNum numname root = Loaded (t, s) /\
                   @from_root RNum t = Err e).
  Proof.
    intros H. destruct r as [| | |e].
    - left. split; [reflexivity|]. apply gambit_duplicate_iff.
      apply gambit_load_rejected_iff in H; [assumption|discriminate].
    - right; right; left. split; [reflexivity|]. apply gambit_nonfinite_iff.
      apply gambit_load_rejected_iff in H; [assumption|discriminate].
    - right; left. split; [reflexivity|]. apply gambit_not_constant_sum_iff.
      apply gambit_load_rejected_iff in H; [assumption|discriminate].
    - right; right; right. apply gambit_load_game_error_iff in H as (t & s & H1 & H2).
      exists e, t, s; auto.
  Qed.
End Categories.

(** *** a parsed file has terminals: the non-finite category is impossible over the reals *)
Lemma terminal_pairs_ETerm (tab : list (N * (R * R))) oid pay c1 c2 :
  @terminal_pairs RNum tab (@ETerm RNum oid pay) c1 c2 =
  [(c1 + fst (@pay_of RNum tab oid), c2 + snd (@pay_of RNum tab oid))].
Proof. reflexivity. Qed.

Lemma terminal_pairs_EChance (tab : list (N * (R * R))) info (acts : list (N * R * enodeR)) oid pay c1 c2 :
  @terminal_pairs RNum tab (@EChance RNum info acts oid pay) c1 c2 =
  flat_map (fun e => @terminal_pairs RNum tab (snd e) (c1 + fst (@pay_of RNum tab oid))
                                     (c2 + snd (@pay_of RNum tab oid))) acts.
Proof.
  cbn [terminal_pairs].
  induction acts as [|[[a p] c] r IH]; [reflexivity|]. cbn [flat_map snd]. now rewrite <- IH.
Qed.

Lemma terminal_pairs_EPlayer (tab : list (N * (R * R))) pl info name (acts : list (N * enodeR)) oid pay c1 c2 :
  @terminal_pairs RNum tab (@EPlayer RNum pl info name acts oid pay) c1 c2 =
  flat_map (fun e => @terminal_pairs RNum tab (snd e) (c1 + fst (@pay_of RNum tab oid))
                                     (c2 + snd (@pay_of RNum tab oid))) acts.
Proof.
  cbn [terminal_pairs].
  induction acts as [|[a c] r IH]; [reflexivity|]. cbn [flat_map snd]. now rewrite <- IH.
Qed.

(** every chance and decision node has at least one action (the grammar of the format) *)
Fixpoint eproper (n : enodeR) : Prop :=
  match n with
  | ETerm _ _ => True
  | EChance _ acts _ _ =>
      acts <> [] /\
      (fix go (l : list (N * R * enodeR)) : Prop :=
         match l with [] => True | (_, _, c) :: r => eproper c /\ go r end) acts
  | EPlayer _ _ _ acts _ _ =>
      acts <> [] /\
      (fix go (l : list (N * enodeR)) : Prop :=
         match l with [] => True | (_, c) :: r => eproper c /\ go r end) acts
  end.

Lemma terminal_pairs_nonempty (tab : list (N * (R * R))) (n : enodeR) :
  eproper n -> forall c1 c2, @terminal_pairs RNum tab n c1 c2 <> [].
Proof.
  induction n as [oid pay|info acts oid pay IH|pl info name acts oid pay IH] using enode_ind';
    intros Hp c1 c2.
  - rewrite terminal_pairs_ETerm. discriminate.
  - rewrite terminal_pairs_EChance. destruct Hp as [Hne Hk].
    destruct acts as [|[[a p] c] r]; [contradiction|]. destruct Hk as [Hc _].
    apply Forall_inv in IH. cbn [flat_map snd] in *.
    intros C. apply app_eq_nil in C as [C _]. exact (IH Hc _ _ C).
  - rewrite terminal_pairs_EPlayer. destruct Hp as [Hne Hk].
    destruct acts as [|[a c] r]; [contradiction|]. destruct Hk as [Hc _].
    apply Forall_inv in IH. cbn [flat_map snd] in *.
    intros C. apply app_eq_nil in C as [C _]. exact (IH Hc _ _ C).
Qed.

Theorem own_pairs_nonempty (root : enodeR) : eproper root -> own_pairs root <> [].
Proof. intros H. now apply terminal_pairs_nonempty. Qed.

Theorem gambit_never_nonfinite numname (root : enodeR) :
  eproper root -> @gambit_tree RNum numname root <> Rejected RNonFinite.
Proof.
  intros Hp E. apply gambit_nonfinite_iff in E as [_ E]. revert E. now apply own_pairs_nonempty.
Qed.

(** a constant-sum file is not rejected for its payoffs *)
Theorem gambit_constant_accepted numname (root : enodeR) c n1 n2 :
  (forall p, In p (own_pairs root) -> fst p + snd p = c) -> own_pairs root <> [] ->
  final_names numname true root = Some n1 -> final_names numname false root = Some n2 ->
  @gambit_tree RNum numname root =
  Loaded (@joined RNum (outcomes_of root) n1 n2 (c / 2) root 0, c / 2).
Proof.
  intros Hc Hne H1 H2. destruct (gambit_constant c root Hc Hne) as (cs & Hs & _ & _ & Hn & Hg).
  now rewrite gambit_tree_eq, H1, H2, Hs, Hn, Hg.
Qed.

(** ** A constant-sum Gambit file loads to the game as written, shifted (property C15) *)

Lemma map_payoffs_ext (f f' : R -> R) (n : nodeR) :
  (forall x, f x = f' x) -> map_payoffs f n = map_payoffs f' n.
Proof.
  intros H. induction n as [x|ci kids IH|pl i kids IH] using node_ind'; cbn [map_payoffs].
  - now rewrite H.
  - apply f_equal. rewrite Forall_forall in IH. now apply map_ext_in.
  - apply f_equal. rewrite Forall_forall in IH. now apply map_ext_in.
Qed.

Lemma game_map_payoffs_ext (f f' : R -> R) (g : gameR) :
  (forall x, f x = f' x) -> game_map_payoffs f g = game_map_payoffs f' g.
Proof. intros H. unfold game_map_payoffs. apply f_equal. now apply map_payoffs_ext. Qed.

Lemma map_payoffs_id (n : nodeR) : map_payoffs (fun x => x) n = n.
Proof.
  induction n as [x|ci kids IH|pl i kids IH] using node_ind'; cbn [map_payoffs].
  - reflexivity.
  - apply f_equal. rewrite <- (map_id kids) at 2. rewrite Forall_forall in IH. now apply map_ext_in.
  - apply f_equal. rewrite <- (map_id kids) at 2. rewrite Forall_forall in IH. now apply map_ext_in.
Qed.

Lemma arities_game_map_payoffs f (g : gameR) pl : arities (game_map_payoffs f g) pl = arities g pl.
Proof. destruct pl; reflexivity. Qed.

Lemma Valid_game_map_payoffs f (g : gameR) prof : Valid (game_map_payoffs f g) prof <-> Valid g prof.
Proof. unfold Valid. rewrite !arities_game_map_payoffs. reflexivity. Qed.

(** for a constant-sum file ([c] = the sum of the two players' own payoffs at every
    terminal) that loads to [(g, sum)]: [sum = c / 2], and [g] is the game [g1] of player
    one's own payoffs (the same tree without the subtraction) shifted by [- c / 2] *)
Theorem gambit_load_constant numname (root : enodeR) (c : R) (g : gameR) (sum : R) :
  (forall p, In p (own_pairs root) -> fst p + snd p = c) ->
  @gambit_load RNum numname root = Loaded (g, sum) ->
  exists n1 n2 g1,
    final_names numname true root = Some n1 /\ final_names numname false root = Some n2 /\
    @from_root RNum (@joined RNum (outcomes_of root) n1 n2 0 root 0) = Ok g1 /\
    sum = c / 2 /\ g = game_map_payoffs (fun x => x - c / 2) g1.
Proof.
  intros Hc Hl. apply gambit_load_loaded_iff in Hl as (t & Ht & Hg).
  pose proof (gambit_tree_cases numname root) as Hcs. rewrite Ht in Hcs.
  destruct Hcs as (n1 & n2 & cs & H1 & H2 & Hs & _ & -> & ->).
  assert (Hne : own_pairs root <> []).
  { intros C. apply scan_sums_none_iff in C. congruence. }
  destruct (gambit_constant c root Hc Hne) as (cs' & Hs' & _ & _ & _ & Hsum).
  rewrite Hs in Hs'. inversion Hs'; subst cs'. rewrite Hsum in *.
  rewrite gambit_terminal_payoffs, from_root_gmap in Hg.
  destruct (@from_root RNum (@joined RNum (outcomes_of root) n1 n2 0 root 0)) as [g1|e] eqn:E;
    inversion Hg; subst.
  exists n1, n2, g1. auto.
Qed.

(** ** The terminals of the raw tree are the terminals of the file: player one's own
    cumulative payoff minus the constant (in the order that sorting the actions gives) *)
Fixpoint gterminals (t : gnodeR) : list R :=
  match t with
  | GTerm p => [p]
  | GChance _ outs => flat_map (fun pc => gterminals (snd pc)) outs
  | GPlayer _ _ acts => flat_map (fun ac => gterminals (snd ac)) acts
  end.

Lemma flat_map_map' {A B C} (f : B -> list C) (g : A -> B) l :
  flat_map f (map g l) = flat_map (fun x => f (g x)) l.
Proof. induction l as [|x l IH]; cbn [map flat_map]; [reflexivity|now rewrite IH]. Qed.

Lemma map_flat_map' {A B C} (f : B -> C) (g : A -> list B) l :
  map f (flat_map g l) = flat_map (fun x => map f (g x)) l.
Proof. induction l as [|x l IH]; cbn [map flat_map]; [reflexivity|now rewrite map_app, IH]. Qed.

Lemma Permutation_flat_map_sorted {A B C} (cmp : B -> B -> bool) (g : A -> B)
      (F : B -> list C) (G : A -> list C) l :
  Forall (fun x => Permutation (F (g x)) (G x)) l ->
  Permutation (flat_map F (sort_by cmp (map g l))) (flat_map G l).
Proof.
  intros H. etransitivity; [apply Permutation_flat_map, sort_by_perm|]. rewrite flat_map_map'.
  induction H as [|x l Hx _ IH]; cbn [flat_map]; [constructor|now apply Permutation_app].
Qed.

Theorem joined_terminals tab n1 n2 sum (root : enodeR) : forall cum c2,
  Permutation (gterminals (@joined RNum tab n1 n2 sum root cum))
              (map (fun p => fst p - sum) (@terminal_pairs RNum tab root cum c2)).
Proof.
  induction root as [oid pay|info acts oid pay IH|pl info name acts oid pay IH] using enode_ind';
    intros cum c2.
  - rewrite joined_ETerm, terminal_pairs_ETerm. cbn [gterminals map fst]. reflexivity.
  - rewrite joined_EChance, terminal_pairs_EChance. cbn [gterminals].
    rewrite map_flat_map', flat_map_map'. apply Permutation_flat_map_sorted.
    eapply Forall_impl, IH. intros x Hx. apply Hx.
  - rewrite joined_EPlayer, terminal_pairs_EPlayer. cbn [gterminals].
    rewrite map_flat_map'. apply Permutation_flat_map_sorted.
    eapply Forall_impl, IH. intros x Hx. apply Hx.
Qed.

Corollary joined_terminals_own n1 n2 (root : enodeR) :
  Permutation (gterminals (@joined RNum (outcomes_of root) n1 n2 0 root 0))
              (map fst (own_pairs root)).
Proof.
  etransitivity; [apply (joined_terminals _ n1 n2 0 root 0 0)|].
  unfold own_pairs. erewrite map_ext; [reflexivity|]. intros p. cbv beta. apply Rminus_0_r.
Qed.
