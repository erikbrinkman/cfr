(** * FinExp: finite expectation operators, and martingale differences along a run.

    A finite expectation enters through three properties of the operator
    [E : (A -> R) -> R]: linear ([Lin]), monotone where the comparison holds on the outcomes
    that carry weight ([Pos E W]), total weight one.  Each passes to the iterated operator
    [fun f => E (fun a => K a f)], which is how the expectations over one draw, one iteration
    and a whole run arise.  [IsRun] describes the expectation [run n s] over [n] successive
    steps from a state [s] by its two recursion equations.  When [E s (d s) = 0] at every
    state, the sums of [d] along a run have mean zero, [d] is orthogonal to every function of
    the earlier steps, and the second moment after [n] steps is at most [C^2 n] for
    [|d| <= C]. *)
From Coq Require Import Reals List Lra Lia.
Import ListNotations.
Open Scope R_scope.

Record Lin {A} {E : (A -> R) -> R} : Prop := {
  E_ext : forall f h, (forall a, f a = h a) -> E f = E h;
  E_plus : forall f h, E (fun a => f a + h a) = E f + E h;
  E_scal : forall c f, E (fun a => c * f a) = c * E f }.
Arguments Lin {A} E.

Section LinFacts.
  Context {A} {E : (A -> R) -> R} (L : Lin E).

  Lemma E_zero : E (fun _ => 0) = 0.
  Proof. rewrite (E_ext L _ (fun _ => 0 * 0)) by (intros; lra). rewrite (E_scal L). lra. Qed.

  Lemma E_minus f h : E (fun a => f a - h a) = E f - E h.
  Proof.
    rewrite (E_ext L _ (fun a => f a + -1 * h a)) by (intros; lra).
    rewrite (E_plus L), (E_scal L). lra.
  Qed.

  Lemma E_const c : E (fun _ => 1) = 1 -> E (fun _ => c) = c.
  Proof.
    intros H1. rewrite (E_ext L _ (fun _ => c * 1)) by (intros; lra). rewrite (E_scal L), H1. lra.
  Qed.

  Lemma Lin_map {B} (c : A -> B) : Lin (fun f => E (fun a => f (c a))).
  Proof.
    split; intros.
    - apply (E_ext L). auto.
    - exact (E_plus L (fun a => f (c a)) (fun a => h (c a))).
    - exact (E_scal L c0 (fun a => f (c a))).
  Qed.

  Lemma Lin_comp {B} (K : A -> (B -> R) -> R) :
    (forall a, Lin (K a)) -> Lin (fun f => E (fun a => K a f)).
  Proof.
    intros HK. split; intros.
    - apply (E_ext L). intros a. now apply (E_ext (HK a)).
    - rewrite <- (E_plus L). apply (E_ext L). intros a. apply (E_plus (HK a)).
    - rewrite <- (E_scal L). apply (E_ext L). intros a. apply (E_scal (HK a)).
  Qed.
End LinFacts.

Lemma Lin_eval {A} (a : A) : Lin (fun f => f a).
Proof. split; intros; auto. Qed.

Definition Pos {A} (E : (A -> R) -> R) (W : A -> Prop) : Prop :=
  forall f h, (forall a, W a -> f a <= h a) -> E f <= E h.

Section PosFacts.
  Context {A} {E : (A -> R) -> R} {W : A -> Prop} (P : Pos E W).

  Lemma Pos_ext f h : (forall a, W a -> f a = h a) -> E f = E h.
  Proof. intros H. apply Rle_antisym; apply P; intros a Ha; rewrite (H a Ha); lra. Qed.

  Lemma Pos_eq (E' : (A -> R) -> R) : (forall f, E' f = E f) -> Pos E' W.
  Proof. intros H f h Hfh. rewrite !H. now apply P. Qed.

  Lemma Pos_map {B} (c : A -> B) (V : B -> Prop) :
    (forall a, W a -> V (c a)) -> Pos (fun f => E (fun a => f (c a))) V.
  Proof. intros Hc f h H. apply P. intros a Ha. apply H. now apply Hc. Qed.

  Lemma Pos_comp {B} (K : A -> (B -> R) -> R) (V : B -> Prop) :
    (forall a, W a -> Pos (K a) V) -> Pos (fun f => E (fun a => K a f)) V.
  Proof. intros HK f h H. apply P. intros a Ha. now apply (HK a Ha). Qed.

  Lemma one_comp {B} (K : A -> (B -> R) -> R) :
    E (fun _ => 1) = 1 -> (forall a, W a -> K a (fun _ => 1) = 1) ->
    E (fun a => K a (fun _ => 1)) = 1.
  Proof. intros H1 HK. now rewrite (Pos_ext _ (fun _ => 1)). Qed.

  (** the form in which Markov's and Chebyshev's inequalities are used *)
  Lemma Pos_scal (L : Lin E) c f h : (forall a, W a -> f a <= c * h a) -> E f <= c * E h.
  Proof. intros H. rewrite <- (E_scal L). now apply P. Qed.

  Lemma Pos_range (L : Lin E) f :
    E (fun _ => 1) = 1 -> (forall a, 0 <= f a <= 1) -> 0 <= E f <= 1.
  Proof.
    intros H1 Hf. split; [rewrite <- (E_zero L)|rewrite <- H1]; apply P; intros a _; apply Hf.
  Qed.
End PosFacts.

Lemma Pos_eval {A} (a : A) (W : A -> Prop) : W a -> Pos (fun f => f a) W.
Proof. intros Ha f h H. now apply H. Qed.

Record IsRun {St X} {E : St -> (X -> R) -> R} {W : St -> X -> Prop} {step : St -> X -> St}
       {Inv : St -> Prop} {run : nat -> St -> (list X -> R) -> R} : Prop := {
  run_O : forall s f, run O s f = f [];
  run_S : forall n s f,
      run (S n) s f = E s (fun x => run n (step s x) (fun xs => f (x :: xs)));
  E_Lin : forall s, Lin (E s);
  run_Lin : forall n s, Lin (run n s);
  E_Pos : forall s, Inv s -> Pos (E s) (W s);
  E_one : forall s, Inv s -> E s (fun _ => 1) = 1;
  Inv_step : forall s x, Inv s -> W s x -> Inv (step s x) }.
Arguments IsRun {St X} E W step Inv run.

Definition IsSum {St X} (step : St -> X -> St) (M : St -> list X -> R) (u : St -> X -> R) : Prop :=
  (forall s, M s [] = 0) /\ (forall s x xs, M s (x :: xs) = u s x + M (step s x) xs).

(** [D s xs t] is [d] at step [t] (counted from 0) of the run [xs] from [s] *)
Definition IsAt {St X} (step : St -> X -> St) (D : St -> list X -> nat -> R) (d : St -> X -> R)
  : Prop :=
  (forall s x xs, D s (x :: xs) O = d s x) /\
  (forall s x xs t, D s (x :: xs) (S t) = D (step s x) xs t).

Section Run.
  Context {St X} {E : St -> (X -> R) -> R} {W : St -> X -> Prop} {step : St -> X -> St}
          {Inv : St -> Prop} {run : nat -> St -> (list X -> R) -> R}
          (Sys : IsRun E W step Inv run).

  Fixpoint run_hist (n : nat) (s : St) (xs : list X) : Prop :=
    match n, xs with
    | O, [] => True
    | S n', x :: xs' => W s x /\ run_hist n' (step s x) xs'
    | _, _ => False
    end.

  Lemma hist_length n : forall s xs, run_hist n s xs -> length xs = n.
  Proof.
    induction n as [|n IH]; intros s [|x xs] H; try contradiction H; [reflexivity|].
    cbn [length]. f_equal. exact (IH _ _ (proj2 H)).
  Qed.

  Lemma run_Pos n : forall s, Inv s -> Pos (run n s) (run_hist n s).
  Proof.
    induction n as [|n IH]; intros s Hs.
    - apply (Pos_eq (Pos_eval [] _ I)), (run_O Sys).
    - refine (Pos_eq _ _ (run_S Sys n s)). apply (Pos_comp (E_Pos Sys s Hs)).
      intros x Hx. apply (Pos_map (IH _ (Inv_step Sys s x Hs Hx))).
      intros xs Hxs. now split.
  Qed.

  Lemma run_one n : forall s, Inv s -> run n s (fun _ => 1) = 1.
  Proof.
    induction n as [|n IH]; intros s Hs; [apply (run_O Sys)|].
    rewrite (run_S Sys). apply (one_comp (E_Pos Sys s Hs) (fun x => run n (step s x))); [now apply (E_one Sys)|].
    intros x Hx. apply IH. now apply (Inv_step Sys).
  Qed.

  Lemma run_ext n s f h : Inv s -> (forall xs, run_hist n s xs -> f xs = h xs) -> run n s f = run n s h.
  Proof. intros Hs. apply (Pos_ext (run_Pos n s Hs)). Qed.

  Lemma run_shift n s c f : Inv s -> run n s (fun xs => c + f xs) = c + run n s f.
  Proof.
    intros Hs. rewrite (E_plus (run_Lin Sys n s) (fun _ => c) f).
    now rewrite (E_const (run_Lin Sys n s) c (run_one n s Hs)).
  Qed.

  Section Md.
    Context (d : St -> X -> R) (Hd : forall s, Inv s -> E s (d s) = 0).
    Context (M : St -> list X -> R) (HM : IsSum step M d).

    Lemma run_mean_zero n : forall s, Inv s -> run n s (M s) = 0.
    Proof.
      destruct HM as [M0 M1]. induction n as [|n IH]; intros s Hs.
      - rewrite (run_O Sys). apply M0.
      - rewrite (run_S Sys), <- (Hd s Hs). apply (Pos_ext (E_Pos Sys s Hs)). intros x Hx.
        pose proof (Inv_step Sys s x Hs Hx) as Hs'.
        rewrite (E_ext (run_Lin Sys n _) _ (fun xs => d s x + M (step s x) xs)) by (intros; apply M1).
        rewrite run_shift, IH by assumption. lra.
    Qed.

    Theorem run_orth D : IsAt step D d ->
      forall t n s (h : list X -> R), Inv s -> (t < n)%nat ->
        run n s (fun xs => h (firstn t xs) * D s xs t) = 0.
    Proof.
      intros [D0 D1].
      induction t as [|t IH]; intros [|n] s h Hs Ht; try lia; rewrite (run_S Sys).
      - rewrite (Pos_ext (E_Pos Sys s Hs) _ (fun x => h [] * d s x)).
        + rewrite (E_scal (E_Lin Sys s)), Hd by assumption. lra.
        + intros x Hx. cbn [firstn].
          rewrite (E_ext (run_Lin Sys n _) _ (fun _ => h [] * d s x)) by (intros; now rewrite D0).
          apply (E_const (run_Lin Sys n _)), run_one. now apply (Inv_step Sys).
      - rewrite (Pos_ext (E_Pos Sys s Hs) _ (fun _ => 0)); [apply E_zero, (E_Lin Sys)|].
        intros x Hx. cbn [firstn].
        rewrite (E_ext (run_Lin Sys n _) _ (fun xs => h (x :: firstn t xs) * D (step s x) xs t))
          by (intros; now rewrite D1).
        apply (IH n (step s x) (fun l => h (x :: l))); [now apply (Inv_step Sys)|lia].
    Qed.

    (** the second moment: the first step splits off, the cross term vanishes *)
    Theorem run_sq_step n s :
      Inv s ->
      run (S n) s (fun xs => M s xs ^ 2) =
      E s (fun x => d s x ^ 2) +
      E s (fun x => run n (step s x) (fun xs => M (step s x) xs ^ 2)).
    Proof.
      intros Hs. rewrite (run_S Sys), <- (E_plus (E_Lin Sys s)).
      apply (Pos_ext (E_Pos Sys s Hs)). intros x Hx.
      pose proof (Inv_step Sys s x Hs Hx) as Hs'. pose proof (run_Lin Sys n (step s x)) as L.
      rewrite (E_ext L _ (fun xs => d s x ^ 2 +
                                    (2 * d s x * M (step s x) xs + M (step s x) xs ^ 2)))
        by (intros; rewrite (proj2 HM); lra).
      rewrite run_shift, (E_plus L), (E_scal L), run_mean_zero by assumption. lra.
    Qed.

    Theorem run_sq_le C :
      (forall s x, Inv s -> W s x -> Rabs (d s x) <= C) ->
      forall n s, Inv s -> run n s (fun xs => M s xs ^ 2) <= C ^ 2 * INR n.
    Proof.
      intros HC. induction n as [|n IH]; intros s Hs.
      - rewrite (run_O Sys), (proj1 HM). cbn [INR]. lra.
      - rewrite run_sq_step, S_INR by assumption.
        pose proof (fun c => E_const (E_Lin Sys s) c (E_one Sys s Hs)) as Ec.
        assert (H1 : E s (fun x => d s x ^ 2) <= C ^ 2).
        { rewrite <- (Ec (C ^ 2)). apply (E_Pos Sys s Hs). intros x Hx.
          pose proof (HC s x Hs Hx). pose proof (Rabs_pos (d s x)).
          rewrite <- (pow2_abs (d s x)). nra. }
        assert (H2 : E s (fun x => run n (step s x) (fun xs => M (step s x) xs ^ 2)) <= C ^ 2 * INR n).
        { rewrite <- (Ec (C ^ 2 * INR n)). apply (E_Pos Sys s Hs). intros x Hx.
          apply IH. now apply (Inv_step Sys). }
        lra.
    Qed.
  End Md.
End Run.

Arguments hist_length {St X W step n s xs} _.

Lemma nat_above (K : R) : exists n : nat, K < INR n.
Proof.
  destruct (archimed K) as [H _]. exists (Z.to_nat (up K)).
  destruct (Z_lt_le_dec (up K) 0) as [Hn|Hp].
  - apply IZR_lt in Hn. eapply Rlt_le_trans; [apply H|]. pose proof (pos_INR (Z.to_nat (up K))). lra.
  - rewrite INR_IZR_INZ, Z2Nat.id by assumption. lra.
Qed.

Lemma rate_vanishes (F : nat -> R) K eps delta :
  0 < eps -> 0 < delta ->
  (forall n, (0 < n)%nat -> F n <= K / (eps ^ 2 * INR n)) ->
  exists n0 : nat, forall n, (n0 <= n)%nat -> F n <= delta.
Proof.
  intros He Hd HF. assert (He2 : 0 < eps ^ 2) by apply pow_lt, He.
  destruct (nat_above (K / (eps ^ 2 * delta))) as [n0 Hn0].
  exists (S n0). intros n Hn. eapply Rle_trans; [apply HF; lia|].
  assert (Hn' : INR n0 < INR n) by apply lt_INR, Hn.
  pose proof (pos_INR n0) as H0.
  (* multiplied by [n / delta], the claim is [K / (eps^2 delta) < n] *)
  apply Rlt_le, (Rmult_lt_reg_r (INR n / delta)); [apply Rdiv_lt_0_compat; lra|].
  replace (K / (eps ^ 2 * INR n) * (INR n / delta)) with (K / (eps ^ 2 * delta)) by (field; lra).
  replace (delta * (INR n / delta)) with (INR n) by (field; lra). lra.
Qed.
