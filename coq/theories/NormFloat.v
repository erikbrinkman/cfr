(** * NormFloat: the normalisations at binary64 itself (instance [FNum]).

    [finish_row] (import of a strategy, with the repair D17), [normalise]
    (chance weights, with the repair D14), [avg_strat] and the non-softmax
    branches of [regret_match]: every row that comes out is a row of finite
    binary64 numbers in [0,1] -- no NaN, no infinity -- whether or not the
    sum of the weights overflows. *)
From Coq Require Import List ZArith NArith Reals Floats Bool Lia Lra.
From Flocq Require Import Core IEEE754.BinarySingleNaN IEEE754.PrimFloat.
From Cfr.theories Require Import Num ListAux FInst Tree Strat Solve TruncFloat.
Import ListNotations.

Local Existing Instance Flocq.IEEE754.PrimFloat.Hprec.
Local Existing Instance Flocq.IEEE754.PrimFloat.Hmax.

Local Open Scope R_scope.
Local Notation float := PrimFloat.float.
Local Notation Hp := Flocq.IEEE754.PrimFloat.Hprec.
Local Notation Hm := Flocq.IEEE754.PrimFloat.Hmax.

Local Instance fexp_valid' : Valid_exp (SpecFloat.fexp prec emax) := fexp_correct prec emax Hp.

Definition finnn (x : float) : Prop := Ffin x /\ 0 <= FR x.
Definition finpos (x : float) : Prop := Ffin x /\ 0 < FR x.
Definition Fpinf (x : float) : Prop := Prim2B x = B754_infinity false.
(** what a sum of finite non-negative floats can be *)
Definition nni (x : float) : Prop := finnn x \/ Fpinf x.

Definition finnnb (x : float) : bool := PrimFloat.leb 0 x && f_is_fin x.

Lemma fin01_finnn : forall x, fin01 x -> finnn x.
Proof. intros x [Hf [H0 _]]. split; assumption. Qed.

Lemma finpos_finnn : forall x, finpos x -> finnn x.
Proof. intros x [Hf H0]. split; [assumption | lra]. Qed.

Lemma finnn_zero : finnn 0%float.
Proof. split; [apply Ffin_zero | rewrite FR_zero; lra]. Qed.

Lemma Fpinf_not_fin : forall x, Fpinf x -> Ffin x -> False.
Proof. intros x Hi Hf. unfold Fpinf in Hi. unfold Ffin in Hf. rewrite Hi in Hf. discriminate. Qed.

(** [f64::is_finite] of the model is Flocq's [is_finite] *)
Lemma f_is_fin_spec : forall x, f_is_fin x = is_finite (Prim2B x).
Proof.
  intros x. unfold f_is_fin, f_is_nan.
  rewrite !eqb_equiv, abs_equiv, infinity_equiv, Prim2B_B2Prim, Beqb_refl.
  destruct (Prim2B x) as [s|s| |s m e He]; try reflexivity.
Qed.

Lemma f_is_fin_true : forall x, f_is_fin x = true <-> Ffin x.
Proof. intros x. rewrite f_is_fin_spec. unfold Ffin. tauto. Qed.

Lemma f_is_nan_fin : forall x, Ffin x -> f_is_nan x = false.
Proof.
  intros x Hx. unfold f_is_nan, Ffin in *. rewrite eqb_equiv.
  rewrite Beqb_refl. destruct (Prim2B x); try discriminate Hx; reflexivity.
Qed.

Lemma eqb_fin : forall x y, Ffin x -> Ffin y ->
  PrimFloat.eqb x y = Req_bool (FR x) (FR y).
Proof. intros x y Hx Hy. rewrite eqb_equiv. apply Beqb_correct; assumption. Qed.

Lemma eqb_zero_fin : forall t, Ffin t -> (PrimFloat.eqb t 0 = true <-> FR t = 0).
Proof.
  intros t Ht. rewrite (eqb_fin t 0 Ht Ffin_zero), FR_zero.
  destruct (Req_bool_spec (FR t) 0) as [H|H]; split; intro H'; try reflexivity;
    try assumption; try discriminate. contradiction.
Qed.

Lemma eqb_pinf_zero : forall t, Fpinf t -> PrimFloat.eqb t 0 = false.
Proof.
  intros t Ht. rewrite eqb_equiv, Prim2B_zero. unfold Fpinf in Ht. rewrite Ht. reflexivity.
Qed.

Lemma finnnb_spec : forall x, finnnb x = true <-> finnn x.
Proof.
  intros x. unfold finnnb, finnn. rewrite f_is_fin_spec. unfold Ffin.
  destruct (is_finite (Prim2B x)) eqn:Hx.
  - rewrite (leb_fin 0 x Ffin_zero Hx), FR_zero, andb_true_r.
    destruct (Rle_bool_spec 0 (FR x)) as [H|H]; split; try tauto; try discriminate.
    intros [_ H']. lra.
  - rewrite andb_false_r. split; [discriminate | intros [H _]; discriminate].
Qed.

(** the hypotheses of this file are exactly the checks the model (and the code)
    performs before normalising: [prob_ok] on imported weights
    ([prob >= 0.0 && prob.is_finite()]), and [0 < p && is_fin p] on chance weights *)
Lemma prob_ok_finnn : forall x : float, @prob_ok FNum x = true <-> finnn x.
Proof. intros x. apply finnnb_spec. Qed.

Lemma chance_ok_finpos : forall x : float,
  (ltb FNum (zero FNum) x && is_fin FNum x)%bool = true <-> finpos x.
Proof.
  intros x. cbn [ltb zero is_fin FNum]. unfold finpos. rewrite f_is_fin_spec. unfold Ffin.
  destruct (is_finite (Prim2B x)) eqn:Hx.
  - rewrite andb_true_r. rewrite (ltb_zero_pos x Hx). tauto.
  - rewrite andb_false_r. split; [discriminate | intros [H _]; discriminate].
Qed.

Lemma eqb_zero_false : forall t, Ffin t -> 0 < FR t -> PrimFloat.eqb t 0 = false.
Proof.
  intros t Ht H0. destruct (PrimFloat.eqb t 0) eqn:E; [|reflexivity].
  apply (eqb_zero_fin t Ht) in E. lra.
Qed.

Lemma Forall_finnn_Ffin : forall l, Forall finnn l -> Forall Ffin l.
Proof. intros l. apply Forall_impl. intros a [Ha _]. exact Ha. Qed.

Lemma Forall_finnn_nonneg : forall l, Forall finnn l -> Forall nonneg l.
Proof. intros l. apply Forall_impl. intros a [_ Ha]. exact Ha. Qed.

Lemma Forall_fin01_finnn : forall l, Forall fin01 l -> Forall finnn l.
Proof. intros l. apply Forall_impl, fin01_finnn. Qed.

Lemma Forall_finpos_finnn : forall l, Forall finpos l -> Forall finnn l.
Proof. intros l. apply Forall_impl, finpos_finnn. Qed.

Lemma B2SF_pinf : forall x : binary_float prec emax,
  B2SF x = S754_infinity false -> x = B754_infinity false.
Proof.
  intros x H. destruct x as [s|s| |s m e He]; try discriminate H.
  cbn in H. inversion H. reflexivity.
Qed.

Lemma add_nn : forall x y, finnn x -> finnn y ->
  (Ffin (x + y)%float /\ FR (x + y)%float = rnd (FR x + FR y) /\
   FR x <= FR (x + y)%float /\ FR y <= FR (x + y)%float) \/
  Fpinf (x + y)%float.
Proof.
  intros x y [Hx Hx0] [Hy Hy0].
  assert (Hlo1 : FR x <= rnd (FR x + FR y)) by (apply rnd_ge_fmt; [apply fmt_FR | lra]).
  assert (Hlo2 : FR y <= rnd (FR x + FR y)) by (apply rnd_ge_fmt; [apply fmt_FR | lra]).
  destruct (Rlt_or_le (Rabs (rnd (FR x + FR y))) (bpow radix2 emax)) as [Hb|Hb].
  - left. destruct (add_ok x y Hx Hy Hb) as [Hf He]. rewrite He. tauto.
  - right. unfold Fpinf. rewrite add_equiv.
    generalize (Bplus_correct prec emax Hp Hm mode_NE (Prim2B x) (Prim2B y) Hx Hy).
    change (round_mode mode_NE) with ZnearestE.
    fold (FR x) (FR y). fold (rnd (FR x + FR y)).
    rewrite Rlt_bool_false by exact Hb.
    intros [H1 H2].
    (* the overflow has the sign of [x], or of [y] when [x] is a zero *)
    assert (Hs : Bsign (Prim2B x) = false).
    { destruct (Rle_lt_or_eq_dec 0 (FR x) Hx0) as [Hpos|Hz].
      - apply Bsign_pos; assumption.
      - rewrite H2. apply Bsign_pos; [exact Hy|].
        fold (FR y). destruct (Rle_lt_or_eq_dec 0 (FR y) Hy0) as [Hpos|Hz']; [exact Hpos|].
        exfalso. rewrite <- Hz, <- Hz', Rplus_0_r in Hb.
        rewrite (rnd_fmt 0 fmt_0), Rabs_R0 in Hb.
        assert (0 < bpow radix2 emax) by apply bpow_gt_0. lra. }
    rewrite Hs in H1. apply B2SF_pinf. exact H1.
Qed.

Lemma add_pinf_l : forall x y, Fpinf x -> Ffin y -> Fpinf (x + y)%float.
Proof.
  intros x y Hx Hy. unfold Fpinf, Ffin in *. rewrite add_equiv, Hx.
  destruct (Prim2B y) as [s|s| |s m e He]; try discriminate Hy; reflexivity.
Qed.

Lemma add_nni : forall x y, nni x -> finnn y -> nni (x + y)%float.
Proof.
  intros x y [Hx|Hx] Hy.
  - destruct (add_nn x y Hx Hy) as [[Hf [He [H1 H2]]]|Hi]; [left | right; exact Hi].
    split; [exact Hf|]. destruct Hx as [_ Hx0]. lra.
  - right. apply add_pinf_l; [exact Hx | apply Hy].
Qed.

Lemma fsum_nni : forall (l : list float) (acc : float),
  Forall finnn l -> nni acc -> nni (fold_left PrimFloat.add l acc).
Proof.
  induction l as [|p l IH]; intros acc Hl Ha; cbn [fold_left]; [exact Ha|].
  inversion Hl as [|p' l' Hp Hl']; subst.
  apply IH; [exact Hl' | apply add_nni; assumption].
Qed.

Lemma sum_nni : forall l : list float, Forall finnn l -> nni (@sum FNum l).
Proof. intros l Hl. rewrite sum_FNum. apply fsum_nni; [exact Hl | left; exact finnn_zero]. Qed.

Lemma sum_not_fin : forall l : list float,
  Forall finnn l -> ~ Ffin (@sum FNum l) -> Fpinf (@sum FNum l).
Proof. intros l Hl Hnf. destruct (sum_nni l Hl) as [[Hf _]|Hi]; [contradiction | exact Hi]. Qed.

Lemma f_is_fin_false : forall x, ~ Ffin x -> f_is_fin x = false.
Proof.
  intros x Hnf. destruct (f_is_fin x) eqn:E; [|reflexivity].
  apply f_is_fin_true in E. contradiction.
Qed.

Lemma sum_fin_ge : forall l : list float, Forall finnn l -> Ffin (@sum FNum l) ->
  0 <= FR (@sum FNum l) /\ Forall (fun p => FR p <= FR (@sum FNum l)) l.
Proof. intros l Hl Hf. apply (sum_fin_inv l (Forall_finnn_nonneg l Hl) Hf). Qed.

Lemma fsum_zero : forall (l : list float) (acc : float),
  Forall (fun p => Ffin p /\ FR p = 0) l -> Ffin acc -> FR acc = 0 ->
  Ffin (fold_left PrimFloat.add l acc) /\ FR (fold_left PrimFloat.add l acc) = 0.
Proof.
  induction l as [|p l IH]; intros acc Hl Ha Ha0; cbn [fold_left]; [split; assumption|].
  inversion Hl as [|p' l' [Hp Hp0] Hl']; subst.
  assert (Hr : rnd (FR acc + FR p) = 0).
  { rewrite Ha0, Hp0, Rplus_0_r. apply rnd_fmt, fmt_0. }
  destruct (add_ok acc p Ha Hp) as [Hf He].
  { rewrite Hr, Rabs_R0. apply bpow_gt_0. }
  apply IH; [exact Hl' | exact Hf | rewrite He; exact Hr].
Qed.

Lemma fmax_fin : forall a b, Ffin a -> Ffin b ->
  Ffin (f_max a b) /\ FR a <= FR (f_max a b) /\ FR b <= FR (f_max a b) /\
  (f_max a b = a \/ f_max a b = b).
Proof.
  intros a b Ha Hb. unfold f_max.
  rewrite (ltb_fin a b Ha Hb), (f_is_nan_fin a Ha).
  destruct (Rlt_bool_spec (FR a) (FR b)) as [H|H].
  - split; [exact Hb|]. split; [lra|]. split; [lra | right; reflexivity].
  - split; [exact Ha|]. split; [lra|]. split; [lra | left; reflexivity].
Qed.

Lemma fold_fmax : forall (l : list float) (acc : float),
  Forall Ffin l -> Ffin acc ->
  Ffin (fold_left f_max l acc) /\
  FR acc <= FR (fold_left f_max l acc) /\
  Forall (fun p => FR p <= FR (fold_left f_max l acc)) l /\
  (fold_left f_max l acc = acc \/ In (fold_left f_max l acc) l).
Proof.
  induction l as [|p l IH]; intros acc Hl Ha; cbn [fold_left].
  - split; [exact Ha|]. split; [lra|]. split; [constructor | left; reflexivity].
  - inversion Hl as [|p' l' Hp Hl']; subst.
    destruct (fmax_fin acc p Ha Hp) as [Hf [H1 [H2 H3]]].
    destruct (IH (f_max acc p) Hl' Hf) as [G1 [G2 [G3 G4]]].
    split; [exact G1|]. split; [lra|]. split; [constructor; [lra | exact G3]|].
    destruct G4 as [G4|G4]; [|right; right; exact G4].
    rewrite G4. destruct H3 as [H3|H3]; rewrite H3; [left; reflexivity | right; left; reflexivity].
Qed.

Lemma map_div_valid : forall (row : list float) (t : float),
  Forall finnn row -> Ffin t -> 0 < FR t -> Forall (fun p => FR p <= FR t) row ->
  Forall fin01 (map (fun v => PrimFloat.div v t) row).
Proof.
  intros row t Hrow Ht Ht0 Hle. apply Forall_map.
  rewrite Forall_forall in Hrow, Hle |- *. intros p Hin. destruct (Hrow p Hin) as [Hpf Hp0].
  apply (div_part_ok p t Hpf Ht (conj Hp0 (Hle p Hin)) Ht0).
Qed.

Lemma div_self_one : forall m, Ffin m -> 0 < FR m -> FR (m / m)%float = 1.
Proof.
  intros m Hm Hm0.
  destruct (div_part_ok m m Hm Hm (conj (Rlt_le _ _ Hm0) (Rle_refl _)) Hm0) as [_ He].
  rewrite He. replace (FR m / FR m) with 1 by (symmetry; apply Rinv_r; lra). apply rnd_fmt, fmt_1.
Qed.

Lemma nth_div_entry : forall (row : list float) (t : float) (k : nat) (p : float),
  Forall finnn row -> Ffin t -> 0 < FR t -> Forall (fun p => FR p <= FR t) row ->
  (k < length row)%nat -> p = nth k row 0%float ->
  nth k (map (fun v => PrimFloat.div v t) row) 0%float = (p / t)%float /\
  FR p <= FR t /\
  FR (p / t)%float = rnd (FR p / FR t) /\
  (FR p = 0 -> FR (p / t)%float = 0) /\
  (bpow radix2 (-1074) * FR t <= FR p -> bpow radix2 (-1074) <= FR (p / t)%float).
Proof.
  intros row t k p Hrow Ht Ht0 Hle Hk ->.
  assert (Hp : In (nth k row 0%float) row) by (apply nth_In; exact Hk).
  rewrite Forall_forall in Hrow, Hle.
  destruct (Hrow _ Hp) as [Hpf Hp0]. assert (Hpt := conj Hp0 (Hle _ Hp)).
  split; [apply (nth_map_lt (fun v => PrimFloat.div v t)); exact Hk|].
  split; [apply Hpt|]. split; [apply (div_part_ok _ t Hpf Ht Hpt Ht0)|].
  apply (div_part_zero _ t Hpf Ht Hpt Ht0).
Qed.

Lemma finish_row_FNum : forall (row : list float) (total : float),
  @finish_row FNum row total =
  if f_is_fin total then map (fun v => PrimFloat.div v total) row
  else
    let m := fold_left f_max row 0%float in
    let row' := map (fun v => PrimFloat.div v m) row in
    let total' := fold_left PrimFloat.add row' 0%float in
    map (fun v => PrimFloat.div v total') row'.
Proof. reflexivity. Qed.

Lemma finish_row_fin : forall (row : list float) (total : float),
  Ffin total -> @finish_row FNum row total = map (fun v => PrimFloat.div v total) row.
Proof. intros row total H. rewrite finish_row_FNum, (proj2 (f_is_fin_true _) H). reflexivity. Qed.

Lemma normalise_finish_row : forall ws : list float,
  @normalise FNum ws = @finish_row FNum ws (@sum FNum ws).
Proof. reflexivity. Qed.

Lemma finish_row_length : forall (row : list float) (total : float),
  length (@finish_row FNum row total) = length row.
Proof.
  intros row total. rewrite finish_row_FNum. cbv zeta.
  destruct (f_is_fin total); rewrite !map_length; reflexivity.
Qed.

Theorem finish_row_float_valid_fin : forall row : list float,
  Forall finnn row ->
  Ffin (@sum FNum row) -> 0 < FR (@sum FNum row) ->
  Forall fin01 (@finish_row FNum row (@sum FNum row)).
Proof.
  intros row Hrow Hf Hpos.
  destruct (sum_fin_ge row Hrow Hf) as [_ Hge].
  rewrite (finish_row_fin _ _ Hf). apply map_div_valid; assumption.
Qed.

Theorem finish_row_float_entries_fin : forall row : list float,
  Forall finnn row ->
  Ffin (@sum FNum row) -> 0 < FR (@sum FNum row) ->
  let total := @sum FNum row in
  let out := @finish_row FNum row total in
  length out = length row /\
  forall k, (k < length row)%nat ->
    let p := nth k row 0%float in
    let y := nth k out 0%float in
    y = (p / total)%float /\
    FR p <= FR total /\
    FR y = rnd (FR p / FR total) /\
    (* a zero weight gives a zero, the weight +0 gives +0 exactly *)
    (FR p = 0 -> FR y = 0) /\
    (p = 0%float -> y = 0%float) /\
    (* a weight that is not tiny against the total does not underflow to zero *)
    (bpow radix2 (-1074) * FR total <= FR p -> bpow radix2 (-1074) <= FR y).
Proof.
  intros row Hrow Hf Hpos total out.
  split; [apply finish_row_length|].
  destruct (sum_fin_ge row Hrow Hf) as [_ Hge].
  intros k Hk p y.
  destruct (nth_div_entry row total k p Hrow Hf Hpos Hge Hk eq_refl) as [Hy [Hpt [He [Hz Hbig]]]].
  assert (Hyy : y = (p / total)%float)
    by (unfold y, out; rewrite (finish_row_fin row total Hf); exact Hy).
  rewrite Hyy. repeat (split; [auto; fail|]). split; [|exact Hbig].
  intros ->. apply div_pzero_pos; assumption.
Qed.

(** The zero entries are exactly the zero weights, for rows whose non-zero
    weights are not tiny against the total (otherwise a quotient can underflow,
    see [ex_normalise_underflow]). *)
Corollary finish_row_float_support_fin : forall row : list float,
  Forall finnn row ->
  Ffin (@sum FNum row) -> 0 < FR (@sum FNum row) ->
  (forall p, In p row -> FR p = 0 \/ bpow radix2 (-1074) * FR (@sum FNum row) <= FR p) ->
  forall k, (k < length row)%nat ->
    (FR (nth k (@finish_row FNum row (@sum FNum row)) 0%float) = 0 <-> FR (nth k row 0%float) = 0).
Proof.
  intros row Hrow Hf Hpos Hbig k Hk.
  destruct (finish_row_float_entries_fin row Hrow Hf Hpos) as [_ He].
  destruct (He k Hk) as [_ [_ [_ [H4 [_ H6]]]]]. clear He.
  split; [|exact H4].
  intros Hy. destruct (Hbig _ (nth_In row 0%float Hk)) as [Hz|Hb]; [exact Hz|].
  exfalso. specialize (H6 Hb).
  assert (0 < bpow radix2 (-1074)) by apply bpow_gt_0. lra.
Qed.

(** a non-finite sum of finite non-negative floats is [+inf], and then the
    maximum of the row is a finite positive entry of the row *)
Lemma overflow_max : forall row : list float,
  Forall finnn row -> ~ Ffin (@sum FNum row) ->
  let m := fold_left f_max row 0%float in
  Fpinf (@sum FNum row) /\ Ffin m /\ 0 < FR m /\ In m row /\
  Forall (fun p => FR p <= FR m) row.
Proof.
  intros row Hrow Hnf m.
  destruct (fold_fmax row 0%float (Forall_finnn_Ffin row Hrow) Ffin_zero)
    as [G1 [G2 [G3 G4]]].
  fold m in G1, G2, G3, G4. rewrite FR_zero in G2.
  assert (Hm0 : 0 < FR m).
  { (* otherwise all the weights are zeros, and so is their sum *)
    destruct (Rle_lt_or_eq_dec 0 (FR m) G2) as [H|H]; [exact H|]. exfalso. apply Hnf.
    rewrite sum_FNum.
    apply (fsum_zero row 0%float); [|apply Ffin_zero | apply FR_zero].
    rewrite Forall_forall in Hrow, G3 |- *. intros p Hp.
    destruct (Hrow p Hp) as [Hpf Hp0]. split; [exact Hpf|].
    assert (Hpm := G3 p Hp). lra. }
  split; [apply (sum_not_fin row Hrow Hnf)|].
  split; [exact G1|]. split; [exact Hm0|]. split; [|exact G3].
  destruct G4 as [G4|G4]; [|exact G4].
  exfalso. rewrite G4, FR_zero in Hm0. lra.
Qed.

(** everything about the overflow branch: [m] the maximum, [row'] the weights
    divided by [m], [total'] their float sum *)
Lemma overflow_setup : forall row : list float,
  Forall finnn row ->
  (Z.of_nat (length row) < 2 ^ 53)%Z ->
  ~ Ffin (@sum FNum row) ->
  let m := fold_left f_max row 0%float in
  let row' := map (fun v => PrimFloat.div v m) row in
  let total' := fold_left PrimFloat.add row' 0%float in
  @finish_row FNum row (@sum FNum row) = map (fun v => PrimFloat.div v total') row' /\
  Ffin m /\ 0 < FR m /\ In m row /\ Forall (fun p => FR p <= FR m) row /\
  Forall fin01 row' /\
  Ffin total' /\ 1 <= FR total' <= INR (length row) /\
  Forall (fun p => FR p <= FR total') row'.
Proof.
  intros row Hrow Hlen Hnf m row' total'.
  destruct (overflow_max row Hrow Hnf) as [_ [Hmf [Hm0 [Hmin Hle]]]].
  fold m in Hmf, Hm0, Hmin, Hle.
  assert (Hrow' : Forall fin01 row') by (apply map_div_valid; assumption).
  destruct (sum_fin01 row' Hrow') as [G1 [[_ G3] G4]]; [unfold row'; rewrite map_length; exact Hlen|].
  rewrite sum_FNum in G1, G3, G4. fold total' in G1, G3, G4.
  unfold row' in G3. rewrite map_length in G3.
  assert (Ht1 : 1 <= FR total').
  { rewrite Forall_forall in G4. rewrite <- (div_self_one m Hmf Hm0). apply G4.
    apply (in_map (fun v => PrimFloat.div v m)). exact Hmin. }
  split; [rewrite finish_row_FNum, (f_is_fin_false _ Hnf); reflexivity|].
  repeat (split; [assumption|]). split; [split; assumption | exact G4].
Qed.

Theorem finish_row_float_valid_overflow : forall row : list float,
  Forall finnn row ->
  (Z.of_nat (length row) < 2 ^ 53)%Z ->
  ~ Ffin (@sum FNum row) ->
  let out := @finish_row FNum row (@sum FNum row) in
  Fpinf (@sum FNum row) /\
  Forall fin01 out /\
  (* non-degenerate: the largest weight gets at least (the rounding of) 1/n *)
  exists y, In y out /\ rnd (/ INR (length row)) <= FR y /\ bpow radix2 (-53) <= FR y.
Proof.
  intros row Hrow Hlen Hnf out.
  split; [apply (sum_not_fin row Hrow Hnf)|].
  destruct (overflow_setup row Hrow Hlen Hnf)
    as [Hout [Hmf [Hm0 [Hmin [Hle [Hrow' [G1 [[Ht1 G3] G4]]]]]]]].
  unfold out. rewrite Hout.
  set (m := fold_left f_max row 0%float) in *.
  set (row' := map (fun v => PrimFloat.div v m) row) in *.
  set (total' := fold_left PrimFloat.add row' 0%float) in *.
  assert (Hone : In (m / m)%float row').
  { unfold row'. apply (in_map (fun v => PrimFloat.div v m)). exact Hmin. }
  assert (Ht0 : 0 < FR total') by lra.
  split.
  - apply map_div_valid; try assumption. apply Forall_fin01_finnn, Hrow'.
  - exists ((m / m) / total')%float. split.
    + apply (in_map (fun v => PrimFloat.div v total')). exact Hone.
    + assert (Hmm := div_self_one m Hmf Hm0).
      rewrite Forall_forall in Hrow'. destruct (Hrow' _ Hone) as [Hmmf _].
      destruct (div_part_ok (m / m)%float total' Hmmf G1 ltac:(lra) Ht0) as [_ He].
      rewrite He, Hmm.
      assert (Hn : / INR (length row) <= 1 / FR total').
      { unfold Rdiv. rewrite Rmult_1_l. apply Rinv_le_contravar; assumption. }
      split; [apply rnd_le; exact Hn|].
      apply rnd_ge_fmt; [apply fmt_bpow; lia|].
      apply Rle_trans with (2 := Hn).
      change (-53)%Z with (Z.opp 53). rewrite bpow_opp.
      apply Rinv_le_contravar; [lra|].
      rewrite INR_IZR_INZ. change (bpow radix2 53) with (IZR (2 ^ 53)).
      apply IZR_le. lia.
Qed.

Theorem finish_row_float_entries_overflow : forall row : list float,
  Forall finnn row ->
  (Z.of_nat (length row) < 2 ^ 53)%Z ->
  ~ Ffin (@sum FNum row) ->
  let out := @finish_row FNum row (@sum FNum row) in
  let m := fold_left (fmax FNum) row 0%float in
  let total' := @sum FNum (map (fun v => div FNum v m) row) in
  length out = length row /\
  Ffin m /\ 0 < FR m /\ In m row /\
  Ffin total' /\ 1 <= FR total' <= INR (length row) /\
  forall k, (k < length row)%nat ->
    let p := nth k row 0%float in
    let y := nth k out 0%float in
    y = ((p / m) / total')%float /\
    FR p <= FR m /\
    FR (p / m)%float = rnd (FR p / FR m) /\
    FR y = rnd (FR (p / m)%float / FR total') /\
    (FR p = 0 -> FR y = 0) /\
    (* the maximal weight gets at least 1/n *)
    (p = m -> rnd (/ INR (length row)) <= FR y) /\
    (* a weight that is not tiny against the maximum does not underflow to zero *)
    (bpow radix2 (-1021) * FR m <= FR p -> bpow radix2 (-1074) <= FR y).
Proof.
  intros row Hrow Hlen Hnf out m total'.
  split; [apply finish_row_length|].
  destruct (overflow_setup row Hrow Hlen Hnf)
    as [Hout [Hmf [Hm0 [Hmin [Hle [Hrow' [G1 [[Ht1 G3] G4]]]]]]]].
  change (fold_left f_max row 0%float) with m in *.
  change (fold_left PrimFloat.add (map (fun v => PrimFloat.div v m) row) 0%float)
    with total' in *.
  repeat (split; [assumption|]). split; [split; assumption|].
  intros k Hk p y.
  assert (Ht0 : 0 < FR total') by lra.
  assert (Hk' : (k < length (map (fun v => PrimFloat.div v m) row))%nat)
    by (rewrite map_length; exact Hk).
  destruct (nth_div_entry row m k p Hrow Hmf Hm0 Hle Hk eq_refl) as [Hq [Hpm [He1 [Hz1 _]]]].
  destruct (nth_div_entry _ total' k (p / m)%float (Forall_fin01_finnn _ Hrow') G1 Ht0 G4 Hk'
              (eq_sym Hq)) as [Hy [_ [He2 [Hz2 Hbig2]]]].
  assert (Hyy : y = ((p / m) / total')%float) by (unfold y, out; rewrite Hout; exact Hy).
  rewrite Hyy. split; [reflexivity|]. split; [exact Hpm|]. split; [exact He1|]. split; [exact He2|].
  split; [auto|]. split.
  - intros Hpeq. rewrite He2, Hpeq, (div_self_one m Hmf Hm0).
    apply rnd_le. unfold Rdiv. rewrite Rmult_1_l. apply Rinv_le_contravar; assumption.
  - intros Hbig. apply Hbig2, (not_tiny_len _ _ _ G3 Hlen).
    rewrite He1. apply rnd_ge_fmt; [apply fmt_bpow; lia | apply Rdiv_ge; assumption].
Qed.

Lemma sum_nonzero_cases : forall row : list float,
  Forall finnn row -> PrimFloat.eqb (@sum FNum row) 0 = false ->
  (Ffin (@sum FNum row) /\ 0 < FR (@sum FNum row)) \/ ~ Ffin (@sum FNum row).
Proof.
  intros row Hrow Hne.
  destruct (sum_nni row Hrow) as [[Hf H0]|Hi].
  - left. split; [exact Hf|].
    destruct (Rle_lt_or_eq_dec 0 _ H0) as [H|H]; [exact H|].
    exfalso. symmetry in H. apply (eqb_zero_fin _ Hf) in H. rewrite H in Hne. discriminate.
  - right. intros Hf. exact (Fpinf_not_fin _ Hi Hf).
Qed.

Theorem finish_row_float_valid : forall row : list float,
  Forall finnn row ->
  (Z.of_nat (length row) < 2 ^ 53)%Z ->
  eqb FNum (@sum FNum row) (zero FNum) = false ->
  Forall fin01 (@finish_row FNum row (@sum FNum row)).
Proof.
  intros row Hrow Hlen Hne.
  destruct (sum_nonzero_cases row Hrow Hne) as [[Hf Hpos]|Hnf].
  - apply finish_row_float_valid_fin; assumption.
  - apply (finish_row_float_valid_overflow row Hrow Hlen Hnf).
Qed.

Theorem finish_rows_float_valid : forall (rows : list (list float)) (d : list float),
  Forall (fun row => Forall finnn row /\ (Z.of_nat (length row) < 2 ^ 53)%Z) rows ->
  @finish_rows FNum rows = SOk d ->
  Forall fin01 d.
Proof.
  induction rows as [|row rest IH]; intros d Hrows Hd; cbn [finish_rows] in Hd.
  - inversion Hd. constructor.
  - inversion Hrows as [|r' l' [Hrow Hlen] Hrest]; subst.
    destruct (eqb FNum (@sum FNum row) (zero FNum)) eqn:Hne; [discriminate Hd|].
    destruct (@finish_rows FNum rest) as [r|e] eqn:Hr; [|discriminate Hd].
    inversion Hd; subst d.
    apply Forall_app. split.
    + apply finish_row_float_valid; assumption.
    + apply IH; [exact Hrest | reflexivity].
Qed.

Lemma sum_pos_pos : forall ws : list float,
  Forall finpos ws -> ws <> [] -> Ffin (@sum FNum ws) -> 0 < FR (@sum FNum ws).
Proof.
  intros [|w ws] Hws Hne Hf; [contradiction|].
  destruct (sum_fin_ge (w :: ws) (Forall_finpos_finnn _ Hws) Hf) as [_ Hge].
  inversion Hge as [|w' ws' Hw _]; subst. inversion Hws as [|w' ws' [_ Hw0] _]; subst. lra.
Qed.

Lemma sum_pos_nonzero : forall ws : list float,
  Forall finpos ws -> ws <> [] -> eqb FNum (@sum FNum ws) (zero FNum) = false.
Proof.
  intros ws Hws Hne. cbn [eqb zero FNum].
  destruct (sum_nni ws (Forall_finpos_finnn _ Hws)) as [[Hf _]|Hi].
  - apply (eqb_zero_false _ Hf), sum_pos_pos; assumption.
  - apply eqb_pinf_zero, Hi.
Qed.

Theorem normalise_float_valid : forall ws : list float,
  Forall finpos ws ->
  (Z.of_nat (length ws) < 2 ^ 53)%Z ->
  Forall fin01 (@normalise FNum ws).
Proof.
  intros ws Hws Hlen. rewrite normalise_finish_row.
  destruct ws as [|w ws].
  - rewrite finish_row_FNum. cbv zeta. cbn [map]. destruct (f_is_fin _); constructor.
  - apply finish_row_float_valid; [apply Forall_finpos_finnn, Hws | exact Hlen|].
    apply sum_pos_nonzero; [exact Hws | discriminate].
Qed.

(** Positivity of every probability, when no quotient underflows.  The side
    condition depends on the branch: against the sum when it is finite, against
    the maximum when the sum overflows.  Without it a probability can be zero:
    see [ex_normalise_underflow]. *)
Theorem normalise_float_pos : forall ws : list float,
  Forall finpos ws ->
  (Z.of_nat (length ws) < 2 ^ 53)%Z ->
  let total := @sum FNum ws in
  let m := fold_left (fmax FNum) ws 0%float in
  let out := @normalise FNum ws in
  length out = length ws /\
  forall k, (k < length ws)%nat ->
    let w := nth k ws 0%float in
    let y := nth k out 0%float in
    (Ffin total -> bpow radix2 (-1074) * FR total <= FR w -> bpow radix2 (-1074) <= FR y) /\
    (~ Ffin total -> bpow radix2 (-1021) * FR m <= FR w -> bpow radix2 (-1074) <= FR y).
Proof.
  intros ws Hws Hlen total m out. unfold out. rewrite normalise_finish_row.
  split; [apply finish_row_length|].
  intros k Hk.
  assert (Hne : ws <> []) by (intros ->; cbn [length] in Hk; lia).
  assert (Hnn : Forall finnn ws) by (apply Forall_finpos_finnn; exact Hws).
  split.
  - intros Hf Hbig.
    destruct (finish_row_float_entries_fin ws Hnn Hf (sum_pos_pos ws Hws Hne Hf)) as [_ He].
    apply (He k Hk), Hbig.
  - intros Hnf Hbig.
    destruct (finish_row_float_entries_overflow ws Hnn Hlen Hnf) as [_ [_ [_ [_ [_ [_ He]]]]]].
    apply (He k Hk), Hbig.
Qed.

Lemma Forall_repeatT : forall (P : float -> Prop) (x : float) (n : nat),
  P x -> Forall P (@repeatT FNum x n).
Proof. intros P x n Hx. induction n as [|n IH]; cbn [repeatT]; constructor; assumption. Qed.

Lemma uniform_entry : forall l : list float,
  (0 < length l)%nat -> (Z.of_nat (length l) < 2 ^ 53)%Z ->
  fin01 (div FNum (one FNum) (@lenT FNum l)) /\
  FR (div FNum (one FNum) (@lenT FNum l)) = rnd (1 / INR (length l)).
Proof.
  intros l Hpos Hlen.
  change (@lenT FNum l) with (f_of_N (N.of_nat (length l))). cbn [div one FNum].
  destruct (of_N_ok (length l) Hlen) as [Hf He].
  assert (H1 : 1 <= INR (length l)) by (change 1 with (INR 1); apply le_INR; lia).
  rewrite <- FR_one, <- He.
  apply (div_part_ok 1%float _ Ffin_one Hf); rewrite ?FR_one, ?He; lra.
Qed.

Lemma uniform_valid : forall l : list float,
  (Z.of_nat (length l) < 2 ^ 53)%Z ->
  Forall fin01 (@repeatT FNum (div FNum (one FNum) (@lenT FNum l)) (length l)).
Proof.
  intros l Hlen. destruct (Nat.eq_dec (length l) 0) as [E|E]; [rewrite E; constructor|].
  apply Forall_repeatT, uniform_entry; [lia | exact Hlen].
Qed.

Lemma div_fin_pinf : forall p t, Ffin p -> Fpinf t ->
  Ffin (p / t)%float /\ FR (p / t)%float = 0.
Proof.
  intros p t Hp Ht. unfold Ffin, FR, Fpinf in *. rewrite div_equiv, Ht.
  destruct (Prim2B p) as [s|s| |s m e He]; try discriminate Hp; split; reflexivity.
Qed.

Lemma zero_fin01 : forall y, Ffin y /\ FR y = 0 -> fin01 y.
Proof. intros y [Hf H0]. split; [exact Hf | rewrite H0; lra]. Qed.

Lemma map_div_pinf : forall (row : list float) (t : float),
  Forall Ffin row -> Fpinf t -> Forall fin01 (map (fun v => PrimFloat.div v t) row).
Proof.
  intros row t Hrow Ht. apply Forall_map. apply Forall_impl with (2 := Hrow).
  intros p Hp. apply zero_fin01, div_fin_pinf; assumption.
Qed.

Lemma avg_strat_FNum : forall cum : list float,
  @avg_strat FNum cum =
  if PrimFloat.eqb (@sum FNum cum) 0
  then @repeatT FNum (div FNum (one FNum) (@lenT FNum cum)) (length cum)
  else map (fun p => PrimFloat.div p (@sum FNum cum)) cum.
Proof. reflexivity. Qed.

(** every case, including an overflowing sum (then every entry is a zero: valid
    entries, although not a distribution) *)
Theorem avg_strat_float_valid : forall cum : list float,
  Forall finnn cum ->
  (Z.of_nat (length cum) < 2 ^ 53)%Z ->
  Forall fin01 (@avg_strat FNum cum).
Proof.
  intros cum Hcum Hlen. rewrite avg_strat_FNum.
  destruct (PrimFloat.eqb (@sum FNum cum) 0) eqn:Hz; [apply uniform_valid; exact Hlen|].
  destruct (sum_nonzero_cases cum Hcum Hz) as [[Hf Hpos]|Hnf].
  - destruct (sum_fin_ge cum Hcum Hf) as [_ Hge]. apply map_div_valid; assumption.
  - apply map_div_pinf; [apply Forall_finnn_Ffin, Hcum | apply (sum_not_fin cum Hcum Hnf)].
Qed.

Lemma repeatT_length : forall (x : float) (n : nat), length (@repeatT FNum x n) = n.
Proof. intros x n. induction n as [|n IH]; cbn [repeatT length]; [reflexivity | f_equal; exact IH]. Qed.

Lemma repeatT_In : forall (x y : float) (n : nat), In y (@repeatT FNum x n) -> y = x.
Proof.
  intros x y n. induction n as [|n IH]; cbn [repeatT]; [intros []|].
  intros [H|H]; [symmetry; exact H | apply IH; exact H].
Qed.

Theorem avg_strat_float_entries : forall cum : list float,
  Forall finnn cum ->
  (Z.of_nat (length cum) < 2 ^ 53)%Z ->
  Ffin (@sum FNum cum) ->
  let norm := @sum FNum cum in
  let out := @avg_strat FNum cum in
  length out = length cum /\
  (FR norm = 0 ->
     forall y, In y out -> FR y = rnd (1 / INR (length cum))) /\
  (0 < FR norm ->
     forall k, (k < length cum)%nat ->
       FR (nth k cum 0%float) <= FR norm /\
       FR (nth k out 0%float) = rnd (FR (nth k cum 0%float) / FR norm)).
Proof.
  intros cum Hcum Hlen Hf norm out.
  destruct (sum_fin_ge cum Hcum Hf) as [_ Hge]. fold norm in Hge, Hf.
  unfold out. rewrite avg_strat_FNum. fold norm.
  split; [|split].
  - destruct (PrimFloat.eqb norm 0); [apply repeatT_length | apply map_length].
  - intros Hz. rewrite (proj2 (eqb_zero_fin norm Hf) Hz).
    intros y Hy. rewrite (repeatT_In _ _ _ Hy).
    apply uniform_entry; [|exact Hlen].
    destruct (length cum); [destruct Hy | lia].
  - intros Hpos k Hk. rewrite (eqb_zero_false norm Hf Hpos).
    destruct (nth_div_entry cum norm k _ Hcum Hf Hpos Hge Hk eq_refl) as [Hy [Hpt [He _]]].
    split; [exact Hpt|]. rewrite <- He. apply f_equal. exact Hy.
Qed.

Lemma Forall_one_hot : forall (n i k : nat), Forall fin01 (@one_hot_at FNum n i k).
Proof.
  induction n as [|n IH]; intros i k; cbn [one_hot_at]; constructor; [|apply IH].
  destruct (Nat.eqb i k); cbn [one zero FNum]; [|apply fin01_zero].
  split; [apply Ffin_one | rewrite FR_one; lra].
Qed.

Definition posb (v : float) : bool := PrimFloat.ltb 0 v.

Lemma regret_match_pos : forall (p : @params FNum) (cum_reg : list float),
  PrimFloat.ltb 0 (@sum FNum (filter posb cum_reg)) = true ->
  @regret_match FNum p cum_reg =
  map (fun r => if posb r then PrimFloat.div r (@sum FNum (filter posb cum_reg)) else 0%float)
      cum_reg.
Proof.
  intros p cum_reg H. unfold regret_match. cbv zeta.
  change (ltb FNum (zero FNum) (@sum FNum (filter (fun v => ltb FNum (zero FNum) v) cum_reg)))
    with (PrimFloat.ltb 0 (@sum FNum (filter posb cum_reg))).
  rewrite H. reflexivity.
Qed.

Lemma posb_finpos : forall r, Ffin r -> posb r = true -> finpos r.
Proof. intros r Hr Hp. split; [exact Hr | apply (ltb_zero_pos r Hr); exact Hp]. Qed.

Lemma filter_posb_finnn : forall l, Forall Ffin l -> Forall finnn (filter posb l).
Proof.
  intros l Hl. induction Hl as [|x l Hx Hl IH]; cbn [filter]; [constructor|].
  destruct (posb x) eqn:Hp; [|exact IH].
  constructor; [apply finpos_finnn, posb_finpos; assumption | exact IH].
Qed.

Lemma ltb_zero_pinf : forall t, Fpinf t -> PrimFloat.ltb 0 t = true.
Proof. intros t Ht. rewrite ltb_equiv, Prim2B_zero. unfold Fpinf in Ht. rewrite Ht. reflexivity. Qed.

(** the main branch: the positive regrets divided by their sum.  Any signs, no
    hypothesis on overflow: if the sum of the positive regrets overflows the row
    is all zeros (valid entries, not a distribution). *)
Theorem regret_match_float_main : forall (p : @params FNum) (cum_reg : list float),
  Forall Ffin cum_reg ->
  let norm := @sum FNum (filter (fun v => ltb FNum (zero FNum) v) cum_reg) in
  let out := @regret_match FNum p cum_reg in
  ltb FNum (zero FNum) norm = true ->
  Forall fin01 out /\
  length out = length cum_reg /\
  (Ffin norm /\ 0 < FR norm \/ Fpinf norm) /\
  forall k, (k < length cum_reg)%nat ->
    let r := nth k cum_reg 0%float in
    let y := nth k out 0%float in
    (* non-positive regret: exactly +0 *)
    (ltb FNum (zero FNum) r = false -> y = 0%float) /\
    (* positive regret: the correctly rounded quotient *)
    (ltb FNum (zero FNum) r = true -> Ffin norm ->
       FR r <= FR norm /\ FR y = rnd (FR r / FR norm)) /\
    (ltb FNum (zero FNum) r = true -> Fpinf norm -> FR y = 0).
Proof.
  intros p cum_reg Hcr norm out Hpos.
  change (fun v : T FNum => ltb FNum (zero FNum) v) with posb in norm.
  cbn [ltb zero FNum] in *.
  assert (Hout : out = map (fun r => if posb r then PrimFloat.div r norm else 0%float) cum_reg).
  { apply regret_match_pos. exact Hpos. }
  assert (Hk : Forall finnn (filter posb cum_reg)) by (apply filter_posb_finnn; exact Hcr).
  assert (Hcases : Ffin norm /\ 0 < FR norm \/ Fpinf norm).
  { destruct (sum_nni _ Hk) as [[Hf _]|Hi]; [left | right; exact Hi].
    split; [exact Hf | apply (ltb_zero_pos norm Hf); exact Hpos]. }
  rewrite Forall_forall in Hcr.
  assert (Hent : forall r, In r cum_reg -> posb r = true ->
            (Ffin norm -> FR r <= FR norm /\
               fin01 (r / norm)%float /\ FR (r / norm)%float = rnd (FR r / FR norm)) /\
            (Fpinf norm -> Ffin (r / norm)%float /\ FR (r / norm)%float = 0)).
  { intros r Hr Hp. destruct (posb_finpos r (Hcr r Hr) Hp) as [Hrf Hr0].
    split; [|apply div_fin_pinf; exact Hrf].
    intros Hf. destruct (sum_fin_ge _ Hk Hf) as [_ Hge]. rewrite Forall_forall in Hge.
    assert (Hrn : FR r <= FR norm) by (apply Hge, filter_In; split; assumption).
    split; [exact Hrn|]. apply (div_part_ok r norm Hrf Hf); lra. }
  split; [|split; [|split; [exact Hcases|]]].
  - rewrite Hout. apply Forall_map, Forall_forall. intros r Hin.
    destruct (posb r) eqn:Hp; [|apply fin01_zero].
    destruct (Hent r Hin Hp) as [E1 E2].
    destruct Hcases as [[Hf _]|Hi]; [apply (E1 Hf) | apply zero_fin01, (E2 Hi)].
  - rewrite Hout. apply map_length.
  - intros k Hlt. set (r := nth k cum_reg 0%float). set (y := nth k out 0%float).
    assert (Hy : y = if posb r then PrimFloat.div r norm else 0%float).
    { unfold y. rewrite Hout.
      apply (nth_map_lt (fun r => if posb r then PrimFloat.div r norm else 0%float)). exact Hlt. }
    assert (Hin : In r cum_reg) by (apply nth_In; exact Hlt).
    fold (posb r). rewrite Hy.
    destruct (posb r) eqn:Hp; [|repeat split; try discriminate; reflexivity].
    destruct (Hent r Hin Hp) as [E1 E2].
    split; [discriminate|]. split; intros _ H; [|apply (E2 H)].
    destruct (E1 H) as [Hrn [_ He]]. split; assumption.
Qed.

(** all the branches that do not go through [exp] *)
Theorem regret_match_float_valid : forall (p : @params FNum) (cum_reg : list float),
  Forall Ffin cum_reg ->
  (Z.of_nat (length cum_reg) < 2 ^ 53)%Z ->
  let norm := @sum FNum (filter (fun v => ltb FNum (zero FNum) v) cum_reg) in
  (ltb FNum (zero FNum) norm = true \/
   match a_nopos p with Fin w => eqb FNum w (zero FNum) = true | _ => True end) ->
  Forall fin01 (@regret_match FNum p cum_reg).
Proof.
  intros p cum_reg Hcr Hlen norm Hbr.
  destruct (ltb FNum (zero FNum) norm) eqn:Hpos.
  - apply (regret_match_float_main p cum_reg Hcr Hpos).
  - destruct Hbr as [Hbr|Hbr]; [discriminate Hbr|].
    unfold regret_match. cbv zeta. unfold norm in Hpos. rewrite Hpos.
    destruct (a_nopos p) as [|w|].
    + destruct cum_reg; [constructor | apply Forall_one_hot].
    + rewrite Hbr. apply uniform_valid. exact Hlen.
    + destruct cum_reg; [constructor | apply Forall_one_hot].
Qed.

Theorem regret_match_float_nopos : forall cum_reg : list float,
  Forall Ffin cum_reg ->
  ltb FNum (zero FNum) (@sum FNum (filter (fun v => ltb FNum (zero FNum) v) cum_reg)) = false ->
  forall r, In r cum_reg -> FR r <= 0.
Proof.
  intros cum_reg Hcr Hnp0 r Hr.
  assert (Hnp : PrimFloat.ltb 0 (@sum FNum (filter posb cum_reg)) = false) by exact Hnp0.
  clear Hnp0.
  assert (Hk : Forall finnn (filter posb cum_reg)) by (apply filter_posb_finnn; exact Hcr).
  destruct (sum_nni _ Hk) as [[Hf Hn0]|Hi]; [|rewrite (ltb_zero_pinf _ Hi) in Hnp; discriminate].
  destruct (Rle_or_lt (FR r) 0) as [H|H]; [exact H|]. exfalso.
  rewrite Forall_forall in Hcr.
  assert (Hp : posb r = true) by (apply (ltb_zero_pos r (Hcr r Hr)); exact H).
  destruct (sum_fin_ge _ Hk Hf) as [_ Hge]. rewrite Forall_forall in Hge.
  assert (Hrn : FR r <= FR (@sum FNum (filter posb cum_reg))) by (apply Hge, filter_In; split; assumption).
  rewrite (proj2 (ltb_zero_pos _ Hf)) in Hnp by lra. discriminate.
Qed.

Theorem finish_row_float_sum : forall row : list float,
  Forall finnn row ->
  (Z.of_nat (length row) < 2 ^ 53)%Z ->
  eqb FNum (@sum FNum row) (zero FNum) = false ->
  Rabs (RS (@finish_row FNum row (@sum FNum row)) - 1)
  <= (2 * INR (length row) + 2) * bpow radix2 (-53).
Proof.
  intros row Hrow Hlen Hne.
  destruct (sum_nonzero_cases row Hrow Hne) as [[Hf Hpos]|Hnf].
  - rewrite (finish_row_fin _ _ Hf).
    apply norm_row_sum; [apply Forall_finnn_nonneg|..]; assumption.
  - destruct (overflow_setup row Hrow Hlen Hnf)
      as [Hout [_ [_ [_ [_ [Hrow' [G1 [[Ht1 _] _]]]]]]]].
    rewrite Hout.
    set (row' := map (fun v => PrimFloat.div v (fold_left f_max row 0%float)) row) in *.
    assert (Hlen' : length row' = length row) by apply map_length.
    rewrite <- Hlen'.
    apply (norm_row_sum row'); [apply fin01_nonneg, Hrow' | rewrite Hlen'; exact Hlen | exact G1|].
    change (0 < FR (fold_left PrimFloat.add row' 0%float)). lra.
Qed.

Theorem normalise_float_sum : forall ws : list float,
  Forall finpos ws -> ws <> [] ->
  (Z.of_nat (length ws) < 2 ^ 53)%Z ->
  Rabs (RS (@normalise FNum ws) - 1) <= (2 * INR (length ws) + 2) * bpow radix2 (-53).
Proof.
  intros ws Hws Hne Hlen. rewrite normalise_finish_row.
  apply finish_row_float_sum; [apply Forall_finpos_finnn; exact Hws | exact Hlen|].
  apply sum_pos_nonzero; assumption.
Qed.

Theorem avg_strat_float_sum : forall cum : list float,
  Forall finnn cum ->
  (Z.of_nat (length cum) < 2 ^ 53)%Z ->
  Ffin (@sum FNum cum) -> 0 < FR (@sum FNum cum) ->
  Rabs (RS (@avg_strat FNum cum) - 1) <= (2 * INR (length cum) + 2) * bpow radix2 (-53).
Proof.
  intros cum Hcum Hlen Hf Hpos. rewrite avg_strat_FNum, (eqb_zero_false _ Hf Hpos).
  apply norm_row_sum; [apply Forall_finnn_nonneg|..]; assumption.
Qed.

Theorem regret_match_float_sum : forall (p : @params FNum) (cum_reg : list float),
  Forall Ffin cum_reg ->
  (Z.of_nat (length cum_reg) < 2 ^ 53)%Z ->
  let norm := @sum FNum (filter (fun v => ltb FNum (zero FNum) v) cum_reg) in
  Ffin norm -> 0 < FR norm ->
  Rabs (RS (@regret_match FNum p cum_reg) - 1)
  <= (2 * INR (length cum_reg) + 2) * bpow radix2 (-53).
Proof.
  intros p cum_reg Hcr Hlen norm Hf Hpos.
  assert (Hf' : Ffin (@sum FNum (filter posb cum_reg))) by exact Hf.
  assert (Hpos' : 0 < FR (@sum FNum (filter posb cum_reg))) by exact Hpos.
  rewrite (regret_match_pos p cum_reg (proj2 (ltb_zero_pos _ Hf') Hpos')).
  apply (filter_div_sum posb cum_reg); try assumption.
  apply Forall_finnn_nonneg, filter_posb_finnn, Hcr.
Qed.

Lemma forallb_finnnb : forall row : list float,
  forallb finnnb row = true -> Forall finnn row.
Proof.
  intros row H. apply Forall_forall. intros x Hx.
  apply finnnb_spec. rewrite forallb_forall in H. apply H. exact Hx.
Qed.

(** 2^1023 + 2^1023 overflows: the repaired branch gives the uniform row *)
Definition ex_huge : list float := [0x1p+1023; 0x1p+1023]%float.

Example ex_huge_finnn : Forall finnn ex_huge.
Proof. apply forallb_finnnb. vm_compute. reflexivity. Qed.

Example ex_huge_sum : @sum FNum ex_huge = infinity.
Proof. vm_compute. reflexivity. Qed.

Example ex_finish_huge : @finish_row FNum ex_huge (@sum FNum ex_huge) = [0.5; 0.5]%float.
Proof. vm_compute. reflexivity. Qed.

(** what the unrepaired code computed on the same input: [v / inf = 0] *)
Example ex_finish_huge_unrepaired :
  map (fun v => PrimFloat.div v (@sum FNum ex_huge)) ex_huge = [0; 0]%float.
Proof. vm_compute. reflexivity. Qed.

Example ex_finish_huge_valid : Forall fin01 (@finish_row FNum ex_huge (@sum FNum ex_huge)).
Proof.
  apply finish_row_float_valid; [exact ex_huge_finnn | vm_compute; reflexivity | vm_compute; reflexivity].
Qed.

(** 1e308 is not a binary64 number; the nearest one is written exactly *)
Definition f1e308 : float := 0x1.1ccf385ebc8a0p+1023%float.

Example ex_normalise_1e308 : @normalise FNum [f1e308; f1e308] = [0.5; 0.5]%float.
Proof. vm_compute. reflexivity. Qed.

(** a chance probability can underflow to zero (the note in DESIGN):
    [5e-324; 1e308] gives [0; 1] *)
Example ex_normalise_underflow : @normalise FNum [0x1p-1074; f1e308]%float = [0; 1]%float.
Proof. vm_compute. reflexivity. Qed.

(** and in the overflow branch as well *)
Example ex_normalise_underflow_overflow :
  @normalise FNum [0x1p-1074; 0x1p+1023; 0x1p+1023]%float = [0; 0.5; 0.5]%float.
Proof. vm_compute. reflexivity. Qed.

Example ex_avg_strat : @avg_strat FNum [3; 1; 0; 4]%float = [0.375; 0.125; 0; 0.5]%float.
Proof. vm_compute. reflexivity. Qed.

Example ex_avg_strat_zero : @avg_strat FNum [0; 0; 0; 0]%float = [0.25; 0.25; 0.25; 0.25]%float.
Proof. vm_compute. reflexivity. Qed.

(** an overflowing sum of cumulative strategies gives an all-zero row: valid
    entries, not a distribution *)
Example ex_avg_strat_overflow : @avg_strat FNum ex_huge = [0; 0]%float.
Proof. vm_compute. reflexivity. Qed.

Definition ex_params : @params FNum := @mkParams FNum (@Fin FNum 1.5%float) (@Fin FNum 0%float) (@Fin FNum 2%float) (@Fin FNum 0%float).

Example ex_regret_match :
  @regret_match FNum ex_params [3; -2; 1; 0; -0]%float = [0.75; 0; 0.25; 0; 0]%float.
Proof. vm_compute. reflexivity. Qed.

Example ex_regret_match_nopos_uniform :
  @regret_match FNum ex_params [-3; -2; 0; -1]%float = [0.25; 0.25; 0.25; 0.25]%float.
Proof. vm_compute. reflexivity. Qed.

Example ex_regret_match_nopos_argmax :
  @regret_match FNum (@mkParams FNum (@Fin FNum 1.5%float) (@Fin FNum 0%float) (@Fin FNum 2%float) (@PosInf FNum))
     [-3; -1; -2; -1]%float = [0; 0; 0; 1]%float.
Proof. vm_compute. reflexivity. Qed.

(** positive regrets whose sum overflows: an all-zero row *)
Example ex_regret_match_overflow :
  @regret_match FNum ex_params [0x1p+1023; -1; 0x1p+1023]%float = [0; 0; 0]%float.
Proof. vm_compute. reflexivity. Qed.

Example ex_regret_match_valid :
  Forall fin01 (@regret_match FNum ex_params [3; -2; 1; 0; -0]%float).
Proof.
  apply regret_match_float_valid.
  - repeat constructor; vm_compute; reflexivity.
  - vm_compute. reflexivity.
  - left. vm_compute. reflexivity.
Qed.
