(** * FromRootProofs: [from_root] accepts exactly the documented class of games (C11).

    An accepted game is well formed and has perfect recall (for every [Num] instance) and,
    over the reals, chance tables of positive probabilities that sum to one; a rejected tree
    violates the rule its error names; acceptance is equivalent to a declarative contract
    on the raw tree.

    Two traversals of [init] carry everything.  [init_inv] follows a successful call: the
    tables only grow, stay well formed, the node produced fits them, and every node
    occurrence of the raw subtree is registered in them.  [init_blame] follows any call:
    every table entry comes from an occurrence, and an error names two occurrences (or
    one) that break a rule. *)
From Coq Require Import Reals List NArith Bool Arith Lia Lra.
From Cfr.theories Require Import Num ListAux RInst Tree GameWF Strat Valid StratAgreeProofs FromRootGeneric.
Import ListNotations.
Local Open Scope nat_scope.

Lemma find_index_None {A} (f : A -> bool) l :
  find_index f l = None -> forall x, In x l -> f x = false.
Proof. apply find_index_none. Qed.

Lemma find_index_None_inv {A} (f : A -> bool) l :
  (forall x, In x l -> f x = false) -> find_index f l = None.
Proof. apply find_index_none. Qed.

Lemma find_index_app_Some {A} (f : A -> bool) l c r :
  find_index f l = Some r -> find_index f (l ++ c) = Some r.
Proof.
  revert r. induction l as [|y l IH]; intros r H; cbn [find_index app] in *; [discriminate|].
  destruct (f y); [assumption|].
  destruct (find_index f l) as [[j z]|]; [|discriminate].
  now rewrite (IH _ eq_refl).
Qed.

Lemma find_index_app_None {A} (f : A -> bool) l x :
  find_index f l = None -> f x = true -> find_index f (l ++ [x]) = Some (length l, x).
Proof.
  induction l as [|y l IH]; intros H Hx; cbn [find_index app length] in *.
  - now rewrite Hx.
  - destruct (f y); [discriminate|].
    destruct (find_index f l) as [[j z]|]; [discriminate|].
    now rewrite (IH eq_refl Hx).
Qed.

Lemma existsb_false_all {A} (f : A -> bool) l :
  existsb f l = false -> forall x, In x l -> f x = false.
Proof.
  intros H x Hx. destruct (f x) eqn:E; [|reflexivity].
  assert (existsb f l = true) by (apply existsb_exists; eauto). congruence.
Qed.

Lemma list_eqb_length {A} (eq : A -> A -> bool) a : forall b,
  list_eqb eq a b = true -> length a = length b.
Proof.
  induction a as [|x a IH]; intros [|y b] H; cbn [list_eqb] in H; try easy.
  apply andb_true_iff in H as [_ H]. cbn [length]. apply f_equal. now apply IH.
Qed.

Lemma prev_eqb_eq a b : prev_eqb a b = true <-> a = b.
Proof.
  destruct a as [[i x]|], b as [[j y]|]; cbn [prev_eqb]; try easy.
  rewrite andb_true_iff, !Nat.eqb_eq. split; [intros [-> ->]; reflexivity|].
  intros H; inversion H; auto.
Qed.

Lemma NoDup_insert {A} (a b : list A) x :
  NoDup (a ++ b) -> ~ In x (a ++ b) -> NoDup (a ++ x :: b).
Proof. intros H Hx. now apply (NoDup_Add (Add_app x a b)). Qed.

Lemma NoDup_map_fst_inj {A B} (l : list (A * B)) x a b :
  NoDup (map fst l) -> In (x, a) l -> In (x, b) l -> a = b.
Proof.
  induction l as [|[y c] l IH]; intros Hnd Ha Hb; [destruct Ha|].
  apply NoDup_cons_iff in Hnd as [Hy Hr].
  destruct Ha as [[= -> ->]|Ha], Hb as [[= ->]|Hb]; [reflexivity| | |now apply IH].
  - destruct Hy. exact (in_map fst l _ Hb).
  - destruct Hy. exact (in_map fst l _ Ha).
Qed.

Definition last_opt {A} (h : list A) : option A := last (map Some h) None.

Lemma last_opt_snoc {A} (h : list A) x : last_opt (h ++ [x]) = Some x.
Proof. unfold last_opt. rewrite map_app. cbn [map]. apply last_last. Qed.

Fixpoint flat_mapi {A B} (f : nat -> A -> list B) (a : nat) (l : list A) : list B :=
  match l with
  | [] => []
  | x :: r => f a x ++ flat_mapi f (S a) r
  end.

Lemma in_flat_mapi {A B} (f : nat -> A -> list B) y l : forall a,
  In y (flat_mapi f a l) <-> exists j x, nth_error l j = Some x /\ In y (f (a + j) x).
Proof.
  induction l as [|x r IH]; intros a; cbn [flat_mapi].
  - split; [intros []|intros ([|j] & x & E & _); discriminate E].
  - rewrite in_app_iff, IH. split.
    + intros [H|(j & x' & E & H)].
      * exists 0, x. rewrite Nat.add_0_r. now split.
      * exists (S j), x'. rewrite Nat.add_succ_r. now split.
    + intros ([|j] & x' & E & H); cbn [nth_error] in E.
      * injection E as <-. rewrite Nat.add_0_r in H. now left.
      * right. exists j, x'. rewrite Nat.add_succ_r in H. now split.
Qed.

Definition own {A} (pl : bool) (h1 h2 : A) : A := if pl then h1 else h2.

Lemma bool_cases (q pl : bool) : q = pl \/ q = negb pl.
Proof. destruct q, pl; auto. Qed.

Lemma chain_unique {K} (M : bool -> K -> list (K * nat) -> Prop) :
  (forall pl k h, M pl k h -> h = [] \/ exists h0 j a, h = h0 ++ [(j, a)] /\ M pl j h0) ->
  (forall pl k h h', M pl k h -> M pl k h' -> last_opt h = last_opt h') ->
  forall pl k h h', M pl k h -> M pl k h' -> h = h'.
Proof.
  intros Hchain Hlast pl k h. remember (length h) as n eqn:En. revert k h En.
  induction n as [n IH] using lt_wf_ind. intros k h En h' Hh Hh'.
  pose proof (Hlast pl k h h' Hh Hh') as E.
  destruct (Hchain pl k h Hh) as [->|(h0 & j & a & -> & H0)];
    destruct (Hchain pl k h' Hh') as [->|(h0' & j' & a' & -> & H0')];
    rewrite ?last_opt_snoc in E; try discriminate E; [reflexivity|].
  injection E as <- <-. f_equal. refine (IH (length h0) _ j h0 eq_refl h0' H0 H0').
  rewrite En, app_length. cbn [length]. lia.
Qed.

Section Gen.
  Context {NN : Num}.
  Local Notation T := (T NN).
  Local Notation gnode := (@gnode NN).
  Local Notation node := (@node NN).
  Local Notation bst := (@bst NN).
  Local Notation game := (@game NN).

  Definition dpi : pinfo := mkPinfo 0%N [] None.

  Lemma b_infos_set_infos_same (s : bst) pl l : b_infos (set_infos s pl l) pl = l.
  Proof. destruct pl; reflexivity. Qed.
  Lemma b_infos_set_infos_other (s : bst) pl l : b_infos (set_infos s pl l) (negb pl) = b_infos s (negb pl).
  Proof. destruct pl; reflexivity. Qed.
  Lemma b_singles_set_infos (s : bst) pl l q : b_singles (set_infos s pl l) q = b_singles s q.
  Proof. destruct pl, q; reflexivity. Qed.
  Lemma b_chance_set_infos (s : bst) pl l : b_chance (set_infos s pl l) = b_chance s.
  Proof. destruct pl; reflexivity. Qed.
  Lemma b_singles_set_singles_same (s : bst) pl l : b_singles (set_singles s pl l) pl = l.
  Proof. destruct pl; reflexivity. Qed.
  Lemma b_singles_set_singles_other (s : bst) pl l :
    b_singles (set_singles s pl l) (negb pl) = b_singles s (negb pl).
  Proof. destruct pl; reflexivity. Qed.
  Lemma b_infos_set_singles (s : bst) pl l q : b_infos (set_singles s pl l) q = b_infos s q.
  Proof. destruct pl, q; reflexivity. Qed.
  Lemma b_chance_set_singles (s : bst) pl l : b_chance (set_singles s pl l) = b_chance s.
  Proof. destruct pl; reflexivity. Qed.
  Lemma b_infos_set_chance (s : bst) l q : b_infos (set_chance s l) q = b_infos s q.
  Proof. destruct q; reflexivity. Qed.
  Lemma b_singles_set_chance (s : bst) l q : b_singles (set_chance s l) q = b_singles s q.
  Proof. destruct q; reflexivity. Qed.
  Lemma b_chance_set_chance (s : bst) l : b_chance (set_chance s l) = l.
  Proof. reflexivity. Qed.

  Definition ext (s s' : bst) : Prop :=
    (exists c, b_chance s' = b_chance s ++ c) /\
    (forall pl, exists l, b_infos s' pl = b_infos s pl ++ l) /\
    (forall pl, exists l, b_singles s' pl = b_singles s pl ++ l).

  Lemma ext_refl s : ext s s.
  Proof.
    repeat split; [exists []|intros pl; exists []|intros pl; exists []]; now rewrite app_nil_r.
  Qed.

  Lemma ext_trans s1 s2 s3 : ext s1 s2 -> ext s2 s3 -> ext s1 s3.
  Proof.
    intros (A1 & B1 & C1) (A2 & B2 & C2). repeat split.
    - destruct A1 as [c1 E1], A2 as [c2 E2]. exists (c1 ++ c2). now rewrite E2, E1, app_assoc.
    - intros pl. destruct (B1 pl) as [c1 E1], (B2 pl) as [c2 E2].
      exists (c1 ++ c2). now rewrite E2, E1, app_assoc.
    - intros pl. destruct (C1 pl) as [c1 E1], (C2 pl) as [c2 E2].
      exists (c1 ++ c2). now rewrite E2, E1, app_assoc.
  Qed.

  Lemma ext_set_chance s x : ext s (set_chance s (b_chance s ++ x)).
  Proof.
    repeat split; [exists x; reflexivity|intros pl; exists []|intros pl; exists []].
    - now rewrite b_infos_set_chance, app_nil_r.
    - now rewrite b_singles_set_chance, app_nil_r.
  Qed.

  Lemma ext_set_infos s pl x : ext s (set_infos s pl (b_infos s pl ++ x)).
  Proof.
    repeat split.
    - exists []. now rewrite b_chance_set_infos, app_nil_r.
    - intros q. destruct pl, q; cbn; eauto; exists []; now rewrite app_nil_r.
    - intros q. exists []. now rewrite b_singles_set_infos, app_nil_r.
  Qed.

  Lemma ext_set_singles s pl x : ext s (set_singles s pl (b_singles s pl ++ x)).
  Proof.
    repeat split.
    - exists []. now rewrite b_chance_set_singles, app_nil_r.
    - intros q. exists []. now rewrite b_infos_set_singles, app_nil_r.
    - intros q. destruct pl, q; cbn; eauto; exists []; now rewrite app_nil_r.
  Qed.

  Lemma ext_infos_length s s' pl : ext s s' -> length (b_infos s pl) <= length (b_infos s' pl).
  Proof. intros (_ & B & _). destruct (B pl) as [l E]. rewrite E, app_length. lia. Qed.

  Lemma ext_infos_nth s s' pl i :
    ext s s' -> i < length (b_infos s pl) -> nth i (b_infos s' pl) dpi = nth i (b_infos s pl) dpi.
  Proof. intros (_ & B & _) Hi. destruct (B pl) as [l E]. rewrite E. now apply app_nth1. Qed.

  Lemma ext_infos_at s s' pl i pi :
    ext s s' -> i < length (b_infos s pl) -> nth i (b_infos s pl) dpi = pi ->
    i < length (b_infos s' pl) /\ nth i (b_infos s' pl) dpi = pi.
  Proof.
    intros He Hi <-. split; [pose proof (ext_infos_length s s' pl He); lia|now apply ext_infos_nth].
  Qed.

  Lemma ext_singles_In s s' pl e : ext s s' -> In e (b_singles s pl) -> In e (b_singles s' pl).
  Proof. intros (_ & _ & C) H. destruct (C pl) as [l E]. rewrite E. apply in_or_app. now left. Qed.

  Definition IdxOrd (s : bst) : Prop :=
    forall pl i j a, i < length (b_infos s pl) ->
                     pi_prev (nth i (b_infos s pl) dpi) = Some (j, a) -> j < i.

  Definition GInv (s : bst) : Prop :=
    (forall pl, WFtables (b_infos s pl) (b_singles s pl)) /\ IdxOrd s.

  Definition PrevOK (prev : pprev) (s : bst) : Prop :=
    forall pl j a, get_prev prev pl = Some (j, a) -> j < length (b_infos s pl).

  Lemma PrevOK_empty s : PrevOK (None, None) s.
  Proof. intros [|] j a E; discriminate E. Qed.

  Lemma PrevOK_ext prev s s' : ext s s' -> PrevOK prev s -> PrevOK prev s'.
  Proof.
    intros He H pl j a E. specialize (H pl j a E).
    pose proof (ext_infos_length s s' pl He). lia.
  Qed.

  Lemma PrevOK_set_singles prev s pl l : PrevOK prev s -> PrevOK prev (set_singles s pl l).
  Proof. intros H q j a E. rewrite b_infos_set_singles. eapply H; eassumption. Qed.

  Lemma get_set_prev_same prev pl v : get_prev (set_prev prev pl v) pl = v.
  Proof. destruct pl; reflexivity. Qed.
  Lemma get_set_prev_other prev pl v : get_prev (set_prev prev pl v) (negb pl) = get_prev prev (negb pl).
  Proof. destruct pl; reflexivity. Qed.

  Lemma PrevOK_set prev s pl ind ai :
    PrevOK prev s -> ind < length (b_infos s pl) -> PrevOK (set_prev prev pl (Some (ind, ai))) s.
  Proof.
    intros H Hi q j a E. destruct (bool_cases q pl) as [->| ->].
    - rewrite get_set_prev_same in E. inversion E; subst. assumption.
    - rewrite get_set_prev_other in E. eapply H; eassumption.
  Qed.

  Lemma GInv_empty : GInv b_empty.
  Proof.
    split.
    - intros pl. destruct pl; (split; [constructor|constructor]).
    - intros pl i j a Hi. destruct pl; cbn in Hi; lia.
  Qed.

  Lemma GInv_set_chance s l : GInv s -> GInv (set_chance s l).
  Proof.
    intros [H1 H2]. split.
    - intros pl. rewrite b_infos_set_chance, b_singles_set_chance. apply H1.
    - intros pl i j a. rewrite b_infos_set_chance. apply H2.
  Qed.

  Definition chs (s : bst) : list (list T) := map snd (b_chance s).

  Inductive Shaped (ch : list (list T)) (inf : bool -> list pinfo) : node -> Prop :=
  | Sh_term x : Shaped ch inf (Term x)
  | Sh_chance ci kids :
      ci < length ch -> length kids = length (nth ci ch []) -> 2 <= length kids ->
      Forall (Shaped ch inf) kids -> Shaped ch inf (Chance ci kids)
  | Sh_player pl i kids :
      i < length (inf pl) -> length kids = length (pi_actions (nth i (inf pl) dpi)) ->
      2 <= length kids -> Forall (Shaped ch inf) kids -> Shaped ch inf (Player pl i kids).

  Definition ShapedS (s : bst) (n : node) : Prop := Shaped (chs s) (b_infos s) n.

  Lemma Shaped_ext s s' n : ext s s' -> ShapedS s n -> ShapedS s' n.
  Proof.
    intros He. unfold ShapedS.
    induction n as [x|ci kids IH|pl i kids IH] using node_ind'; intros H.
    - constructor.
    - inversion H as [|? ? H1 H2 H3 H4|]; subst.
      destruct He as ([c Ec] & _ & _).
      assert (Ech : chs s' = chs s ++ map snd c) by (unfold chs; now rewrite Ec, map_app).
      constructor.
      + rewrite Ech, app_length. lia.
      + rewrite Ech, app_nth1; assumption.
      + assumption.
      + rewrite Forall_forall in *. intros k Hk. apply IH; auto.
    - inversion H as [| |? ? ? H1 H2 H3 H4]; subst.
      constructor.
      + pose proof (ext_infos_length s s' pl He). lia.
      + rewrite (ext_infos_nth s s' pl i He H1). assumption.
      + assumption.
      + rewrite Forall_forall in *. intros k Hk. apply IH; auto.
  Qed.

  Lemma shaped_go_Forall (g : game) (ks : list node) :
    Forall (shaped g) ks ->
    (fix go (ks : list node) : Prop :=
       match ks with [] => True | k :: r => shaped g k /\ go r end) ks.
  Proof. induction 1 as [|k r Hk Hr IH]; [exact I|split; assumption]. Qed.

  Lemma Shaped_shaped (g : game) n : Shaped (g_chance g) (g_infos g) n -> shaped g n.
  Proof.
    induction n as [x|ci kids IH|pl i kids IH] using node_ind'; intros H; [exact I| |];
      inversion H; subst; cbn [shaped]; (repeat split; try assumption);
      apply shaped_go_Forall; rewrite Forall_forall in *; auto.
  Qed.

  Definition hists_kid (pl : bool) (i : nat) (h1 h2 : list (nat * nat)) (a : nat) (k : node) :=
    hists k (if pl then h1 ++ [(i, a)] else h1) (if pl then h2 else h2 ++ [(i, a)]).

  Lemma hists_Player pl i (kids : list node) h1 h2 :
    hists (Player pl i kids) h1 h2 =
    (pl, i, own pl h1 h2) :: flat_mapi (hists_kid pl i h1 h2) O kids.
  Proof.
    cbn [hists]. apply f_equal. generalize O.
    induction kids as [|k r IH]; intros a; [reflexivity|].
    cbn [flat_mapi]. now rewrite <- IH.
  Qed.

  Lemma hists_Chance ci (kids : list node) h1 h2 :
    hists (Chance ci kids) h1 h2 = flat_map (fun k => hists k h1 h2) kids.
  Proof.
    cbn [hists]. induction kids as [|k r IH]; [reflexivity|].
    cbn [flat_map]. now rewrite <- IH.
  Qed.

  Definition PCx (s : bst) (x : bool * nat * list (nat * nat)) : Prop :=
    let '(pl, i, h) := x in
    i < length (b_infos s pl) /\ pi_prev (nth i (b_infos s pl) dpi) = last_opt h.

  Lemma PCx_ext s s' x : ext s s' -> PCx s x -> PCx s' x.
  Proof.
    destruct x as [[pl i] h]. intros He [H1 H2]. split.
    - pose proof (ext_infos_length s s' pl He). lia.
    - now rewrite (ext_infos_nth s s' pl i He H1).
  Qed.

  Definition HistRel (prev : pprev) (h1 h2 : list (nat * nat)) : Prop :=
    forall pl, last_opt (own pl h1 h2) = get_prev prev pl.

  Lemma HistRel_set prev pl ind ai h1 h2 :
    HistRel prev h1 h2 ->
    HistRel (set_prev prev pl (Some (ind, ai)))
            (if pl then h1 ++ [(ind, ai)] else h1) (if pl then h2 else h2 ++ [(ind, ai)]).
  Proof.
    intros H q. specialize (H q).
    destruct pl, q; cbn [own set_prev get_prev fst snd] in *; try assumption; apply last_opt_snoc.
  Qed.

  Definition KidOK (prev : pprev) (k : node) (s : bst) : Prop :=
    ShapedS s k /\
    forall h1 h2, HistRel prev h1 h2 -> forall x, In x (hists k h1 h2) -> PCx s x.

  Lemma KidOK_ext prev k s s' : ext s s' -> KidOK prev k s -> KidOK prev k s'.
  Proof.
    intros He [HS HP]. split; [now apply (Shaped_ext s)|].
    intros h1 h2 HR x Hx. apply (PCx_ext s); [assumption|]. eapply HP; eassumption.
  Qed.

  (** *** Node occurrences of the raw tree, with own histories

      An occurrence of a decision node carries the own history of its player: the list
      of (infoset name, action index) pairs of the *multi-action* decision nodes of that
      player on the path from the root (single-action nodes are exempt, as documented). *)
  Inductive occ :=
  | OTerm (p : T)
  | OChance (info : option N) (ws : list T)
  | OPlayer (pl : bool) (info : N) (acts : list N) (h : list (N * nat)).

  Fixpoint occs (n : gnode) (h1 h2 : list (N * nat)) : list occ :=
    match n with
    | GTerm p => [OTerm p]
    | GChance info outs =>
        OChance info (map fst outs) ::
        (fix go (l : list (T * gnode)) : list occ :=
           match l with
           | [] => []
           | wc :: r => occs (snd wc) h1 h2 ++ go r
           end) outs
    | GPlayer pl info acts =>
        let multi := Nat.leb 2 (length acts) in
        OPlayer pl info (map fst acts) (if pl then h1 else h2) ::
        (fix go (l : list (N * gnode)) (a : nat) : list occ :=
           match l with
           | [] => []
           | ac :: r =>
               occs (snd ac) (if multi && pl then h1 ++ [(info, a)] else h1)
                    (if multi && negb pl then h2 ++ [(info, a)] else h2)
               ++ go r (S a)
           end) acts O
    end.

  Definition occs_kid (multi pl : bool) (info : N) (h1 h2 : list (N * nat)) (a : nat)
             (ac : N * gnode) : list occ :=
    occs (snd ac) (if multi && pl then h1 ++ [(info, a)] else h1)
         (if multi && negb pl then h2 ++ [(info, a)] else h2).

  Lemma occs_GPlayer pl info (acts : list (N * gnode)) h1 h2 :
    occs (GPlayer pl info acts) h1 h2 =
    OPlayer pl info (map fst acts) (own pl h1 h2) ::
    flat_mapi (occs_kid (Nat.leb 2 (length acts)) pl info h1 h2) O acts.
  Proof.
    cbn [occs]. apply f_equal. generalize (Nat.leb 2 (length acts)) as m. intros m. generalize O.
    induction acts as [|ac r IH]; intros a; [reflexivity|].
    cbn [flat_mapi]. now rewrite <- IH.
  Qed.

  Lemma occs_GChance info (outs : list (T * gnode)) h1 h2 :
    occs (GChance info outs) h1 h2 =
    OChance info (map fst outs) :: flat_map (fun wc => occs (snd wc) h1 h2) outs.
  Proof. reflexivity. Qed.

  Definition name_prev (s : bst) (pl : bool) (o : option (nat * nat)) : option (N * nat) :=
    match o with
    | None => None
    | Some (j, a) => Some (pi_name (nth j (b_infos s pl) dpi), a)
    end.

  Lemma name_prev_ext s s' pl o :
    ext s s' -> (forall j a, o = Some (j, a) -> j < length (b_infos s pl)) ->
    name_prev s' pl o = name_prev s pl o.
  Proof.
    intros He H. destruct o as [[j a]|]; [|reflexivity]. cbn [name_prev].
    now rewrite (ext_infos_nth s s' pl j He (H j a eq_refl)).
  Qed.

  (** the table entry [i] of [pl] stands for a node named [info] with actions [acts]
      reached by the own history [h] *)
  Definition Entry (s : bst) (pl : bool) (i : nat) (info : N) (acts : list N) (h : list (N * nat))
    : Prop :=
    i < length (b_infos s pl) /\
    pi_name (nth i (b_infos s pl) dpi) = info /\
    pi_actions (nth i (b_infos s pl) dpi) = acts /\
    name_prev s pl (pi_prev (nth i (b_infos s pl) dpi)) = last_opt h.

  Lemma Entry_ext s s' pl i info acts h :
    ext s s' -> GInv s -> Entry s pl i info acts h -> Entry s' pl i info acts h.
  Proof.
    intros He [_ HI] (Hi & A & B & C). unfold Entry.
    rewrite (ext_infos_nth s s' pl i He Hi).
    split; [pose proof (ext_infos_length s s' pl He); lia|].
    split; [assumption|]. split; [assumption|]. rewrite <- C.
    apply name_prev_ext; [assumption|]. intros j a E. pose proof (HI pl i j a Hi E). lia.
  Qed.

  Definition RegP (s : bst) (pl : bool) (info : N) (acts : list N) (h : list (N * nat)) : Prop :=
    (exists a, acts = [a] /\ In (info, a) (b_singles s pl)) \/
    (2 <= length acts /\ exists i, Entry s pl i info acts h).

  (** the row found under the label of a chance node is its normalised weights: the row
      made from them, or one that compared equal to it *)
  Definition RowReg (s : bst) (info : option N) (ws : list T) : Prop :=
    forall k, info = Some k ->
      exists i o row, find_index (opt_key_eqb k) (b_chance s) = Some (i, (o, row)) /\
                      (row = normalise ws \/ list_eqb (eqb NN) row (normalise ws) = true).

  Definition Reg (s : bst) (o : occ) : Prop :=
    match o with
    | OTerm p => is_fin NN p = true
    | OChance info ws =>
        ws <> [] /\ (forall w, In w ws -> wok w = true) /\ (2 <= length ws -> RowReg s info ws)
    | OPlayer pl info acts h => RegP s pl info acts h
    end.

  Lemma Reg_ext s s' o : ext s s' -> GInv s -> Reg s o -> Reg s' o.
  Proof.
    intros He HG H. destruct o as [p|info ws|pl info acts h]; cbn [Reg] in *.
    - assumption.
    - destruct H as (A & B & C). split; [assumption|]. split; [assumption|].
      intros Hl k Ek. destruct (C Hl k Ek) as (i & o & row & F & D).
      exists i, o, row. split; [|assumption].
      destruct He as ([c Ec] & _ & _). rewrite Ec. now apply find_index_app_Some.
    - destruct H as [(a & -> & Hin)|(Hl & i & HE)].
      + left. exists a. split; [reflexivity|now apply (ext_singles_In s)].
      + right. split; [assumption|]. exists i. now apply (Entry_ext s).
  Qed.

  Definition PrevRel (s : bst) (prev : pprev) (h1 h2 : list (N * nat)) : Prop :=
    forall pl, name_prev s pl (get_prev prev pl) = last_opt (own pl h1 h2).

  Lemma PrevRel_ext s s' prev h1 h2 :
    ext s s' -> PrevOK prev s -> PrevRel s prev h1 h2 <-> PrevRel s' prev h1 h2.
  Proof.
    intros He HP. unfold PrevRel.
    assert (E : forall pl, name_prev s' pl (get_prev prev pl) = name_prev s pl (get_prev prev pl)).
    { intros pl. apply name_prev_ext; [assumption|]. intros j a E. eapply HP; eassumption. }
    split; intros H pl; [rewrite E|rewrite <- E]; apply H.
  Qed.

  Lemma PrevRel_set s prev h1 h2 pl ind info ai :
    PrevRel s prev h1 h2 -> pi_name (nth ind (b_infos s pl) dpi) = info ->
    PrevRel s (set_prev prev pl (Some (ind, ai)))
            (if true && pl then h1 ++ [(info, ai)] else h1)
            (if true && negb pl then h2 ++ [(info, ai)] else h2).
  Proof.
    intros HR Hn q. specialize (HR q).
    destruct pl, q; cbn [andb negb own set_prev get_prev fst snd name_prev] in *;
      try assumption; rewrite last_opt_snoc, Hn; reflexivity.
  Qed.

  Definition SubOK (prev : pprev) (c : gnode) (s : bst) : Prop :=
    forall h1 h2, PrevRel s prev h1 h2 -> forall o, In o (occs c h1 h2) -> Reg s o.

  Lemma SubOK_ext prev c s s' :
    ext s s' -> GInv s -> PrevOK prev s -> SubOK prev c s -> SubOK prev c s'.
  Proof.
    intros He HG HP H h1 h2 HR o Ho. apply (Reg_ext s); [assumption|assumption|].
    apply (H h1 h2); [|assumption]. now apply (PrevRel_ext s s').
  Qed.

  Definition Post (n : gnode) (prev : pprev) (s : bst) (nd : node) (s' : bst) : Prop :=
    ext s s' /\ GInv s' /\ KidOK prev nd s' /\ SubOK prev n s'.

  Definition InitInv (n : gnode) : Prop :=
    forall prev s nd s', init n prev s = Ok (nd, s') -> GInv s -> PrevOK prev s -> Post n prev s nd s'.

  Lemma fresh_name (s : bst) pl info :
    (forall pi, In pi (b_infos s pl) -> N.eqb (pi_name pi) info = false) ->
    (forall e, In e (b_singles s pl) -> N.eqb (fst e) info = false) ->
    ~ In info (map pi_name (b_infos s pl) ++ map fst (b_singles s pl)).
  Proof.
    intros Hi Hs Hin.
    apply in_app_or in Hin as [Hin|Hin]; apply in_map_iff in Hin as (x & E & Hx);
      [apply Hi in Hx|apply Hs in Hx]; rewrite E, N.eqb_refl in Hx; discriminate Hx.
  Qed.

  Lemma GInv_new_info s pl info actions prev :
    GInv s -> PrevOK prev s ->
    existsb (fun e : N * N => N.eqb (fst e) info) (b_singles s pl) = false ->
    find_index (fun pi => N.eqb (pi_name pi) info) (b_infos s pl) = None ->
    nodupb actions = true -> 2 <= length actions ->
    GInv (set_infos s pl (b_infos s pl ++ [mkPinfo info actions (get_prev prev pl)])).
  Proof.
    intros [H1 H2] Hprev Hex Hfi Hnd Hlen. split.
    - intros q. destruct (bool_cases q pl) as [->| ->].
      + rewrite b_infos_set_infos_same, b_singles_set_infos. destruct (H1 pl) as [Hn Hf]. split.
        * rewrite map_app. cbn [map pi_name]. rewrite <- app_assoc. cbn [app].
          apply NoDup_insert; [assumption|].
          apply fresh_name; [now apply find_index_None|now apply existsb_false_all].
        * apply Forall_app; split; [assumption|]. constructor; [|constructor].
          cbn [pi_actions]. split; [now apply nodupb_iff|assumption].
      + rewrite b_infos_set_infos_other, b_singles_set_infos. apply H1.
    - intros q i j a Hi E. destruct (bool_cases q pl) as [->| ->].
      + rewrite b_infos_set_infos_same in Hi, E. rewrite app_length in Hi. cbn [length] in Hi.
        destruct (lt_dec i (length (b_infos s pl))) as [Hlt|Hge].
        * rewrite app_nth1 in E by assumption. eapply H2; eassumption.
        * assert (i = length (b_infos s pl)) as -> by lia.
          rewrite nth_middle in E. cbn [pi_prev] in E. apply Hprev in E. assumption.
      + rewrite b_infos_set_infos_other in Hi, E. eapply H2; eassumption.
  Qed.

  Lemma GInv_new_single s pl info a :
    GInv s ->
    existsb (fun pi => N.eqb (pi_name pi) info) (b_infos s pl) = false ->
    find_index (fun e : N * N => N.eqb (fst e) info) (b_singles s pl) = None ->
    GInv (set_singles s pl (b_singles s pl ++ [(info, a)])).
  Proof.
    intros [H1 H2] Hex Hfi. split.
    - intros q. destruct (bool_cases q pl) as [->| ->].
      + rewrite b_singles_set_singles_same, b_infos_set_singles. destruct (H1 pl) as [Hn Hf].
        split; [|assumption].
        rewrite map_app. cbn [map fst]. rewrite app_assoc.
        apply NoDup_insert; rewrite app_nil_r; [assumption|].
        apply fresh_name; [now apply existsb_false_all|now apply find_index_None].
      + rewrite b_singles_set_singles_other, b_infos_set_singles. apply H1.
    - intros q i j a0. rewrite b_infos_set_singles. apply H2.
  Qed.

  Lemma found_info_ok s pl info actions prev ind s0 :
    GInv s -> PrevOK prev s ->
    existsb (fun e : N * N => N.eqb (fst e) info) (b_singles s pl) = false ->
    2 <= length actions ->
    found_info prev pl info actions s = Ok (ind, s0) ->
    ext s s0 /\ GInv s0 /\ ind < length (b_infos s0 pl) /\
    nth ind (b_infos s0 pl) dpi = mkPinfo info actions (get_prev prev pl).
  Proof.
    intros HG Hprev Hex Hlen H. unfold found_info in H.
    destruct (find_index _ (b_infos s pl)) as [[i pi]|] eqn:Efi.
    - destruct (list_eqb N.eqb (pi_actions pi) actions) eqn:Ea; cbn [negb] in H; [|discriminate].
      destruct (prev_eqb (pi_prev pi) (get_prev prev pl)) eqn:Ep; cbn [negb] in H; [|discriminate].
      inversion H; subst. apply find_index_Some in Efi as (Hi & Hn & Hf).
      apply (list_eqb_eq _ N.eqb_eq) in Ea. apply prev_eqb_eq in Ep. apply N.eqb_eq in Hf.
      repeat split; try assumption; try apply ext_refl; try apply HG.
      rewrite (nth_error_nth _ _ dpi Hn). destruct pi as [nm ac pv]. cbn in *. now subst.
    - destruct (nodupb actions) eqn:End; [|discriminate]. inversion H; subst.
      split; [apply ext_set_infos|]. split; [now apply GInv_new_info|].
      rewrite b_infos_set_infos_same. split; [rewrite app_length; cbn [length]; lia|].
      apply nth_middle.
  Qed.

  (** *** The loops: each calls [init] on the child of every element, with a [prev] that
      depends on the position only; what holds of a child when it is done survives the
      growth of the tables *)
  Lemma loop_post {X} (child : X -> gnode) (pv : nat -> pprev) f (l : list X) :
    (forall ai x s r, f ai x s = Ok r -> init (child x) (pv ai) s = Ok r) ->
    Forall (fun x => InitInv (child x)) l ->
    forall ai s ks s', loopS f ai l s = Ok (ks, s') -> GInv s -> (forall a, PrevOK (pv a) s) ->
      ext s s' /\ GInv s' /\
      forall s2, ext s' s2 ->
        (forall j k, nth_error ks j = Some k -> KidOK (pv (ai + j)) k s2) /\
        (forall j x, nth_error l j = Some x -> SubOK (pv (ai + j)) (child x) s2).
  Proof.
    intros Hf. induction 1 as [|x r Hx _ IH]; intros ai s ks s' H HG HP.
    - injection H as <- <-. split; [apply ext_refl|]. split; [assumption|].
      intros s2 _. split; intros [|j] ? E; discriminate E.
    - apply loopS_cons_ok in H as (k & s1 & ks1 & Hk & Hr & ->).
      destruct (Hx _ _ _ _ (Hf _ _ _ _ Hk) HG (HP ai)) as (E1 & G1 & K1 & X1).
      assert (HP1 : forall a, PrevOK (pv a) s1) by (intros a; now apply (PrevOK_ext _ s)).
      destruct (IH (S ai) s1 ks1 s' Hr G1 HP1) as (E2 & G2 & HK).
      split; [now apply (ext_trans s s1)|]. split; [assumption|]. intros s2 E3.
      assert (E13 : ext s1 s2) by now apply (ext_trans s1 s').
      destruct (HK s2 E3) as [K2 X2].
      split; intros [|j] y E; cbn [nth_error] in E; rewrite ?Nat.add_0_r, ?Nat.add_succ_r.
      + injection E as <-. now apply (KidOK_ext _ _ s1).
      + now apply K2.
      + injection E as <-. now apply (SubOK_ext _ _ s1).
      + now apply X2.
  Qed.

  Lemma normalise_length (ws : list T) : length (normalise ws) = length ws.
  Proof. unfold normalise. destruct (is_fin NN _); rewrite !map_length; reflexivity. Qed.

  Lemma finishC_post prev s info (outs : list (T * gnode)) ks s1 nd s' :
    length ks = length outs -> ext s s1 -> GInv s1 ->
    (forall wc, In wc outs -> wok (fst wc) = true) ->
    (forall s2, ext s1 s2 ->
       (forall j k, nth_error ks j = Some k -> KidOK prev k s2) /\
       (forall j wc, nth_error outs j = Some wc -> SubOK prev (snd wc) s2)) ->
    finishC info (map fst outs) ks s1 = Ok (nd, s') ->
    Post (GChance info outs) prev s nd s'.
  Proof.
    intros Hlen E1 G1 Hw HK H. set (ws := map fst outs) in *.
    assert (Hws : length ws = length ks) by (unfold ws; now rewrite map_length).
    (* what is left once the row of the label is settled in a state [s2] *)
    assert (Hpost : forall nd2 s2, ext s1 s2 -> GInv s2 -> KidOK prev nd2 s2 ->
              (2 <= length ws -> RowReg s2 info ws) -> Post (GChance info outs) prev s nd2 s2).
    { intros nd2 s2 E2 G2 K2 HR. split; [now apply (ext_trans s s1)|]. split; [assumption|].
      split; [assumption|]. intros h1 h2 HP o Ho. rewrite occs_GChance in Ho.
      destruct Ho as [<-|Ho].
      - fold ws. split; [|split; [|assumption]].
        + intros E. rewrite E in Hws. destruct ks; [discriminate H|discriminate Hws].
        + intros w Hin. apply in_map_iff in Hin as (wc & <- & Hwc). now apply Hw.
      - apply in_flat_map in Ho as (wc & Hwc & Ho). apply In_nth_error in Hwc as [j Hj].
        eapply (HK s2 E2); eassumption. }
    unfold finishC in H. destruct ks as [|k [|k2 kr]]; [discriminate| |].
    - injection H as <- <-. apply Hpost; [apply ext_refl|assumption| |].
      + exact (proj1 (HK s1 (ext_refl _)) 0 k eq_refl).
      + intros Hl. rewrite Hws in Hl. cbn in Hl. lia.
    - set (kids := k :: k2 :: kr) in *.
      (* the node [Chance i kids] against a state whose row [i] fits *)
      assert (Hnode : forall i s2, ext s1 s2 -> GInv s2 ->
                i < length (chs s2) -> length (nth i (chs s2) []) = length ws ->
                RowReg s2 info ws -> Post (GChance info outs) prev s (Chance i kids) s2).
      { intros i s2 E2 G2 Hi Hrow Hreg. destruct (HK s2 E2) as [K _].
        apply Hpost; [assumption|assumption|split|now intros _].
        - constructor; [assumption|now rewrite Hrow|cbn; lia|].
          apply Forall_forall. intros k0 Hk. apply In_nth_error in Hk as [j Hj]. apply (K j k0 Hj).
        - intros h1 h2 HR x Hx. rewrite hists_Chance in Hx. apply in_flat_map in Hx as (k0 & Hk & Hx).
          apply In_nth_error in Hk as [j Hj]. eapply (K j k0 Hj); eassumption. }
      assert (Hnew : (forall k, info = Some k -> find_index (opt_key_eqb k) (b_chance s1) = None) ->
                Post (GChance info outs) prev s (Chance (length (b_chance s1)) kids)
                     (set_chance s1 (b_chance s1 ++ [(info, normalise ws)]))).
      { intros Hfi. apply Hnode.
        - apply ext_set_chance.
        - now apply GInv_set_chance.
        - unfold chs. rewrite b_chance_set_chance, map_length, app_length. cbn [length]. lia.
        - unfold chs. rewrite b_chance_set_chance, map_app. cbn [map snd].
          rewrite <- (map_length snd (b_chance s1)), nth_middle. apply normalise_length.
        - intros k0 ->. exists (length (b_chance s1)), (Some k0), (normalise ws). split; [|now left].
          rewrite b_chance_set_chance. apply find_index_app_None; [now apply Hfi|].
          unfold opt_key_eqb. cbn [fst]. apply N.eqb_refl. }
      destruct info as [key|].
      + destruct (find_index (opt_key_eqb key) (b_chance s1)) as [[ind [o old]]|] eqn:Efi.
        * destruct (list_eqb (eqb NN) old (normalise ws)) eqn:Eeq; [|discriminate].
          injection H as <- <-. pose proof Efi as Efi'.
          apply find_index_Some in Efi' as (Hi & Hn & _).
          apply Hnode; [apply ext_refl|assumption| | |].
          -- unfold chs. now rewrite map_length.
          -- unfold chs. erewrite nth_error_nth; [|apply map_nth_error; exact Hn].
             cbn [snd]. apply list_eqb_length in Eeq. now rewrite Eeq, normalise_length.
          -- intros k0 [= <-]. exists ind, o, old. split; [assumption|now right].
        * injection H as <- <-. apply Hnew. now intros k0 [= <-].
      + injection H as <- <-. apply Hnew. discriminate.
  Qed.

  Lemma single_post pl info a c prev s s0 nd s' :
    ext s s0 -> In (info, a) (b_singles s0 pl) -> Post c prev s0 nd s' ->
    Post (GPlayer pl info [(a, c)]) prev s nd s'.
  Proof.
    intros E0 Hin (E1 & G1 & K1 & X1). split; [now apply (ext_trans s s0)|].
    split; [assumption|]. split; [assumption|]. intros h1 h2 HR o Ho.
    rewrite occs_GPlayer in Ho.
    cbn [length Nat.leb flat_mapi occs_kid andb snd map fst] in Ho. rewrite app_nil_r in Ho.
    destruct Ho as [<-|Ho]; [|now apply (X1 h1 h2)].
    left. exists a. split; [reflexivity|now apply (ext_singles_In s0)].
  Qed.

  Lemma init_inv (n : gnode) : InitInv n.
  Proof.
    induction n as [p|info outs IH|pl info acts IH] using gnode_ind';
      intros prev s nd s' H HG HP.
    - rewrite init_GTerm in H. destruct (is_fin NN p) eqn:Ep; [|discriminate].
      injection H as <- <-. split; [apply ext_refl|]. split; [assumption|]. split.
      + split; [constructor|]. intros h1 h2 _ x [].
      + intros h1 h2 _ o [<-|[]]. exact Ep.
    - apply init_chance_ok in H as (ks & s1 & Hl & Hf).
      destruct (loop_post snd (fun _ => prev) (stepC prev) outs
                  (fun ai wc s0 r Hr => proj2 (stepC_ok prev ai wc s0 r Hr)) IH
                  0 s ks s1 Hl HG (fun _ => HP)) as (E1 & G1 & HK).
      apply (finishC_post prev s info outs ks s1); try assumption.
      + exact (loopS_length _ _ _ _ _ _ Hl).
      + intros wc Hwc. destruct (loopS_ok_each _ _ _ _ _ Hl wc Hwc) as (aj & sj & rj & Hj).
        exact (proj1 (stepC_ok _ _ _ _ _ Hj)).
    - destruct acts as [|[a c] [|y r]]; [discriminate H| |].
      + apply Forall_inv in IH. cbn [snd] in IH.
        apply init_single_ok in H as (Eex & [[Hin H]|[Efi H]]).
        * eapply single_post; [apply ext_refl|exact Hin|now apply IH].
        * apply single_post with (s0 := set_singles s pl (b_singles s pl ++ [(info, a)]));
            [apply ext_set_singles| |].
          -- rewrite b_singles_set_singles_same. apply in_or_app. right. now left.
          -- apply IH; [exact H|now apply GInv_new_single|now apply PrevOK_set_singles].
      + apply init_multi_ok in H as (Eex & ind & s0 & ks & Hfi & Hl & ->).
        set (acts := (a, c) :: y :: r) in *.
        assert (Hlen : 2 <= length (map fst acts)) by (cbn; lia).
        destruct (found_info_ok s pl info _ prev ind s0 HG HP Eex Hlen Hfi)
          as (E0 & G0 & Hind & Hnth).
        pose proof (loopS_length _ _ _ _ _ _ Hl) as Hkl.
        set (pv ai := set_prev prev pl (Some (ind, ai))).
        destruct (loop_post snd pv (stepP prev pl ind) acts (fun _ _ _ _ Hr => Hr) IH
                    0 s0 ks s' Hl G0) as (E1 & G1 & HK).
        { intros ai. apply PrevOK_set; [now apply (PrevOK_ext prev s)|assumption]. }
        destruct (HK s' (ext_refl s')) as [K1 X1].
        destruct (ext_infos_at s0 s' pl ind _ E1 Hind Hnth) as [Hind1 Hnth1].
        split; [now apply (ext_trans s s0)|]. split; [assumption|]. split; [split|].
        * constructor; [assumption| | |].
          -- rewrite Hnth1. cbn [pi_actions]. now rewrite map_length.
          -- rewrite Hkl. cbn; lia.
          -- apply Forall_forall. intros k Hk. apply In_nth_error in Hk as [j Hj].
             apply (K1 j k Hj).
        * intros h1 h2 HR x Hx. rewrite hists_Player in Hx. destruct Hx as [<-|Hx].
          -- split; [assumption|]. rewrite Hnth1. cbn [pi_prev]. symmetry. apply HR.
          -- apply in_flat_mapi in Hx as (j & k & Hj & Hx).
             apply (K1 j k Hj) in Hx; [assumption|]. now apply HistRel_set.
        * intros h1 h2 HR o Ho. rewrite occs_GPlayer in Ho. destruct Ho as [<-|Ho].
          -- right. split; [assumption|]. exists ind. unfold Entry. rewrite Hnth1.
             cbn [pi_name pi_actions pi_prev]. repeat split; [assumption|]. apply HR.
          -- apply in_flat_mapi in Ho as (j & ac & Hj & Ho).
             apply (X1 j ac Hj) in Ho; [assumption|].
             apply PrevRel_set; [assumption|now rewrite Hnth1].
  Qed.
End Gen.

Section GenWF.
  Context {NN : Num}.
  Local Notation gnode := (@gnode NN).
  Local Notation node := (@node NN).
  Local Notation game := (@game NN).

  Lemma hists_chain (n : node) : forall h1 h2 pl i h,
    In (pl, i, h) (hists n h1 h2) ->
    h = own pl h1 h2 \/ exists h0 j a, h = h0 ++ [(j, a)] /\ In (pl, j, h0) (hists n h1 h2).
  Proof.
    induction n as [x|ci kids IH|pl' i' kids IH] using node_ind'; intros h1 h2 pl i h Hin;
      try rewrite Forall_forall in IH.
    - destruct Hin.
    - rewrite hists_Chance in Hin |- *. apply in_flat_map in Hin as (k & Hk & Hin).
      destruct (IH k Hk h1 h2 pl i h Hin) as [->|(h0 & j & a & -> & Hj)]; [now left|].
      right. exists h0, j, a. split; [reflexivity|]. apply in_flat_map. eauto.
    - rewrite hists_Player in Hin |- *. destruct Hin as [[= <- <- <-]|Hin]; [now left|].
      apply in_flat_mapi in Hin as (b & k & Hb & Hin).
      destruct (IH k (nth_error_In _ _ Hb) _ _ pl i h Hin) as [->|(h0 & j & a & -> & Hj)].
      + destruct (bool_cases pl pl') as [->| ->].
        * right. exists (own pl' h1 h2), i', b. split; [destruct pl'; reflexivity|now left].
        * left. destruct pl'; reflexivity.
      + right. exists h0, j, a. split; [reflexivity|]. right. apply in_flat_mapi. eauto.
  Qed.

  Lemma choose_fun (L : list (bool * nat * list (nat * nat))) :
    (forall pl i h h', In (pl, i, h) L -> In (pl, i, h') L -> h = h') ->
    exists H : bool -> nat -> list (nat * nat), forall pl i h, In (pl, i, h) L -> h = H pl i.
  Proof.
    induction L as [|[[pl0 i0] h0] L IH]; intros HU.
    - exists (fun _ _ => []). intros pl i h [].
    - destruct IH as [H HH].
      { intros pl i h h' A B. eapply HU; right; eassumption. }
      exists (fun pl i => if Bool.eqb pl pl0 && Nat.eqb i i0 then h0 else H pl i).
      intros pl i h Hin.
      destruct (Bool.eqb pl pl0 && Nat.eqb i i0) eqn:E.
      + apply andb_true_iff in E as [E1 E2]. apply Bool.eqb_prop in E1. apply Nat.eqb_eq in E2.
        subst. eapply HU; [exact Hin|now left].
      + destruct Hin as [E'|Hin]; [|now apply HH].
        inversion E'; subst. now rewrite Bool.eqb_reflx, Nat.eqb_refl in E.
  Qed.

  (** perfect recall follows from [prev_consistent] alone: equal [pi_prev] means equal
      last step, and the histories of a tree form a chain *)
  Theorem prev_consistent_PerfectRecall (g : game) : prev_consistent g -> PerfectRecall g.
  Proof.
    intros HPC. apply choose_fun.
    apply (chain_unique (fun pl i h => In (pl, i, h) (hists (g_root g) [] []))).
    - intros pl i h Hin.
      destruct (hists_chain _ _ _ _ _ _ Hin) as [->|H]; [left; now destruct pl|now right].
    - intros pl i h h' Hh Hh'. unfold last_opt.
      now rewrite <- (HPC pl i h Hh), <- (HPC pl i h' Hh').
  Qed.

  Lemma HistRel_empty : HistRel (None, None) [] [].
  Proof. intros [|]; reflexivity. Qed.

  Theorem from_root_WF (t : gnode) (g : game) :
    from_root t = Ok g -> WFgame g /\ PerfectRecall g.
  Proof.
    intros H. apply from_root_ok in H as (root & s & H & ->).
    destruct (init_inv t _ _ _ _ H GInv_empty (PrevOK_empty _)) as (_ & [GW GI] & [HS HPC] & _).
    assert (HPC' : prev_consistent (game_of root s)).
    { intros pl i h Hin. apply (HPC [] [] HistRel_empty (pl, i, h) Hin). }
    split; [|now apply prev_consistent_PerfectRecall].
    split; [now apply Shaped_shaped|]. split; [exact (GW true)|]. split; [exact (GW false)|].
    split; [exact HPC'|exact GI].
  Qed.
End GenWF.

Section Blame.
  Context {NN : Num}.
  Local Notation T := (T NN).
  Local Notation gnode := (@gnode NN).
  Local Notation node := (@node NN).
  Local Notation bst := (@bst NN).
  Local Notation game := (@game NN).
  Local Notation occ := (@occ NN).

  Definition BlameL (e : gerr) (U : list occ) : Prop :=
    match e with
    | EmptyChance => exists info, In (OChance info []) U
    | NonPositiveChance =>
        exists info ws w, In (OChance info ws) U /\ In w ws /\
                          ltb NN (zero NN) w && is_fin NN w = false
    | ProbabilitiesNotEqual =>
        exists k ws ws', In (OChance (Some k) ws) U /\ In (OChance (Some k) ws') U /\
                         2 <= length ws /\ 2 <= length ws' /\
                         list_eqb (eqb NN) (normalise ws) (normalise ws') = false
    | ImperfectRecall =>
        exists pl info acts acts' h h',
          In (OPlayer pl info acts h) U /\ In (OPlayer pl info acts' h') U /\
          2 <= length acts /\ 2 <= length acts' /\ last_opt h <> last_opt h'
    | EmptyPlayer => exists pl info h, In (OPlayer pl info [] h) U
    | ActionsNotEqual =>
        exists pl info acts acts' h h',
          In (OPlayer pl info acts h) U /\ In (OPlayer pl info acts' h') U /\ acts <> acts'
    | ActionsNotUnique =>
        exists pl info acts h, In (OPlayer pl info acts h) U /\ ~ NoDup acts
    | NonFinitePayoff => exists p, In (OTerm p) U /\ is_fin NN p = false
    end.

  Definition Blame (e : gerr) (t : gnode) : Prop := BlameL e (occs t [] []).

  Definition Just (U : list occ) (s : bst) : Prop :=
    (forall pl i, i < length (b_infos s pl) ->
       exists info acts h, Entry s pl i info acts h /\
                           In (OPlayer pl info acts h) U /\ 2 <= length acts) /\
    (forall pl info a, In (info, a) (b_singles s pl) -> exists h, In (OPlayer pl info [a] h) U) /\
    (forall o row, In (o, row) (b_chance s) ->
                   exists ws, In (OChance o ws) U /\ 2 <= length ws /\ row = normalise ws).

  Lemma Just_empty U : Just U (@b_empty NN).
  Proof.
    split; [|split].
    - intros [|] i Hi; cbn in Hi; lia.
    - intros [|] info a [].
    - intros k row [].
  Qed.

  Lemma pi_name_nth (l : list pinfo) j : pi_name (nth j l dpi) = nth j (map pi_name l) 0%N.
  Proof. change 0%N with (pi_name dpi). now rewrite map_nth. Qed.

  Lemma GInv_name_inj (s : bst) pl i j :
    GInv s -> i < length (b_infos s pl) -> j < length (b_infos s pl) ->
    pi_name (nth i (b_infos s pl) dpi) = pi_name (nth j (b_infos s pl) dpi) -> i = j.
  Proof.
    intros [HW _] Hi Hj E. destruct (HW pl) as [Hnd _]. apply NoDup_app_iff in Hnd as [Hnd _].
    rewrite (NoDup_nth _ 0%N) in Hnd. rewrite !pi_name_nth in E.
    apply Hnd; [now rewrite map_length..|exact E].
  Qed.

  Lemma name_prev_inj (s : bst) pl o o' :
    GInv s ->
    (forall j a, o = Some (j, a) -> j < length (b_infos s pl)) ->
    (forall j a, o' = Some (j, a) -> j < length (b_infos s pl)) ->
    name_prev s pl o = name_prev s pl o' -> o = o'.
  Proof.
    intros HG H1 H2 E.
    destruct o as [[j a]|], o' as [[j' a']|]; cbn [name_prev] in E; try congruence.
    injection E as En <-. apply f_equal, (f_equal (fun j => (j, a))). eapply GInv_name_inj; eauto.
  Qed.

  Lemma Just_set_chance U s o ws :
    Just U s -> In (OChance o ws) U -> 2 <= length ws ->
    Just U (set_chance s (b_chance s ++ [(o, normalise ws)])).
  Proof.
    intros (J1 & J2 & J3) Hin Hl. split; [|split].
    - intros pl i. unfold Entry, name_prev. rewrite b_infos_set_chance. apply J1.
    - intros pl info a. rewrite b_singles_set_chance. apply J2.
    - intros o' r. rewrite b_chance_set_chance. intros H.
      apply in_app_or in H as [H|[[= <- <-]|[]]]; [now apply J3|exists ws; auto].
  Qed.

  Lemma Just_set_singles U s pl info a h :
    Just U s -> In (OPlayer pl info [a] h) U ->
    Just U (set_singles s pl (b_singles s pl ++ [(info, a)])).
  Proof.
    intros (J1 & J2 & J3) Hnew. split; [|split].
    - intros q i. unfold Entry, name_prev. rewrite b_infos_set_singles. apply J1.
    - intros q info' a'. destruct (bool_cases q pl) as [->| ->].
      + rewrite b_singles_set_singles_same. intros Hin.
        apply in_app_or in Hin as [Hin|[[= <- <-]|[]]]; [now apply J2|eauto].
      + rewrite b_singles_set_singles_other. apply J2.
    - intros k r. rewrite b_chance_set_singles. apply J3.
  Qed.

  Lemma Just_set_infos U s pl info actions prev h :
    GInv s -> PrevOK prev s -> Just U s ->
    In (OPlayer pl info actions h) U -> 2 <= length actions ->
    name_prev s pl (get_prev prev pl) = last_opt h ->
    Just U (set_infos s pl (b_infos s pl ++ [mkPinfo info actions (get_prev prev pl)])).
  Proof.
    intros HG HP (J1 & J2 & J3) Hin Hlen Hnp.
    set (s' := set_infos s pl _).
    assert (He : ext s s') by apply ext_set_infos.
    split; [|split].
    - intros q i Hi. destruct (bool_cases q pl) as [->| ->].
      + unfold s' in Hi. rewrite b_infos_set_infos_same, app_length in Hi. cbn [length] in Hi.
        destruct (lt_dec i (length (b_infos s pl))) as [Hlt|Hge].
        * destruct (J1 pl i Hlt) as (info' & acts' & h0 & HE & A).
          exists info', acts', h0. split; [now apply (Entry_ext s)|exact A].
        * assert (i = length (b_infos s pl)) as -> by lia.
          exists info, actions, h. split; [|now split].
          assert (En : nth (length (b_infos s pl)) (b_infos s' pl) dpi
                       = mkPinfo info actions (get_prev prev pl))
            by (unfold s'; rewrite b_infos_set_infos_same; apply nth_middle).
          unfold Entry. rewrite En. cbn [pi_name pi_actions pi_prev].
          split; [unfold s'; rewrite b_infos_set_infos_same, app_length; cbn [length]; lia|].
          split; [reflexivity|]. split; [reflexivity|]. rewrite <- Hnp.
          apply name_prev_ext; [assumption|]. intros j a E. eapply HP; eassumption.
      + unfold s' in Hi |- *. unfold Entry, name_prev.
        rewrite b_infos_set_infos_other in Hi |- *. now apply J1.
    - intros q info' a'. unfold s'. rewrite b_singles_set_infos. apply J2.
    - intros k r. unfold s'. rewrite b_chance_set_infos. apply J3.
  Qed.

  Definition BlInv (U : list occ) (prev : pprev) (h1 h2 : list (N * nat)) (s : bst) : Prop :=
    GInv s /\ PrevOK prev s /\ Just U s /\ PrevRel s prev h1 h2.

  Definition InitBlame (n : gnode) : Prop :=
    forall U prev h1 h2 s, BlInv U prev h1 h2 s -> incl (occs n h1 h2) U ->
      match init n prev s with
      | Ok (nd, s') => Just U s'
      | Err e => BlameL e U
      end.

  (** a child called with [prev], [h1], [h2] inside a loop that started in [s0] and runs
      under [prev0], [g1], [g2] *)
  Lemma blame_step c : InitBlame c -> forall U prev0 g1 g2 s0 prev h1 h2 s,
    ext s0 s -> BlInv U prev0 g1 g2 s ->
    PrevOK prev s -> PrevRel s prev h1 h2 -> incl (occs c h1 h2) U ->
    match init c prev s with
    | Ok (_, s1) => ext s0 s1 /\ BlInv U prev0 g1 g2 s1
    | Err e => BlameL e U
    end.
  Proof.
    intros Hc U prev0 g1 g2 s0 prev h1 h2 s E0 (HG & HP0 & HJ & HR0) HP HR Hincl.
    specialize (Hc U prev h1 h2 s (conj HG (conj HP (conj HJ HR))) Hincl).
    destruct (init c prev s) as [[c' s1]|e] eqn:Ec; [|assumption].
    destruct (init_inv c prev s c' s1 Ec HG HP) as (E1 & G1 & _).
    split; [now apply (ext_trans s0 s)|]. split; [assumption|].
    split; [now apply (PrevOK_ext prev0 s)|]. split; [assumption|]. now apply (PrevRel_ext s s1).
  Qed.

  Lemma found_info_blame U s pl info actions prev h1 h2 :
    BlInv U prev h1 h2 s ->
    In (OPlayer pl info actions (own pl h1 h2)) U -> 2 <= length actions ->
    match found_info prev pl info actions s with
    | Ok (ind, s0) => Just U s0
    | Err e => BlameL e U
    end.
  Proof.
    intros (HG & HP & HJ & HR) Hin Hlen. unfold found_info.
    destruct (find_index _ (b_infos s pl)) as [[i pi]|] eqn:Efi.
    - apply find_index_Some in Efi as (Hi & Hn & Hf). apply N.eqb_eq in Hf.
      destruct (proj1 HJ pl i Hi) as (info' & acts' & h0 & (_ & En & Ea & Ep) & A & B).
      rewrite (nth_error_nth _ _ dpi Hn) in En, Ea, Ep. subst info' acts'. rewrite Hf in A.
      destruct (list_eqb N.eqb (pi_actions pi) actions) eqn:Ea; cbn [negb].
      + destruct (prev_eqb (pi_prev pi) (get_prev prev pl)) eqn:Epv; cbn [negb]; [assumption|].
        cbn [BlameL]. exists pl, info, (pi_actions pi), actions, h0, (own pl h1 h2).
        repeat split; try assumption. rewrite <- Ep, <- (HR pl). intros E.
        apply name_prev_inj in E; try assumption.
        * apply prev_eqb_eq in E. congruence.
        * intros j a E'. pose proof (proj2 HG pl i j a Hi) as Hji.
          rewrite (nth_error_nth _ _ dpi Hn) in Hji. specialize (Hji E'). lia.
        * intros j a E'. eapply HP; eassumption.
      + cbn [BlameL]. exists pl, info, (pi_actions pi), actions, h0, (own pl h1 h2).
        repeat split; try assumption. intros E. apply (list_eqb_eq _ N.eqb_eq) in E. congruence.
    - destruct (nodupb actions) eqn:End.
      + eapply Just_set_infos; try eassumption. apply HR.
      + cbn [BlameL]. exists pl, info, actions, (own pl h1 h2). split; [assumption|].
        intros Hnd. apply nodupb_iff in Hnd. congruence.
  Qed.

  Lemma init_blame (n : gnode) : InitBlame n.
  Proof.
    induction n as [p|info outs IH|pl info acts IH] using gnode_ind';
      intros U prev h1 h2 s HI Hincl; try rewrite Forall_forall in IH.
    - rewrite init_GTerm. destruct (is_fin NN p) eqn:E; [apply HI|].
      cbn [BlameL]. exists p. split; [|assumption]. apply Hincl. now left.
    - rewrite occs_GChance in Hincl. apply incl_cons_inv in Hincl as [Hhead Hincl].
      rewrite init_chance.
      assert (HB : match loopS (stepC prev) 0 outs s with
                   | Ok (_, s1) => ext s s1 /\ BlInv U prev h1 h2 s1
                   | Err e => BlameL e U
                   end).
      { apply (loopS_res (stepC prev) (fun s1 => ext s s1 /\ BlInv U prev h1 h2 s1)
                 (fun e => BlameL e U)); [|split; [apply ext_refl|assumption]].
        intros j wc s1 Hj [E1 HI1]. apply nth_error_In in Hj. unfold stepC.
        destruct (wok (fst wc)) eqn:Ew.
        - apply (blame_step _ (IH wc Hj) U prev h1 h2 s prev h1 h2 s1 E1 HI1);
            [apply HI1..|].
          intros o Ho. apply Hincl, in_flat_map. eauto.
        - cbn [BlameL]. exists info, (map fst outs), (fst wc).
          split; [assumption|]. split; [now apply in_map|exact Ew]. }
      destruct (loopS (stepC prev) 0 outs s) as [[ks s1]|e] eqn:El; [|assumption].
      destruct HB as (_ & _ & _ & HJ & _).
      pose proof (loopS_length _ _ _ _ _ _ El) as Hlen.
      unfold finishC. destruct ks as [|k [|k2 kr]].
      + cbn [BlameL]. exists info. destruct outs; [assumption|discriminate Hlen].
      + assumption.
      + assert (Hl2 : 2 <= length (map fst outs)) by (rewrite map_length, <- Hlen; cbn; lia).
        destruct info as [key|]; [|now apply Just_set_chance].
        destruct (find_index (opt_key_eqb key) (b_chance s1)) as [[ind [o old]]|] eqn:Efi;
          [|now apply Just_set_chance].
        destruct (list_eqb (eqb NN) old (normalise (map fst outs))) eqn:Eeq; [assumption|].
        apply find_index_Some in Efi as (Hi & Hn & Hf).
        unfold opt_key_eqb in Hf. cbn [fst] in Hf. destruct o as [k'|]; [|discriminate].
        apply N.eqb_eq in Hf. subst k'. apply nth_error_In in Hn.
        destruct (proj2 (proj2 HJ) _ old Hn) as (ws0 & A & B & ->).
        cbn [BlameL]. exists key, ws0, (map fst outs). repeat split; assumption.
    - rewrite occs_GPlayer in Hincl. apply incl_cons_inv in Hincl as [Hhead Hincl].
      pose proof HI as (HG & HP & HJ & HR).
      destruct acts as [|[a c] [|y r]].
      + cbn [BlameL]. exists pl, info, (own pl h1 h2). exact Hhead.
      + rewrite init_GPlayer_single. unfold singleP.
        specialize (IH (a, c) (or_introl eq_refl)). cbn [snd] in IH.
        cbn [length Nat.leb flat_mapi occs_kid andb snd] in Hincl. rewrite app_nil_r in Hincl.
        cbn [map fst] in Hhead.
        destruct (existsb _ (b_infos s pl)) eqn:Eex.
        * apply existsb_exists in Eex as (pi & Hpi & En). apply N.eqb_eq in En.
          apply (In_nth _ _ dpi) in Hpi as (i & Hi & Ei).
          destruct (proj1 HJ pl i Hi) as (info' & acts' & h0 & (_ & En' & Ea & _) & A & B).
          rewrite Ei in En', Ea. subst info' acts'. rewrite En in A.
          cbn [BlameL]. exists pl, info, (pi_actions pi), [a], h0, (own pl h1 h2).
          repeat split; try assumption. intros E. rewrite E in B. cbn in B. lia.
        * destruct (find_index _ (b_singles s pl)) as [[i [n0 a']]|] eqn:Efi.
          -- apply find_index_Some in Efi as (Hi & Hn & Hf). cbn [fst] in Hf.
             apply N.eqb_eq in Hf. subst n0. apply nth_error_In in Hn.
             destruct (N.eqb a' a) eqn:Ea; [exact (IH _ _ _ _ _ HI Hincl)|].
             destruct (proj1 (proj2 HJ) pl info a' Hn) as (h0 & A).
             cbn [BlameL]. exists pl, info, [a'], [a], h0, (own pl h1 h2).
             repeat split; try assumption. intros E. inversion E; subst.
             now rewrite N.eqb_refl in Ea.
          -- refine (IH _ _ _ _ _ _ Hincl). split; [now apply GInv_new_single|].
             split; [now apply PrevOK_set_singles|]. split; [eapply Just_set_singles; eassumption|].
             intros q. unfold name_prev. rewrite b_infos_set_singles. apply HR.
      + rewrite init_multi.
        set (acts := (a, c) :: y :: r) in *.
        assert (Hlen : 2 <= length (map fst acts)) by (cbn; lia).
        destruct (existsb _ (b_singles s pl)) eqn:Eex.
        * apply existsb_exists in Eex as ([n0 a'] & He & En). cbn [fst] in En.
          apply N.eqb_eq in En. subst n0.
          destruct (proj1 (proj2 HJ) pl info a' He) as (h0 & A).
          cbn [BlameL]. exists pl, info, [a'], (map fst acts), h0, (own pl h1 h2).
          repeat split; try assumption. intros E. rewrite <- E in Hlen. cbn in Hlen. lia.
        * pose proof (found_info_blame U s pl info (map fst acts) prev h1 h2 HI Hhead Hlen) as HL.
          destruct (found_info prev pl info (map fst acts) s) as [[ind s0]|e] eqn:Elk; [|assumption].
          destruct (found_info_ok s pl info _ prev ind s0 HG HP Eex Hlen Elk)
            as (E0 & G0 & Hind & Hnth).
          assert (HB : match loopS (stepP prev pl ind) 0 acts s0 with
                       | Ok (_, s1) => ext s0 s1 /\ BlInv U prev h1 h2 s1
                       | Err e => BlameL e U
                       end).
          { apply (loopS_res (stepP prev pl ind) (fun s1 => ext s0 s1 /\ BlInv U prev h1 h2 s1)
                     (fun e => BlameL e U)).
            - intros j ac s1 Hj [E1 HI1]. unfold stepP. change (0 + j) with j.
              destruct (ext_infos_at s0 s1 pl ind _ E1 Hind Hnth) as [Hind1 Hnth1].
              apply (blame_step _ (IH ac (nth_error_In _ _ Hj)) U prev h1 h2 s0 _ _ _ s1 E1 HI1
                       (PrevOK_set _ _ _ _ j (proj1 (proj2 HI1)) Hind1)
                       (PrevRel_set _ _ _ _ pl ind info j (proj2 (proj2 (proj2 HI1)))
                          (f_equal pi_name Hnth1))).
              intros o Ho. apply Hincl, in_flat_mapi. eauto.
            - split; [apply ext_refl|]. split; [assumption|].
              split; [now apply (PrevOK_ext prev s)|]. split; [assumption|].
              now apply (PrevRel_ext s s0). }
          destruct (loopS (stepP prev pl ind) 0 acts s0) as [[ks s1]|e]; [apply HB|assumption].
  Qed.

  Lemma PrevRel_empty (s : bst) : PrevRel s (None, None) [] [].
  Proof. intros [|]; reflexivity. Qed.

  Lemma init_root (t : gnode) :
    match init t (None, None) b_empty with
    | Ok (root, s) => Post t (None, None) b_empty root s /\ Just (occs t [] []) s
    | Err e => Blame e t
    end.
  Proof.
    assert (HI : BlInv (occs t [] []) (None, None) [] [] (@b_empty NN)).
    { split; [apply GInv_empty|]. split; [apply PrevOK_empty|]. split; [apply Just_empty|].
      apply PrevRel_empty. }
    pose proof (init_blame t _ _ _ _ _ HI (incl_refl _)) as HB.
    destruct (init t (None, None) b_empty) as [[root s]|e] eqn:E; [|exact HB].
    split; [|exact HB]. apply init_inv; [exact E|apply GInv_empty|apply PrevOK_empty].
  Qed.

  Theorem from_root_blame (t : gnode) (e : gerr) : from_root t = Err e -> Blame e t.
  Proof.
    unfold from_root. pose proof (init_root t) as HB.
    destruct (init t (None, None) b_empty) as [[root s]|e']; [discriminate|].
    now intros [= <-].
  Qed.
End Blame.

Section Real.
  Local Open Scope R_scope.
  Local Notation gnode := (@gnode RNum).
  Local Notation game := (@game RNum).

  Definition rowOK (row : list R) : Prop := Forall (fun p => 0 < p) row /\ Rsum row = 1.

  Lemma normalise_R (ws : list R) : @normalise RNum ws = map (fun w => w / Rsum ws) ws.
  Proof. unfold normalise. cbn [is_fin RNum]. rewrite sum_Rsum. reflexivity. Qed.

  Lemma normalise_rowOK (ws : list R) :
    ws <> [] -> Forall (fun w => 0 < w) ws -> rowOK (@normalise RNum ws).
  Proof.
    intros Hne Hpos. pose proof (Rsum_pos_nonempty ws Hne Hpos) as HS.
    rewrite normalise_R. split.
    - apply Forall_forall. intros y Hy. apply in_map_iff in Hy as (x & <- & Hx).
      rewrite Forall_forall in Hpos. specialize (Hpos x Hx).
      apply Rmult_lt_0_compat; [assumption|]. now apply Rinv_0_lt_compat.
    - rewrite Rsum_map_div. unfold Rdiv. apply Rinv_r. lra.
  Qed.

  Lemma wok_R (w : R) : @wok RNum w = true <-> 0 < w.
  Proof.
    unfold wok. cbn [ltb zero is_fin RNum]. rewrite andb_true_r. apply Rltb_true.
  Qed.

  (** every row of the table is the normalisation of the weights of a chance node of the
      tree, and those are positive *)
  Theorem from_root_chance_ok (t : gnode) (g : game) : from_root t = Ok g -> ChanceOK g.
  Proof.
    intros H. apply from_root_ok in H as (root & s & H & ->).
    pose proof (init_root t) as HB. rewrite H in HB.
    destruct HB as [(_ & _ & _ & HX) (_ & _ & J3)].
    apply Forall_forall. intros row Hrow. cbn [g_chance game_of] in Hrow.
    apply in_map_iff in Hrow as ([o r] & <- & Hin). cbn [snd].
    destruct (J3 o r Hin) as (ws & Hocc & _ & ->).
    destruct (HX [] [] (PrevRel_empty s) _ Hocc) as (Hne & Hw & _).
    apply normalise_rowOK; [exact Hne|]. apply Forall_forall. intros w Hw'. now apply wok_R, Hw.
  Qed.

  Theorem from_root_sound (t : gnode) (g : game) :
    from_root t = Ok g -> WFgame g /\ PerfectRecall g /\ ChanceOK g.
  Proof.
    intros H. destruct (from_root_WF t g H) as [H1 H2].
    split; [assumption|]. split; [assumption|]. now apply (from_root_chance_ok t).
  Qed.
End Real.

Section Contract.
  Context {NN : Num}.
  Local Notation T := (T NN).
  Local Notation gnode := (@gnode NN).
  Local Notation node := (@node NN).
  Local Notation bst := (@bst NN).
  Local Notation game := (@game NN).
  Local Notation occ := (@occ NN).

  (** The documented contract, on the list of node occurrences of the raw tree; it mentions
      neither the builder state, nor table indices, nor the traversal order:
      - payoffs are finite;
      - every chance node has an outcome and only positive finite weights;
      - chance nodes (with at least two outcomes) sharing a label have the same normalised
        probabilities in the same order;
      - every decision node has an action, and its actions are pairwise distinct;
      - decision nodes of one player sharing an infoset name list the same actions in the
        same order, and (when they have at least two actions) are reached with the same
        previous own (infoset name, action index) step — see [Contract_full_history] for
        the equivalent formulation with the whole own history. *)
  Definition ContractL (U : list occ) : Prop :=
    (forall p, In (OTerm p) U -> is_fin NN p = true) /\
    (forall info ws, In (OChance info ws) U ->
       ws <> [] /\ forall w, In w ws -> ltb NN (zero NN) w && is_fin NN w = true) /\
    (forall k ws ws', In (OChance (Some k) ws) U -> In (OChance (Some k) ws') U ->
       2 <= length ws -> 2 <= length ws' ->
       list_eqb (eqb NN) (normalise ws) (normalise ws') = true) /\
    (forall pl info acts h, In (OPlayer pl info acts h) U -> acts <> [] /\ NoDup acts) /\
    (forall pl info acts acts' h h',
       In (OPlayer pl info acts h) U -> In (OPlayer pl info acts' h') U ->
       acts = acts' /\ (2 <= length acts -> last_opt h = last_opt h')).

  Definition Contract (t : gnode) : Prop := ContractL (occs t [] []).

  Lemma Contract_no_blame U e : ContractL U -> BlameL e U -> False.
  Proof.
    intros (C1 & C2 & C3 & C4 & C5) HB. destruct e; cbn [BlameL] in HB.
    - destruct HB as (info & Hin). destruct (C2 _ _ Hin) as [Hne _]. now apply Hne.
    - destruct HB as (info & ws & w & Hin & Hw & E). destruct (C2 _ _ Hin) as [_ Hall].
      rewrite (Hall w Hw) in E. discriminate.
    - destruct HB as (k & ws & ws' & A & B & L1 & L2 & E).
      rewrite (C3 k ws ws' A B L1 L2) in E. discriminate.
    - destruct HB as (pl & info & acts & acts' & h & h' & A & B & L1 & L2 & E).
      destruct (C5 _ _ _ _ _ _ A B) as [_ Hl]. now apply E, Hl.
    - destruct HB as (pl & info & h & Hin). destruct (C4 _ _ _ _ Hin) as [Hne _]. now apply Hne.
    - destruct HB as (pl & info & acts & acts' & h & h' & A & B & E).
      destruct (C5 _ _ _ _ _ _ A B) as [Ha _]. now apply E.
    - destruct HB as (pl & info & acts & h & Hin & E). destruct (C4 _ _ _ _ Hin) as [_ Hnd].
      now apply E.
    - destruct HB as (p & Hin & E). rewrite (C1 p Hin) in E. discriminate.
  Qed.

  Corollary from_root_err_not_contract (t : gnode) (e : gerr) :
    from_root t = Err e -> ~ Contract t.
  Proof.
    intros H HC. eapply Contract_no_blame; [exact HC|]. apply from_root_blame. exact H.
  Qed.

  Theorem from_root_complete (t : gnode) : Contract t -> exists g, from_root t = Ok g.
  Proof.
    intros HC. destruct (from_root t) as [g|e] eqn:E; [eauto|].
    now destruct (from_root_err_not_contract t e E).
  Qed.

  Corollary Contract_DataOK (t : gnode) : Contract t -> DataOK t.
  Proof. intros HC. destruct (from_root_complete t HC) as [g Hg]. eapply from_root_data_ok; exact Hg. Qed.

  Lemma from_root_sound_contract_gen :
    (forall x y : T, eqb NN x y = true <-> x = y) ->
    forall (t : gnode) (g : game), from_root t = Ok g -> Contract t.
  Proof.
    intros Heq t g H. apply from_root_ok in H as (root & s & H & _).
    pose proof (init_root t) as HB. rewrite H in HB. destruct HB as [(_ & HG & _ & HX) _].
    pose proof (HX [] [] (PrevRel_empty s)) as HReg. pose proof HG as [GW _].
    unfold Contract. set (U := occs t [] []) in *.
    split; [|split; [|split; [|split]]].
    - intros p Hin. exact (HReg _ Hin).
    - intros info ws Hin. destruct (HReg _ Hin) as (A & B & _). split; [assumption|].
      intros w Hw. exact (B w Hw).
    - intros k ws ws' Hin Hin' Hl Hl'.
      destruct (HReg _ Hin) as (_ & _ & C). destruct (HReg _ Hin') as (_ & _ & C').
      destruct (C Hl k eq_refl) as (i & o & row & F & D).
      destruct (C' Hl' k eq_refl) as (i' & o' & row' & F' & D').
      rewrite F in F'. inversion F'; subst i' o' row'.
      rewrite (list_eqb_eq _ Heq) in D, D'. apply (list_eqb_eq _ Heq).
      destruct D as [D|D], D' as [D'|D']; congruence.
    - intros pl info acts h Hin. pose proof (HReg _ Hin) as HR. cbn [Reg] in HR.
      destruct HR as [(a & -> & _)|(Hl & i & Hi & A & B & C)].
      + split; [discriminate|]. constructor; [intros []|constructor].
      + split; [intros ->; cbn in Hl; lia|].
        destruct (GW pl) as [_ HF]. rewrite Forall_forall in HF.
        destruct (HF (nth i (b_infos s pl) dpi) (nth_In _ _ Hi)) as [Hnd _]. now rewrite B in Hnd.
    - intros pl info acts acts' h h' Hin Hin'.
      pose proof (HReg _ Hin) as HR. pose proof (HReg _ Hin') as HR'. cbn [Reg] in HR, HR'.
      destruct (GW pl) as [Hnd _]. apply NoDup_app_iff in Hnd as (_ & Hnd & Hdis).
      destruct HR as [(a & -> & Ha)|(Hl & i & Hi & A & B & C)];
        destruct HR' as [(a' & -> & Ha')|(Hl' & i' & Hi' & A' & B' & C')].
      + split; [|cbn; lia]. apply (f_equal (fun x => [x])). exact (NoDup_map_fst_inj _ _ _ _ Hnd Ha Ha').
      + exfalso. apply (Hdis info).
        * rewrite <- A'. apply in_map. now apply nth_In.
        * apply in_map_iff. exists (info, a). auto.
      + exfalso. apply (Hdis info).
        * rewrite <- A. apply in_map. now apply nth_In.
        * apply in_map_iff. exists (info, a'). auto.
      + assert (i = i') as <- by (apply (GInv_name_inj s pl); congruence).
        split; [congruence|]. intros _. congruence.
  Qed.

  (** *** The contract in terms of whole own histories

      Under the contract, two multi-action nodes of a player with the same infoset name
      are reached with the same *whole* own history (perfect recall as documented), not
      only the same last step. *)
  Lemma occs_chain (n : gnode) : forall h1 h2 pl info acts h,
    In (OPlayer pl info acts h) (occs n h1 h2) ->
    h = own pl h1 h2 \/
    exists h0 nm a acts0, h = h0 ++ [(nm, a)] /\ 2 <= length acts0 /\
                          In (OPlayer pl nm acts0 h0) (occs n h1 h2).
  Proof.
    induction n as [p|info' outs IH|pl' info' acts' IH] using gnode_ind';
      intros h1 h2 pl info acts h Hin; try rewrite Forall_forall in IH.
    - destruct Hin as [E|[]]. discriminate E.
    - rewrite occs_GChance in Hin |- *. destruct Hin as [E|Hin]; [discriminate E|].
      apply in_flat_map in Hin as (wc & Hwc & Hin).
      destruct (IH wc Hwc h1 h2 pl info acts h Hin) as [->|(h0 & nm & a & acts0 & -> & Hl & Hj)];
        [now left|].
      right. exists h0, nm, a, acts0. split; [reflexivity|]. split; [assumption|].
      right. apply in_flat_map. eauto.
    - rewrite occs_GPlayer in Hin |- *. destruct Hin as [[= <- <- <- <-]|Hin]; [now left|].
      apply in_flat_mapi in Hin as (b & ac & Hb & Hin).
      destruct (IH ac (nth_error_In _ _ Hb) _ _ pl info acts h Hin)
        as [->|(h0 & nm & a & acts0 & -> & Hl & Hj)].
      + destruct (Nat.leb 2 (length acts')) eqn:Em; [|left; now destruct pl, pl'].
        destruct (bool_cases pl pl') as [->| ->].
        * right. exists (own pl' h1 h2), info', b, (map fst acts').
          split; [destruct pl'; reflexivity|].
          split; [rewrite map_length; now apply Nat.leb_le|now left].
        * left. destruct pl'; reflexivity.
      + right. exists h0, nm, a, acts0. split; [reflexivity|]. split; [assumption|].
        right. apply in_flat_mapi. exists b, ac. now split.
  Qed.

  Theorem Contract_full_history (t : gnode) :
    Contract t ->
    forall pl info acts acts' h h',
      In (OPlayer pl info acts h) (occs t [] []) -> In (OPlayer pl info acts' h') (occs t [] []) ->
      2 <= length acts -> h = h'.
  Proof.
    intros (_ & _ & _ & _ & C5) pl info acts acts' h h' Hin Hin' Hl.
    apply (chain_unique (fun pl nm h => exists acts, In (OPlayer pl nm acts h) (occs t [] []) /\
                                                     2 <= length acts)) with pl info.
    - intros q nm g (ac & Hg & _).
      destruct (occs_chain t [] [] _ _ _ _ Hg) as [->|(h0 & nm0 & a & acts0 & -> & L0 & H0)];
        [left; now destruct q|].
      right. exists h0, nm0, a. split; [reflexivity|]. exists acts0; auto.
    - intros q nm g g' (ac & Hg & Lg) (ac' & Hg' & _). now apply (C5 _ _ _ _ _ _ Hg Hg').
    - exists acts; auto.
    - exists acts'. split; [assumption|]. now destruct (C5 _ _ _ _ _ _ Hin Hin') as [<- _].
  Qed.
End Contract.

Section RealContract.
  Local Notation gnode := (@gnode RNum).
  Local Notation game := (@game RNum).

  Theorem from_root_sound_contract (t : gnode) (g : game) : from_root t = Ok g -> Contract t.
  Proof. apply from_root_sound_contract_gen. intros x y. apply Reqb_true. Qed.

  Corollary from_root_accepts_iff (t : gnode) : (exists g, from_root t = Ok g) <-> Contract t.
  Proof.
    split; [intros [g H]; eapply from_root_sound_contract; exact H|apply from_root_complete].
  Qed.

  (** *** Non-vacuity: matching pennies, player two does not observe player one's move
      (two nodes of player two in one infoset, below different actions of player one) *)
  Local Open Scope R_scope.
  Definition mp_leaf (x y : R) : gnode :=
    @GPlayer RNum false 1%N [(0%N, @GTerm RNum x); (1%N, @GTerm RNum y)].
  Definition matching_pennies : gnode :=
    @GPlayer RNum true 0%N [(0%N, mp_leaf 1 (-1)); (1%N, mp_leaf (-1) 1)].

  Example matching_pennies_accepted :
    from_root matching_pennies =
    Ok (@mkGame RNum [] [mkPinfo 0%N [0%N; 1%N] None] [mkPinfo 1%N [0%N; 1%N] None] [] []
               (@Player RNum true 0 [@Player RNum false 0 [@Term RNum 1; @Term RNum (-1)];
                               @Player RNum false 0 [@Term RNum (-1); @Term RNum 1]])).
  Proof. reflexivity. Qed.

  Example matching_pennies_sound :
    exists g, from_root matching_pennies = Ok g /\ WFgame g /\ PerfectRecall g /\ ChanceOK g
              /\ Contract matching_pennies.
  Proof.
    eexists. split; [exact matching_pennies_accepted|].
    pose proof (from_root_sound _ _ matching_pennies_accepted) as (A & B & C).
    split; [assumption|]. split; [assumption|]. split; [assumption|].
    exact (from_root_sound_contract _ _ matching_pennies_accepted).
  Qed.

  (** player two forgets which of his own actions he took: rejected, and blamed *)
  Definition forgetful : gnode :=
    @GPlayer RNum false 0%N
      [(0%N, @GPlayer RNum false 1%N [(0%N, @GTerm RNum 0); (1%N, @GTerm RNum 1)]);
       (1%N, @GPlayer RNum false 1%N [(0%N, @GTerm RNum 1); (1%N, @GTerm RNum 0)])].

  Example forgetful_rejected : from_root forgetful = Err ImperfectRecall.
  Proof. reflexivity. Qed.

  Example forgetful_blamed : Blame ImperfectRecall forgetful /\ ~ Contract forgetful.
  Proof.
    split; [apply from_root_blame, forgetful_rejected|].
    exact (from_root_err_not_contract _ _ forgetful_rejected).
  Qed.

  (** two chance nodes sharing the label 7 with proportional weights (1:3 and 2:6):
      accepted into one row (real comparisons do not compute: each is rewritten) *)
  Definition shared_chance : gnode :=
    @GChance RNum (Some 7%N)
      [(1, @GTerm RNum 0);
       (3, @GChance RNum (Some 7%N) [(2, @GTerm RNum 1); (6, @GTerm RNum 2)])].

  Example shared_chance_accepted :
    exists g, from_root shared_chance = Ok g /\ ChanceOK g /\ length (g_chance g) = 1%nat.
  Proof.
    assert (St : forall prev ai w (c : gnode) s, 0 < w -> @stepC RNum prev ai (w, c) s = init c prev s).
    { intros prev ai w c s Hw. unfold stepC. cbn [fst snd]. now rewrite (proj2 (wok_R w) Hw). }
    assert (Hg : exists g, from_root shared_chance = Ok g /\ length (g_chance g) = 1%nat).
    { unfold from_root, shared_chance.
      rewrite init_chance. cbn [loopS].
      rewrite St, init_GTerm by lra. cbn [is_fin RNum].
      rewrite St, init_chance by lra. cbn [loopS].
      rewrite St, init_GTerm by lra. cbn [is_fin RNum].
      rewrite St, init_GTerm by lra. cbn [is_fin RNum].
      unfold finishC.
      cbn [map fst snd b_chance b_empty find_index set_chance app opt_key_eqb length N.eqb Pos.eqb].
      rewrite (proj2 (list_eqb_eq _ Reqb_true _ _)); [eexists; split; reflexivity|].
      rewrite !normalise_R. cbn [map Rsum]. f_equal; [|f_equal]; lra. }
    destruct Hg as (g & Hg & Hl). exists g.
    split; [assumption|]. split; [now apply (from_root_chance_ok shared_chance)|assumption].
  Qed.
End RealContract.
