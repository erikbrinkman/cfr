(** * IterChar: what one unsampled iteration does to the infoset state.

    For the unsampled traversal ([sampled = false]) the effect of [vrec] on the
    state is, per infoset [(pl, i)]:
    - [cum_regret[a] += cfr_inc pl i a]   ([vrec_state_regret]),
    - [cum_strat    += cs_inc pl i * strat] ([vrec_state_cum_strat]),
    - [strat] unchanged ([vrec_state_strat]),
    where [cfr_inc] and [cs_inc] are structural recursions over the tree that
    depend on the strategies only: [cfr_inc] sums, over the nodes [h] of the
    infoset, (signed) counterfactual reach of [h] times (value of the child [a] of
    [h] minus value of [h]) ([cfr_inc_semantic]); it is orthogonal to the current
    strategy ([cfr_inc_orthogonal]).  With the vanilla [params] the [advance]
    step only recomputes [strat] by regret matching ([vanilla_iter_state]). *)
From Coq Require Import Reals List Lra Lia Bool Arith NArith.
From Cfr.theories Require Import Num ListAux RInst Tree GameWF Strat Eval Solve Valid
     StratAgreeProofs SolveValidProofs Incr.
Import ListNotations.
Open Scope R_scope.

Local Notation nodeR := (@node RNum).
Local Notation gameR := (@game RNum).
Local Notation pstateR := (@pstate RNum).
Local Notation rinfoR := (@rinfo RNum).
Local Notation incrR := (@incr RNum).
Local Notation paramsR := (@params RNum).

Ltac tR := change (T RNum) with R in *.

Definition reg_of (pl : bool) (i a : nat) (x : incrR) : R :=
  match x with
  | IStrat _ _ _ => 0
  | IReg pl' i' a' v => if Bool.eqb pl' pl && Nat.eqb i' i && Nat.eqb a' a then v else 0
  | IRegAll pl' i' v => if Bool.eqb pl' pl && Nat.eqb i' i then - v else 0
  end.

Definition strat_of (pl : bool) (i : nat) (x : incrR) : R :=
  match x with
  | IStrat pl' i' w => if Bool.eqb pl' pl && Nat.eqb i' i then w else 0
  | _ => 0
  end.

Definition reg_sum (pl : bool) (i a : nat) (l : list incrR) : R := Rsum (map (reg_of pl i a) l).
Definition strat_sum (pl : bool) (i : nat) (l : list incrR) : R := Rsum (map (strat_of pl i) l).

Lemma reg_sum_app pl i a l1 l2 : reg_sum pl i a (l1 ++ l2) = reg_sum pl i a l1 + reg_sum pl i a l2.
Proof. unfold reg_sum. now rewrite map_app, Rsum_app. Qed.

Lemma strat_sum_app pl i l1 l2 : strat_sum pl i (l1 ++ l2) = strat_sum pl i l1 + strat_sum pl i l2.
Proof. unfold strat_sum. now rewrite map_app, Rsum_app. Qed.

Lemma ri_get_oob (st : pstateR) pl i :
  (length (ps_get st pl) <= i)%nat -> @ri_get RNum st pl i = @mkRinfo RNum [] [] [].
Proof. intros H. unfold ri_get. now apply nth_overflow. Qed.

Definition is_info (pl' : bool) (i' : nat) (pl : bool) (i : nat) : bool :=
  Bool.eqb pl' pl && Nat.eqb i' i.

Lemma is_info_true pl' i' pl i : is_info pl' i' pl i = true <-> pl' = pl /\ i' = i.
Proof.
  unfold is_info. rewrite andb_true_iff, Nat.eqb_eq. split; intros [H1 H2]; split; auto.
  - now apply Bool.eqb_prop.
  - subst. apply Bool.eqb_reflx.
Qed.

Lemma reg_of_other pl i a (x : incrR) :
  is_info (incr_pl x) (incr_ix x) pl i = false -> reg_of pl i a x = 0.
Proof.
  unfold is_info. intros H. destruct x; cbn [reg_of incr_pl incr_ix] in *; now rewrite ?H.
Qed.

Lemma strat_of_other pl i (x : incrR) :
  is_info (incr_pl x) (incr_ix x) pl i = false -> strat_of pl i x = 0.
Proof.
  unfold is_info. intros H. destruct x; cbn [strat_of incr_pl incr_ix] in *; now rewrite ?H.
Qed.

(** an increment acts on the infoset it addresses and on no other (out of range, both
    are the empty infoset) *)
Lemma apply_incr_get (st : pstateR) x pl i :
  ri_get (apply_incr st x) pl i =
  if is_info (incr_pl x) (incr_ix x) pl i then incr_fn x (ri_get st pl i) else ri_get st pl i.
Proof.
  rewrite apply_incr_upd_at, ri_get_upd_at. unfold is_info.
  destruct (Bool.eqb_spec (incr_pl x) pl) as [<-|]; cbn [andb]; [|reflexivity].
  destruct (Nat.eqb_spec (incr_ix x) i) as [<-|]; cbn [andb]; [|reflexivity].
  destruct (Nat.ltb_spec (incr_ix x) (length (ps_get st (incr_pl x)))); [reflexivity|].
  rewrite ri_get_oob by assumption. now destruct x.
Qed.

Lemma nth_map_sub (cr : list R) a v :
  (a < length cr)%nat -> nth a (map (fun c => c - v) cr) 0 = nth a cr 0 - v.
Proof.
  intros H. rewrite (nth_indep _ 0 (0 - v)) by (now rewrite map_length).
  now rewrite (map_nth (fun c => c - v)).
Qed.

Lemma incr_fn_regret_len (x : incrR) (ri : rinfoR) :
  length (cum_regret (incr_fn x ri)) = length (cum_regret ri).
Proof.
  destruct x; cbn [incr_fn cum_regret]; [reflexivity|apply upd_length|apply map_length].
Qed.

Lemma incr_fn_regret_nth (x : incrR) (ri : rinfoR) a :
  (a < length (cum_regret ri))%nat ->
  nth a (cum_regret (incr_fn x ri)) 0 =
  nth a (cum_regret ri) 0 + reg_of (incr_pl x) (incr_ix x) a x.
Proof.
  intros Ha. destruct x as [pl i w|pl i a' v|pl i v];
    cbn [incr_fn cum_regret reg_of incr_pl incr_ix]; rewrite ?Bool.eqb_reflx, ?Nat.eqb_refl;
    cbn [andb].
  - lra.
  - change (add RNum) with Rplus. change (zero RNum) with 0. rewrite nth_upd.
    destruct (Nat.eqb_spec a' a) as [->|Hne]; cbn [andb].
    + apply Nat.ltb_lt in Ha. rewrite Ha. reflexivity.
    + lra.
  - change (sub RNum) with Rminus. rewrite nth_map_sub by assumption. tR. lra.
Qed.

Lemma apply_incr_regret_len (st : pstateR) x pl i :
  length (cum_regret (ri_get (apply_incr st x) pl i)) = length (cum_regret (ri_get st pl i)).
Proof.
  rewrite apply_incr_get. destruct (is_info _ _ pl i); [apply incr_fn_regret_len|reflexivity].
Qed.

Lemma apply_incr_regret_nth (st : pstateR) x pl i a :
  (a < length (cum_regret (ri_get st pl i)))%nat ->
  nth a (cum_regret (ri_get (apply_incr st x) pl i)) 0 =
  nth a (cum_regret (ri_get st pl i)) 0 + reg_of pl i a x.
Proof.
  intros Ha. rewrite apply_incr_get. destruct (is_info (incr_pl x) (incr_ix x) pl i) eqn:E.
  - apply is_info_true in E as [<- <-]. now apply incr_fn_regret_nth.
  - rewrite reg_of_other by exact E. lra.
Qed.

Lemma fold_incr_regret_len (l : list incrR) (st : pstateR) pl i :
  length (cum_regret (ri_get (fold_left apply_incr l st) pl i)) =
  length (cum_regret (ri_get st pl i)).
Proof.
  revert st; induction l as [|x l IH]; intros st; cbn [fold_left]; [reflexivity|].
  rewrite IH. apply apply_incr_regret_len.
Qed.

Lemma fold_incr_regret_nth (l : list incrR) (st : pstateR) pl i a :
  (a < length (cum_regret (ri_get st pl i)))%nat ->
  nth a (cum_regret (ri_get (fold_left apply_incr l st) pl i)) 0 =
  nth a (cum_regret (ri_get st pl i)) 0 + reg_sum pl i a l.
Proof.
  revert st; induction l as [|x l IH]; intros st Ha; cbn [fold_left].
  - unfold reg_sum; cbn [map Rsum]. lra.
  - rewrite IH by (now rewrite apply_incr_regret_len).
    rewrite apply_incr_regret_nth by assumption.
    unfold reg_sum; cbn [map Rsum]. lra.
Qed.

Lemma apply_incr_strat_eq (st : pstateR) x pl i :
  strat (ri_get (apply_incr st x) pl i) = strat (ri_get st pl i).
Proof. exact (apply_incr_strat_pt st x pl i). Qed.

Lemma fold_incr_strat_eq (l : list incrR) (st : pstateR) pl i :
  strat (ri_get (fold_left apply_incr l st) pl i) = strat (ri_get st pl i).
Proof. exact (fold_incr_strat_pt l st pl i). Qed.

(** [cum_strat]: needs the vectors of the infoset to have one length *)
Definition len_ok (st : pstateR) (pl : bool) (i : nat) : Prop :=
  length (cum_strat (@ri_get RNum st pl i)) = length (strat (@ri_get RNum st pl i)).

Lemma Forall_mp2 {X} (P1 P2 Q : X -> Prop) l :
  Forall (fun x => P1 x -> P2 x -> Q x) l -> Forall P1 l -> Forall P2 l -> Forall Q l.
Proof. induction 1; do 2 inversion 1; constructor; auto. Qed.

Lemma nth_map_combine (F : R * R -> R) (l1 l2 : list R) a :
  length l1 = length l2 -> F (0, 0) = 0 ->
  nth a (map F (combine l1 l2)) 0 = F (nth a l1 0, nth a l2 0).
Proof. intros E E0. rewrite <- E0 at 1. rewrite map_nth. now rewrite combine_nth. Qed.

Lemma incr_fn_strat_len (x : incrR) (ri : rinfoR) :
  length (cum_strat ri) = length (strat ri) ->
  length (cum_strat (incr_fn x ri)) = length (cum_strat ri).
Proof.
  intros E. destruct x; cbn [incr_fn cum_strat]; try reflexivity.
  rewrite map_length, combine_length. lia.
Qed.

Lemma incr_fn_strat_nth (x : incrR) (ri : rinfoR) a :
  length (cum_strat ri) = length (strat ri) ->
  nth a (cum_strat (incr_fn x ri)) 0 =
  nth a (cum_strat ri) 0 + strat_of (incr_pl x) (incr_ix x) x * nth a (strat ri) 0.
Proof.
  intros E. destruct x as [pl i w|pl i a' v|pl i v];
    cbn [incr_fn cum_strat strat_of incr_pl incr_ix]; rewrite ?Bool.eqb_reflx, ?Nat.eqb_refl;
    cbn [andb]; try lra.
  change (add RNum) with Rplus. change (mul RNum) with Rmult.
  rewrite (nth_map_combine (fun vc => snd vc + w * fst vc)); [reflexivity|now symmetry|cbn [fst snd]; lra].
Qed.

Lemma apply_incr_cs_len (st : pstateR) x pl i :
  len_ok st pl i ->
  length (cum_strat (ri_get (apply_incr st x) pl i)) = length (cum_strat (ri_get st pl i)).
Proof.
  intros E. rewrite apply_incr_get.
  destruct (is_info _ _ pl i); [now apply incr_fn_strat_len|reflexivity].
Qed.

Lemma apply_incr_len_ok (st : pstateR) x pl i : len_ok st pl i -> len_ok (apply_incr st x) pl i.
Proof.
  intros E. unfold len_ok. rewrite apply_incr_cs_len by assumption.
  rewrite apply_incr_strat_eq. exact E.
Qed.

Lemma apply_incr_cs_nth (st : pstateR) x pl i a :
  len_ok st pl i ->
  nth a (cum_strat (ri_get (apply_incr st x) pl i)) 0 =
  nth a (cum_strat (ri_get st pl i)) 0 + strat_of pl i x * nth a (strat (ri_get st pl i)) 0.
Proof.
  intros E. rewrite apply_incr_get. destruct (is_info (incr_pl x) (incr_ix x) pl i) eqn:Ei.
  - apply is_info_true in Ei as [<- <-]. now apply incr_fn_strat_nth.
  - rewrite strat_of_other by exact Ei. lra.
Qed.

Lemma fold_incr_len_ok (l : list incrR) (st : pstateR) pl i :
  len_ok st pl i -> len_ok (fold_left apply_incr l st) pl i.
Proof.
  revert st; induction l as [|x l IH]; intros st E; cbn [fold_left]; [exact E|].
  apply IH. now apply apply_incr_len_ok.
Qed.

Lemma fold_incr_cs_len (l : list incrR) (st : pstateR) pl i :
  len_ok st pl i ->
  length (cum_strat (ri_get (fold_left apply_incr l st) pl i)) =
  length (cum_strat (ri_get st pl i)).
Proof.
  revert st; induction l as [|x l IH]; intros st E; cbn [fold_left]; [reflexivity|].
  rewrite IH by (now apply apply_incr_len_ok). now apply apply_incr_cs_len.
Qed.

Lemma fold_incr_cs_nth (l : list incrR) (st : pstateR) pl i a :
  len_ok st pl i ->
  nth a (cum_strat (ri_get (fold_left apply_incr l st) pl i)) 0 =
  nth a (cum_strat (ri_get st pl i)) 0 + strat_sum pl i l * nth a (strat (ri_get st pl i)) 0.
Proof.
  revert st; induction l as [|x l IH]; intros st E; cbn [fold_left].
  - unfold strat_sum; cbn [map Rsum]. lra.
  - rewrite IH by (now apply apply_incr_len_ok).
    rewrite apply_incr_cs_nth by assumption.
    rewrite apply_incr_strat_eq.
    unfold strat_sum; cbn [map Rsum]. lra.
Qed.

Section SumLoops.
  Context (reci : nodeR -> R -> R -> R -> R).

  Definition sum_chance (pc p1 p2 : R) :=
    fix go (ps : list R) (ks : list nodeR) {struct ks} : R :=
      match ps, ks with
      | p :: ps', c :: ks' => reci c (pc * p) p1 p2 + go ps' ks'
      | _, _ => 0
      end.

  Definition sum_player (pl : bool) (pc p1 p2 : R) :=
    fix go (ks : list nodeR) (ss : list R) {struct ks} : R :=
      match ks, ss with
      | c :: ks', prob :: ss' =>
          (if pl then reci c pc (p1 * prob) p2 else reci c pc p1 (p2 * prob)) + go ks' ss'
      | _, _ => 0
      end.
End SumLoops.

Section CatLoops.
  Context {A : Type} (reci : nodeR -> R -> R -> R -> list A).

  Definition cat_chance (pc p1 p2 : R) :=
    fix go (ps : list R) (ks : list nodeR) {struct ks} : list A :=
      match ps, ks with
      | p :: ps', c :: ks' => reci c (pc * p) p1 p2 ++ go ps' ks'
      | _, _ => []
      end.

  Definition cat_player (pl : bool) (pc p1 p2 : R) :=
    fix go (ks : list nodeR) (ss : list R) {struct ks} : list A :=
      match ks, ss with
      | c :: ks', prob :: ss' =>
          (if pl then reci c pc (p1 * prob) p2 else reci c pc p1 (p2 * prob)) ++ go ks' ss'
      | _, _ => []
      end.
End CatLoops.

Lemma Rsum_cat_chance {A} (h : A -> R) (F : nodeR -> R -> R -> R -> list A) f pc p1 p2 ks :
  Forall (fun c => forall qc q1 q2, Rsum (map h (F c qc q1 q2)) = f c qc q1 q2) ks ->
  forall ps, Rsum (map h (cat_chance F pc p1 p2 ps ks)) = sum_chance f pc p1 p2 ps ks.
Proof.
  induction 1 as [|c ks Hc H IH]; intros ps; destruct ps as [|p ps];
    cbn [sum_chance cat_chance map Rsum]; try reflexivity.
  now rewrite map_app, Rsum_app, Hc, IH.
Qed.

Lemma Rsum_cat_player {A} (h : A -> R) (F : nodeR -> R -> R -> R -> list A) f pl pc p1 p2 ks :
  Forall (fun c => forall qc q1 q2, Rsum (map h (F c qc q1 q2)) = f c qc q1 q2) ks ->
  forall ss, Rsum (map h (cat_player F pl pc p1 p2 ks ss)) = sum_player f pl pc p1 p2 ks ss.
Proof.
  induction 1 as [|c ks Hc H IH]; intros ss; destruct ss as [|p ss];
    cbn [sum_player cat_player map Rsum]; try reflexivity.
  rewrite map_app, Rsum_app, IH. now destruct pl; rewrite Hc.
Qed.

(** every loop over the children of a node is a sum of [g c p] over the children [c]
    paired with the entries [p] of a row (truncating) *)
Fixpoint zsum (g : nodeR -> R -> R) (ks : list nodeR) (ps : list R) : R :=
  match ks, ps with
  | c :: ks', p :: ps' => g c p + zsum g ks' ps'
  | _, _ => 0
  end.

Lemma sum_chance_zsum f pc p1 p2 ps ks :
  sum_chance f pc p1 p2 ps ks = zsum (fun c p => f c (pc * p) p1 p2) ks ps.
Proof.
  revert ps; induction ks as [|c ks IH]; intros [|p ps]; cbn [sum_chance zsum]; try reflexivity.
  now rewrite IH.
Qed.

Lemma sum_player_zsum f pl pc p1 p2 ks ss :
  sum_player f pl pc p1 p2 ks ss =
  zsum (fun c p => if pl then f c pc (p1 * p) p2 else f c pc p1 (p2 * p)) ks ss.
Proof.
  revert ss; induction ks as [|c ks IH]; intros [|p ss]; cbn [sum_player zsum]; try reflexivity.
  now rewrite IH.
Qed.

Lemma val_player_zsum (f : nodeR -> R) ks ss e :
  @val_player RNum f ks ss e = e + zsum (fun c p => p * f c) ks ss.
Proof.
  revert ss e; induction ks as [|c ks IH]; intros [|p ss] e; cbn [val_player zsum]; try lra.
  rewrite IH. cbn [add mul RNum]. lra.
Qed.

Lemma zsum_ext g g' ks ps :
  Forall (fun c => forall p, g c p = g' c p) ks -> zsum g ks ps = zsum g' ks ps.
Proof.
  intros H; revert ps; induction H as [|c ks Hc H IH]; intros [|p ps]; cbn [zsum]; try reflexivity.
  now rewrite Hc, IH.
Qed.

Lemma zsum_scal s g ks ps : zsum (fun c p => s * g c p) ks ps = s * zsum g ks ps.
Proof.
  revert ps; induction ks as [|c ks IH]; intros [|p ps]; cbn [zsum]; try lra. rewrite IH. lra.
Qed.

Lemma zsum_zero g ks ps : Forall (fun c => forall p, g c p = 0) ks -> zsum g ks ps = 0.
Proof.
  intros H; revert ps; induction H as [|c ks Hc H IH]; intros [|p ps]; cbn [zsum]; try reflexivity.
  rewrite Hc, IH. lra.
Qed.

Definition act_val (recv : nodeR -> R) :=
  fix go (ks : list nodeR) (ss : list R) (a : nat) {struct ks} : R :=
    match ks, ss with
    | c :: ks', _ :: ss' => match a with O => recv c | S a' => go ks' ss' a' end
    | _, _ => 0
    end.

(** signed counterfactual reach of a node of player [pl]: chance reach times the
    opponent's reach, negated for player two (whose payoff is the negated value);
    this is [mult] of [recurse_player] *)
Definition cfw (pl : bool) (pc p1 p2 : R) : R := if pl then pc * p2 else - p1 * pc.
Definition ownw (pl : bool) (p1 p2 : R) : R := if pl then p1 else p2.
Definition oppw (pl : bool) (p1 p2 : R) : R := if pl then p2 else p1.

(** the regret written for action [ai] and those written for the later actions, as
    seen from action [a] *)
Lemma pick_step (ai a : nat) (v : R) (X : nat -> R) :
  (if Nat.leb ai a then match (a - ai)%nat with O => v | S a' => X a' end else 0) =
  (if Nat.eqb ai a then v else 0) + (if Nat.leb (S ai) a then X (a - S ai)%nat else 0).
Proof.
  destruct (Nat.eqb_spec ai a) as [->|Hne].
  - rewrite Nat.leb_refl, Nat.sub_diag.
    replace (Nat.leb (S a) a) with false by (symmetry; apply Nat.leb_gt; lia). lra.
  - destruct (Nat.leb_spec ai a) as [Hle|Hgt].
    + replace (Nat.leb (S ai) a) with true by (symmetry; apply Nat.leb_le; lia).
      replace (a - ai)%nat with (S (a - S ai)) by lia. lra.
    + replace (Nat.leb (S ai) a) with false by (symmetry; apply Nat.leb_gt; lia). lra.
Qed.

Section Char.
  Context (chance : list (list R)) (sg : bool -> nat -> list R).

  Fixpoint uval (n : nodeR) {struct n} : R :=
    match n with
    | Term x => x
    | Chance ci kids => @val_chance RNum uval (@row RNum chance ci) kids 0
    | Player pl i kids => @val_player RNum uval kids (sg pl i) 0
    end.

  Definition node_regret (kids : list nodeR) (ss : list R) (a : nat) : R :=
    act_val uval kids ss a - @val_player RNum uval kids ss 0.

  Fixpoint cfr_inc (pl : bool) (i a : nat) (n : nodeR) (pc p1 p2 : R) {struct n} : R :=
    match n with
    | Term _ => 0
    | Chance ci kids => sum_chance (cfr_inc pl i a) pc p1 p2 (@row RNum chance ci) kids
    | Player pl' i' kids =>
        (if is_info pl' i' pl i
         then cfw pl' pc p1 p2 * node_regret kids (sg pl' i') a else 0)
        + sum_player (cfr_inc pl i a) pl' pc p1 p2 kids (sg pl' i')
    end.

  Fixpoint cs_inc (pl : bool) (i : nat) (n : nodeR) (pc p1 p2 : R) {struct n} : R :=
    match n with
    | Term _ => 0
    | Chance ci kids => sum_chance (cs_inc pl i) pc p1 p2 (@row RNum chance ci) kids
    | Player pl' i' kids =>
        (if is_info pl' i' pl i then ownw pl' p1 p2 else 0)
        + sum_player (cs_inc pl i) pl' pc p1 p2 kids (sg pl' i')
    end.

  Fixpoint cf_nodes (pl : bool) (i : nat) (n : nodeR) (pc p1 p2 : R) {struct n}
    : list (R * list nodeR) :=
    match n with
    | Term _ => []
    | Chance ci kids => cat_chance (cf_nodes pl i) pc p1 p2 (@row RNum chance ci) kids
    | Player pl' i' kids =>
        (if is_info pl' i' pl i then [(cfw pl' pc p1 p2, kids)] else [])
        ++ cat_player (cf_nodes pl i) pl' pc p1 p2 kids (sg pl' i')
    end.

  Definition cfr_incs (pl : bool) (i : nat) (n : nodeR) (pc p1 p2 : R) : list R :=
    map (fun a => cfr_inc pl i a n pc p1 p2) (seq 0 (length (sg pl i))).

  Lemma cfr_incs_length pl i n pc p1 p2 : length (cfr_incs pl i n pc p1 p2) = length (sg pl i).
  Proof. unfold cfr_incs. now rewrite map_length, seq_length. Qed.

  Lemma cfr_incs_nth pl i n pc p1 p2 a :
    (a < length (sg pl i))%nat -> nth a (cfr_incs pl i n pc p1 p2) 0 = cfr_inc pl i a n pc p1 p2.
  Proof. apply (nth_map_seq (fun a => cfr_inc pl i a n pc p1 p2)). Qed.

  Lemma Forall_cfr_incs (P : R -> Prop) pl i n pc p1 p2 :
    (forall a, (a < length (sg pl i))%nat -> P (cfr_inc pl i a n pc p1 p2)) ->
    Forall P (cfr_incs pl i n pc p1 p2).
  Proof.
    intros H. apply Forall_forall. intros y Hy. apply in_map_iff in Hy as (a & <- & Ha).
    apply in_seq in Ha. apply H. lia.
  Qed.

  Lemma cfr_inc_reach pl i a n :
    forall pc p1 p2,
    cfr_inc pl i a n pc p1 p2 = pc * oppw pl p1 p2 * cfr_inc pl i a n 1 1 1.
  Proof.
    induction n as [x|ci kids IH|pl' i' kids IH] using node_ind'; intros pc p1 p2; cbn [cfr_inc].
    - lra.
    - rewrite !sum_chance_zsum, <- zsum_scal. apply zsum_ext.
      eapply Forall_impl; [|exact IH]. intros c Hc p.
      rewrite (Hc (pc * p)), (Hc (1 * p) 1 1). unfold oppw. destruct pl; lra.
    - rewrite Rmult_plus_distr_l. f_equal.
      + destruct (is_info pl' i' pl i) eqn:E; [|lra]. apply is_info_true in E as [-> _].
        unfold cfw, oppw. destruct pl; lra.
      + rewrite !sum_player_zsum, <- zsum_scal. apply zsum_ext.
        eapply Forall_impl; [|exact IH]. intros c Hc p.
        destruct pl'; [rewrite (Hc pc (p1 * p)), (Hc 1 (1 * p) 1)|rewrite (Hc pc p1), (Hc 1 1 (1 * p))];
          unfold oppw; destruct pl; lra.
  Qed.

  Lemma cfr_inc_zero pl i a n pc p1 p2 :
    pc * oppw pl p1 p2 = 0 -> cfr_inc pl i a n pc p1 p2 = 0.
  Proof. intros H. rewrite cfr_inc_reach, H. lra. Qed.

  Lemma cfr_inc_zero_pc pl i a n p1 p2 : cfr_inc pl i a n 0 p1 p2 = 0.
  Proof. apply cfr_inc_zero. lra. Qed.

  Lemma val_player_acc (f : nodeR -> R) ks ss e :
    @val_player RNum f ks ss e = e + @val_player RNum f ks ss 0.
  Proof. rewrite !val_player_zsum. lra. Qed.

  Lemma val_chance_player (f : nodeR -> R) ps ks e :
    @val_chance RNum f ps ks e = @val_player RNum f ks ps e.
  Proof.
    revert ps e; induction ks as [|c ks IH]; intros ps e; destruct ps as [|p ps];
      cbn [val_chance val_player]; auto.
  Qed.

  Lemma val_chance_acc (f : nodeR -> R) ps ks e :
    @val_chance RNum f ps ks e = e + @val_chance RNum f ps ks 0.
  Proof. rewrite !val_chance_player. apply val_player_acc. Qed.

  Lemma exp_player_val (f : nodeR -> R) mult ks ss e :
    @exp_player RNum f mult ks ss e = e + mult * @val_player RNum f ks ss 0.
  Proof.
    revert ss e; induction ks as [|c ks IH]; intros ss e; destruct ss as [|p ss];
      cbn [exp_player val_player]; try lra.
    change (add RNum) with Rplus. change (mul RNum) with Rmult.
    rewrite IH. rewrite (val_player_acc f ks ss (0 + _)). lra.
  Qed.

  Lemma val_player_ext (f g : nodeR -> R) ks ss e :
    Forall (fun c => f c = g c) ks -> @val_player RNum f ks ss e = @val_player RNum g ks ss e.
  Proof.
    intros H; revert ss e; induction H as [|c ks Hc H IH]; intros ss e; destruct ss as [|p ss];
      cbn [val_player]; try reflexivity. rewrite Hc. apply IH.
  Qed.

  Lemma val_chance_ext (f g : nodeR -> R) ps ks e :
    Forall (fun c => f c = g c) ks -> @val_chance RNum f ps ks e = @val_chance RNum g ps ks e.
  Proof. rewrite !val_chance_player. apply val_player_ext. Qed.

  Lemma exp_player_ext (f g : nodeR -> R) mult ks ss e :
    Forall (fun c => f c = g c) ks ->
    @exp_player RNum f mult ks ss e = @exp_player RNum g mult ks ss e.
  Proof.
    intros H; revert ss e; induction H as [|c ks Hc H IH]; intros ss e; destruct ss as [|p ss];
      cbn [exp_player]; try reflexivity. rewrite Hc. apply IH.
  Qed.

  Lemma act_val_ext (f g : nodeR -> R) ks ss b :
    Forall (fun c => f c = g c) ks -> act_val f ks ss b = act_val g ks ss b.
  Proof.
    intros H; revert ss b; induction H as [|c ks Hc H IH]; intros ss b; destruct ss as [|p ss];
      cbn [act_val]; try reflexivity. destruct b; [exact Hc|apply IH].
  Qed.

  Lemma vval_uval draw pass n : @vval RNum chance false draw pass sg n = uval n.
  Proof.
    induction n as [x|ci kids IH|pl i kids IH] using node_ind'; cbn [vval uval].
    - reflexivity.
    - now apply val_chance_ext.
    - now apply val_player_ext.
  Qed.

  Lemma Forall_vval_uval draw pass (ks : list nodeR) :
    Forall (fun c => @vval RNum chance false draw pass sg c = uval c) ks.
  Proof. apply Forall_forall. intros c _. apply vval_uval. Qed.

  (** *** the regret increments of a player node add up to the node's term of [cfr_inc],
      for any value / increment functions of the children *)
  Section RegSumPlayer.
    Context (VV : nodeR -> R) (VI : nodeR -> R -> R -> R -> list incrR) (pl : bool) (i a : nat).

    Definition RSg (c : nodeR) : Prop :=
      forall pc p1 p2, reg_sum pl i a (VI c pc p1 p2) = cfr_inc pl i a c pc p1 p2.

    Lemma reg_sum_player pl' i' pc p1 p2 mult ks :
      Forall RSg ks -> forall ss ai,
      reg_sum pl i a (@incs_player RNum VV VI pl' i' pc p1 p2 mult ks ss ai) =
      (if is_info pl' i' pl i
       then (if Nat.leb ai a then act_val VV ks ss (a - ai) else 0) * mult else 0)
      + sum_player (cfr_inc pl i a) pl' pc p1 p2 ks ss.
    Proof.
      induction 1 as [|c ks Hc H IH]; intros ss ai; destruct ss as [|prob ss];
        cbn [incs_player sum_player act_val].
      1-3: unfold reg_sum; cbn [map Rsum]; destruct (is_info pl' i' pl i); [destruct (Nat.leb ai a)|]; lra.
      change (mul RNum) with Rmult.
      transitivity
        (cfr_inc pl i a c pc (if pl' then p1 * prob else p1) (if pl' then p2 else p2 * prob)
         + (reg_of pl i a (@IReg RNum pl' i' ai (VV c * mult))
            + reg_sum pl i a (@incs_player RNum VV VI pl' i' pc p1 p2 mult ks ss (S ai)))).
      { rewrite <- Hc. destruct pl'; now rewrite reg_sum_app. }
      rewrite IH, (pick_step ai a (VV c) (act_val VV ks ss)). cbn [reg_of].
      fold (is_info pl' i' pl i).
      destruct (is_info pl' i' pl i); cbn [andb]; [destruct (Nat.eqb ai a)|]; destruct pl'; lra.
    Qed.

    Lemma reg_sum_Player (pl' : bool) i' kids (pc p1 p2 mine : R) :
      let mult := if pl' then pc * p2 else - p1 * pc in
      Forall (fun c => VV c = uval c) kids -> Forall RSg kids ->
      reg_sum pl i a
        (@IStrat RNum pl' i' mine ::
         @incs_player RNum VV VI pl' i' pc p1 p2 mult kids (sg pl' i') 0 ++
         [@IRegAll RNum pl' i' (@exp_player RNum VV mult kids (sg pl' i') 0)]) =
      cfr_inc pl i a (Player pl' i' kids) pc p1 p2.
    Proof.
      intros mult HVV HVI. change (reg_sum pl i a (?x :: ?l)) with (reg_of pl i a x + reg_sum pl i a l).
      rewrite reg_sum_app, (reg_sum_player pl' i' pc p1 p2 mult kids HVI).
      unfold reg_sum. cbn [map Rsum reg_of cfr_inc]. fold (is_info pl' i' pl i).
      rewrite exp_player_val, (val_player_ext _ uval), (act_val_ext _ uval) by assumption.
      unfold node_regret, cfw, mult. cbn [Nat.leb]. rewrite Nat.sub_0_r.
      destruct (is_info pl' i' pl i); destruct pl'; lra.
    Qed.
  End RegSumPlayer.

  Section SumIncs.
    Context (draw : @oracle RNum) (pass : N) (pl : bool) (i a : nat).
    Local Notation VV := (@vval RNum chance false draw pass sg).
    Local Notation VI := (@vincs RNum chance false draw pass sg).

    Definition SS (c : nodeR) : Prop :=
      forall pc p1 p2, strat_sum pl i (VI c pc p1 p2) = cs_inc pl i c pc p1 p2.

    Lemma strat_sum_player pl' i' pc p1 p2 mult ks :
      Forall SS ks -> forall ss ai,
      strat_sum pl i (@incs_player RNum VV VI pl' i' pc p1 p2 mult ks ss ai) =
      sum_player (cs_inc pl i) pl' pc p1 p2 ks ss.
    Proof.
      induction 1 as [|c ks Hc H IH]; intros ss ai; destruct ss as [|prob ss];
        cbn [incs_player sum_player]; try reflexivity.
      change (mul RNum) with Rmult.
      transitivity
        (cs_inc pl i c pc (if pl' then p1 * prob else p1) (if pl' then p2 else p2 * prob)
         + (0 + strat_sum pl i (@incs_player RNum VV VI pl' i' pc p1 p2 mult ks ss (S ai)))).
      { rewrite <- Hc. destruct pl'; now rewrite strat_sum_app. }
      rewrite IH. destruct pl'; lra.
    Qed.

    Lemma reg_sum_vincs n : RSg VI pl i a n.
    Proof.
      induction n as [x|ci kids IH|pl' i' kids IH] using node_ind'; intros pc p1 p2.
      - reflexivity.
      - (* over the reals [incs_chance] is [cat_chance] *)
        exact (Rsum_cat_chance (reg_of pl i a) VI _ pc p1 p2 kids IH _).
      - cbn [vincs]. apply reg_sum_Player; [apply Forall_vval_uval|exact IH].
    Qed.

    Lemma strat_sum_vincs n : SS n.
    Proof.
      induction n as [x|ci kids IH|pl' i' kids IH] using node_ind'; intros pc p1 p2.
      - reflexivity.
      - exact (Rsum_cat_chance (strat_of pl i) VI _ pc p1 p2 kids IH _).
      - cbn [vincs cs_inc].
        change (strat_sum pl i (?x :: ?l)) with (strat_of pl i x + strat_sum pl i l).
        rewrite strat_sum_app, (strat_sum_player pl' i' pc p1 p2 _ kids IH).
        unfold strat_sum, ownw. cbn [map Rsum strat_of]. fold (is_info pl' i' pl i).
        destruct (is_info pl' i' pl i); destruct pl'; lra.
    Qed.
  End SumIncs.
End Char.

Fixpoint dot (l1 l2 : list R) : R :=
  match l1, l2 with
  | x :: l1', y :: l2' => x * y + dot l1' l2'
  | _, _ => 0
  end.

Definition vadd (l1 l2 : list R) : list R := map (fun p : R * R => fst p + snd p) (combine l1 l2).

Lemma vadd_length l1 l2 : length l1 = length l2 -> length (vadd l1 l2) = length l1.
Proof. intros E. unfold vadd. rewrite map_length, combine_length. lia. Qed.

Lemma vadd_nth l1 l2 a :
  length l1 = length l2 -> nth a (vadd l1 l2) 0 = nth a l1 0 + nth a l2 0.
Proof. intros E. apply (nth_map_combine (fun p => fst p + snd p)); [exact E|cbn [fst snd]; lra]. Qed.

Lemma dot_map_plus ss (f g : nat -> R) l :
  dot ss (map (fun a => f a + g a) l) = dot ss (map f l) + dot ss (map g l).
Proof.
  revert l; induction ss as [|s ss IH]; intros l; destruct l as [|a l]; cbn [dot map]; try lra.
  rewrite IH. lra.
Qed.

Lemma dot_map_scal ss c (f : nat -> R) l :
  dot ss (map (fun a => c * f a) l) = c * dot ss (map f l).
Proof.
  revert l; induction ss as [|s ss IH]; intros l; destruct l as [|a l]; cbn [dot map]; try lra.
  rewrite IH. lra.
Qed.

Lemma dot_map_zero ss (l : list nat) : dot ss (map (fun _ => 0) l) = 0.
Proof.
  revert l; induction ss as [|s ss IH]; intros l; destruct l as [|a l]; cbn [dot map]; try lra.
  rewrite IH. lra.
Qed.

Lemma dot_map_ext ss (f g : nat -> R) l :
  (forall a, f a = g a) -> dot ss (map f l) = dot ss (map g l).
Proof. intros H. f_equal. apply map_ext. intros a. apply H. Qed.

Lemma dot_map_Rsum_0 {A} ss (h : nat -> A -> R) (L : list A) l :
  Forall (fun x => dot ss (map (fun a => h a x) l) = 0) L ->
  dot ss (map (fun a => Rsum (map (h a) L)) l) = 0.
Proof.
  induction 1 as [|x L Hx H IH]; cbn [map Rsum]; [apply dot_map_zero|].
  rewrite dot_map_plus, Hx, IH. lra.
Qed.

Lemma dot_map_one ss : dot ss (map (fun _ => 1) (seq 0 (length ss))) = Rsum ss.
Proof.
  generalize 0%nat. induction ss as [|s ss IH]; intros k; cbn [length seq map dot Rsum]; [lra|].
  rewrite IH. lra.
Qed.

Lemma dot_act_val (f : nodeR -> R) ks ss :
  dot ss (map (act_val f ks ss) (seq 0 (length ss))) = @val_player RNum f ks ss 0.
Proof.
  revert ss; induction ks as [|c ks IH]; intros ss.
  - cbn [act_val val_player]. apply dot_map_zero.
  - destruct ss as [|s ss]; [reflexivity|].
    cbn [length seq map dot val_player]. cbn [act_val].
    rewrite <- seq_shift, map_map. cbn [act_val].
    change (fun x : nat => act_val f ks ss x) with (act_val f ks ss). rewrite IH.
    change (add RNum) with Rplus. change (mul RNum) with Rmult. change (zero RNum) with 0.
    rewrite (val_player_acc f ks ss (0 + _)). lra.
Qed.

Section Char2.
  Context (chance : list (list R)) (sg : bool -> nat -> list R).
  Local Notation uvalR := (uval chance sg).

  Definition node_term (ss : list R) (a : nat) (wk : R * list nodeR) : R :=
    fst wk * node_regret chance sg (snd wk) ss a.

  Theorem cfr_inc_semantic pl i a n pc p1 p2 :
    cfr_inc chance sg pl i a n pc p1 p2 =
    Rsum (map (node_term (sg pl i) a) (cf_nodes chance sg pl i n pc p1 p2)).
  Proof.
    symmetry. revert pc p1 p2.
    induction n as [x|ci kids IH|pl' i' kids IH] using node_ind'; intros pc p1 p2.
    - reflexivity.
    - cbn [cfr_inc cf_nodes]. now apply Rsum_cat_chance.
    - cbn [cfr_inc cf_nodes]. rewrite map_app, Rsum_app. f_equal; [|now apply Rsum_cat_player].
      destruct (is_info pl' i' pl i) eqn:E; [|reflexivity].
      apply is_info_true in E as [-> ->]. unfold node_term; cbn [map Rsum fst snd]. lra.
  Qed.

  Lemma node_regret_orthogonal kids ss :
    Rsum ss = 1 ->
    dot ss (map (node_regret chance sg kids ss) (seq 0 (length ss))) = 0.
  Proof.
    intros Hs. unfold node_regret.
    rewrite (dot_map_ext ss _ (fun a => act_val uvalR kids ss a +
                                        (- @val_player RNum uvalR kids ss 0) * 1))
      by (intros; lra).
    rewrite dot_map_plus, dot_map_scal, dot_map_one, dot_act_val, Hs. lra.
  Qed.

  Theorem cfr_inc_orthogonal pl i n pc p1 p2 :
    Rsum (sg pl i) = 1 ->
    dot (sg pl i) (cfr_incs chance sg pl i n pc p1 p2) = 0.
  Proof.
    intros Hs. unfold cfr_incs.
    rewrite (dot_map_ext _ _ _ _ (fun a => cfr_inc_semantic pl i a n pc p1 p2)).
    apply dot_map_Rsum_0, Forall_forall. intros [w kids] _. unfold node_term. cbn [fst snd].
    rewrite dot_map_scal, node_regret_orthogonal by assumption. lra.
  Qed.
End Char2.

Definition reg_ok (st : pstateR) (pl : bool) (i : nat) : Prop :=
  length (cum_regret (@ri_get RNum st pl i)) = length (strat (@ri_get RNum st pl i)).

(** the regrets of an infoset after a list of increments whose regret parts add up to
    the increments of some tables [(ch, sg)] that agree with the state at the infoset *)
Lemma fold_incr_cfr_incs (l : list incrR) (st : pstateR) ch (sg : bool -> nat -> list R)
      pl i n pc p1 p2 :
  reg_ok st pl i -> sg pl i = strat_view st pl i ->
  (forall a, reg_sum pl i a l = cfr_inc ch sg pl i a n pc p1 p2) ->
  cum_regret (ri_get (fold_left apply_incr l st) pl i) =
  vadd (cum_regret (ri_get st pl i)) (cfr_incs ch sg pl i n pc p1 p2).
Proof.
  unfold reg_ok. intros E Esg Hl.
  assert (EL : length (cum_regret (ri_get st pl i)) = length (sg pl i)) by (now rewrite Esg).
  apply (nth_ext _ _ 0 0).
  - rewrite fold_incr_regret_len, vadd_length; [reflexivity|now rewrite cfr_incs_length].
  - intros a Ha. rewrite fold_incr_regret_len in Ha.
    rewrite fold_incr_regret_nth by assumption. rewrite vadd_nth by (now rewrite cfr_incs_length).
    now rewrite Hl, cfr_incs_nth by (now rewrite <- EL).
Qed.

Section VrecState.
  Context (chance : list (list R)) (draw : @oracle RNum) (pass : N).

  Lemma vrec_state_strat sampled n pc p1 p2 (st : pstateR) pl i :
    strat (ri_get (snd (@vrec RNum chance sampled draw pass n pc p1 p2 st)) pl i) =
    strat (ri_get st pl i).
  Proof. rewrite vrec_incs. cbn [snd]. apply fold_incr_strat_eq. Qed.

  Lemma vrec_strat_view n pc p1 p2 (st : pstateR) :
    strat_view (snd (@vrec RNum chance false draw pass n pc p1 p2 st)) = strat_view st.
  Proof. rewrite vrec_incs. cbn [snd]. apply fold_incr_strat. Qed.

  Lemma vrec_value n pc p1 p2 (st : pstateR) :
    fst (@vrec RNum chance false draw pass n pc p1 p2 st) = uval chance (strat_view st) n.
  Proof. rewrite vrec_incs. cbn [fst]. apply vval_uval. Qed.

  Lemma vrec_state_regret_nth n pc p1 p2 (st : pstateR) pl i a :
    (a < length (cum_regret (ri_get st pl i)))%nat ->
    nth a (cum_regret (ri_get (snd (@vrec RNum chance false draw pass n pc p1 p2 st)) pl i)) 0 =
    nth a (cum_regret (ri_get st pl i)) 0 + cfr_inc chance (strat_view st) pl i a n pc p1 p2.
  Proof.
    intros Ha. rewrite vrec_incs. cbn [snd]. rewrite fold_incr_regret_nth by assumption.
    now rewrite reg_sum_vincs.
  Qed.

  Theorem vrec_state_regret n pc p1 p2 (st : pstateR) pl i :
    reg_ok st pl i ->
    cum_regret (ri_get (snd (@vrec RNum chance false draw pass n pc p1 p2 st)) pl i) =
    vadd (cum_regret (ri_get st pl i)) (cfr_incs chance (strat_view st) pl i n pc p1 p2).
  Proof.
    intros E. rewrite vrec_incs. cbn [snd]. apply fold_incr_cfr_incs; [exact E|reflexivity|].
    intros a. apply reg_sum_vincs.
  Qed.

  Theorem vrec_state_cum_strat n pc p1 p2 (st : pstateR) pl i :
    len_ok st pl i ->
    cum_strat (ri_get (snd (@vrec RNum chance false draw pass n pc p1 p2 st)) pl i) =
    vadd (cum_strat (ri_get st pl i))
         (map (fun s => cs_inc chance (strat_view st) pl i n pc p1 p2 * s)
              (strat (ri_get st pl i))).
  Proof.
    intros E. pose proof E as E'. unfold len_ok in E'.
    apply (nth_ext _ _ 0 0).
    - rewrite vrec_incs. cbn [snd]. rewrite fold_incr_cs_len by assumption.
      rewrite vadd_length; [reflexivity|]. now rewrite map_length.
    - intros a Ha. rewrite vrec_incs. cbn [snd].
      rewrite fold_incr_cs_nth by assumption. rewrite strat_sum_vincs.
      rewrite vadd_nth by (now rewrite map_length). f_equal.
      set (w := cs_inc _ _ _ _ _ _ _ _).
      replace 0 with (w * 0) at 2 by lra. now rewrite (map_nth (fun s => w * s)).
  Qed.

  Lemma Inv_reg_ok (st : pstateR) pl i : Inv st -> reg_ok st pl i.
  Proof.
    intros H. apply Inv_InvA in H.
    destruct (InvA_get_cases _ _ st pl i H) as [E|(a & Ha)]; unfold reg_ok.
    - rewrite E. reflexivity.
    - destruct Ha as (_ & _ & L1 & _ & L3). tR. lia.
  Qed.

  Lemma Inv_len_ok (st : pstateR) pl i : Inv st -> len_ok st pl i.
  Proof.
    intros H. apply Inv_InvA in H.
    destruct (InvA_get_cases _ _ st pl i H) as [E|(a & Ha)]; unfold len_ok.
    - rewrite E. reflexivity.
    - destruct Ha as (_ & _ & _ & L2 & L3). tR. lia.
  Qed.

  Lemma Inv_strat_sum (st : pstateR) pl i :
    Inv st -> (i < length (ps_get st pl))%nat -> Rsum (strat_view st pl i) = 1.
  Proof.
    intros [H1 H2] Hi. unfold strat_view, ri_get.
    assert (HF : Forall RInv (ps_get st pl)) by (destruct pl; assumption).
    rewrite Forall_forall in HF.
    specialize (HF (nth i (ps_get st pl) (@mkRinfo RNum [] [] [])) (nth_In _ _ Hi)).
    destruct HF as ([_ Hs] & _). exact Hs.
  Qed.

  Theorem vrec_state n pc p1 p2 (st : pstateR) pl i :
    Inv st ->
    let st' := snd (@vrec RNum chance false draw pass n pc p1 p2 st) in
    let sg := strat_view st in
    cum_regret (ri_get st' pl i) =
      vadd (cum_regret (ri_get st pl i)) (cfr_incs chance sg pl i n pc p1 p2) /\
    cum_strat (ri_get st' pl i) =
      vadd (cum_strat (ri_get st pl i))
           (map (fun s => cs_inc chance sg pl i n pc p1 p2 * s) (strat (ri_get st pl i))) /\
    strat (ri_get st' pl i) = strat (ri_get st pl i).
  Proof.
    intros H. cbv zeta. split; [|split].
    - apply vrec_state_regret. now apply Inv_reg_ok.
    - apply vrec_state_cum_strat. now apply Inv_len_ok.
    - apply vrec_state_strat.
  Qed.

End VrecState.

(** maximum of a list ([Iterator::reduce(f64::max)], 0 for the empty list) *)
Definition Rmaxl (l : list R) : R := match @reduce_max RNum l with Some m => m | None => 0 end.

Definition info_bound (it : N) (ri : rinfoR) : R :=
  2 * Rmax (Rmaxl (cum_regret ri)) 0 / INR (N.to_nat it).

Lemma cum_regret_bound_eq it (cr : list R) :
  @cum_regret_bound RNum it cr = 2 * Rmax (Rmaxl cr) 0 / INR (N.to_nat it).
Proof. unfold cum_regret_bound, two, Rmaxl. cbn [div mul add one zero fmax of_N RNum]. reflexivity. Qed.

Lemma advance_bound (p : paramsR) it ia ri :
  snd (@advance RNum p it ia ri) = info_bound it (fst (@advance RNum p it ia ri)).
Proof. unfold advance, info_bound. cbn [fst snd cum_regret]. apply cum_regret_bound_eq. Qed.

Lemma advance_all_bound_eq (p : paramsR) it ia l :
  snd (@advance_all RNum p it ia l 0) =
  Rsum (map (info_bound it) (fst (@advance_all RNum p it ia l 0))).
Proof.
  rewrite advance_all_map. cbn [fst snd]. rewrite map_map, Rplus_0_l. f_equal;
    try (apply map_ext; intros ri; apply advance_bound).
Qed.

Theorem vanilla_iter_bounds (g : gameR) sampled draw (p : paramsR) it st :
  let res := @vanilla_iter RNum g sampled draw p it st in
  snd res = (Rsum (map (info_bound it) (fst (fst res))),
             Rsum (map (info_bound it) (snd (fst res)))).
Proof.
  cbv zeta. rewrite vanilla_iter_eq. cbv zeta. cbn [fst snd].
  now rewrite !advance_all_bound_eq.
Qed.

Lemma Rltb_irrefl x : Rltb x x = false.
Proof. apply Rltb_false. lra. Qed.

Lemma discount_cum_regret_vanilla it (cr : list R) :
  @discount_cum_regret RNum (@p_vanilla RNum) it cr = cr.
Proof.
  unfold discount_cum_regret, p_vanilla. cbn [a_pos a_neg gen_discount].
  induction cr as [|x cr IH]; cbn [map]; [reflexivity|]. rewrite IH. f_equal.
  cbn [ltb mul zero one RNum]. destruct (Rltb 0 x); [lra|]. destruct (Rltb x 0); lra.
Qed.

Lemma discount_average_strat_vanilla it (avg : list R) :
  @discount_average_strat RNum (@p_vanilla RNum) it avg = avg.
Proof.
  unfold discount_average_strat, p_vanilla. cbn [a_strat].
  change (ltb RNum (zero RNum) (zero RNum)) with (Rltb 0 0). now rewrite Rltb_irrefl.
Qed.

Definition adv_vanilla (ri : rinfoR) : rinfoR :=
  @mkRinfo RNum (cum_regret ri) (cum_strat ri)
           (@regret_match RNum (@p_vanilla RNum) (cum_regret ri)).

Lemma advance_vanilla it ia (ri : rinfoR) :
  fst (@advance RNum (@p_vanilla RNum) it ia ri) = adv_vanilla ri.
Proof.
  unfold advance, adv_vanilla. cbn [fst].
  now rewrite discount_cum_regret_vanilla, discount_average_strat_vanilla.
Qed.

Lemma info_bound_adv it ri : info_bound it (adv_vanilla ri) = info_bound it ri.
Proof. reflexivity. Qed.

(** one unsampled iteration with vanilla [params]: the traversal, then regret
    matching; [cum_regret] and [cum_strat] are those left by the traversal *)
Theorem vanilla_iter_state (g : gameR) sampled draw it (st : pstateR) :
  @vanilla_iter RNum g sampled draw (@p_vanilla RNum) it st =
  let st1 := snd (@vrec RNum (g_chance g) sampled draw (it - 1)%N (g_root g) 1 1 1 st) in
  ((map adv_vanilla (fst st1), map adv_vanilla (snd st1)),
   (Rsum (map (info_bound it) (fst st1)), Rsum (map (info_bound it) (snd st1)))).
Proof.
  rewrite vanilla_iter_eq. cbv zeta. rewrite !advance_all_map. cbn [fst snd].
  rewrite !Rplus_0_l.
  assert (E1 : forall l, map (fun ri => fst (@advance RNum (@p_vanilla RNum) it it ri)) l =
                         map adv_vanilla l).
  { intros l. apply map_ext. intros ri. apply advance_vanilla. }
  assert (E2 : forall l, map (fun ri => snd (@advance RNum (@p_vanilla RNum) it it ri)) l =
                         map (info_bound it) l).
  { intros l. apply map_ext. intros ri. rewrite advance_bound, advance_vanilla.
    apply info_bound_adv. }
  now rewrite !E1, !E2.
Qed.

Lemma Forall_ps_get (P : rinfoR -> Prop) (st : pstateR) pl :
  Forall P (ps_get st pl) <->
  forall i, (i < length (ps_get st pl))%nat -> P (@ri_get RNum st pl i).
Proof.
  rewrite Forall_nth. split; intros H i; [intros Hi; now apply H|intros d Hi].
  rewrite (nth_indep _ d (@mkRinfo RNum [] [] [])) by exact Hi. now apply H.
Qed.

Lemma fold_incr_len (l : list incrR) (st : pstateR) pl :
  length (ps_get (fold_left apply_incr l st) pl) = length (ps_get st pl).
Proof.
  revert st; induction l as [|x l IH]; intros st; cbn [fold_left]; [reflexivity|].
  rewrite IH. apply apply_incr_len.
Qed.

Lemma vrec_len chance sampled draw pass n pc p1 p2 (st : pstateR) pl :
  length (ps_get (snd (@vrec RNum chance sampled draw pass n pc p1 p2 st)) pl) =
  length (ps_get st pl).
Proof. rewrite vrec_incs. cbn [snd]. apply fold_incr_len. Qed.

Lemma ri_get_map (f : rinfoR -> rinfoR) (st : pstateR) pl i :
  (i < length (ps_get st pl))%nat ->
  @ri_get RNum (map f (fst st), map f (snd st)) pl i = f (@ri_get RNum st pl i).
Proof.
  intros Hi. unfold ri_get, ps_get in *. destruct pl; cbn [fst snd] in *;
    rewrite (nth_indep _ _ (f (@mkRinfo RNum [] [] []))) by (now rewrite map_length);
    apply map_nth.
Qed.

Theorem vanilla_iter_infoset (g : gameR) draw it (st : pstateR) pl i :
  Inv st -> (i < length (ps_get st pl))%nat ->
  let st' := fst (@vanilla_iter RNum g false draw (@p_vanilla RNum) it st) in
  let sg := strat_view st in
  length (ps_get st' pl) = length (ps_get st pl) /\
  cum_regret (ri_get st' pl i) =
    vadd (cum_regret (ri_get st pl i)) (cfr_incs (g_chance g) sg pl i (g_root g) 1 1 1) /\
  cum_strat (ri_get st' pl i) =
    vadd (cum_strat (ri_get st pl i))
         (map (fun s => cs_inc (g_chance g) sg pl i (g_root g) 1 1 1 * s)
              (strat (ri_get st pl i))) /\
  strat (ri_get st' pl i) = @regret_match RNum (@p_vanilla RNum) (cum_regret (ri_get st' pl i)).
Proof.
  intros HI Hi. cbv zeta. rewrite vanilla_iter_state. cbv zeta. cbn [fst].
  set (st1 := snd (vrec _ _ _ _ _ _ _ _ _)).
  assert (Hlen : length (ps_get st1 pl) = length (ps_get st pl)) by apply vrec_len.
  rewrite ri_get_map by lia.
  destruct (vrec_state (g_chance g) draw (it - 1)%N (g_root g) 1 1 1 st pl i HI) as (H1 & H2 & H3).
  fold st1 in H1, H2, H3. cbn [adv_vanilla cum_regret cum_strat strat].
  split; [|split; [exact H1|split; [exact H2|reflexivity]]].
  unfold ps_get in *. destruct pl; cbn [fst snd] in *; now rewrite map_length.
Qed.
