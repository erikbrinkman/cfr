(** * Incr: the vanilla / chance-sampled traversal as a list of atomic increments.

    [vrec] (the model of [recurse_single] + [recurse_player], and — with the
    shared infosets updated by atomic operations — of [recurse_multi]) mutates the
    infoset state in three ways only:
    - [IStrat pl i w]  : [cum_strat[i] += w * strat[i]] row-wise (under the mutex);
    - [IReg pl i a x]  : [cum_regret[i][a] += x]      ([fetch_add]);
    - [IRegAll pl i x] : every cell of [cum_regret[i]] [-= x]   ([fetch_sub]).
    None of them writes [strat], and the value returned by the traversal and the
    increments themselves depend on the state through [strat] only.  Hence
    - [vrec_incs]   : [vrec] = (pure value, fold of the pure list of increments);
    - [apply_incr_comm], [apply_perm] : over the reals the increments commute, so
      every interleaving (= permutation) of a set of increments yields the same state.

    Definitions are generic in [Num]; theorems are about [RNum]. *)
From Coq Require Import Reals List Lra Lia Bool Arith NArith Permutation FunctionalExtensionality.
From Cfr.theories Require Import Num RInst Tree Strat Eval Solve StratAgreeProofs SolveValidProofs.
Import ListNotations.
Local Open Scope nat_scope.

Section Incr.
  Context {NN : Num}.
  Local Notation T := (T NN).
  Local Notation node := (@node NN).
  Local Notation pstate := (@pstate NN).
  Local Notation rinfo := (@rinfo NN).

  Inductive incr :=
  | IStrat (pl : bool) (i : nat) (w : T)        (* cum_strat[i] += w * strat[i], row-wise *)
  | IReg (pl : bool) (i a : nat) (x : T)        (* cum_regret[i][a] += x *)
  | IRegAll (pl : bool) (i : nat) (x : T).      (* every cell of cum_regret[i] -= x *)

  Definition incr_pl (x : incr) : bool :=
    match x with IStrat pl _ _ => pl | IReg pl _ _ _ => pl | IRegAll pl _ _ => pl end.
  Definition incr_ix (x : incr) : nat :=
    match x with IStrat _ i _ => i | IReg _ i _ _ => i | IRegAll _ i _ => i end.

  Definition incr_fn (x : incr) (ri : rinfo) : rinfo :=
    match x with
    | IStrat _ _ w =>
        mkRinfo (cum_regret ri)
                (map (fun vc => add NN (snd vc) (mul NN w (fst vc)))
                     (combine (strat ri) (cum_strat ri)))
                (strat ri)
    | IReg _ _ a v =>
        let cr := cum_regret ri in
        mkRinfo (upd cr a (add NN (nth a cr (zero NN)) v)) (cum_strat ri) (strat ri)
    | IRegAll _ _ v =>
        mkRinfo (map (fun c => sub NN c v) (cum_regret ri)) (cum_strat ri) (strat ri)
    end.

  (** same [nth]/[upd] defaults as [vrec]: an infoset index out of range reads the
      empty infoset and writes nothing *)
  Definition apply_incr (st : pstate) (x : incr) : pstate :=
    ri_set st (incr_pl x) (incr_ix x) (incr_fn x (ri_get st (incr_pl x) (incr_ix x))).

  (** what the traversals read of the state *)
  Definition strat_view (st : pstate) : bool -> nat -> list T :=
    fun pl i => strat (ri_get st pl i).

  Section Loops.
    Context (recv : node -> T) (reci : node -> T -> T -> T -> list incr).

    Definition val_pick :=
      fix pick (ks : list node) (k : nat) {struct ks} : T :=
        match ks with
        | [] => zero NN
        | c :: r => match k with
                    | O => add NN (zero NN) (mul NN (one NN) (recv c))
                    | S k' => pick r k'
                    end
        end.

    Definition val_chance :=
      fix go (ps : list T) (ks : list node) (ex : T) {struct ks} : T :=
        match ps, ks with
        | p :: ps', c :: ks' => go ps' ks' (add NN ex (mul NN p (recv c)))
        | _, _ => ex
        end.

    (** [expected_one] of [recurse_player] *)
    Definition val_player :=
      fix go (ks : list node) (ss : list T) (e1 : T) {struct ks} : T :=
        match ks, ss with
        | c :: ks', prob :: ss' => go ks' ss' (add NN e1 (mul NN prob (recv c)))
        | _, _ => e1
        end.

    (** [expected] of [recurse_player] *)
    Definition exp_player (mult : T) :=
      fix go (ks : list node) (ss : list T) (e : T) {struct ks} : T :=
        match ks, ss with
        | c :: ks', prob :: ss' => go ks' ss' (add NN e (mul NN (mul NN (recv c) mult) prob))
        | _, _ => e
        end.

    Definition incs_pick (pc p1 p2 : T) :=
      fix pick (ks : list node) (k : nat) {struct ks} : list incr :=
        match ks with
        | [] => []
        | c :: r => match k with
                    | O => reci c (mul NN pc (one NN)) p1 p2
                    | S k' => pick r k'
                    end
        end.

    Definition incs_chance (pc p1 p2 : T) :=
      fix go (ps : list T) (ks : list node) {struct ks} : list incr :=
        match ps, ks with
        | p :: ps', c :: ks' => reci c (mul NN pc p) p1 p2 ++ go ps' ks'
        | _, _ => []
        end.

    Definition incs_player (pl : bool) (i : nat) (pc p1 p2 mult : T) :=
      fix go (ks : list node) (ss : list T) (ai : nat) {struct ks} : list incr :=
        match ks, ss with
        | c :: ks', prob :: ss' =>
            let '(q1, q2) := if pl then (mul NN p1 prob, p2) else (p1, mul NN p2 prob) in
            reci c pc q1 q2 ++ IReg pl i ai (mul NN (recv c) mult) :: go ks' ss' (S ai)
        | _, _ => []
        end.
  End Loops.

  (** ** the value [vrec] returns, as a function of the strategies only *)
  Fixpoint vval (chance : list (list T)) (sampled : bool) (draw : oracle) (pass : N)
           (sg : bool -> nat -> list T) (n : node) {struct n} : T :=
    match n with
    | Term x => x
    | Chance ci kids =>
        if sampled
        then val_pick (vval chance sampled draw pass sg) kids (draw true ci pass (row chance ci))
        else val_chance (vval chance sampled draw pass sg) (row chance ci) kids (zero NN)
    | Player pl i kids =>
        val_player (vval chance sampled draw pass sg) kids (sg pl i) (zero NN)
    end.

  (** ** the increments [vrec] performs, in traversal order *)
  Fixpoint vincs (chance : list (list T)) (sampled : bool) (draw : oracle) (pass : N)
           (sg : bool -> nat -> list T) (n : node) (pc p1 p2 : T) {struct n} : list incr :=
    match n with
    | Term _ => []
    | Chance ci kids =>
        if sampled
        then incs_pick (vincs chance sampled draw pass sg) pc p1 p2 kids
                       (draw true ci pass (row chance ci))
        else incs_chance (vincs chance sampled draw pass sg) pc p1 p2 (row chance ci) kids
    | Player pl i kids =>
        let mine := if pl then p1 else p2 in
        let mult := if pl then mul NN pc p2 else mul NN (neg NN p1) pc in
        IStrat pl i mine ::
        incs_player (vval chance sampled draw pass sg) (vincs chance sampled draw pass sg)
                    pl i pc p1 p2 mult kids (sg pl i) O ++
        [IRegAll pl i (exp_player (vval chance sampled draw pass sg) mult kids (sg pl i) (zero NN))]
    end.

  Lemma nth_upd {A} (l : list A) i j v d :
    nth j (upd l i v) d = if Nat.eqb i j && Nat.ltb i (length l) then v else nth j l d.
  Proof.
    revert i j; induction l as [|x l IH]; intros i j.
    - cbn [upd length]. destruct (Nat.eqb i j); reflexivity.
    - destruct i as [|i], j as [|j]; cbn [upd nth length]; try reflexivity.
      rewrite IH. reflexivity.
  Qed.

  Lemma upd_oob {A} (l : list A) i v : length l <= i -> upd l i v = l.
  Proof.
    revert i; induction l as [|x l IH]; intros i H; [reflexivity|].
    destruct i as [|i]; cbn [length] in H; [lia|]. cbn [upd]. rewrite IH by lia. reflexivity.
  Qed.

  Lemma upd_upd_same {A} (l : list A) i v w : upd (upd l i v) i w = upd l i w.
  Proof.
    revert i; induction l as [|x l IH]; intros i; [reflexivity|].
    destruct i as [|i]; cbn [upd]; [reflexivity|now rewrite IH].
  Qed.

  Definition upd_at (st : pstate) (pl : bool) (i : nat) (f : rinfo -> rinfo) : pstate :=
    ri_set st pl i (f (ri_get st pl i)).

  Lemma apply_incr_upd_at st x :
    apply_incr st x = upd_at st (incr_pl x) (incr_ix x) (incr_fn x).
  Proof. reflexivity. Qed.

  Lemma ri_get_upd_at st pl i f pl' i' :
    ri_get (upd_at st pl i f) pl' i' =
    if Bool.eqb pl pl' && Nat.eqb i i' && Nat.ltb i (length (ps_get st pl))
    then f (ri_get st pl i) else ri_get st pl' i'.
  Proof.
    destruct st as [l1 l2], pl, pl'; [|reflexivity|reflexivity|];
      cbv [upd_at ri_get ri_set ps_set ps_get fst snd Bool.eqb]; rewrite nth_upd;
      destruct (Nat.eqb i i'); reflexivity.
  Qed.

  Lemma upd_nth_comm {A} (d : A) l i j f g :
    i <> j \/ (forall x, f (g x) = g (f x)) ->
    upd (upd l i (f (nth i l d))) j (g (nth j (upd l i (f (nth i l d))) d)) =
    upd (upd l j (g (nth j l d))) i (f (nth i (upd l j (g (nth j l d))) d)).
  Proof.
    revert i j; induction l as [|x l IH]; intros i j H; [reflexivity|].
    destruct i as [|i], j as [|j]; cbn [upd nth]; try reflexivity; f_equal.
    - destruct H as [H|H]; [congruence|now rewrite H].
    - apply IH. destruct H as [H|H]; [left; congruence|right; exact H].
  Qed.

  Lemma upd_at_comm st pl i f pl' i' g :
    ((pl, i) <> (pl', i') \/ (forall r, f (g r) = g (f r))) ->
    upd_at (upd_at st pl i f) pl' i' g = upd_at (upd_at st pl' i' g) pl i f.
  Proof.
    intros H. destruct st as [l1 l2], pl, pl'; [|reflexivity|reflexivity|];
      cbv [upd_at ri_get ri_set ps_set ps_get fst snd]; f_equal; apply upd_nth_comm;
      (destruct H as [H|H]; [left; congruence|right; exact H]).
  Qed.

  Lemma incr_fn_strat x ri : strat (incr_fn x ri) = strat ri.
  Proof. destruct x; reflexivity. Qed.

  Lemma apply_incr_strat_pt st x pl i : strat_view (apply_incr st x) pl i = strat_view st pl i.
  Proof.
    unfold strat_view. rewrite apply_incr_upd_at, ri_get_upd_at.
    destruct (Bool.eqb_spec (incr_pl x) pl) as [<-|]; cbn [andb]; [|reflexivity].
    destruct (Nat.eqb_spec (incr_ix x) i) as [<-|]; cbn [andb]; [|reflexivity].
    destruct (Nat.ltb _ _); [apply incr_fn_strat|reflexivity].
  Qed.

  Lemma fold_incr_strat_pt l st pl i :
    strat_view (fold_left apply_incr l st) pl i = strat_view st pl i.
  Proof.
    revert st; induction l as [|x l IH]; intros st; cbn [fold_left]; [reflexivity|].
    rewrite IH. apply apply_incr_strat_pt.
  Qed.

  (** as an equation between views, which is how [vval] and [vincs] take the strategies *)
  Lemma fold_incr_strat l st : strat_view (fold_left apply_incr l st) = strat_view st.
  Proof.
    apply functional_extensionality; intros pl. apply functional_extensionality; intros i.
    apply fold_incr_strat_pt.
  Qed.

  Lemma apply_incr_strat st x : strat_view (apply_incr st x) = strat_view st.
  Proof. apply (fold_incr_strat [x]). Qed.

  Lemma apply_incr_len st x pl :
    length (ps_get (apply_incr st x) pl) = length (ps_get st pl).
  Proof.
    destruct st as [l1 l2]. unfold apply_incr, ri_set, ps_set, ps_get.
    destruct (incr_pl x), pl; cbn [fst snd]; try reflexivity; apply upd_length.
  Qed.
End Incr.

Arguments incr : clear implicits.
Arguments incr {NN}.

Local Notation nodeR := (@node RNum).
Local Notation pstateR := (@pstate RNum).
Local Notation rinfoR := (@rinfo RNum).
Local Notation incrR := (@incr RNum).
Local Open Scope R_scope.

Lemma cs_add_comm (w w' : R) (s c : list R) :
  map (fun vc : R * R => snd vc + w * fst vc)
      (combine s (map (fun vc : R * R => snd vc + w' * fst vc) (combine s c))) =
  map (fun vc : R * R => snd vc + w' * fst vc)
      (combine s (map (fun vc : R * R => snd vc + w * fst vc) (combine s c))).
Proof.
  revert c; induction s as [|x s IH]; intros c; [reflexivity|].
  destruct c as [|y c]; [reflexivity|]. cbn [combine map fst snd]. rewrite IH. f_equal. lra.
Qed.

Lemma reg_sub_comm (cr : list R) a x y :
  map (fun c => c - y) (upd cr a (nth a cr 0 + x)) =
  upd (map (fun c => c - y) cr) a (nth a (map (fun c => c - y) cr) 0 + x).
Proof.
  revert a; induction cr as [|v cr IH]; intros a; [reflexivity|].
  destruct a as [|a]; cbn [upd nth map]; f_equal; [lra|apply IH].
Qed.

Lemma incr_fn_comm (x y : incrR) (r : rinfoR) :
  incr_fn x (incr_fn y r) = incr_fn y (incr_fn x r).
Proof.
  destruct x as [pl i w|pl i a v|pl i v], y as [pl' i' w'|pl' i' a' v'|pl' i' v'];
    cbv [incr_fn cum_regret cum_strat strat];
    change (add RNum) with Rplus; change (mul RNum) with Rmult; change (sub RNum) with Rminus;
    change (zero RNum) with 0; try reflexivity.
  - now rewrite cs_add_comm.
  - rewrite (upd_nth_comm 0 _ a' a (fun c => c + v') (fun c => c + v)); [reflexivity|].
    right. intros c. lra.
  - now rewrite reg_sub_comm.
  - now rewrite reg_sub_comm.
  - rewrite !map_map, (map_ext _ (fun c => c - v - v')); [reflexivity|]. intros c. lra.
Qed.

Theorem apply_incr_comm (st : pstateR) (x y : incrR) :
  apply_incr (apply_incr st x) y = apply_incr (apply_incr st y) x.
Proof.
  rewrite !apply_incr_upd_at. apply upd_at_comm. right. intros r. apply incr_fn_comm.
Qed.

Theorem apply_perm (l l' : list incrR) (st : pstateR) :
  Permutation l l' -> fold_left apply_incr l st = fold_left apply_incr l' st.
Proof.
  intros H; revert st; induction H as [|x l l' H IH|x y l|l l' l'' H1 IH1 H2 IH2]; intros st.
  - reflexivity.
  - cbn [fold_left]. apply IH.
  - cbn [fold_left]. rewrite apply_incr_comm. reflexivity.
  - rewrite IH1. apply IH2.
Qed.

Section VrecIncs.
  Context (chance : list (list R)) (sampled : bool) (draw : @oracle RNum) (pass : N).

  Local Notation vrecR := (@vrec RNum chance sampled draw pass).
  Local Notation vvalR := (@vval RNum chance sampled draw pass).
  Local Notation vincsR := (@vincs RNum chance sampled draw pass).

  Definition VI (c : nodeR) : Prop :=
    forall pc p1 p2 st,
      vrecR c pc p1 p2 st =
      (vvalR (strat_view st) c, fold_left apply_incr (vincsR (strat_view st) c pc p1 p2) st).

  Lemma vpick_incs pc p1 p2 st ks k :
    Forall VI ks ->
    vpick vrecR pc p1 p2 st ks k =
    (val_pick (vvalR (strat_view st)) ks k,
     fold_left apply_incr (incs_pick (vincsR (strat_view st)) pc p1 p2 ks k) st).
  Proof.
    intros HK; revert k; induction HK as [|c ks Hc HK IH]; intros k;
      cbn [vpick val_pick incs_pick]; [reflexivity|].
    destruct k as [|k]; [|apply IH]. rewrite Hc. reflexivity.
  Qed.

  Lemma vgo_chance_incs pc p1 p2 ks :
    Forall VI ks -> forall ps ex st,
    vgo_chance vrecR pc p1 p2 ps ks ex st =
    (val_chance (vvalR (strat_view st)) ps ks ex,
     fold_left apply_incr (incs_chance (vincsR (strat_view st)) pc p1 p2 ps ks) st).
  Proof.
    induction 1 as [|c ks Hc HK IH]; intros ps ex st; destruct ps as [|p ps];
      cbn [vgo_chance val_chance incs_chance]; try reflexivity.
    rewrite Hc, IH, fold_left_app, fold_incr_strat. reflexivity.
  Qed.

  (** one step of [vgo_player], its write to [cum_regret] read as an increment *)
  Lemma vgo_player_cons rec pl i pc p1 p2 mult c ks prob ss ai e1 e st :
    vgo_player rec pl i pc p1 p2 mult (c :: ks) (prob :: ss) ai e1 e st =
    let (u, st') := rec c pc (if pl then p1 * prob else p1) (if pl then p2 else p2 * prob) st in
    vgo_player rec pl i pc p1 p2 mult ks ss (S ai) (e1 + prob * u) (e + u * mult * prob)
               (apply_incr st' (@IReg RNum pl i ai (u * mult))).
  Proof. destruct pl; reflexivity. Qed.

  Lemma vgo_player_incs pl i pc p1 p2 mult ks :
    Forall VI ks -> forall ss ai e1 e st,
    vgo_player vrecR pl i pc p1 p2 mult ks ss ai e1 e st =
    (val_player (vvalR (strat_view st)) ks ss e1,
     exp_player (vvalR (strat_view st)) mult ks ss e,
     fold_left apply_incr
               (incs_player (vvalR (strat_view st)) (vincsR (strat_view st))
                            pl i pc p1 p2 mult ks ss ai) st).
  Proof.
    induction 1 as [|c ks Hc HK IH]; intros ss ai e1 e st; destruct ss as [|prob ss];
      try reflexivity.
    rewrite vgo_player_cons, Hc. cbv beta iota. rewrite IH, apply_incr_strat, fold_incr_strat.
    cbn [val_player exp_player incs_player].
    destruct pl; rewrite fold_left_app; reflexivity.
  Qed.

End VrecIncs.

(** [vrec] at a player node, its two writes read as increments *)
Lemma vrec_Player_incr chance sampled draw pass pl i kids pc p1 p2 (st : pstateR) :
  @vrec RNum chance sampled draw pass (Player pl i kids) pc p1 p2 st =
  let mult := if pl then pc * p2 else - p1 * pc in
  let '(e1, e, st2) :=
    vgo_player (@vrec RNum chance sampled draw pass) pl i pc p1 p2 mult kids (strat_view st pl i)
               O 0 0 (apply_incr st (@IStrat RNum pl i (if pl then p1 else p2))) in
  (e1, apply_incr st2 (@IRegAll RNum pl i e)).
Proof. reflexivity. Qed.

Theorem vrec_incs chance sampled draw pass n pc p1 p2 st :
  @vrec RNum chance sampled draw pass n pc p1 p2 st =
  (@vval RNum chance sampled draw pass (strat_view st) n,
   fold_left apply_incr (@vincs RNum chance sampled draw pass (strat_view st) n pc p1 p2) st).
Proof.
  revert pc p1 p2 st. change (VI chance sampled draw pass n).
  induction n as [x|ci kids IH|pl i kids IH] using node_ind'; intros pc p1 p2 st.
  - reflexivity.
  - rewrite vrec_Chance. cbn [vval vincs].
    destruct sampled; [now apply vpick_incs|now apply vgo_chance_incs].
  - rewrite vrec_Player_incr. cbv zeta.
    rewrite (vgo_player_incs chance sampled draw pass pl i pc p1 p2 _ kids IH), apply_incr_strat.
    cbn [vval vincs fold_left]. rewrite fold_left_app. reflexivity.
Qed.

Lemma fold_incr_app (l1 l2 : list incrR) st :
  fold_left apply_incr (l1 ++ l2) st = fold_left apply_incr l2 (fold_left apply_incr l1 st).
Proof. apply fold_left_app. Qed.
