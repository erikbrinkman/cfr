(** * StratAgreeProofs: [Game::from_named] (hash maps, modelled by [import_fast]) and
    [Game::from_named_eq] (linear scans, modelled by [import_slow]) return the same
    outcome — the same profile or the same error — on every input, for tables with unique
    infoset names and unique actions ([WFnames]).

    Proved for an arbitrary arithmetic instance [NN : Num] (the argument only uses
    the uniqueness of infoset names and of the actions of an infoset). *)
From Coq Require Import List NArith Bool Arith Lia.
From Cfr.theories Require Import Num ListAux Tree GameWF Strat.
Import ListNotations.

Definition WFnames_tables (infos : list pinfo) (singles : list (N * N)) : Prop :=
  NoDup (map pi_name infos ++ map fst singles) /\
  Forall (fun pi => NoDup (pi_actions pi) /\ 2 <= length (pi_actions pi)) infos.

Definition WFnames {NN : Num} (g : @game NN) : Prop :=
  WFnames_tables (g_infos1 g) (g_singles1 g) /\ WFnames_tables (g_infos2 g) (g_singles2 g).

(** [WFnames_tables] is [GameWF.WFtables], so this is part of what [from_root] guarantees *)
Lemma WFgame_WFnames {NN : Num} (g : @game NN) : WFgame g -> WFnames g.
Proof. intros (_ & H1 & H2 & _). exact (conj H1 H2). Qed.

Section FindIndex.
  Context {A : Type}.

  Lemma find_index_Some (f : A -> bool) l : forall i x,
    find_index f l = Some (i, x) -> i < length l /\ nth_error l i = Some x /\ f x = true.
  Proof.
    induction l as [|y l IH]; intros i x H; cbn [find_index] in H; [discriminate|].
    destruct (f y) eqn:E.
    - inversion H; subst. cbn. repeat split; [lia|assumption].
    - destruct (find_index f l) as [[j z]|]; [|discriminate].
      inversion H; subst. destruct (IH j x eq_refl) as (H1 & H2 & H3).
      cbn [length nth_error]. repeat split; [lia|assumption|assumption].
  Qed.

  Lemma find_index_some (f : A -> bool) l i x d :
    find_index f l = Some (i, x) -> i < length l /\ nth i l d = x /\ f x = true.
  Proof.
    intros H. destruct (find_index_Some f l i x H) as (H1 & H2 & H3).
    repeat split; [assumption|now apply nth_error_nth|assumption].
  Qed.

  Lemma find_index_none (f : A -> bool) l :
    find_index f l = None <-> (forall x, In x l -> f x = false).
  Proof.
    induction l as [|y l IH]; cbn [find_index].
    - split; [intros _ x []|reflexivity].
    - destruct (f y) eqn:E.
      + split; [discriminate|]. intros H. rewrite (H y (or_introl eq_refl)) in E. discriminate.
      + destruct (find_index f l) as [[j z]|].
        * split; [discriminate|]. intros H.
          assert (Some (j, z) = None) as C; [|discriminate C].
          apply IH. intros x Hx. apply H. now right.
        * split; [|reflexivity]. intros _ x [<-|Hx]; [assumption|]. now apply (proj1 IH).
  Qed.

  Lemma find_index_In (f : A -> bool) l i x : find_index f l = Some (i, x) -> In x l.
  Proof.
    intros H. destruct (find_index_some f l i x x H) as (H1 & H2 & _).
    rewrite <- H2. now apply nth_In.
  Qed.
  Lemma find_index_key (key : A -> N) (f : A -> bool) k l :
    (forall y, f y = true <-> key y = k) ->
    match find_index f l with
    | Some (i, x) => In x l /\ key x = k /\ forall d, i < length l /\ nth i l d = x
    | None => ~ In k (map key l)
    end.
  Proof.
    intros Hf. destruct (find_index f l) as [[i x]|] eqn:E.
    - split; [eapply find_index_In; eassumption|]. split.
      + apply Hf. now destruct (find_index_some f l i x x E) as (_ & _ & ?).
      + intros d. destruct (find_index_some f l i x d E) as (? & ? & _); auto.
    - intros Hin. apply in_map_iff in Hin as (y & Hy & Hin). apply Hf in Hy.
      rewrite (proj1 (find_index_none f l) E y Hin) in Hy. discriminate.
  Qed.
End FindIndex.

Lemma nodupb_iff l : nodupb l = true <-> NoDup l.
Proof.
  induction l as [|x l IH]; cbn [nodupb]; [split; [constructor|reflexivity]|].
  rewrite NoDup_cons_iff, andb_true_iff, negb_true_iff, IH, <- not_true_iff_false, existsb_exists.
  split; intros [Hx Hl]; (split; [|assumption]).
  - intros Hin. apply Hx. exists x. now rewrite N.eqb_refl.
  - intros (y & Hy & E). apply N.eqb_eq in E. now subst.
Qed.

Lemma upd_length {A} (l : list A) i v : length (upd l i v) = length l.
Proof. revert i; induction l as [|x l IH]; intros [|i]; cbn [upd length]; auto. Qed.

Lemma nth_upd_eq {A} (l : list A) i v d : i < length l -> nth i (upd l i v) d = v.
Proof.
  revert i; induction l as [|x l IH]; intros [|i] H; cbn [upd nth length] in *; try lia; auto.
  apply IH; lia.
Qed.

Lemma nth_upd_neq {A} (l : list A) i j v d : i <> j -> nth j (upd l i v) d = nth j l d.
Proof.
  revert i j; induction l as [|x l IH]; intros [|i] [|j] H; cbn [upd nth]; try reflexivity; try lia.
  apply IH; lia.
Qed.

Lemma NoDup_map_inj_in {A} (key : A -> N) l x y :
  NoDup (map key l) -> In x l -> In y l -> key x = key y -> x = y.
Proof.
  induction l as [|z l IH]; intros Hnd Hx Hy Hk; [destruct Hx|].
  cbn [map] in Hnd. apply NoDup_cons_iff in Hnd as [Hz Hl].
  destruct Hx as [->|Hx], Hy as [->|Hy]; try reflexivity.
  - exfalso. apply Hz. rewrite Hk. now apply in_map.
  - exfalso. apply Hz. rewrite <- Hk. now apply in_map.
  - apply IH; assumption.
Qed.

Section Agree.
  Context {NN : Num}.
  Local Notation T := (T NN).
  Local Notation pinfo := (@pinfo).

  Definition arity (pi : pinfo) : nat := length (pi_actions pi).

  Lemma aget_ains {V} k k' (v : V) m :
    aget k (ains k' v m) = if N.eqb k k' then Some v else aget k m.
  Proof. reflexivity. Qed.

  Lemma build_actions_snd acts next m :
    snd (build_actions acts next m) = next + length acts.
  Proof.
    revert next m; induction acts as [|a r IH]; intros next m; cbn [build_actions length snd]; [lia|].
    rewrite IH. lia.
  Qed.

  Lemma build_actions_aget acts : NoDup acts -> forall next m a,
    aget a (fst (build_actions acts next m)) =
    match find_index (N.eqb a) acts with
    | Some (ai, _) => Some (next + ai)
    | None => aget a m
    end.
  Proof.
    induction 1 as [|b r Hb Hr IH]; intros next m a; cbn [build_actions find_index fst]; [reflexivity|].
    rewrite IH. destruct (N.eqb a b) eqn:E.
    - apply N.eqb_eq in E; subst b.
      assert (Hn : find_index (N.eqb a) r = None).
      { apply find_index_none. intros x Hx. apply N.eqb_neq. intros ->. contradiction. }
      rewrite Hn, aget_ains, N.eqb_refl. f_equal; lia.
    - destruct (find_index (N.eqb a) r) as [[j z]|].
      + f_equal; lia.
      + rewrite aget_ains, E. reflexivity.
  Qed.

  Definition amap_of (pi : pinfo) (base : nat) : amap nat :=
    fst (build_actions (pi_actions pi) base []).

  (** the hash lookup of an action is the scan for it *)
  Lemma fast_multi_slow (pi : pinfo) base : NoDup (pi_actions pi) ->
    forall (entries : list (N * T)) (dense : list T),
      fast_multi (amap_of pi base) entries dense = slow_multi (pi_actions pi) base entries dense.
  Proof.
    intros Hnd; induction entries as [|[a p] r IH]; intros dense; cbn [fast_multi slow_multi]; [reflexivity|].
    destruct (prob_ok p); [|reflexivity].
    unfold amap_of. rewrite build_actions_aget by assumption.
    destruct (find_index (N.eqb a) (pi_actions pi)) as [[ai z]|]; [|reflexivity].
    apply IH.
  Qed.

  Lemma build_inds_snd infos next m :
    snd (build_inds infos next m) = fold_left Nat.add (map arity infos) next.
  Proof.
    revert next m; induction infos as [|pi r IH]; intros next m; cbn [build_inds map fold_left]; [reflexivity|].
    destruct (build_actions (pi_actions pi) next []) as [am next'] eqn:E.
    rewrite IH. f_equal.
    change next' with (snd (am, next')). rewrite <- E, build_actions_snd. reflexivity.
  Qed.

  Lemma build_inds_aget infos : NoDup (map pi_name infos) -> forall next m name,
    aget name (fst (build_inds infos next m)) =
    match find_index (fun pi => N.eqb (pi_name pi) name) infos with
    | Some (ind, pi) => Some (amap_of pi (nth ind (offsets (map arity infos) next) O))
    | None => aget name m
    end.
  Proof.
    induction infos as [|pi r IH]; intros Hnd next m name; cbn [build_inds find_index map offsets fst];
      [reflexivity|].
    cbn [map] in Hnd. apply NoDup_cons_iff in Hnd as [Hpi Hr].
    destruct (build_actions (pi_actions pi) next []) as [am next'] eqn:E.
    assert (Ham : am = amap_of pi next) by (unfold amap_of; now rewrite E).
    assert (Hnext : next' = next + arity pi).
    { change next' with (snd (am, next')). rewrite <- E, build_actions_snd. reflexivity. }
    rewrite IH by assumption. destruct (N.eqb (pi_name pi) name) eqn:En.
    - apply N.eqb_eq in En. subst name.
      assert (Hn : find_index (fun pi0 => N.eqb (pi_name pi0) (pi_name pi)) r = None).
      { apply find_index_none. intros x Hx. apply N.eqb_neq. intros Heq. apply Hpi.
        rewrite <- Heq. now apply in_map. }
      rewrite Hn, aget_ains, N.eqb_refl. cbn [nth]. now rewrite Ham.
    - destruct (find_index (fun pi0 => N.eqb (pi_name pi0) name) r) as [[j z]|].
      + cbn [nth]. now rewrite Hnext.
      + rewrite aget_ains. rewrite N.eqb_sym, En. reflexivity.
  Qed.

  Definition key_is (name : N) (e : N * N) : bool := N.eqb (fst e) name.

  (** [sm] (hash map infoset -> (action, seen)) and [seen] describe the same state *)
  Definition SimS (singles : list (N * N)) (sm : amap (N * bool)) (seen : list bool) : Prop :=
    length seen = length singles /\
    forall name, aget name sm =
                 match find_index (key_is name) singles with
                 | Some (ind, (_, act)) => Some (act, nth ind seen false)
                 | None => None
                 end.

  Lemma build_singles_aget raw : NoDup (map fst raw) -> forall m name,
    aget name (fold_left (fun m e => ains (fst e) (snd e, false) m) raw m) =
    match find_index (key_is name) raw with
    | Some (_, (_, act)) => Some (act, false)
    | None => aget name m
    end.
  Proof.
    induction raw as [|[i a] r IH]; intros Hnd m name; cbn [fold_left find_index]; [reflexivity|].
    cbn [map fst] in Hnd. apply NoDup_cons_iff in Hnd as [Hi Hr].
    rewrite IH by assumption. unfold key_is at 2; cbn [fst snd].
    destruct (N.eqb i name) eqn:E.
    - apply N.eqb_eq in E; subst i.
      assert (Hn : find_index (key_is name) r = None).
      { apply find_index_none. intros [j b] Hx. unfold key_is; cbn [fst]. apply N.eqb_neq. intros ->.
        apply Hi. change name with (fst (name, b)). now apply in_map. }
      rewrite Hn, aget_ains, N.eqb_refl. reflexivity.
    - destruct (find_index (key_is name) r) as [[j [i' a']]|]; [reflexivity|].
      rewrite aget_ains, N.eqb_sym, E. reflexivity.
  Qed.

  Lemma SimS_init singles : NoDup (map fst singles) ->
    SimS singles (build_singles singles) (repeat false (length singles)).
  Proof.
    intros Hnd; split; [apply repeat_length|]. intros name. unfold build_singles.
    rewrite build_singles_aget by assumption.
    destruct (find_index (key_is name) singles) as [[j [i a]]|]; [|reflexivity].
    now rewrite nth_repeat.
  Qed.

  Lemma SimS_step singles sm seen name ind i act b :
    SimS singles sm seen ->
    find_index (key_is name) singles = Some (ind, (i, act)) ->
    SimS singles (ains name (act, b) sm) (upd seen ind b).
  Proof.
    intros [Hlen Hget] Hf; split; [now rewrite upd_length|]. intros name'.
    rewrite aget_ains. destruct (N.eqb name' name) eqn:E.
    - apply N.eqb_eq in E; subst name'. rewrite Hf.
      destruct (find_index_some _ _ _ _ (0%N, 0%N) Hf) as (Hlt & _ & _).
      rewrite nth_upd_eq by lia. reflexivity.
    - rewrite Hget. destruct (find_index (key_is name') singles) as [[j [i' a']]|] eqn:Ef; [|reflexivity].
      assert (ind <> j).
      { intros ->.
        destruct (find_index_some _ _ _ _ (0%N, 0%N) Hf) as (_ & Hn1 & Hk1).
        destruct (find_index_some _ _ _ _ (0%N, 0%N) Ef) as (_ & Hn2 & Hk2).
        rewrite Hn1 in Hn2. inversion Hn2; subst. unfold key_is in *; cbn [fst] in *.
        apply N.eqb_eq in Hk1, Hk2. subst. rewrite N.eqb_refl in E. discriminate. }
      now rewrite nth_upd_neq.
  Qed.

  Lemma find_index_nth_key singles : NoDup (map fst singles) -> forall i d,
    i < length singles ->
    find_index (key_is (fst (nth i singles d))) singles = Some (i, nth i singles d).
  Proof.
    induction singles as [|[k a] r IH]; intros Hnd i d Hi; cbn [length] in Hi; [lia|].
    cbn [map fst] in Hnd. apply NoDup_cons_iff in Hnd as [Hk Hr].
    destruct i as [|i]; cbn [nth find_index].
    - unfold key_is; cbn [fst]. now rewrite N.eqb_refl.
    - unfold key_is at 1; cbn [fst].
      destruct (N.eqb k (fst (nth i r d))) eqn:E.
      + apply N.eqb_eq in E. exfalso. apply Hk. rewrite E. apply in_map. apply nth_In. lia.
      + rewrite IH by (assumption || lia). reflexivity.
  Qed.

  Lemma amap_keys_seen_map keys (m : amap (N * bool)) :
    amap_keys_seen keys m =
    map (fun k => match aget k m with Some (_, b) => b | None => false end) keys.
  Proof. induction keys as [|k r IH]; cbn [amap_keys_seen map]; [reflexivity|now rewrite IH]. Qed.

  Lemma SimS_final singles sm seen : NoDup (map fst singles) ->
    SimS singles sm seen -> amap_keys_seen (map fst singles) sm = seen.
  Proof.
    intros Hnd [Hlen Hget]. rewrite amap_keys_seen_map, map_map.
    apply nth_ext with (d := false) (d' := false); rewrite map_length; [now symmetry|]. intros n Hn.
    rewrite nth_map_lt with (d := (0%N, 0%N)) by assumption.
    rewrite Hget, find_index_nth_key by assumption.
    destruct (nth n singles (0%N, 0%N)); reflexivity.
  Qed.

  Definition loop_rel (singles : list (N * N))
             (a : sres (list T * amap (N * bool))) (b : sres (list T * list bool)) : Prop :=
    match a, b with
    | SOk (d, sm), SOk (d', seen) => d = d' /\ SimS singles sm seen
    | SErr e, SErr e' => e = e'
    | _, _ => False
    end.

  Lemma loops_agree infos singles :
    NoDup (map pi_name infos) -> Forall (fun pi => NoDup (pi_actions pi)) infos ->
    forall (strat : list (N * list (N * T))) (dense : list T) sm seen,
      SimS singles sm seen ->
      loop_rel singles
        (fast_loop (fst (build_inds infos O [])) strat dense sm)
        (slow_loop infos (offsets (map arity infos) O) singles strat dense seen).
  Proof.
    intros Hnd Hacts; induction strat as [|[name entries] rest IH]; intros dense sm seen Hsim;
      cbn [fast_loop slow_loop].
    - split; [reflexivity|assumption].
    - rewrite build_inds_aget by assumption. cbn [aget].
      destruct (find_index (fun pi => N.eqb (pi_name pi) name) infos) as [[ind pi]|] eqn:Ef.
      + rewrite fast_multi_slow.
        * destruct (slow_multi _ _ entries dense) as [dense'|e]; [|reflexivity]. now apply IH.
        * apply find_index_In in Ef. rewrite Forall_forall in Hacts. now apply Hacts.
      + destruct Hsim as [Hlen Hget]. rewrite Hget. fold (key_is name).
        destruct (find_index (key_is name) singles) as [[ind [i act]]|] eqn:Es; [|reflexivity].
        destruct (slow_single act entries (nth ind seen false)) as [b|e]; [|reflexivity].
        apply IH. eapply SimS_step; [split; eassumption|eassumption].
  Qed.

  Lemma WFtables_names infos singles :
    WFnames_tables infos singles -> NoDup (map pi_name infos) /\ NoDup (map fst singles).
  Proof. intros [H _]. apply NoDup_app_iff in H as (H1 & H2 & _). now split. Qed.

  Lemma WFtables_actions infos singles :
    WFnames_tables infos singles -> Forall (fun pi => NoDup (pi_actions pi)) infos.
  Proof. intros [_ H]. eapply Forall_impl; [|exact H]. now intros pi [? _]. Qed.

  Lemma players_agree infos singles (strat : list (N * list (N * T))) :
    WFnames_tables infos singles ->
    import_fast_player infos singles strat = import_slow_player infos singles strat.
  Proof.
    intros Hwf. destruct (WFtables_names _ _ Hwf) as [Hn Hs]. pose proof (WFtables_actions _ _ Hwf) as Ha.
    unfold import_fast_player, import_slow_player. fold arity.
    rewrite (surjective_pairing (build_inds infos 0 [])), build_inds_snd.
    pose proof (loops_agree infos singles Hn Ha strat (repeat (zero NN) (fold_left Nat.add (map arity infos) 0))
                  _ _ (SimS_init singles Hs)) as H.
    destruct (fast_loop _ strat _ _) as [[d sm]|e];
      destruct (slow_loop infos _ singles strat _ _) as [[d' seen]|e']; cbn [loop_rel] in H; try contradiction.
    - destruct H as [-> Hsim]. now rewrite (SimS_final singles sm seen Hs Hsim).
    - now subst.
  Qed.

  Lemma paths_agree (g : @game NN) : WFnames g -> forall x, import_fast g x = import_slow g x.
  Proof.
    intros [H1 H2] x. unfold import_fast, import_slow, import2.
    rewrite !players_agree by assumption; reflexivity.
  Qed.
End Agree.
