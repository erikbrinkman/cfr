(** * StratImportRProofs: the import functions over the reals — what they return (success
    exactly when the four rules hold, the resulting profile, the error kinds), and the round
    trip [as_named] / [from_named] on valid profiles. *)
From Coq Require Import Reals List NArith Bool Arith Lia Lra.
From Cfr.theories Require Import Num RInst Tree Strat Valid TruncProofs
     StratIterProofs StratAgreeProofs StratImportProofs.
Import ListNotations.
Open Scope R_scope.

Local Notation pinfo := (@pinfo).

Lemma prob_ok_R (p : R) : @prob_ok RNum p = true <-> 0 <= p.
Proof.
  unfold prob_ok. cbn [leb is_fin RNum zero]. rewrite andb_true_r. apply Rleb_true.
Qed.

Lemma prob_ok_R_false (p : R) : @prob_ok RNum p = false <-> ~ 0 <= p.
Proof.
  rewrite <- prob_ok_R. destruct (@prob_ok RNum p); split; intros H; try reflexivity; try discriminate.
  exfalso; now apply H.
Qed.

Lemma Rsum_all_zero (l : list R) : Forall (fun x => x = 0) l -> Rsum l = 0.
Proof. apply RInst.Rsum_all_zero. Qed.

Lemma Rsum_nonzero_pos (l : list R) :
  Forall (fun x => 0 <= x) l -> Rsum l <> 0 -> exists x, In x l /\ 0 < x.
Proof.
  induction 1 as [|x l Hx Hl IH]; cbn [Rsum]; intros H; [lra|].
  destruct Hx as [Hp| <-].
  - exists x. split; [now left|assumption].
  - destruct IH as (y & Hy & Hpos); [lra|]. exists y. split; [now right|assumption].
Qed.

Definition norm_row (row : list R) : list R := map (fun v => v / Rsum row) row.

Lemma norm_row_map {A} (f : A -> R) l :
  norm_row (map f l) = map (fun a => f a / Rsum (map f l)) l.
Proof. unfold norm_row. now rewrite map_map. Qed.

Lemma norm_row_valid (row : list R) : Rsum row = 1 -> norm_row row = row.
Proof.
  intros H. unfold norm_row. rewrite H. rewrite <- (map_id row) at 2. apply map_ext. intros v. field.
Qed.

Lemma norm_row_VRow (row : list R) :
  Forall (fun x => 0 <= x) row -> Rsum row <> 0 -> VRow (norm_row row).
Proof.
  intros Hnn Hs. pose proof (Rsum_nonneg row Hnn) as Hge. unfold norm_row. split.
  - rewrite Forall_map. eapply Forall_impl; [|exact Hnn]. intros x Hx.
    apply Rle_mult_inv_pos; [assumption|lra].
  - rewrite Rsum_map_div. now field.
Qed.

Lemma finish_rows_spec (rows : list (list R)) :
  match @finish_rows RNum rows with
  | SOk d => Forall (fun row => Rsum row <> 0) rows /\ d = concat (map norm_row rows)
  | SErr e => e = UninitializedInfoset /\ exists row, In row rows /\ Rsum row = 0
  end.
Proof.
  induction rows as [|row rows IH]; cbn [finish_rows]; [split; [constructor|reflexivity]|].
  rewrite sum_Rsum. change (eqb RNum) with Reqb. change (zero RNum) with 0. change (div RNum) with Rdiv.
  destruct (Reqb (Rsum row) 0) eqn:E.
  - apply Reqb_true in E. split; [reflexivity|]. exists row. split; [now left|assumption].
  - apply Reqb_false in E. destruct (@finish_rows RNum rows) as [d|e].
    + destruct IH as [Hall ->]. split; [now constructor|].
      unfold finish_row. change (is_fin RNum (Rsum row)) with true. cbn iota. reflexivity.
    + destruct IH as [-> (r & Hr & Hz)]. split; [reflexivity|]. exists r. split; [now right|assumption].
Qed.

Lemma forallb_id_false (l : list bool) : forallb (fun b => b) l = false -> In false l.
Proof. induction l as [|[] l IH]; cbn [forallb andb In]; [discriminate|auto|auto]. Qed.

Lemma finish_spec (rows : list (list R)) (seen : list bool) :
  match @finish RNum (map (@length R) rows) (concat rows) seen with
  | SOk d => Forall (fun row => Rsum row <> 0) rows /\ forallb (fun b => b) seen = true /\
             d = concat (map norm_row rows)
  | SErr e => e = UninitializedInfoset /\ ((exists row, In row rows /\ Rsum row = 0) \/ In false seen)
  end.
Proof.
  unfold finish. rewrite split_by_concat. pose proof (finish_rows_spec rows) as H.
  destruct (@finish_rows RNum rows) as [d|e]; [|destruct H as [-> H]; auto].
  destruct H as [Hall ->]. destruct (forallb _ seen) eqn:E; [auto|].
  split; [reflexivity|]. right. now apply forallb_id_false.
Qed.

Section Player.
  Context (infos : list pinfo) (singles : list (N * N)).
  Context (Hwf : WFnames_tables infos singles).

  Local Notation strat_t := (list (N * list (N * R))).

  Definition final_row (strat : strat_t) (pi : pinfo) : list R :=
    map (@w_last RNum strat (pi_name pi)) (pi_actions pi).

  Lemma final_rows_lengths (strat : strat_t) :
    map (@length R) (map (final_row strat) infos) = map arity infos.
  Proof. apply (@rows_of_lengths RNum infos (@w_last RNum strat)). Qed.

  Lemma norm_rows_lengths (strat : strat_t) :
    map (@length R) (map (fun pi => norm_row (final_row strat pi)) infos) = map arity infos.
  Proof.
    rewrite <- (map_map (final_row strat) norm_row), length_concat_map; [apply final_rows_lengths|].
    intros r. apply map_length.
  Qed.

  Definition Legal (strat : strat_t) : Prop := Forall (@KnownItem RNum infos singles) strat.
  Definition NonNeg (strat : strat_t) : Prop := Forall (fun t => 0 <= snd t) (@triples RNum strat).
  Definition SinglesCovered (strat : strat_t) : Prop :=
    forall e, In e singles -> exists t, In t (@triples RNum strat) /\ fst (fst t) = fst e.
  Definition MultiCovered (strat : strat_t) : Prop :=
    forall pi, In pi infos -> exists a, In a (pi_actions pi) /\ 0 < @w_last RNum strat (pi_name pi) a.

  Definition ErrViolation (e : serr) (strat : strat_t) : Prop :=
    match e with
    | InvalidInfoset => @BadInfoset RNum infos singles strat
    | InvalidAction => @BadAction RNum infos singles strat
    | InvalidProbability => exists t, In t (@triples RNum strat) /\ ~ 0 <= snd t
    | UninitializedInfoset =>
        (exists pi, In pi infos /\
                    forall a, In a (pi_actions pi) -> @w_last RNum strat (pi_name pi) a = 0) \/
        (exists e, In e singles /\ forall t, In t (@triples RNum strat) -> fst (fst t) <> fst e)
    end.

  Lemma mentioned_true (strat : strat_t) k :
    @mentioned RNum strat k = true <-> exists t, In t (@triples RNum strat) /\ fst (fst t) = k.
  Proof.
    unfold mentioned. rewrite existsb_exists. split; intros (t & Ht & Hk); exists t; (split; [assumption|]);
      now apply N.eqb_eq.
  Qed.

  Lemma w_last_nonneg (strat : strat_t) I a : NonNeg strat -> 0 <= @w_last RNum strat I a.
  Proof. apply (@w_from_inv RNum (fun x => 0 <= x)). apply Rle_refl. Qed.

  Lemma final_row_nonneg (strat : strat_t) pi : NonNeg strat -> Forall (fun x => 0 <= x) (final_row strat pi).
  Proof.
    intros H. unfold final_row. rewrite Forall_map. apply Forall_forall. intros a _. now apply w_last_nonneg.
  Qed.

  Lemma total_nonzero_iff (strat : strat_t) pi : NonNeg strat ->
    (Rsum (final_row strat pi) <> 0 <->
     exists a, In a (pi_actions pi) /\ 0 < @w_last RNum strat (pi_name pi) a).
  Proof.
    intros Hnn. pose proof (final_row_nonneg strat pi Hnn) as Hrow. split.
    - intros H. destruct (Rsum_nonzero_pos _ Hrow H) as (x & Hx & Hpos).
      unfold final_row in Hx. apply in_map_iff in Hx as (a & <- & Ha). exists a. auto.
    - intros (a & Ha & Hpos).
      pose proof (Rsum_ge_In _ _ Hrow (in_map (@w_last RNum strat (pi_name pi)) _ a Ha)). lra.
  Qed.

  (** the outcome, in these terms: the loop's verdict, then [finish] on the final weights *)
  Lemma import_slow_spec (strat : strat_t) :
    match @import_slow_player RNum infos singles strat with
    | SOk dense =>
        (Legal strat /\ NonNeg strat /\ SinglesCovered strat /\ MultiCovered strat) /\
        dense = concat (map (fun pi => norm_row (final_row strat pi)) infos)
    | SErr e => ErrViolation e strat
    end.
  Proof.
    unfold import_slow_player. cbv zeta.
    pose proof (@import_loop_spec RNum infos singles Hwf strat) as H. unfold arity in H.
    destruct (@slow_loop RNum _ _ _ strat _ _) as [[d seen]|e].
    2:{ destruct e; try exact H; [|destruct H]. destruct H as (t & Ht & Hbad). exists t.
        split; [assumption|now apply prob_ok_R_false]. }
    destruct H as (Hk & Hp & -> & ->). apply (Forall_impl _ (fun t => proj1 (prob_ok_R (snd t)))) in Hp.
    change (@rows_of RNum infos (fun I a => @w_from RNum (@triples RNum strat) I a (zero RNum)))
      with (map (final_row strat) infos).
    fold arity. rewrite <- (final_rows_lengths strat).
    pose proof (finish_spec (map (final_row strat) infos)
                  (map (fun e => false || @mentioned RNum strat (fst e)) singles)) as Hf.
    destruct (@finish RNum _ _ _) as [d|e].
    - destruct Hf as (Hall & Hseen & ->). rewrite Forall_forall in Hall. rewrite forallb_forall in Hseen.
      split; [repeat split; try assumption|now rewrite map_map].
      + intros e He. apply mentioned_true.
        apply (Hseen _ (in_map (fun e => false || @mentioned RNum strat (fst e)) singles e He)).
      + intros pi Hpi. apply total_nonzero_iff; [assumption|]. apply Hall. now apply in_map.
    - destruct Hf as [-> [(row & Hrow & Hz)|Hin]]; [left|right].
      + apply in_map_iff in Hrow as (pi & <- & Hpi). exists pi. split; [assumption|]. intros a Ha.
        pose proof (Rsum_ge_In _ _ (final_row_nonneg strat pi Hp)
                      (in_map (@w_last RNum strat (pi_name pi)) _ a Ha)).
        pose proof (w_last_nonneg strat (pi_name pi) a Hp). lra.
      + apply in_map_iff in Hin as (e & Hin & He). exists e. split; [assumption|]. intros t Ht Heq.
        rewrite (proj2 (mentioned_true strat (fst e))) in Hin by (exists t; auto). discriminate.
  Qed.

  Lemma ErrViolation_not_ok (strat : strat_t) e :
    ErrViolation e strat ->
    Legal strat -> NonNeg strat -> SinglesCovered strat -> MultiCovered strat -> False.
  Proof.
    intros Herr Hl Hnn Hsc Hmc. destruct (WFtables_names _ _ Hwf) as [Hn Hs].
    unfold Legal in Hl. rewrite Forall_forall in Hl. unfold NonNeg in Hnn. rewrite Forall_forall in Hnn.
    destruct e; cbn [ErrViolation] in Herr.
    - destruct Herr as (it & Hit & H1 & H2). destruct (Hl it Hit) as [(pi & Hpi & Hname & _)|(act & Hact & _)].
      + apply H1. rewrite <- Hname. now apply in_map.
      + apply H2. change (fst it) with (fst (fst it, act)). now apply in_map.
    - destruct Herr as (it & e & Hit & He & Hbad).
      destruct (Hl it Hit) as [(pi & Hpi & Hname & Hall)|(act & Hact & Hall)]; rewrite Forall_forall in Hall;
        destruct Hbad as [(pi' & Hpi' & Hname' & Hbad)|(act' & Hact' & Hbad)].
      + assert (pi = pi') by (apply (NoDup_map_inj_in pi_name infos); congruence). subst pi'.
        apply Hbad. now apply Hall.
      + apply (name_not_single infos singles Hwf pi (fst it, act') Hpi Hact'). exact Hname.
      + apply (name_not_single infos singles Hwf pi' (fst it, act) Hpi' Hact). exact Hname'.
      + assert (Heq : (fst it, act) = (fst it, act')) by (apply (NoDup_map_inj_in fst singles); auto).
        inversion Heq; subst act'. apply Hbad. now apply Hall.
    - destruct Herr as (t & Ht & Hneg). now apply Hneg, Hnn.
    - destruct Herr as [(pi & Hpi & Hz)|(e & He & Hno)].
      + destruct (Hmc pi Hpi) as (a & Ha & Hpos). rewrite (Hz a Ha) in Hpos. lra.
      + destruct (Hsc e He) as (t & Ht & Hk). exact (Hno t Ht Hk).
  Qed.

  (** C14.3: success exactly when the four rules hold *)
  Lemma import_ok_iff (strat : strat_t) :
    (exists dense, @import_slow_player RNum infos singles strat = SOk dense) <->
    Legal strat /\ NonNeg strat /\ SinglesCovered strat /\ MultiCovered strat.
  Proof.
    pose proof (import_slow_spec strat) as H. split.
    - intros (dense & E). rewrite E in H. apply H.
    - intros (Hl & Hnn & Hsc & Hmc).
      destruct (@import_slow_player RNum infos singles strat) as [dense|e]; [now exists dense|].
      destruct (ErrViolation_not_ok strat e H Hl Hnn Hsc Hmc).
  Qed.

  (** C14.2: the resulting profile *)
  Lemma import_result (strat : strat_t) dense :
    @import_slow_player RNum infos singles strat = SOk dense ->
    dense = concat (map (fun pi => norm_row (final_row strat pi)) infos) /\
    split_by dense (map arity infos) = map (fun pi => norm_row (final_row strat pi)) infos.
  Proof.
    intros E. pose proof (import_slow_spec strat) as H. rewrite E in H. destruct H as [_ ->].
    split; [reflexivity|]. rewrite <- (norm_rows_lengths strat). apply split_by_concat.
  Qed.

  Lemma import_result_valid (strat : strat_t) dense :
    @import_slow_player RNum infos singles strat = SOk dense -> VFlat (map arity infos) dense.
  Proof.
    intros E. pose proof (import_slow_spec strat) as H. rewrite E in H.
    destruct H as [(_ & Hnn & _ & Hmc) ->].
    rewrite <- (norm_rows_lengths strat). split; [apply length_concat_nsum|].
    rewrite split_by_concat. apply Forall_forall. intros row Hrow.
    apply in_map_iff in Hrow as (pi & <- & Hpi).
    apply norm_row_VRow; [now apply final_row_nonneg|]. apply total_nonzero_iff; auto.
  Qed.

  (** C14.4: every error kind names a rule that the input really violates *)
  Lemma import_err_kind (strat : strat_t) e :
    @import_slow_player RNum infos singles strat = SErr e -> ErrViolation e strat.
  Proof. intros E. pose proof (import_slow_spec strat) as H. now rewrite E in H. Qed.
End Player.

Section RoundTrip.
  Local Notation multi_item := (@multi_item RNum).
  Local Notation single_item := (@single_item RNum).
  Local Notation posb := (@posb RNum).

  Lemma posb_R (e : N * R) : posb e = true <-> 0 < snd e.
  Proof. unfold StratIterProofs.posb. cbn [ltb zero RNum]. apply Rltb_true. Qed.

  Lemma VFlat_cons a ars (flat : list R) :
    VFlat (a :: ars) flat ->
    length (firstn a flat) = a /\ VRow (firstn a flat) /\ VFlat ars (skipn a flat).
  Proof.
    intros [Hlen Hall]. cbn [split_by] in Hall. apply Forall_cons_iff in Hall as [Hrow Hrest].
    cbn [nsum fold_right] in Hlen. fold (nsum ars) in Hlen.
    split; [rewrite firstn_length; lia|]. split; [assumption|].
    split; [rewrite skipn_length; lia|assumption].
  Qed.

  Lemma snd_filter_combine (acts : list N) : forall (row : list R),
    length row = length acts ->
    map snd (filter posb (combine acts row)) = filter (fun p => Rltb 0 p) row.
  Proof.
    induction acts as [|b acts IH]; intros [|p row] Hlen; cbn [length] in Hlen; try lia; [reflexivity|].
    cbn [combine filter]. unfold StratIterProofs.posb at 1. cbn [snd ltb zero RNum].
    destruct (Rltb 0 p); cbn [map snd]; rewrite IH by lia; reflexivity.
  Qed.

  Definition ItemValid (it : N * list (N * R)) : Prop :=
    Forall (fun e => 0 < snd e) (snd it) /\ Rsum (map snd (snd it)) = 1.

  Lemma multi_item_valid pi (row : list R) :
    length row = arity pi -> VRow row -> ItemValid (multi_item (pi, row)).
  Proof.
    intros Hlen [Hnn Hsum]. unfold ItemValid, StratIterProofs.multi_item; cbn [fst snd]. split.
    - apply Forall_forall. intros e He. apply filter_In in He as [_ He]. now apply posb_R.
    - rewrite snd_filter_combine by assumption. rewrite Rsum_filter_pos_all; try assumption.
      intros x _ Hx. now apply Rltb_true.
  Qed.

  Lemma single_item_valid e : ItemValid (single_item e).
  Proof.
    unfold ItemValid, StratIterProofs.single_item; cbn [fst snd map Rsum one RNum]. split; [|lra].
    constructor; [cbn [snd]; lra|constructor].
  Qed.

  Lemma multi_items_valid infos : forall (flat : list R),
    VFlat (map arity infos) flat ->
    Forall ItemValid (map multi_item (combine infos (split_by flat (map arity infos)))).
  Proof.
    induction infos as [|pi r IH]; intros flat H; cbn [map split_by combine]; [constructor|].
    apply VFlat_cons in H as (Hlen & Hrow & Hrest). constructor; [|now apply IH].
    now apply multi_item_valid.
  Qed.

  Lemma named_valid infos singles (flat : list R) :
    VFlat (map arity infos) flat ->
    Forall ItemValid (@nsi_items RNum (@mkNsi RNum infos flat singles)).
  Proof.
    intros H. unfold nsi_items; cbn [ns_info ns_probs ns_singles]. apply Forall_app. split.
    - now apply multi_items_valid.
    - apply Forall_forall. intros it Hit. apply in_map_iff in Hit as (e & <- & _). apply single_item_valid.
  Qed.

  Lemma nohit_filter name b (r : list N) (row : list R) t :
    ~ In b r -> In t (@tr RNum name (filter posb (combine r row))) -> @hits RNum name b t = false.
  Proof.
    intros Hb Ht. apply in_map_iff in Ht as ([a p] & <- & He). apply filter_In in He as [He _].
    apply in_combine_l in He. apply hits_false. cbn [fst]. intros [= ->]. contradiction.
  Qed.

  Lemma w_last_row name (acts : list N) : NoDup acts -> forall (row : list R),
    length row = length acts -> Forall (fun x => 0 <= x) row ->
    map (fun a => @w_from RNum (tr name (filter posb (combine acts row))) name a 0) acts = row.
  Proof.
    induction 1 as [|b r Hb Hr IH]; intros [|p row] Hlen Hnn; cbn [length] in Hlen; try lia; [reflexivity|].
    apply Forall_cons_iff in Hnn as [Hp Hnn]. cbn [combine filter map].
    destruct (posb (b, p)) eqn:Epos.
    - cbn [tr map fst snd]. fold (@tr RNum name (filter posb (combine r row))). f_equal.
      + rewrite w_from_cons, hits_same. cbn [snd].
        apply w_from_nohit. intros t Ht. eapply nohit_filter; eassumption.
      + etransitivity; [|apply (IH row); [lia|assumption]]. apply map_ext_in. intros a Ha.
        rewrite w_from_cons, hits_false; [reflexivity|]. cbn [fst]. intros [= ->]. contradiction.
    - f_equal.
      + rewrite w_from_nohit by (intros t Ht; eapply nohit_filter; eassumption).
        destruct Hp as [Hpos| <-]; [apply (posb_R (b, p)) in Hpos; congruence|reflexivity].
      + apply IH; [lia|assumption].
  Qed.

  Lemma final_rows_multi infos :
    NoDup (map pi_name infos) -> Forall (fun pi => NoDup (pi_actions pi)) infos ->
    forall (flat : list R), VFlat (map arity infos) flat ->
      @rows_of RNum infos
        (fun I a => w_from (triples (map multi_item (combine infos (split_by flat (map arity infos))))) I a 0)
      = split_by flat (map arity infos).
  Proof.
    induction infos as [|pi r IH]; intros Hnd Hacts flat Hv; [reflexivity|].
    cbn [map] in Hnd. apply NoDup_cons_iff in Hnd as [Hpi Hnd].
    apply Forall_cons_iff in Hacts as [Hapi Hacts].
    apply VFlat_cons in Hv as (Hlen & [Hnn Hsum] & Hrest).
    cbn [map split_by combine rows_of]. fold (@rows_of RNum r). rewrite triples_cons. f_equal.
    - cbn [fst snd StratIterProofs.multi_item].
      etransitivity; [|apply (w_last_row (pi_name pi) (pi_actions pi) Hapi (firstn (arity pi) flat)); assumption].
      apply map_ext. intros a. rewrite w_from_app. apply w_from_other. rewrite map_map. intros Hin.
      apply in_map_iff in Hin as ([pi' row'] & Heq & Hin). apply in_combine_l in Hin.
      apply Hpi. rewrite <- Heq. now apply (in_map pi_name).
    - etransitivity; [|apply (IH Hnd Hacts (skipn (arity pi) flat) Hrest)].
      unfold rows_of. apply map_ext_in. intros pi' Hpi'. apply map_ext. intros a. rewrite w_from_app. f_equal.
      apply (@Fstep_other RNum _ _ (fun _ _ => 0)). cbn [fst StratIterProofs.multi_item].
      intros Heq. apply Hpi. rewrite Heq. now apply in_map.
  Qed.

  Section OnePlayer.
    Context (infos : list pinfo) (singles : list (N * N)) (flat : list R).
    Context (Hwf : WFnames_tables infos singles) (Hv : VFlat (map arity infos) flat).

    Let view := @nsi_items RNum (@mkNsi RNum infos flat singles).
    Let rows := split_by flat (map arity infos).

    Lemma view_eq :
      view = map multi_item (combine infos rows) ++ map single_item singles.
    Proof. reflexivity. Qed.

    Lemma final_rows_view : map (final_row view) infos = rows.
    Proof.
      destruct (WFtables_names _ _ Hwf) as [Hn Hs]. pose proof (WFtables_actions _ _ Hwf) as Ha.
      unfold rows. rewrite <- (final_rows_multi infos Hn Ha flat Hv).
      apply (@rows_of_ext RNum infos (@w_last RNum view)). intros pi a Hpi _.
      unfold w_last. rewrite view_eq, triples_app, w_from_app. apply w_from_other. rewrite map_map.
      intros Hin. apply in_map_iff in Hin as (e & Heq & He).
      now apply (name_not_single infos singles Hwf pi e Hpi He).
    Qed.

    Lemma view_valid : Forall ItemValid view.
    Proof. now apply named_valid. Qed.

    Lemma view_legal : Legal infos singles view.
    Proof.
      unfold Legal. rewrite view_eq. apply Forall_app. split; apply Forall_forall; intros it Hit.
      - apply in_map_iff in Hit as ([pi row] & <- & Hin). left. exists pi.
        cbn [fst snd StratIterProofs.multi_item]. split; [eapply in_combine_l; eassumption|].
        split; [reflexivity|]. apply Forall_forall. intros [a p] He. apply filter_In in He as [He _].
        cbn [fst]. eapply in_combine_l; eassumption.
      - apply in_map_iff in Hit as (e & <- & He). right. exists (snd e).
        cbn [fst snd StratIterProofs.single_item]. split; [now rewrite <- surjective_pairing|].
        constructor; [reflexivity|constructor].
    Qed.

    Lemma view_nonneg : NonNeg view.
    Proof.
      apply Forall_forall. intros [[I a] w] Ht. apply (@in_triples RNum) in Ht as (es & Hit & He).
      pose proof view_valid as H. rewrite Forall_forall in H. destruct (H _ Hit) as [Hpos _].
      rewrite Forall_forall in Hpos. apply Rlt_le. exact (Hpos _ He).
    Qed.

    Lemma view_singles : SinglesCovered singles view.
    Proof.
      intros [i act] He. exists (i, act, 1). split; [|reflexivity].
      apply (@in_triples RNum). exists [(act, 1)]. split; [|now left].
      rewrite view_eq. apply in_or_app. right. now apply (in_map single_item singles (i, act)).
    Qed.

    Lemma view_multi : MultiCovered infos view.
    Proof.
      intros pi Hpi. apply (total_nonzero_iff view pi view_nonneg).
      assert (Hin : In (final_row view pi) rows) by (rewrite <- final_rows_view; now apply in_map).
      destruct Hv as [_ H]. rewrite Forall_forall in H. destruct (H _ Hin) as [_ Hs]. lra.
    Qed.

    Lemma roundtrip_slow_player : @import_slow_player RNum infos singles view = SOk flat.
    Proof.
      destruct (proj2 (import_ok_iff infos singles Hwf view)) as (dense & E).
      { split; [exact view_legal|]. split; [exact view_nonneg|]. split; [exact view_singles|exact view_multi]. }
      rewrite E. f_equal. destruct (import_result infos singles Hwf view dense E) as [-> _].
      rewrite <- map_map with (f := final_row view) (g := norm_row). rewrite final_rows_view.
      replace (map norm_row rows) with rows.
      - apply concat_split_by. exact (proj1 Hv).
      - rewrite <- (map_id rows) at 1. apply map_ext_in. intros row Hrow. symmetry. apply norm_row_valid.
        destruct Hv as [_ H]. rewrite Forall_forall in H. exact (proj2 (H row Hrow)).
    Qed.
  End OnePlayer.

  Lemma as_named_valid (g : @game RNum) (prof : list R * list R) :
    Valid g prof -> forall pl,
      Forall ItemValid (@as_named RNum g pl (if pl then fst prof else snd prof)).
  Proof.
    intros [V1 V2] pl. rewrite as_named_view. destruct pl; now apply named_valid.
  Qed.

  Lemma as_named_nodup (g : @game RNum) pl (flat : list R) :
    WFnames g -> NoDup (map fst (@as_named RNum g pl flat)).
  Proof. intros [W1 W2]. rewrite as_named_names. destruct pl; [apply W1|apply W2]. Qed.

  Lemma roundtrip_slow (g : @game RNum) (prof : list R * list R) :
    WFnames g -> Valid g prof ->
    @import_slow RNum g (as_named g true (fst prof), as_named g false (snd prof)) = SOk prof.
  Proof.
    intros [W1 W2] [V1 V2]. unfold import_slow, import2. cbn [fst snd].
    rewrite !as_named_view. unfold nsi_new. cbn [g_infos g_singles].
    rewrite (roundtrip_slow_player (g_infos1 g) (g_singles1 g) (fst prof) W1 V1).
    rewrite (roundtrip_slow_player (g_infos2 g) (g_singles2 g) (snd prof) W2 V2).
    now destruct prof.
  Qed.

  Lemma roundtrip_fast (g : @game RNum) (prof : list R * list R) :
    WFnames g -> Valid g prof ->
    @import_fast RNum g (as_named g true (fst prof), as_named g false (snd prof)) = SOk prof.
  Proof. intros W V. rewrite paths_agree by assumption. now apply roundtrip_slow. Qed.
End RoundTrip.

(** ** The statements in expanded, definition-free form (for [Properties/C14.v]) *)
Section Expanded.
  Context (infos : list pinfo) (singles : list (N * N)).
  Context (Hwf : WFnames_tables infos singles).
  Local Notation strat_t := (list (N * list (N * R))).

  Definition is_import (imp : list pinfo -> list (N * N) -> strat_t -> sres (list R)) : Prop :=
    imp = @import_fast_player RNum \/ imp = @import_slow_player RNum.

  Lemma is_import_slow imp (strat : strat_t) :
    is_import imp -> imp infos singles strat = @import_slow_player RNum infos singles strat.
  Proof. intros [->| ->]; [now apply (@players_agree RNum)|reflexivity]. Qed.

  Definition LegalX (strat : strat_t) : Prop :=
    forall name es, In (name, es) strat ->
      (exists pi, In pi infos /\ pi_name pi = name /\ forall a w, In (a, w) es -> In a (pi_actions pi)) \/
      (exists act, In (name, act) singles /\ forall a w, In (a, w) es -> a = act).

  Definition NonNegX (strat : strat_t) : Prop :=
    forall name es a w, In (name, es) strat -> In (a, w) es -> 0 <= w.

  Definition SinglesCoveredX (strat : strat_t) : Prop :=
    forall i act, In (i, act) singles -> exists es a w, In (i, es) strat /\ In (a, w) es.

  Lemma Legal_X (strat : strat_t) : Legal infos singles strat <-> LegalX strat.
  Proof.
    unfold Legal, LegalX. rewrite Forall_forall. split.
    - intros H name es Hin. destruct (H _ Hin) as [(pi & Hpi & Hn & Hall)|(act & Hact & Hall)];
        cbn [fst snd] in *; rewrite Forall_forall in Hall; [left; exists pi|right; exists act];
        repeat split; try assumption; intros a w Haw; apply (Hall (a, w) Haw).
    - intros H [name es] Hin. destruct (H _ _ Hin) as [(pi & Hpi & Hn & Hall)|(act & Hact & Hall)];
        [left; exists pi|right; exists act]; cbn [fst snd]; repeat split; try assumption;
        apply Forall_forall; intros [a w] Haw; cbn [fst]; eapply Hall; eassumption.
  Qed.

  Lemma NonNeg_X (strat : strat_t) : NonNeg strat <-> NonNegX strat.
  Proof.
    unfold NonNeg, NonNegX. rewrite Forall_forall. split.
    - intros H name es a w Hin Haw. apply (H (name, a, w)). apply (@in_triples RNum). exists es. auto.
    - intros H [[I a] w] Ht. apply (@in_triples RNum) in Ht as (es & Hit & He). exact (H _ _ _ _ Hit He).
  Qed.

  Lemma SinglesCovered_X (strat : strat_t) : SinglesCovered singles strat <-> SinglesCoveredX strat.
  Proof.
    unfold SinglesCovered, SinglesCoveredX. split.
    - intros H i act Hin. destruct (H _ Hin) as ([[I a] w] & Ht & Hk). cbn [fst] in Hk. subst I.
      apply (@in_triples RNum) in Ht as (es & Hit & He). exists es, a, w. auto.
    - intros H [i act] Hin. destruct (H _ _ Hin) as (es & a & w & Hit & He). exists (i, a, w).
      split; [|reflexivity]. apply (@in_triples RNum). exists es. auto.
  Qed.

  Lemma import_ok_iff_X imp (strat : strat_t) : is_import imp ->
    ((exists dense, imp infos singles strat = SOk dense) <->
     LegalX strat /\ NonNegX strat /\ SinglesCoveredX strat /\ MultiCovered infos strat).
  Proof.
    intros Hi. rewrite (is_import_slow imp strat Hi), (import_ok_iff infos singles Hwf strat).
    rewrite Legal_X, NonNeg_X, SinglesCovered_X; reflexivity.
  Qed.

  Lemma import_result_X imp (strat : strat_t) dense : is_import imp ->
    imp infos singles strat = SOk dense ->
    let row pi :=
      map (fun a => @w_last RNum strat (pi_name pi) a /
                    Rsum (map (@w_last RNum strat (pi_name pi)) (pi_actions pi))) (pi_actions pi) in
    dense = concat (map row infos) /\
    split_by dense (map (fun pi => length (pi_actions pi)) infos) = map row infos.
  Proof.
    intros Hi E. rewrite (is_import_slow imp strat Hi) in E.
    destruct (import_result infos singles Hwf strat dense E) as [H1 H2]. cbv zeta.
    unfold final_row in H1, H2.
    rewrite (map_ext _ _ (fun pi => norm_row_map (@w_last RNum strat (pi_name pi)) (pi_actions pi))) in H1, H2.
    split; assumption.
  Qed.

  Lemma import_result_valid_X imp (strat : strat_t) dense : is_import imp ->
    imp infos singles strat = SOk dense ->
    VFlat (map (fun pi => length (pi_actions pi)) infos) dense.
  Proof.
    intros Hi E. rewrite (is_import_slow imp strat Hi) in E.
    exact (import_result_valid infos singles Hwf strat dense E).
  Qed.

  Definition ErrViolationX (e : serr) (strat : strat_t) : Prop :=
    match e with
    | InvalidInfoset =>
        exists name es, In (name, es) strat /\
                        ~ In name (map pi_name infos) /\ ~ In name (map fst singles)
    | InvalidAction =>
        exists name es a w, In (name, es) strat /\ In (a, w) es /\
          ((exists pi, In pi infos /\ pi_name pi = name /\ ~ In a (pi_actions pi)) \/
           (exists act, In (name, act) singles /\ a <> act))
    | InvalidProbability =>
        exists name es a w, In (name, es) strat /\ In (a, w) es /\ ~ 0 <= w
    | UninitializedInfoset =>
        (exists pi, In pi infos /\
                    forall a, In a (pi_actions pi) -> @w_last RNum strat (pi_name pi) a = 0) \/
        (exists i act, In (i, act) singles /\ forall es a w, In (i, es) strat -> ~ In (a, w) es)
    end.

  Lemma import_err_kind_X imp (strat : strat_t) e : is_import imp ->
    imp infos singles strat = SErr e -> ErrViolationX e strat.
  Proof.
    intros Hi E. rewrite (is_import_slow imp strat Hi) in E.
    pose proof (import_err_kind infos singles Hwf strat e E) as H.
    destruct e; cbn [ErrViolation ErrViolationX] in *.
    - destruct H as ([name es] & Hit & H1 & H2). exists name, es. auto.
    - destruct H as ([name es] & [a w] & Hit & He & Hbad). exists name, es, a, w. auto.
    - destruct H as ([[I a] w] & Ht & Hneg). apply (@in_triples RNum) in Ht as (es & Hit & He).
      exists I, es, a, w. auto.
    - destruct H as [H|([i act] & He & Hno)]; [left; assumption|right]. exists i, act. split; [assumption|].
      intros es a w Hit Haw. apply (Hno (i, a, w)); [|reflexivity].
      apply (@in_triples RNum). exists es. auto.
  Qed.

  Lemma w_last_find (strat : strat_t) I a :
    @w_last RNum strat I a =
    match find (@hits RNum I a) (rev (@triples RNum strat)) with Some t => snd t | None => 0 end.
  Proof. unfold w_last. apply (@w_from_find RNum). Qed.

  Lemma w_last_none (strat : strat_t) I a :
    (forall es w, In (I, es) strat -> ~ In (a, w) es) -> @w_last RNum strat I a = 0.
  Proof.
    intros H. apply (@w_from_nohit RNum). intros [[J b] w] Ht.
    apply (@in_triples RNum) in Ht as (es & Hit & He).
    apply hits_false. cbn [fst]. intros [= -> ->]. exact (H _ _ Hit He).
  Qed.

  Lemma w_last_last (strat : strat_t) I a w pre post :
    @triples RNum strat = pre ++ (I, a, w) :: post ->
    (forall t, In t post -> fst t <> (I, a)) -> @w_last RNum strat I a = w.
  Proof.
    intros E H. unfold w_last. rewrite E, w_from_app, w_from_cons, hits_same. cbn [snd].
    apply (@w_from_nohit RNum). intros t Ht. apply hits_false. now apply H.
  Qed.
End Expanded.
