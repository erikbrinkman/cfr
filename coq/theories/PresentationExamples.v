(** * PresentationExamples: small instances of the presentation theorems (non-vacuity) *)
From Coq Require Import Reals List Lra Lia Bool NArith.
From Cfr.theories Require Import Num RInst Tree PresentationProofs PresentationProofs2.
Import ListNotations.
Open Scope R_scope.

Local Notation gnodeR := (@gnode RNum).
Local Notation gameR := (@game RNum).
Local Notation GTerm := (@GTerm RNum).
Local Notation GChance := (@GChance RNum).
Local Notation GPlayer := (@GPlayer RNum).
Local Notation Term := (@Term RNum).
Local Notation Chance := (@Chance RNum).
Local Notation Player := (@Player RNum).
Local Notation mkGame := (@mkGame RNum).

Lemma pos_ok w : 0 < w -> ltb RNum (zero RNum) w && is_fin RNum w = true.
Proof. apply wok_pos. Qed.

Definition ex1_t : gnodeR :=
  GPlayer true 5%N
          [(0%N, GChance (Some 7%N) [(1, GTerm 1); (3, GTerm 2)]);
           (1%N, GTerm 0)].
Definition ex1_t' : gnodeR :=
  GPlayer true 5%N
          [(0%N, GChance (Some 7%N) [(2 * 1, GTerm 1); (2 * 3, GTerm 2)]);
           (1%N, GTerm 0)].

Example ex1_rescaled : Rescaled ex1_t ex1_t'.
Proof.
  apply Rs_Player. apply RsP_cons; [|apply RsP_cons; [apply Rs_Term|apply RsP_nil]].
  apply Rs_Chance with (c := 2); [lra|].
  apply RsC_cons; [reflexivity|apply Rs_Term|].
  apply RsC_cons; [reflexivity|apply Rs_Term|]. apply RsC_nil.
Qed.

Example ex1_accepted :
  exists g, @from_root RNum ex1_t = Ok g /\
            g_root g = Player true 0 [Chance 0 [Term 1; Term 2]; Term 0] /\
            length (g_chance g) = 1%nat.
Proof.
  (* the comparisons of reals do not compute: evaluate up to them, settle them, go on *)
  unfold from_root, ex1_t. cbn -[Rltb normalise].
  rewrite !(proj2 (Rltb_true 0 _)) by lra. cbn -[normalise].
  eexists. split; [reflexivity|]. split; reflexivity.
Qed.

Example ex1_same : @from_root RNum ex1_t' = @from_root RNum ex1_t.
Proof. apply rescale_from_root, ex1_rescaled. Qed.

(** the same chance infoset twice, once with weights 1 : 3 and once with 2 : 6: accepted,
    because the check compares normalised probabilities *)
Definition ex1b_t : gnodeR :=
  GPlayer true 5%N
          [(0%N, GChance (Some 7%N) [(1, GTerm 1); (3, GTerm 2)]);
           (1%N, GChance (Some 7%N) [(1, GTerm 3); (3, GTerm 4)])].
Definition ex1b_t' : gnodeR :=
  GPlayer true 5%N
          [(0%N, GChance (Some 7%N) [(1, GTerm 1); (3, GTerm 2)]);
           (1%N, GChance (Some 7%N) [(2, GTerm 3); (6, GTerm 4)])].

Example ex1b_rescaled : Rescaled ex1b_t ex1b_t'.
Proof.
  apply Rs_Player. apply RsP_cons; [apply Rescaled_refl|].
  apply RsP_cons; [|apply RsP_nil].
  apply Rs_Chance with (c := 2); [lra|].
  apply RsC_cons; [lra|apply Rs_Term|].
  apply RsC_cons; [lra|apply Rs_Term|]. apply RsC_nil.
Qed.

Example ex1b_accepted :
  exists g, @from_root RNum ex1b_t = Ok g /\
            g_root g = Player true 0 [Chance 0 [Term 1; Term 2]; Chance 0 [Term 3; Term 4]] /\
            length (g_chance g) = 1%nat.
Proof.
  unfold from_root, ex1b_t. cbn -[Rltb list_eqb normalise].
  rewrite !(proj2 (Rltb_true 0 _)) by lra. cbn -[list_eqb normalise].
  rewrite (proj2 (list_eqb_eq _ Reqb_true _ _)) by reflexivity. cbn -[normalise].
  eexists. split; [reflexivity|]. split; reflexivity.
Qed.

Example ex1b_same :
  exists g, @from_root RNum ex1b_t' = Ok g /\
            g_root g = Player true 0 [Chance 0 [Term 1; Term 2]; Chance 0 [Term 3; Term 4]].
Proof.
  destruct ex1b_accepted as (g & Hg & Hr & _). exists g.
  rewrite (rescale_from_root _ _ ex1b_rescaled). split; assumption.
Qed.

Definition ex2_t : gnodeR :=
  GPlayer true 0%N
          [(0%N, GPlayer false 0%N [(0%N, GTerm 1); (1%N, GTerm 2)]);
           (1%N, GPlayer false 0%N [(0%N, GTerm 3); (1%N, GPlayer true 1%N [(2%N, GTerm 4)])])].

Definition ex2_g : gameR :=
  mkGame [] [mkPinfo 0%N [0%N; 1%N] None] [mkPinfo 0%N [0%N; 1%N] None] [(1%N, 2%N)] []
         (Player true 0 [Player false 0 [Term 1; Term 2]; Player false 0 [Term 3; Term 4]]).

Example ex2_accepted : @from_root RNum ex2_t = Ok ex2_g.
Proof. reflexivity. Qed.

Lemma add_inj k : inj (N.add k).
Proof. intros a b H. lia. Qed.

Example ex2_renamed :
  @from_root RNum (rename (N.add 10) (N.add 20) (N.add 30) (N.add 40) ex2_t) =
  Ok (mkGame [] [mkPinfo 10%N [30%N; 31%N] None] [mkPinfo 20%N [30%N; 31%N] None]
             [(11%N, 32%N)] []
             (Player true 0 [Player false 0 [Term 1; Term 2]; Player false 0 [Term 3; Term 4]])).
Proof.
  rewrite rename_presentation by apply add_inj. rewrite ex2_accepted. reflexivity.
Qed.

(** injectivity on actions is needed: with one name for the two actions of an infoset the
    tree is rejected *)
Example ex2_not_injective :
  @from_root RNum (rename (N.add 10) (N.add 20) (fun _ => 0%N) (N.add 40) ex2_t) =
  Err ActionsNotUnique.
Proof. reflexivity. Qed.

Definition ex3_t : gnodeR :=
  GPlayer true 0%N [(0%N, GTerm 1); (1%N, GTerm 2)].

Definition ex3_t' : gnodeR :=
  GChance None
          [(5, GPlayer false 7%N
                       [(3%N, GPlayer true 0%N
                                      [(0%N, GPlayer true 9%N [(4%N, GTerm 1)]);
                                       (1%N, GTerm 2)])])].

Definition ex3_L : list (bool * N * N) := [(false, 7%N, 3%N); (true, 9%N, 4%N)].

Example ex3_inserted : Inserted ex3_t ex3_t' ex3_L.
Proof.
  change ex3_L with ((false, 7%N, 3%N) :: (([(true, 9%N, 4%N)] ++ ([] ++ [])) : list (bool * N * N))).
  apply In_InsChance; [lra|]. apply In_InsPlayer. apply In_Player.
  apply InP_cons.
  - apply In_InsPlayer. apply In_Term.
  - apply InP_cons; [apply In_Term|apply InP_nil].
Qed.

Example ex3_fresh : fresh_for ex3_t ex3_L.
Proof.
  intros pl n a [H|[H|[]]]; injection H as <- <- <-; cbn; [tauto|].
  intros [H|[]]. discriminate.
Qed.

Example ex3_functional : functional ex3_L.
Proof.
  intros pl n a a' [H|[H|[]]] [H'|[H'|[]]]; injection H as <- <- <-; now injection H'.
Qed.

Example ex3_accepted :
  @from_root RNum ex3_t =
  Ok (mkGame [] [mkPinfo 0%N [0%N; 1%N] None] [] [] [] (Player true 0 [Term 1; Term 2])).
Proof. reflexivity. Qed.

Example ex3_same :
  exists g', @from_root RNum ex3_t' = Ok g' /\
             g_root g' = Player true 0 [Term 1; Term 2] /\
             g_chance g' = [] /\
             g_infos1 g' = [mkPinfo 0%N [0%N; 1%N] None] /\ g_infos2 g' = [].
Proof.
  exact (transparent_from_root_ok _ _ _ _
           (inserted_transparent _ _ _ ex3_inserted ex3_fresh ex3_functional) ex3_accepted).
Qed.

(** freshness matters: an inserted single-action node reusing the name of a real infoset of
    the same player is rejected *)
Example ex3_not_fresh :
  @from_root RNum (GPlayer true 0%N [(0%N, GPlayer true 0%N [(4%N, GTerm 1)]); (1%N, GTerm 2)])
  = Err ActionsNotEqual.
Proof. reflexivity. Qed.
