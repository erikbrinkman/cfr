(** * CliMoreProofs: the regrets printed for a constant-sum Gambit file are those of the
    printed profile on the game as written (property C15, regret clause); chance labels
    that are pairwise distinct are immaterial to [from_root]; the JSON and the Gambit
    encodings of one abstract game load to the same game (property C16).

    The section on chance labels holds for every [Num]; the rest is about the real-number
    instance [RNum]. *)
From Coq Require Import Reals List Lra Lia Bool Arith NArith Sorting.Permutation.
From Cfr.theories Require Import Num ListAux RInst Tree GameWF Strat Eval Solve Valid StratAgreeProofs
     Cli CliProofs CliNamesProofs CliGambitProofs CliUtilityProofs
     PresentationProofs FromRootGeneric FromRootProofs.
Import ListNotations.
Open Scope R_scope.

Local Notation gameR := (@game RNum).
Local Notation nodeR := (@node RNum).
Local Notation gnodeR := (@gnode RNum).
Local Notation enodeR := (@enode RNum).
Local Notation jnodeR := (@jnode RNum).
Local Notation bstR := (@bst RNum).
Local Notation pprev := (option (nat * nat) * option (nat * nat))%type.

Lemma truncate_valid (g : gameR) clip prof : Valid g prof -> Valid g (@truncate RNum g clip prof).
Proof. apply truncate_by_valid. Qed.

(** C15, regret clause.  For a constant-sum Gambit file ([c] = the sum of the two players'
    own cumulative payoffs at every terminal) that loads to [(g, sum)], with [g1] the game
    of the file as written (player one's own cumulative payoffs, no subtraction): whatever
    the solved profile and the clip threshold, the printed regrets are the regrets of the
    printed profile on [g1], the printed profile and the pruning decision are those one
    would get working on [g1] directly. *)
Theorem cli_gambit_regrets numname (root : enodeR) (c : R) (g : gameR) (sum : R) :
  (forall p, In p (own_pairs root) -> fst p + snd p = c) ->
  @gambit_load RNum numname root = Loaded (g, sum) ->
  exists n1 n2 g1,
    final_names numname true root = Some n1 /\ final_names numname false root = Some n2 /\
    @from_root RNum (@joined RNum (outcomes_of root) n1 n2 0 root 0) = Ok g1 /\
    sum = c / 2 /\ g = CliGambitProofs.game_map_payoffs (fun x => x - c / 2) g1 /\
    forall clip prof, Valid g prof ->
      let out := @cli_choose RNum g sum clip prof in
      let i1 := @info RNum g1 (o_prof out) in
      Valid g1 (o_prof out) /\
      o_reg1 out = si_reg1 i1 /\ o_reg2 out = si_reg2 i1 /\ o_regret out = si_regret i1 /\
      o_pruned out = o_pruned (@cli_choose RNum g1 0 clip prof) /\
      o_prof out = o_prof (@cli_choose RNum g1 0 clip prof).
Proof.
  intros Hc Hl.
  destruct (gambit_load_constant numname root c g sum Hc Hl) as (n1 & n2 & g1 & H1 & H2 & H3 & -> & ->).
  exists n1, n2, g1. do 5 (split; [assumption || reflexivity|]).
  destruct (from_root_sound _ g1 H3) as (HW & _ & HC).
  intros clip prof HV out i1. apply Valid_game_map_payoffs in HV.
  destruct (cli_choose_shift (c / 2) g1 (c / 2) 0 clip prof HC HW HV) as (A & B & C1 & C2 & C3 & _).
  destruct (cli_output_is_info_of_printed g1 0 clip prof) as (D3 & D1 & D2 & _).
  fold out in A, B, C1, C2, C3. unfold i1. rewrite B, C1, C2, C3.
  split; [now apply cli_printed_valid|]. now repeat split.
Qed.

(** ** Chance infoset labels that are pairwise distinct are immaterial

    A chance node labelled [Some k] with [k] used nowhere else gets its own entry in the
    chance table, exactly like an unlabelled one: erasing such labels changes nothing in
    the result of [from_root] (the compact game does not record the labels). *)

Section ChanceLabels.
  Context {NN : Num}.
  Local Notation T := (T NN).
  Local Notation gnode := (@gnode NN).
  Local Notation node := (@node NN).
  Local Notation bst := (@bst NN).
  Local Notation game := (@game NN).

  Definition olist (o : option N) : list N := match o with Some k => [k] | None => [] end.

  Fixpoint clabels (t : gnode) : list N :=
    match t with
    | GTerm _ => []
    | GChance info outs => olist info ++ flat_map (fun o => clabels (snd o)) outs
    | GPlayer _ _ acts => flat_map (fun a => clabels (snd a)) acts
    end.

  Fixpoint cerase (t : gnode) : gnode :=
    match t with
    | GTerm p => GTerm p
    | GChance _ outs => GChance None (map (fun o => (fst o, cerase (snd o))) outs)
    | GPlayer pl info acts => GPlayer pl info (map (fun a => (fst a, cerase (snd a))) acts)
    end.

  Definition ckeys (s : bst) : list N := flat_map (fun e => olist (fst e)) (b_chance s).
  Definition erase_bst (s : bst) : bst := set_chance s (map (fun e => (None, snd e)) (b_chance s)).
  Definition on_state {A} (x : A * bst) : A * bst := (fst x, erase_bst (snd x)).

  Lemma b_infos_erase s pl : b_infos (erase_bst s) pl = b_infos s pl.
  Proof. destruct pl; reflexivity. Qed.
  Lemma b_singles_erase s pl : b_singles (erase_bst s) pl = b_singles s pl.
  Proof. destruct pl; reflexivity. Qed.
  Lemma set_infos_erase s pl l : set_infos (erase_bst s) pl l = erase_bst (set_infos s pl l).
  Proof. destruct pl; reflexivity. Qed.
  Lemma set_singles_erase s pl l : set_singles (erase_bst s) pl l = erase_bst (set_singles s pl l).
  Proof. destruct pl; reflexivity. Qed.
  Lemma ckeys_set_infos s pl l : ckeys (set_infos s pl l) = ckeys s.
  Proof. destruct pl; reflexivity. Qed.

  Definition fresh (l : list N) (s : bst) : Prop := forall k, In k l -> ~ In k (ckeys s).
  Definition grows (s s' : bst) (l : list N) : Prop :=
    forall k, In k (ckeys s') -> In k (ckeys s) \/ In k l.

  Lemma grows_same s s' l : ckeys s' = ckeys s -> grows s s' l.
  Proof. intros E k Hk. left. now rewrite <- E. Qed.

  Lemma grows_trans s s1 s2 l1 l2 l :
    grows s s1 l1 -> grows s1 s2 l2 -> incl l1 l -> incl l2 l -> grows s s2 l.
  Proof. intros G1 G2 I1 I2 k Hk. destruct (G2 k Hk) as [C|C]; [destruct (G1 k C)|]; auto. Qed.

  Lemma fresh_incl l l' s : fresh l s -> incl l' l -> fresh l' s.
  Proof. intros Hf Hi k Hk. apply Hf, Hi, Hk. Qed.

  Lemma fresh_next l l1 l2 s s1 :
    fresh l s -> grows s s1 l1 -> incl l2 l -> (forall k, In k l1 -> ~ In k l2) -> fresh l2 s1.
  Proof.
    intros Hf G Hi Hd k Hk C. destruct (G k C) as [C'|C']; [exact (Hf k (Hi k Hk) C')|exact (Hd k C' Hk)].
  Qed.

  Definition sim {A} (l : list N) (s : bst) (r' r : res (A * bst)) : Prop :=
    r' = map_res on_state r /\ forall a s', r = Ok (a, s') -> grows s s' l.

  Lemma sim_err {A} l s e : @sim A l s (Err e) (Err e).
  Proof. split; [reflexivity|discriminate]. Qed.

  Lemma sim_ok {A} l s s' (a : A) : grows s s' l -> sim l s (Ok (a, erase_bst s')) (Ok (a, s')).
  Proof. intros G. split; [reflexivity|]. intros a' s'' H. now inversion H; subst. Qed.

  Lemma sim_bind {A B} l1 l2 l s (r' r : res (A * bst)) (k' k : A -> bst -> res (B * bst)) :
    sim l1 s r' r ->
    (forall a s1, grows s s1 l1 -> sim l2 s1 (k' a (erase_bst s1)) (k a s1)) ->
    incl l1 l -> incl l2 l ->
    sim l s (match r' with Ok (a, s1) => k' a s1 | Err e => Err e end)
            (match r with Ok (a, s1) => k a s1 | Err e => Err e end).
  Proof.
    intros [-> K1] H2 I1 I2. destruct r as [[a s1]|e]; cbn [map_res on_state fst snd]; [|apply sim_err].
    destruct (H2 a s1 (K1 a s1 eq_refl)) as [E2 K2]. split; [exact E2|].
    intros b s2 H. eapply grows_trans; eauto.
  Qed.

  Lemma sim_map {A B} (f : A -> B) l s (r' r : res (A * bst)) :
    sim l s r' r ->
    sim l s (match r' with Ok (a, s1) => Ok (f a, s1) | Err e => Err e end)
            (match r with Ok (a, s1) => Ok (f a, s1) | Err e => Err e end).
  Proof.
    intros [-> K]. destruct r as [[a s1]|e]; [|apply sim_err]. apply sim_ok. now apply (K a s1).
  Qed.

  Lemma find_key_fresh k (s : bst) : ~ In k (ckeys s) -> find_index (opt_key_eqb k) (b_chance s) = None.
  Proof.
    intros Hk. apply find_index_None_inv. intros [[k'|] v] Hin; unfold opt_key_eqb; cbn [fst];
      [|reflexivity].
    apply N.eqb_neq. intros ->. apply Hk. unfold ckeys. apply in_flat_map.
    exists (Some k', v). split; [assumption|now left].
  Qed.

  Lemma finishC_erase info ws ks s :
    fresh (olist info) s ->
    sim (olist info) s (finishC None ws ks (erase_bst s)) (finishC info ws ks s).
  Proof.
    intros Hf. unfold finishC. destruct ks as [|k1 [|k2 ks]]; [apply sim_err| |].
    { apply sim_ok. now apply grows_same. }
    assert (E : forall o, set_chance (erase_bst s) (b_chance (erase_bst s) ++ [(None, normalise ws)]) =
                          erase_bst (set_chance s (b_chance s ++ [(o, normalise ws)]))).
    { intros o. unfold erase_bst, set_chance. cbn [b_chance b_infos1 b_infos2 b_singles1 b_singles2].
      now rewrite map_app. }
    assert (G : forall o, grows s (set_chance s (b_chance s ++ [(o, normalise ws)])) (olist o)).
    { intros o k. unfold ckeys, set_chance. cbn [b_chance]. rewrite flat_map_app, in_app_iff.
      cbn [flat_map fst]. rewrite app_nil_r. tauto. }
    assert (El : length (b_chance (erase_bst s)) = length (b_chance s)) by apply map_length.
    rewrite El. destruct info as [k0|]; [rewrite (find_key_fresh k0 s) by (apply Hf; now left)|].
    - rewrite (E (Some k0)). apply sim_ok, G.
    - rewrite (E None). apply sim_ok, G.
  Qed.

  Lemma found_info_erase prev pl info actions s :
    sim [] s (found_info prev pl info actions (erase_bst s)) (found_info prev pl info actions s).
  Proof.
    unfold found_info. rewrite b_infos_erase.
    destruct (find_index _ (b_infos s pl)) as [[ind pi]|].
    - destruct (negb (list_eqb N.eqb (pi_actions pi) actions)); [apply sim_err|].
      destruct (negb (prev_eqb (pi_prev pi) (get_prev prev pl))); [apply sim_err|].
      apply sim_ok. now apply grows_same.
    - destruct (nodupb actions); [|apply sim_err].
      rewrite set_infos_erase. apply sim_ok, grows_same, ckeys_set_infos.
  Qed.

  Definition er_P (t : gnode) : Prop :=
    forall prev s, NoDup (clabels t) -> fresh (clabels t) s ->
      sim (clabels t) s (init (cerase t) prev (erase_bst s)) (init t prev s).

  Lemma loopS_erase {X} (lab : X -> list N) (step' step : nat -> X -> bst -> res (node * bst))
        (phi : X -> X) l :
    Forall (fun x => forall ai s, NoDup (lab x) -> fresh (lab x) s ->
                       sim (lab x) s (step' ai (phi x) (erase_bst s)) (step ai x s)) l ->
    forall ai s, NoDup (flat_map lab l) -> fresh (flat_map lab l) s ->
      sim (flat_map lab l) s (loopS step' ai (map phi l) (erase_bst s)) (loopS step ai l s).
  Proof.
    induction 1 as [|x r Hx _ IH]; intros ai s Hnd Hf; cbn [map loopS flat_map] in *.
    { apply sim_ok. now apply grows_same. }
    apply NoDup_app_iff in Hnd as (N1 & N2 & N3).
    eapply sim_bind; [apply (Hx ai s N1); eapply fresh_incl; eauto using incl_appl, incl_refl| |
                      apply incl_appl, incl_refl|apply incl_appr, incl_refl].
    intros c' s1 G1. apply sim_map, (IH (S ai) s1 N2). eapply fresh_next; eauto using incl_appr, incl_refl.
  Qed.

  Lemma erase_init t : er_P t.
  Proof.
    induction t as [p|info outs IH|pl info acts IH] using gnode_ind'; intros prev s Hnd Hf;
      cbn [cerase clabels] in *.
    - rewrite !init_GTerm. destruct (is_fin NN p); [apply sim_ok; now apply grows_same|apply sim_err].
    - apply NoDup_app_iff in Hnd as (N1 & N2 & N3). rewrite !init_chance, map_map. cbn [fst].
      eapply sim_bind; [|intros ks s1 G|apply incl_appr, incl_refl|apply incl_appl, incl_refl].
      + apply (loopS_erase (fun o => clabels (snd o)) (stepC prev) (stepC prev)); [|exact N2|].
        * eapply Forall_impl, IH. intros [w c] Hc ai s0. unfold stepC. cbn [fst snd] in *.
          destruct (wok w); [apply Hc|intros _ _; apply sim_err].
        * eapply fresh_incl; eauto using incl_appr, incl_refl.
      + apply finishC_erase. eapply fresh_next; eauto using incl_appl, incl_refl.
        intros k H1 H2. exact (N3 k H2 H1).
    - destruct acts as [|x [|y r]]; [apply sim_err| |].
      + destruct x as [a c]. cbn [map fst snd flat_map] in *. rewrite app_nil_r in *.
        rewrite !init_GPlayer_single. unfold singleP. rewrite b_infos_erase, b_singles_erase.
        destruct (existsb _ (b_infos s pl)); [apply sim_err|].
        apply Forall_inv in IH. cbn [snd] in IH.
        destruct (find_index _ (b_singles s pl)) as [[i [n a']]|].
        * destruct (N.eqb a' a); [now apply IH|apply sim_err].
        * (* adding a single-action infoset leaves the chance table as it is *)
          rewrite set_singles_erase.
          pose proof (IH prev (set_singles s pl (b_singles s pl ++ [(info, a)])) Hnd) as H.
          destruct pl; exact (H Hf).
      + cbn [map]. rewrite !init_multi, b_singles_erase. cbn [map fst]. rewrite map_map. cbn [fst].
        destruct (existsb _ (b_singles s pl)); [apply sim_err|].
        eapply sim_bind; [apply found_info_erase|intros ind s0 G|apply incl_nil_l|apply incl_refl].
        apply sim_map, (loopS_erase (fun a => clabels (snd a)) (stepP prev pl ind) (stepP prev pl ind)
                                    (fun a => (fst a, cerase (snd a))) (x :: y :: r)); [|exact Hnd|].
        * eapply Forall_impl, IH. intros z Hz ai s1. apply Hz.
        * eapply fresh_next; eauto using incl_refl.
  Qed.

  (** erasing pairwise distinct chance labels does not change the result of [from_root]:
      same game, or same error *)
  Theorem cerase_from_root t : NoDup (clabels t) -> from_root (cerase t) = from_root t.
  Proof.
    intros Hnd. unfold from_root.
    destruct (erase_init t (None, None) b_empty Hnd) as [E _]; [intros k _ []|].
    change (@b_empty NN) with (erase_bst b_empty) at 1. rewrite E.
    destruct (init t (None, None) b_empty) as [[root s]|e]; [|reflexivity].
    cbn [map_res on_state fst snd erase_bst set_chance b_chance b_infos1 b_infos2 b_singles1 b_singles2].
    now rewrite map_map.
  Qed.

  Corollary from_root_up_to_labels t t' :
    cerase t = cerase t' -> NoDup (clabels t) -> NoDup (clabels t') -> from_root t = from_root t'.
  Proof. intros E H H'. rewrite <- (cerase_from_root t H), <- (cerase_from_root t' H'). now rewrite E. Qed.
End ChanceLabels.

(** a two-player zero-sum game tree with named outcomes / actions; chance nodes carry no
    infoset label *)
Inductive agame :=
| ATerm (x : R)
| AChance (outs : list (N * (R * agame)))
| APlayer (pl : bool) (info : N) (acts : list (N * agame)).

Fixpoint agame_ind' (P : agame -> Prop)
         (HT : forall x, P (ATerm x))
         (HC : forall outs, Forall (fun e => P (snd (snd e))) outs -> P (AChance outs))
         (HP : forall pl info acts, Forall (fun e => P (snd e)) acts -> P (APlayer pl info acts))
         (a : agame) : P a :=
  match a with
  | ATerm x => HT x
  | AChance outs =>
      HC outs ((fix go (l : list (N * (R * agame))) : Forall (fun e => P (snd (snd e))) l :=
                  match l with
                  | [] => Forall_nil _
                  | e :: r => Forall_cons e (agame_ind' P HT HC HP (snd (snd e))) (go r)
                  end) outs)
  | APlayer pl info acts =>
      HP pl info acts ((fix go (l : list (N * agame)) : Forall (fun e => P (snd e)) l :=
                          match l with
                          | [] => Forall_nil _
                          | e :: r => Forall_cons e (agame_ind' P HT HC HP (snd e)) (go r)
                          end) acts)
  end.

(** *** the JSON file of the game: player one's payoff at the terminals, chance [infoset]
    absent *)
Fixpoint enc_json (a : agame) : jnodeR :=
  match a with
  | ATerm x => @JTerm RNum x
  | AChance outs =>
      @JChance RNum None (map (fun e => (fst e, (fst (snd e), enc_json (snd (snd e))))) outs)
  | APlayer pl info acts =>
      @JPlayer RNum pl info (map (fun e => (fst e, enc_json (snd e))) acts)
  end.

(** *** the Gambit file of the game.  Every node takes a fresh number from one counter:
    a terminal uses it as the id of its own outcome, with payoffs [(x, -x)]; a chance node
    as its infoset number.  Interior nodes have the null outcome.  A decision node carries
    its infoset name, and that name is also used as the infoset number. *)
Section EncLoops.
  Context (rec : agame -> N -> enodeR * N).
  Fixpoint enc_outs (l : list (N * (R * agame))) (m : N) : list (N * R * enodeR) * N :=
    match l with
    | [] => ([], m)
    | (k, (p, c)) :: r =>
        let (e, m1) := rec c m in
        let (es, m2) := enc_outs r m1 in ((k, p, e) :: es, m2)
    end.
  Fixpoint enc_acts (l : list (N * agame)) (m : N) : list (N * enodeR) * N :=
    match l with
    | [] => ([], m)
    | (k, c) :: r =>
        let (e, m1) := rec c m in
        let (es, m2) := enc_acts r m1 in ((k, e) :: es, m2)
    end.
End EncLoops.

Fixpoint encg (a : agame) (n : N) {struct a} : enodeR * N :=
  match a with
  | ATerm x => (@ETerm RNum n (x, - x), N.succ n)
  | AChance outs =>
      let (kids, n') :=
        (fix go (l : list (N * (R * agame))) (m : N) : list (N * R * enodeR) * N :=
           match l with
           | [] => ([], m)
           | (k, (p, c)) :: r =>
               let (e, m1) := encg c m in
               let (es, m2) := go r m1 in ((k, p, e) :: es, m2)
           end) outs (N.succ n) in
      (@EChance RNum n kids 0%N None, n')
  | APlayer pl info acts =>
      let (kids, n') :=
        (fix go (l : list (N * agame)) (m : N) : list (N * enodeR) * N :=
           match l with
           | [] => ([], m)
           | (k, c) :: r =>
               let (e, m1) := encg c m in
               let (es, m2) := go r m1 in ((k, e) :: es, m2)
           end) acts (N.succ n) in
      (@EPlayer RNum pl info (Some info) kids 0%N None, n')
  end.

Definition enc_gambit (a : agame) : enodeR := fst (encg a 1%N).

Lemma encg_AChance outs n :
  encg (AChance outs) n =
  let (kids, n') := enc_outs encg outs (N.succ n) in (@EChance RNum n kids 0%N None, n').
Proof. reflexivity. Qed.

Lemma encg_APlayer pl info acts n :
  encg (APlayer pl info acts) n =
  let (kids, n') := enc_acts encg acts (N.succ n) in
  (@EPlayer RNum pl info (Some info) kids 0%N None, n').
Proof. reflexivity. Qed.

(** *** reading a Gambit file back as an abstract game: player one's payoff at the
    terminals, the given infoset names *)
Fixpoint dec (e : enodeR) : agame :=
  match e with
  | ETerm _ pay => ATerm (fst pay)
  | EChance _ acts _ _ =>
      AChance (map (fun x => (fst (fst x), (snd (fst x), dec (snd x)))) acts)
  | EPlayer pl _ name acts _ _ =>
      APlayer pl (match name with Some nm => nm | None => 0%N end)
              (map (fun x => (fst x, dec (snd x))) acts)
  end.

Lemma insert_by_ext_in {A} (le1 le2 : A -> A -> bool) x l :
  (forall y, In y l -> le1 x y = le2 x y) -> insert_by le1 x l = insert_by le2 x l.
Proof.
  induction l as [|y l IH]; intros H; cbn [insert_by]; [reflexivity|].
  rewrite (H y (or_introl eq_refl)). destruct (le2 x y); [reflexivity|].
  apply f_equal, IH. intros z Hz. apply H. now right.
Qed.

Lemma chance_cmp_key (x y : N * (R * gnodeR)) : fst x <> fst y -> chance_cmp x y = key_leb x y.
Proof.
  intros Hne. unfold chance_cmp, key_leb.
  destruct (N.ltb_spec (fst x) (fst y)) as [Hl|Hl], (N.leb_spec (fst x) (fst y)) as [Hl'|Hl'];
    cbn [orb]; try reflexivity; try lia.
  destruct (N.eqb_spec (fst x) (fst y)) as [E|E]; [contradiction|reflexivity].
Qed.

Lemma sort_by_chance_cmp_key (l : list (N * (R * gnodeR))) :
  NoDup (map fst l) -> sort_by chance_cmp l = sort_by key_leb l.
Proof.
  induction l as [|x l IH]; intros Hd; [reflexivity|].
  cbn [map] in Hd. inversion Hd as [|? ? Hn Hd']; subst.
  rewrite !sort_by_cons, (IH Hd'). apply insert_by_ext_in.
  intros y Hy. apply chance_cmp_key. intros E. apply Hn. rewrite E.
  apply in_map. now apply sort_by_In in Hy.
Qed.

Definition otab_step (n : enodeR) : list (N * (R * R)) :=
  match n with
  | ETerm oid p => [(oid, p)]
  | EChance _ _ oid (Some p) => [(oid, p)]
  | EPlayer _ _ _ _ oid (Some p) => [(oid, p)]
  | _ => []
  end.

Lemma fold_left_app_step {A B} (F : B -> list A) (l : list B) : forall acc,
  fold_left (fun a m => a ++ F m) l acc = acc ++ flat_map F l.
Proof.
  induction l as [|x l IH]; intros acc; cbn [fold_left flat_map]; [now rewrite app_nil_r|].
  now rewrite IH, app_assoc.
Qed.

Lemma outcomes_of_flat (root : enodeR) : outcomes_of root = flat_map otab_step (enodes root).
Proof.
  unfold outcomes_of. rewrite e_fold_enodes, (fold_left_ext _ (fun a m => a ++ otab_step m)).
  - exact (fold_left_app_step otab_step (enodes root) []).
  - intros acc [oid p|info acts oid [p|]|pl info name acts oid [p|]]; cbn [otab_step];
      now rewrite ?app_nil_r.
Qed.

Definition eouts (e : enodeR) : list N :=
  flat_map (fun n => match n with ETerm oid _ => [oid] | _ => [] end) (enodes e).
Definition echs (e : enodeR) : list N :=
  flat_map (fun n => match n with EChance info _ _ _ => [info] | _ => [] end) (enodes e).

(** what the encoding promises, node by node: a terminal carries a proper outcome with
    opposite payoffs; an interior node has the null outcome; the outcomes of a chance node
    have distinct names; a decision node carries its infoset name *)
Definition elocal (n : enodeR) : Prop :=
  match n with
  | ETerm oid pay => oid <> 0%N /\ snd pay = - fst pay
  | EChance _ acts oid pay => oid = 0%N /\ pay = None /\ NoDup (map (fun x => fst (fst x)) acts)
  | EPlayer _ _ name _ oid pay => oid = 0%N /\ pay = None /\ name <> None
  end.

Lemma flat_map_flat_map {A B C} (f : B -> list C) (g : A -> list B) l :
  flat_map f (flat_map g l) = flat_map (fun x => flat_map f (g x)) l.
Proof.
  induction l as [|x l IH]; cbn [flat_map]; [reflexivity|]. now rewrite flat_map_app, IH.
Qed.

Lemma collect_EChance {B} (F : enodeR -> list B) info (acts : list (N * R * enodeR)) oid pay :
  flat_map F (enodes (@EChance RNum info acts oid pay)) =
  F (@EChance RNum info acts oid pay) ++ flat_map (fun x => flat_map F (enodes (snd x))) acts.
Proof. rewrite enodes_EChance. cbn [flat_map]. apply f_equal, flat_map_flat_map. Qed.

Lemma collect_EPlayer {B} (F : enodeR -> list B) pl info name (acts : list (N * enodeR)) oid pay :
  flat_map F (enodes (@EPlayer RNum pl info name acts oid pay)) =
  F (@EPlayer RNum pl info name acts oid pay) ++ flat_map (fun x => flat_map F (enodes (snd x))) acts.
Proof. rewrite enodes_EPlayer. cbn [flat_map]. apply f_equal, flat_map_flat_map. Qed.

Lemma echs_EChance info (acts : list (N * R * enodeR)) oid pay :
  echs (@EChance RNum info acts oid pay) = info :: flat_map (fun x => echs (snd x)) acts.
Proof. unfold echs. now rewrite collect_EChance. Qed.

Lemma echs_EPlayer pl info name (acts : list (N * enodeR)) oid pay :
  echs (@EPlayer RNum pl info name acts oid pay) = flat_map (fun x => echs (snd x)) acts.
Proof. unfold echs. now rewrite collect_EPlayer. Qed.

Lemma outcomes_keys (root : enodeR) :
  (forall n, In n (enodes root) -> elocal n) -> map fst (outcomes_of root) = eouts root.
Proof.
  rewrite outcomes_of_flat. unfold eouts.
  generalize (enodes root) as l. induction l as [|n l IH]; intros H; [reflexivity|].
  cbn [flat_map]. rewrite map_app. apply f_equal2.
  2:{ apply IH. intros m Hm. apply H. now right. }
  specialize (H n (or_introl eq_refl)).
  destruct n as [oid p|info acts oid [p|]|pl info name acts oid [p|]]; cbn [otab_step map fst elocal] in *;
    try reflexivity; destruct H as (_ & C & _); discriminate.
Qed.

Lemma pay_of_terminal (root : enodeR) oid pay :
  (forall n, In n (enodes root) -> elocal n) -> NoDup (eouts root) ->
  In (@ETerm RNum oid pay) (enodes root) -> @pay_of RNum (outcomes_of root) oid = pay.
Proof.
  intros Hl Hd Hin. pose proof (Hl _ Hin) as [Hne _]. unfold pay_of.
  destruct (N.eqb_spec oid 0) as [E|_]; [contradiction|].
  rewrite (alookup_in_nodup oid (outcomes_of root) pay); [reflexivity| |].
  - now rewrite outcomes_keys.
  - rewrite outcomes_of_flat. apply in_flat_map. exists (@ETerm RNum oid pay). split; [assumption|now left].
Qed.

Section JoinedGood.
  Context (tab : list (N * (R * R))) (n1 n2 : list (N * N)).
  Local Notation jn := (@joined RNum tab n1 n2).

  Definition Good (n : enodeR) : Prop :=
    match n with
    | ETerm oid pay => @pay_of RNum tab oid = pay /\ snd pay = - fst pay
    | EChance _ acts oid _ => oid = 0%N /\ NoDup (map (fun x => fst (fst x)) acts)
    | EPlayer pl info name _ oid _ =>
        oid = 0%N /\ exists nm, name = Some nm /\ name_of (if pl then n1 else n2) info = nm
    end.

  Lemma pay_of_null : @pay_of RNum tab 0%N = (0, 0).
  Proof. reflexivity. Qed.

  Lemma good_terminal_pairs (e : enodeR) :
    Forall Good (enodes e) ->
    forall c1 c2 p, In p (@terminal_pairs RNum tab e c1 c2) -> fst p + snd p = c1 + c2.
  Proof.
    induction e as [oid pay|info acts oid pay IH|pl info name acts oid pay IH] using enode_ind';
      intros HG c1 c2 p Hp.
    - rewrite terminal_pairs_ETerm in Hp. destruct Hp as [<-|[]].
      apply Forall_inv in HG as [E1 E2]. rewrite E1. cbn [fst snd]. lra.
    - rewrite enodes_EChance in HG. apply Forall_cons_iff in HG as [[-> _] HK].
      rewrite Forall_flat_map, Forall_forall in HK.
      rewrite terminal_pairs_EChance, pay_of_null in Hp.
      apply in_flat_map in Hp as (x & Hx & Hp). rewrite Forall_forall in IH.
      rewrite (IH x Hx (HK x Hx) _ _ p Hp). cbn [fst snd]. lra.
    - rewrite enodes_EPlayer in HG. apply Forall_cons_iff in HG as [[-> _] HK].
      rewrite Forall_flat_map, Forall_forall in HK.
      rewrite terminal_pairs_EPlayer, pay_of_null in Hp.
      apply in_flat_map in Hp as (x & Hx & Hp). rewrite Forall_forall in IH.
      rewrite (IH x Hx (HK x Hx) _ _ p Hp). cbn [fst snd]. lra.
  Qed.

  Lemma joined_clabels sum (e : enodeR) : forall cum,
    Permutation (clabels (jn sum e cum)) (echs e).
  Proof.
    induction e as [oid pay|info acts oid pay IH|pl info name acts oid pay IH] using enode_ind';
      intros cum.
    - rewrite joined_ETerm. reflexivity.
    - rewrite joined_EChance, echs_EChance. cbn [clabels olist app]. constructor.
      rewrite flat_map_map'. apply Permutation_flat_map_sorted.
      eapply Forall_impl, IH. intros x Hx. apply Hx.
    - rewrite joined_EPlayer, echs_EPlayer. cbn [clabels]. apply Permutation_flat_map_sorted.
      eapply Forall_impl, IH. intros x Hx. apply Hx.
  Qed.

  Lemma joined_is_json (e : enodeR) :
    Forall Good (enodes e) ->
    forall cum, cum = 0 -> cerase (jn 0 e cum) = json_to_gnode (enc_json (dec e)).
  Proof.
    induction e as [oid pay|info acts oid pay IH|pl info name acts oid pay IH] using enode_ind';
      intros HG cum Hcum.
    - rewrite joined_ETerm. apply Forall_inv in HG as [E1 _]. rewrite E1.
      cbn [cerase dec enc_json json_to_gnode]. apply f_equal. lra.
    - rewrite enodes_EChance in HG. apply Forall_cons_iff in HG as [[-> Hnd] HK].
      rewrite Forall_flat_map, Forall_forall in HK. rewrite joined_EChance, pay_of_null.
      cbn [dec enc_json cerase fst]. rewrite json_to_gnode_JChance. apply f_equal.
      rewrite sort_by_chance_cmp_key by (now rewrite map_map). rewrite map_payload_snd. apply f_equal.
      rewrite <- (sort_by_map _ key_leb key_leb) by reflexivity. rewrite !map_map.
      apply f_equal, map_ext_in. intros x Hx. unfold jconv_c. cbn [fst snd]. apply f_equal, f_equal.
      rewrite Forall_forall in IH. apply (IH x Hx (HK x Hx)). lra.
    - rewrite enodes_EPlayer in HG. apply Forall_cons_iff in HG as [[-> (nm & -> & Hnm)] HK].
      rewrite Forall_flat_map, Forall_forall in HK. rewrite joined_EPlayer, pay_of_null.
      cbn [dec enc_json cerase fst]. rewrite json_to_gnode_JPlayer, Hnm. apply f_equal.
      rewrite <- (sort_by_map _ key_leb key_leb) by reflexivity. rewrite !map_map.
      apply f_equal, map_ext_in. intros x Hx. unfold jconv_p. cbn [fst snd]. apply f_equal.
      rewrite Forall_forall in IH. apply (IH x Hx (HK x Hx)). lra.
  Qed.
End JoinedGood.

Lemma same_tree_same_load numname (root : enodeR) t (j : jnodeR) :
  @gambit_tree RNum numname root = Loaded (t, 0) -> cerase t = json_to_gnode j -> NoDup (clabels t) ->
  @gambit_load RNum numname root = @json_load RNum j.
Proof.
  intros Ht Et Hd. unfold gambit_load, json_load. rewrite Ht, <- Et. unfold load_tree.
  now rewrite (cerase_from_root t Hd).
Qed.

(** the numbering of the infosets is an injective renaming of the names, player by player:
    nodes with one number carry one name, nodes with different numbers different names *)
Definition names_inj (me : bool) (root : enodeR) : Prop :=
  forall k k' nm nm', has_name me root k nm -> has_name me root k' nm' -> (k = k' <-> nm = nm').

Section NamedFile.
  Context (numname : N -> N) (root : enodeR).
  Context (Hloc : forall n, In n (enodes root) -> elocal n).

  Lemma infoset_has_name me k : has_infoset me root k -> exists nm, has_name me root k nm.
  Proof.
    intros (n & name & Hn & Hh). pose proof (Hloc n Hn) as HL.
    destruct n as [oid p|info acts oid p|pl info [nm|] acts oid p]; cbn [header] in Hh;
      try discriminate; inversion Hh; subst.
    - exists nm, (@EPlayer RNum me k (Some nm) acts oid p). now split.
    - destruct HL as (_ & _ & C). now contradiction C.
  Qed.

  Lemma no_unnamed me : unnamed_numbers me root = [].
  Proof.
    destruct (unnamed_numbers me root) as [|k l] eqn:E; [reflexivity|]. exfalso.
    assert (Hk : In k (unnamed_numbers me root)) by (rewrite E; now left).
    apply unnamed_numbers_in in Hk as [H1 H2]. apply H2. now apply infoset_has_name.
  Qed.

  Lemma assigned_is_given me : assigned_names numname me root = given_names me root.
  Proof. unfold assigned_names. rewrite no_unnamed. cbn [map]. apply app_nil_r. Qed.

  Lemma named_final_names me :
    names_inj me root -> final_names numname me root = Some (given_names me root).
  Proof.
    intros Hinj. apply final_names_some_iff. rewrite assigned_is_given.
    split; [reflexivity|]. split.
    - intros (k & Hk & _). now rewrite no_unnamed in Hk.
    - apply nodupb_iff. destruct (nodupb (map snd (given_names me root))) eqn:E; [reflexivity|].
      exfalso. apply dup_names_iff in E; [|apply given_names_nodup].
      destruct E as (k1 & k2 & nm & Hne & H1 & H2). apply Hne.
      apply (Hinj k1 k2 nm nm); [now apply given_names_in|now apply given_names_in|reflexivity].
  Qed.

  Lemma named_name_of pl info nm acts oid pay :
    names_inj pl root ->
    In (@EPlayer RNum pl info (Some nm) acts oid pay) (enodes root) ->
    name_of (given_names pl root) info = nm.
  Proof.
    intros Hinj Hin. unfold name_of.
    rewrite (alookup_in_nodup info _ nm (given_names_nodup pl root)); [reflexivity|].
    apply given_names_in_iff; [intros k n n' H H'; now apply (Hinj k k n n')|].
    exists (@EPlayer RNum pl info (Some nm) acts oid pay). now split.
  Qed.

  Context (Hinj1 : names_inj true root) (Hinj2 : names_inj false root).
  Context (Houts : NoDup (eouts root)).

  Lemma encoded_good n :
    In n (enodes root) ->
    Good (outcomes_of root) (given_names true root) (given_names false root) n.
  Proof.
    intros Hn. pose proof (Hloc n Hn) as HL.
    destruct n as [oid p|info acts oid p|pl info [nm|] acts oid p]; cbn [Good elocal] in *.
    - split; [now apply pay_of_terminal|apply HL].
    - destruct HL as (H1 & _ & H3). now split.
    - destruct HL as (H1 & _). split; [assumption|]. exists nm. split; [reflexivity|].
      destruct pl; eapply named_name_of; eassumption.
    - destruct HL as (_ & _ & C). now contradiction C.
  Qed.

  (** C16, the tree statement, for any file that encodes a game in the way described:
      it is accepted with the constant 0, and its raw tree is, chance labels apart (they
      are pairwise distinct), the tree the JSON reader builds from the JSON file of the
      same game *)
  Theorem gambit_tree_is_json :
    NoDup (echs root) -> eproper root ->
    exists t, @gambit_tree RNum numname root = Loaded (t, 0) /\
              cerase t = json_to_gnode (enc_json (dec root)) /\
              NoDup (clabels t).
  Proof.
    intros Hch Hprop.
    set (tab := outcomes_of root). set (g1 := given_names true root). set (g2 := given_names false root).
    assert (HG : Forall (Good tab g1 g2) (enodes root)) by (apply Forall_forall, encoded_good).
    assert (Hc : forall p, In p (own_pairs root) -> fst p + snd p = 0).
    { intros p Hp. unfold own_pairs in Hp.
      transitivity (0 + 0); [exact (good_terminal_pairs tab g1 g2 root HG 0 0 p Hp)|lra]. }
    pose proof (gambit_constant_accepted numname root 0 g1 g2 Hc (own_pairs_nonempty root Hprop)
                  (named_final_names true Hinj1) (named_final_names false Hinj2)) as Ht.
    fold tab in Ht. replace (0 / 2) with 0 in Ht by lra.
    exists (@joined RNum tab g1 g2 0 root 0). split; [exact Ht|]. split.
    - now apply joined_is_json.
    - eapply Permutation_NoDup; [apply Permutation_sym, joined_clabels|exact Hch].
  Qed.

  Theorem gambit_load_is_json :
    NoDup (echs root) -> eproper root ->
    @gambit_load RNum numname root = @json_load RNum (enc_json (dec root)).
  Proof.
    intros Hch Hprop. destruct (gambit_tree_is_json Hch Hprop) as (t & Ht & Et & Hd).
    now apply (same_tree_same_load numname root t).
  Qed.
End NamedFile.

(** side conditions on the abstract game: every chance / decision node has a child (the
    grammar of both formats), the outcomes of a chance node have distinct names *)
Inductive awf : agame -> Prop :=
| awf_T x : awf (ATerm x)
| awf_C outs : outs <> [] -> NoDup (map fst outs) ->
               Forall (fun o => awf (snd (snd o))) outs -> awf (AChance outs)
| awf_P pl info acts : acts <> [] -> Forall (fun o => awf (snd o)) acts -> awf (APlayer pl info acts).

Definition eall (e : enodeR) : list N :=
  flat_map (fun n => match n with
                     | ETerm oid _ => [oid]
                     | EChance info _ _ _ => [info]
                     | EPlayer _ _ _ _ _ _ => []
                     end) (enodes e).

Lemma eall_EChance info (acts : list (N * R * enodeR)) oid pay :
  eall (@EChance RNum info acts oid pay) = info :: flat_map (fun x => eall (snd x)) acts.
Proof. unfold eall. now rewrite collect_EChance. Qed.

Lemma eall_EPlayer pl info name (acts : list (N * enodeR)) oid pay :
  eall (@EPlayer RNum pl info name acts oid pay) = flat_map (fun x => eall (snd x)) acts.
Proof. unfold eall. now rewrite collect_EPlayer. Qed.

Lemma NoDup_flat_map_sub {A B} (F H : A -> list B) (l : list A) :
  (forall x, F x = H x \/ F x = []) -> NoDup (flat_map H l) -> NoDup (flat_map F l).
Proof.
  intros Hsub. 
  assert (Hin : forall l' y, In y (flat_map F l') -> In y (flat_map H l')).
  { intros l' y Hy. apply in_flat_map in Hy as (x & Hx & Hy). apply in_flat_map. exists x.
    split; [assumption|]. destruct (Hsub x) as [E|E]; rewrite E in Hy; [assumption|destruct Hy]. }
  induction l as [|x l IH]; cbn [flat_map]; intros Hd; [constructor|].
  apply NoDup_app_iff in Hd as (D1 & D2 & D3).
  destruct (Hsub x) as [E|E]; rewrite E; [|now apply IH].
  apply NoDup_app_iff. split; [assumption|]. split; [now apply IH|].
  intros y Hy C. apply (D3 y Hy). now apply Hin.
Qed.

Lemma eall_eouts e : NoDup (eall e) -> NoDup (eouts e).
Proof.
  apply NoDup_flat_map_sub. intros [oid p|info acts oid p|pl info name acts oid p]; auto.
Qed.

Lemma eall_echs e : NoDup (eall e) -> NoDup (echs e).
Proof.
  apply NoDup_flat_map_sub. intros [oid p|info acts oid p|pl info name acts oid p]; auto.
Qed.

Lemma eproper_EChance info (acts : list (N * R * enodeR)) oid pay :
  eproper (@EChance RNum info acts oid pay) <-> acts <> [] /\ Forall (fun x => eproper (snd x)) acts.
Proof.
  cbn [eproper]. apply and_iff_compat_l, and_fix_Forall; [exact I|]. now intros [[a p] c] r.
Qed.

Lemma eproper_EPlayer pl info name (acts : list (N * enodeR)) oid pay :
  eproper (@EPlayer RNum pl info name acts oid pay) <->
  acts <> [] /\ Forall (fun x => eproper (snd x)) acts.
Proof.
  cbn [eproper]. apply and_iff_compat_l, and_fix_Forall; [exact I|]. now intros [a c] r.
Qed.

Definition self_named (x : enodeR) : Prop :=
  match x with EPlayer _ info name _ _ _ => name = Some info | _ => True end.

(** what encoding [a] from the counter [n] gives: a file that reads back as [a], whose
    numbers are distinct and lie between the two counters, self-named, and (for a proper
    game and a counter above the null outcome) locally as promised *)
Definition EncOK (a : agame) (n : N) (r : enodeR * N) : Prop :=
  dec (fst r) = a /\ (n <= snd r)%N /\
  (forall i, In i (eall (fst r)) -> (n <= i < snd r)%N) /\ NoDup (eall (fst r)) /\
  (forall x, In x (enodes (fst r)) -> self_named x) /\
  (awf a -> (0 < n)%N -> (forall x, In x (enodes (fst r)) -> elocal x) /\ eproper (fst r)).

(** the same for the children of a node, encoded one after the other from the counter [m];
    [kid] is the encoded child of a list entry, [sub] the child it encodes, [undo] reads an
    entry back *)
Section Kids.
  Context {X Y : Type} (kid : X -> enodeR) (sub : Y -> agame) (undo : X -> Y).

  Definition KidsOK (cs : list Y) (m : N) (r : list X * N) : Prop :=
    map undo (fst r) = cs /\ (m <= snd r)%N /\
    (forall i, In i (flat_map (fun x => eall (kid x)) (fst r)) -> (m <= i < snd r)%N) /\
    NoDup (flat_map (fun x => eall (kid x)) (fst r)) /\
    (forall x, In x (flat_map (fun k => enodes (kid k)) (fst r)) -> self_named x) /\
    (Forall (fun o => awf (sub o)) cs -> (0 < m)%N ->
     (forall x, In x (flat_map (fun k => enodes (kid k)) (fst r)) -> elocal x) /\
     Forall (fun x => eproper (kid x)) (fst r)).

  Lemma KidsOK_nil m : KidsOK [] m ([], m).
  Proof.
    unfold KidsOK. cbn [fst snd map flat_map].
    split; [reflexivity|]. split; [lia|]. split; [intros i []|]. split; [constructor|].
    split; [intros x []|]. intros _ _. split; [intros x []|constructor].
  Qed.

  Lemma KidsOK_cons x y xs cs m m1 m2 :
    EncOK (sub y) m (kid x, m1) -> undo x = y -> KidsOK cs m1 (xs, m2) ->
    KidsOK (y :: cs) m (x :: xs, m2).
  Proof.
    intros (_ & A2 & A3 & A4 & A5 & A6) A1 (B1 & B2 & B3 & B4 & B5 & B6).
    unfold KidsOK. cbn [fst snd map flat_map] in *.
    split; [now rewrite A1, B1|]. split; [lia|]. split; [|split; [|split]].
    - intros i Hi. apply in_app_or in Hi as [Hi|Hi]; [apply A3 in Hi|apply B3 in Hi]; lia.
    - apply NoDup_app_iff. split; [assumption|]. split; [assumption|].
      intros i Hi C. apply A3 in Hi. apply B3 in C. lia.
    - intros z Hz. apply in_app_or in Hz as [Hz|Hz]; [now apply A5|now apply B5].
    - intros HW Hm. inversion HW as [|? ? W1 W2]; subst.
      destruct (A6 W1 Hm) as [A7 A8]. destruct (B6 W2 ltac:(lia)) as [B7 B8]. split.
      + intros z Hz. apply in_app_or in Hz as [Hz|Hz]; [now apply A7|now apply B7].
      + now constructor.
  Qed.
End Kids.

Lemma enc_outs_ok outs :
  Forall (fun o => forall n, EncOK (snd (snd o)) n (encg (snd (snd o)) n)) outs ->
  forall m, KidsOK snd (fun o => snd (snd o)) (fun x => (fst (fst x), (snd (fst x), dec (snd x))))
                   outs m (enc_outs encg outs m).
Proof.
  induction 1 as [|[k [p c]] r Hc _ IH]; intros m; cbn [enc_outs]; [apply KidsOK_nil|].
  cbn [snd] in Hc. specialize (Hc m). destruct (encg c m) as [e m1].
  specialize (IH m1). destruct (enc_outs encg r m1) as [es m2].
  apply KidsOK_cons with (m1 := m1); [exact Hc| |exact IH]. cbn [fst snd]. apply f_equal, f_equal. exact (proj1 Hc).
Qed.

Lemma enc_acts_ok acts :
  Forall (fun o => forall n, EncOK (snd o) n (encg (snd o) n)) acts ->
  forall m, KidsOK snd snd (fun x => (fst x, dec (snd x))) acts m (enc_acts encg acts m).
Proof.
  induction 1 as [|[k c] r Hc _ IH]; intros m; cbn [enc_acts]; [apply KidsOK_nil|].
  cbn [snd] in Hc. specialize (Hc m). destruct (encg c m) as [e m1].
  specialize (IH m1). destruct (enc_acts encg r m1) as [es m2].
  apply KidsOK_cons with (m1 := m1); [exact Hc| |exact IH]. cbn [fst snd]. apply f_equal. exact (proj1 Hc).
Qed.

Lemma encg_ok (a : agame) : forall n, EncOK a n (encg a n).
Proof.
  induction a as [x|outs IH|pl info acts IH] using agame_ind'; intros n.
  - unfold EncOK. cbn [encg fst snd dec]. split; [reflexivity|]. split; [lia|].
    split; [intros i [<-|[]]; lia|]. split; [repeat constructor; intros []|].
    split; [intros y [<-|[]]; exact I|]. intros _ Hn. split; [|exact I].
    intros y [<-|[]]. cbn [elocal fst snd]. split; [lia|reflexivity].
  - rewrite encg_AChance. pose proof (enc_outs_ok outs IH (N.succ n)) as HK.
    destruct (enc_outs encg outs (N.succ n)) as [kids n'].
    destruct HK as (B1 & B2 & B3 & B4 & B5 & B6). unfold EncOK. cbn [fst snd dec] in *.
    split; [apply f_equal, B1|]. split; [lia|]. rewrite eall_EChance, enodes_EChance.
    split; [|split; [|split]].
    + intros i [<-|Hi]; [lia|]. apply B3 in Hi. lia.
    + constructor; [|assumption]. intros C. apply B3 in C. lia.
    + intros y [<-|Hy]; [exact I|now apply B5].
    + intros HW Hn. inversion HW as [|? Hne Hnd HF|]; subst.
      destruct (B6 HF ltac:(lia)) as [B7 B8]. split.
      * intros y [<-|Hy]; [|now apply B7]. cbn [elocal]. split; [reflexivity|]. split; [reflexivity|].
        rewrite map_map in Hnd. exact Hnd.
      * apply eproper_EChance. split; [|assumption]. intros ->. now apply Hne.
  - rewrite encg_APlayer. pose proof (enc_acts_ok acts IH (N.succ n)) as HK.
    destruct (enc_acts encg acts (N.succ n)) as [kids n'].
    destruct HK as (B1 & B2 & B3 & B4 & B5 & B6). unfold EncOK. cbn [fst snd dec] in *.
    split; [apply f_equal, B1|]. split; [lia|]. rewrite eall_EPlayer, enodes_EPlayer.
    split; [|split; [|split]].
    + intros i Hi. apply B3 in Hi. lia.
    + assumption.
    + intros y [<-|Hy]; [reflexivity|now apply B5].
    + intros HW Hn. inversion HW as [| |? ? ? Hne HF]; subst.
      destruct (B6 HF ltac:(lia)) as [B7 B8]. split.
      * intros y [<-|Hy]; [|now apply B7]. cbn [elocal]. repeat split. discriminate.
      * apply eproper_EPlayer. split; [|assumption]. intros ->. now apply Hne.
Qed.

Lemma self_named_inj me (root : enodeR) :
  (forall x, In x (enodes root) -> self_named x) -> names_inj me root.
Proof.
  intros H.
  assert (E : forall k nm, has_name me root k nm -> nm = k).
  { intros k nm (n & Hn & Hh). specialize (H n Hn).
    destruct n as [oid p|info acts oid p|pl info name acts oid p]; cbn [header self_named] in *;
      try discriminate. subst name. now inversion Hh. }
  intros k k' nm nm' H1 H2. apply E in H1, H2. subst. reflexivity.
Qed.

(** C16.  The Gambit file of an abstract game is accepted with the constant 0, and its raw
    tree is the tree the JSON reader builds from the JSON file of the same game, up to the
    labels of the chance nodes ([Some k] with pairwise distinct [k] against [None]);
    [numname] is arbitrary since no infoset is unnamed. *)
Theorem json_gambit_agree numname (a : agame) :
  awf a ->
  exists t, @gambit_tree RNum numname (enc_gambit a) = Loaded (t, 0) /\
            cerase t = json_to_gnode (enc_json a) /\ NoDup (clabels t).
Proof.
  intros HW. unfold enc_gambit.
  destruct (encg_ok a 1%N) as (A1 & _ & _ & A4 & A5 & A6).
  destruct (A6 HW ltac:(lia)) as [A7 A8].
  pose proof (gambit_tree_is_json numname (fst (encg a 1%N)) A7
                (self_named_inj true _ A5) (self_named_inj false _ A5)
                (eall_eouts _ A4) (eall_echs _ A4) A8) as H.
  rewrite A1 in H. exact H.
Qed.

(** the two readers produce the same game and the same constant, or reject alike (only
    [Game::from_root] can refuse, with the same error) *)
Theorem json_gambit_same_game numname (a : agame) :
  awf a -> @gambit_load RNum numname (enc_gambit a) = @json_load RNum (enc_json a).
Proof.
  intros HW. destruct (json_gambit_agree numname a HW) as (t & Ht & Et & Hd).
  now apply (same_tree_same_load numname _ t).
Qed.

(** hence every evaluation, every solve (whatever the method, the oracle, the settings,
    the budget, the stopping rule) and every [Output] agree *)
Theorem json_gambit_same_solution numname (a : agame) :
  awf a ->
  match @gambit_load RNum numname (enc_gambit a), @json_load RNum (enc_json a) with
  | Loaded (g, s), Loaded (g', s') =>
      s = 0 /\ s' = 0 /\ g' = g /\ same_core g g' /\
      (forall prof, @info RNum g' prof = @info RNum g prof) /\
      (forall m draw p budget stop,
          @solve_single RNum g' m draw p budget stop = @solve_single RNum g m draw p budget stop) /\
      (forall clip prof, @cli_choose RNum g' s' clip prof = @cli_choose RNum g s clip prof)
  | Rejected r, Rejected r' => r = r' /\ exists e, r = RGame e
  | _, _ => False
  end.
Proof.
  intros HW. rewrite (json_gambit_same_game numname a HW).
  unfold json_load, load_tree.
  destruct (@from_root RNum (json_to_gnode (enc_json a))) as [g|e].
  - repeat split; reflexivity.
  - split; [reflexivity|]. now exists e.
Qed.

Theorem gambit_file_same_solution numname (root : enodeR) :
  (forall n, In n (enodes root) -> elocal n) ->
  names_inj true root -> names_inj false root ->
  NoDup (eouts root) -> NoDup (echs root) -> eproper root ->
  @gambit_load RNum numname root = @json_load RNum (enc_json (dec root)).
Proof. intros. now apply gambit_load_is_json. Qed.

From Cfr.theories Require Import CliExamples.

(** the constant-sum file of [CliExamples] (payoffs (3, 7) and (6, 4), constant 10): the
    printed regrets are those of the printed profile on the game with payoffs 3 and 6 *)
Example ex_const_regrets numname g sum clip prof :
  @gambit_load RNum numname ex_const = Loaded (g, sum) -> Valid g prof ->
  exists g1,
    @from_root RNum (@GPlayer RNum true (numname 1%N)
                       [(1%N, @GTerm RNum (0 + 0 + 3 - 0)); (2%N, @GTerm RNum (0 + 0 + 6 - 0))]) = Ok g1 /\
    let out := @cli_choose RNum g sum clip prof in
    o_reg1 out = si_reg1 (@info RNum g1 (o_prof out)) /\
    o_reg2 out = si_reg2 (@info RNum g1 (o_prof out)) /\
    o_regret out = si_regret (@info RNum g1 (o_prof out)) /\
    o_pruned out = o_pruned (@cli_choose RNum g1 0 clip prof).
Proof.
  intros Hl HV.
  destruct (cli_gambit_regrets numname ex_const 10 g sum) as (n1 & n2 & g1 & F1 & F2 & Hg1 & _ & _ & H).
  - rewrite ex_const_pairs. intros p [<-|[<-|[]]]; cbn [fst snd]; lra.
  - exact Hl.
  - destruct (ex_const_names numname) as [E1 E2]. rewrite E1 in F1. rewrite E2 in F2.
    inversion F1; inversion F2; subst n1 n2. exists g1. split; [exact Hg1|].
    destruct (H clip prof HV) as (_ & R1 & R2 & R3 & R4 & _). cbv zeta. now repeat split.
Qed.

(** an abstract game: a chance move (outcomes named 2 and 1, written in that order), then
    matching pennies in which player two does not see player one's move *)
Definition ex_mp (w : R) : agame :=
  APlayer true 5
    [(1%N, APlayer false 6 [(1%N, ATerm w); (2%N, ATerm (- w))]);
     (2%N, APlayer false 6 [(1%N, ATerm (- w)); (2%N, ATerm w)])].

Definition ex_agame : agame :=
  AChance [(2%N, (1 / 4, ex_mp 1)); (1%N, (3 / 4, ATerm 2))].

Example ex_agame_wf : awf ex_agame.
Proof.
  assert (M : forall w, awf (ex_mp w)).
  { intros w. unfold ex_mp. repeat (constructor; try discriminate). }
  unfold ex_agame. constructor; [discriminate| |].
  - cbn [map fst]. repeat constructor; cbn [In]; intros C; repeat destruct C as [C|C]; try discriminate; assumption.
  - constructor; [cbn [snd]; apply M|]. constructor; [cbn [snd]; constructor|constructor].
Qed.

Example ex_agame_gambit :
  enc_gambit ex_agame =
  @EChance RNum 1
    [(2%N, 1 / 4,
      @EPlayer RNum true 5 (Some 5%N)
        [(1%N, @EPlayer RNum false 6 (Some 6%N)
                 [(1%N, @ETerm RNum 4 (1, - 1)); (2%N, @ETerm RNum 5 (- 1, - - 1))] 0 None);
         (2%N, @EPlayer RNum false 6 (Some 6%N)
                 [(1%N, @ETerm RNum 7 (- 1, - - 1)); (2%N, @ETerm RNum 8 (1, - 1))] 0 None)]
        0 None);
     (1%N, 3 / 4, @ETerm RNum 9 (2, - 2))] 0 None.
Proof. reflexivity. Qed.

Example ex_agame_json_tree :
  json_to_gnode (enc_json ex_agame) =
  @GChance RNum None
    [(3 / 4, @GTerm RNum 2);
     (1 / 4, @GPlayer RNum true 5
               [(1%N, @GPlayer RNum false 6 [(1%N, @GTerm RNum 1); (2%N, @GTerm RNum (- 1))]);
                (2%N, @GPlayer RNum false 6 [(1%N, @GTerm RNum (- 1)); (2%N, @GTerm RNum 1)])])].
Proof. reflexivity. Qed.

Example ex_agame_same numname :
  @gambit_load RNum numname (enc_gambit ex_agame) = @json_load RNum (enc_json ex_agame).
Proof. apply json_gambit_same_game, ex_agame_wf. Qed.

(** a labelled chance node is the same as an unlabelled one when the label is not reused *)
Example ex_label_immaterial (p q x y : R) k :
  @from_root RNum (@GChance RNum (Some k) [(p, @GTerm RNum x); (q, @GTerm RNum y)]) =
  @from_root RNum (@GChance RNum None [(p, @GTerm RNum x); (q, @GTerm RNum y)]).
Proof.
  symmetry. apply (cerase_from_root (@GChance RNum (Some k) [(p, @GTerm RNum x); (q, @GTerm RNum y)])).
  cbn [clabels olist flat_map app snd]. repeat constructor. intros [].
Qed.
