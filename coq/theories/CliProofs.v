(** * CliProofs: theorems about the model of the binary's pipeline ([Cli.v]): the
    [Output] assembly of [main.rs] (properties C15/C16) and the JSON reader ([json.rs]).
    The Gambit reader is in [CliGambitProofs.v].

    Everything is about the real-number instance [RNum], except the sorting lemmas,
    which are generic. *)
From Coq Require Import Reals List Lra Lia Bool Arith NArith Sorting.Sorted Sorting.Permutation.
From Cfr.theories Require Import Num RInst Tree GameWF Strat Eval Valid TruncProofs
     StratIterProofs StratImportRProofs Cli.
Import ListNotations.
Open Scope R_scope.

Local Notation gameR := (@game RNum).
Local Notation outputR := (@output RNum).

(** the assembly with the pruning generalised to an arbitrary predicate "above the
    threshold" (every f64 threshold is such a predicate: a finite [h] is [fun p => h < p],
    [-inf] is constantly true, [+inf] and NaN are constantly false) *)
Definition truncate_by (above : R -> bool) (g : gameR) (prof : list R * list R) : list R * list R :=
  (truncR_flat above (arities g true) (fst prof), truncR_flat above (arities g false) (snd prof)).

Definition cli_choose_by (above : R -> bool) (g : gameR) (sum : R) (prof : list R * list R)
  : outputR :=
  let i0 := info g prof in
  let q := truncate_by above g prof in
  let i1 := info g q in
  let pruned := Rltb (si_regret i1) (si_regret i0) in
  let i := if pruned then i1 else i0 in
  mkOutput (si_regret i) (si_utility i true + sum) (si_utility i false + sum)
           (si_reg1 i) (si_reg2 i) (if pruned then q else prof) pruned.

Lemma truncate_is_by (g : gameR) clip prof :
  @truncate RNum g clip prof = truncate_by (fun p => Rltb clip p) g prof.
Proof. reflexivity. Qed.

Lemma cli_choose_is_by (g : gameR) sum clip prof :
  @cli_choose RNum g sum clip prof = cli_choose_by (fun p => Rltb clip p) g sum prof.
Proof. reflexivity. Qed.

Lemma truncate_by_valid above (g : gameR) prof : Valid g prof -> Valid g (truncate_by above g prof).
Proof. intros [H1 H2]. split; cbn [truncate_by fst snd]; now apply trunc_flat_valid. Qed.

Section Assembly.
  Context (g : gameR) (sum : R) (above : R -> bool) (prof : list R * list R).
  Local Notation out := (cli_choose_by above g sum prof).
  Local Notation q := (truncate_by above g prof).

  Lemma cli_by_pruned_iff :
    o_pruned out = true <-> si_regret (info g q) < si_regret (info g prof).
  Proof. apply Rltb_true. Qed.

  Lemma cli_by_pruned_false_iff :
    o_pruned out = false <-> si_regret (info g prof) <= si_regret (info g q).
  Proof. apply Rltb_false. Qed.

  Lemma cli_by_prof : o_prof out = if o_pruned out then q else prof.
  Proof. reflexivity. Qed.

  Lemma cli_by_printed_valid : Valid g prof -> Valid g (o_prof out).
  Proof.
    intros H. rewrite cli_by_prof. destruct (o_pruned out); [now apply truncate_by_valid|exact H].
  Qed.

  Lemma cli_by_total_regret : o_regret out = Rmax (o_reg1 out) (o_reg2 out).
  Proof. reflexivity. Qed.

  (** the printed profile is evaluated by the printed numbers: they are the [info] of [o_prof] *)
  Lemma cli_by_fields :
    let i := info g (o_prof out) in
    o_regret out = si_regret i /\ o_reg1 out = si_reg1 i /\ o_reg2 out = si_reg2 i /\
    o_util1 out = si_util i + sum /\ o_util2 out = - si_util i + sum.
  Proof.
    unfold cli_choose_by; cbn [o_regret o_reg1 o_reg2 o_util1 o_util2 o_prof].
    destruct (Rltb _ _); repeat split; reflexivity.
  Qed.

  Lemma cli_by_regret_min :
    o_regret out = Rmin (si_regret (info g q)) (si_regret (info g prof)).
  Proof.
    destruct cli_by_fields as (-> & _). rewrite cli_by_prof.
    destruct (o_pruned out) eqn:E;
      [apply cli_by_pruned_iff in E; rewrite Rmin_left|apply cli_by_pruned_false_iff in E; rewrite Rmin_right];
      lra.
  Qed.

  Lemma cli_by_not_worse : o_regret out <= si_regret (info g prof).
  Proof. rewrite cli_by_regret_min. apply Rmin_r. Qed.

  Lemma cli_by_utils_sum : o_util1 out + o_util2 out = 2 * sum.
  Proof. destruct cli_by_fields as (_ & _ & _ & -> & ->). lra. Qed.

  Lemma cli_by_regrets_nonneg : 0 <= o_reg1 out /\ 0 <= o_reg2 out /\ 0 <= o_regret out.
  Proof.
    destruct cli_by_fields as (-> & -> & -> & _).
    assert (H : 0 <= si_reg1 (info g (o_prof out)) /\ 0 <= si_reg2 (info g (o_prof out)))
      by (split; apply Rmax_r).
    split; [apply H|]. split; [apply H|]. eapply Rle_trans; [apply (proj1 H)|apply Rmax_l].
  Qed.
End Assembly.

Section AssemblyClip.
  Context (g : gameR) (sum clip : R) (prof : list R * list R).
  Local Notation out := (@cli_choose RNum g sum clip prof).
  Local Notation q := (@truncate RNum g clip prof).
  Local Notation above := (fun p => Rltb clip p).

  Theorem cli_pruned_iff :
    o_pruned out = true <-> si_regret (info g q) < si_regret (info g prof).
  Proof. exact (cli_by_pruned_iff g sum above prof). Qed.

  Theorem cli_prof : o_prof out = if o_pruned out then q else prof.
  Proof. reflexivity. Qed.

  Theorem cli_prof_cases :
    (si_regret (info g q) < si_regret (info g prof) /\ o_pruned out = true /\ o_prof out = q) \/
    (si_regret (info g prof) <= si_regret (info g q) /\ o_pruned out = false /\ o_prof out = prof).
  Proof.
    rewrite cli_prof. destruct (o_pruned out) eqn:E.
    - left. apply cli_pruned_iff in E. auto.
    - right. apply (cli_by_pruned_false_iff g sum above prof) in E. auto.
  Qed.

  Theorem cli_printed_valid : Valid g prof -> Valid g (o_prof out).
  Proof. exact (cli_by_printed_valid g sum above prof). Qed.

  Theorem cli_total_regret : o_regret out = Rmax (o_reg1 out) (o_reg2 out).
  Proof. reflexivity. Qed.

  Theorem cli_not_worse : o_regret out <= si_regret (info g prof).
  Proof. exact (cli_by_not_worse g sum above prof). Qed.

  Theorem cli_regret_min :
    o_regret out = Rmin (si_regret (info g q)) (si_regret (info g prof)).
  Proof. exact (cli_by_regret_min g sum above prof). Qed.

  Theorem cli_utils_sum : o_util1 out + o_util2 out = 2 * sum.
  Proof. exact (cli_by_utils_sum g sum above prof). Qed.

  Theorem cli_regrets_nonneg : 0 <= o_reg1 out /\ 0 <= o_reg2 out /\ 0 <= o_regret out.
  Proof. exact (cli_by_regrets_nonneg g sum above prof). Qed.

  (** all the printed numbers are those of the independent evaluation [info] of the
      printed profile *)
  Theorem cli_output_is_info_of_printed :
    let i := info g (o_prof out) in
    o_regret out = si_regret i /\ o_reg1 out = si_reg1 i /\ o_reg2 out = si_reg2 i /\
    o_util1 out = si_util i + sum /\ o_util2 out = - si_util i + sum.
  Proof. exact (cli_by_fields g sum above prof). Qed.
End AssemblyClip.

(** ** What is printed for one player *)
Section Printed.
  Context (g : gameR).

  Local Notation posR := (@posb RNum).

  Lemma filter_idem {A} (f : A -> bool) l : filter f (filter f l) = filter f l.
  Proof.
    induction l as [|x l IH]; cbn [filter]; [reflexivity|].
    destruct (f x) eqn:E; cbn [filter]; [rewrite E, IH|]; auto.
  Qed.

  (** the second filter of [Strategy::from] removes nothing: what is printed is [as_named] *)
  Theorem printed_is_as_named pl prof :
    @printed_strategy RNum g pl prof = as_named g pl (if pl then fst prof else snd prof).
  Proof.
    unfold printed_strategy. rewrite as_named_items. rewrite map_app, !map_map.
    apply f_equal2.
    - apply map_ext. intros [pi row]. unfold multi_item; cbn [fst snd]. apply f_equal.
      apply (filter_idem posR).
    - apply map_ext. intros [i a]. unfold single_item; cbn [fst snd filter].
      apply f_equal. change (ltb RNum (zero RNum) (one RNum)) with (Rltb 0 1).
      destruct (Rltb 0 1) eqn:E; [reflexivity|]. apply Rltb_false in E; lra.
  Qed.

  (** closed form: one item per multi-action infoset, in table order — its actions zipped
      with its row of the flat vector, positive entries only — then one item per
      single-action infoset with probability one *)
  Theorem printed_closed_form pl prof :
    @printed_strategy RNum g pl prof =
    map multi_item (combine (g_infos g pl)
                            (split_by (if pl then fst prof else snd prof) (arities g pl)))
    ++ map single_item (g_singles g pl).
  Proof. rewrite printed_is_as_named. apply as_named_items. Qed.

  Theorem printed_names pl prof :
    map fst (@printed_strategy RNum g pl prof) =
    map pi_name (g_infos g pl) ++ map fst (g_singles g pl).
  Proof. rewrite printed_is_as_named. apply as_named_names. Qed.

  Theorem printed_positive pl prof name l a p :
    In (name, l) (@printed_strategy RNum g pl prof) -> In (a, p) l -> 0 < p.
  Proof.
    rewrite printed_closed_form. intros H Hap. apply in_app_or in H as [H|H].
    - apply in_map_iff in H as ([pi row] & E & _). unfold multi_item in E; cbn [fst snd] in E.
      inversion E; subst. apply filter_In in Hap as [_ Hp]. now apply posb_R in Hp.
    - apply in_map_iff in H as ([i b] & E & _). unfold single_item in E; cbn [fst snd] in E.
      inversion E; subst. destruct Hap as [Hap|[]]. inversion Hap; subst. cbn; lra.
  Qed.

  (** exactly the zero-probability actions are omitted: in the item of a multi-action
      infoset, a pair is printed iff it is a pair (action, probability) of the infoset with
      a positive probability *)
  Theorem printed_exactly_positive (pi : pinfo) (row : list R) a p :
    In (a, p) (snd (@multi_item RNum (pi, row))) <->
    In (a, p) (combine (pi_actions pi) row) /\ 0 < p.
  Proof.
    unfold multi_item; cbn [fst snd]. now rewrite filter_In, posb_R.
  Qed.

  Theorem printed_sums_one pl prof :
    Valid g prof ->
    Forall (fun e => Rsum (map snd (snd e)) = 1) (@printed_strategy RNum g pl prof).
  Proof.
    intros HV. rewrite printed_closed_form.
    eapply Forall_impl;
      [|apply (named_valid (g_infos g pl) (g_singles g pl)); destruct HV, pl; assumption].
    now intros e [_ He].
  Qed.

  (** [Strategy::from] collects the items in a [HashMap] and asserts that no infoset name
      comes twice, and the (action, probability) pairs of an item in another [HashMap]:
      for the tables of an accepted game ([WFtables], guaranteed by [from_root]) the
      assertion cannot fail and no pair is lost *)
  Theorem printed_names_nodup pl prof :
    WFtables (g_infos g pl) (g_singles g pl) ->
    NoDup (map fst (@printed_strategy RNum g pl prof)).
  Proof. intros [H _]. now rewrite printed_names. Qed.

  Lemma combine_filter_fst_nodup (acts : list N) : forall (row : list R) (f : N * R -> bool),
    NoDup acts -> NoDup (map fst (filter f (combine acts row))).
  Proof.
    induction acts as [|a acts IH]; intros [|x row] f Hd; cbn [combine filter map]; try constructor.
    inversion Hd as [|? ? Hn Hd']; subst.
    destruct (f (a, x)); cbn [map fst]; [|now apply IH].
    constructor; [|now apply IH].
    intros C. apply in_map_iff in C as ([a' x'] & E & Hin). cbn [fst] in E. subst a'.
    apply filter_In in Hin as [Hin _]. apply in_combine_l in Hin. contradiction.
  Qed.

  Theorem printed_actions_nodup pl prof :
    WFtables (g_infos g pl) (g_singles g pl) ->
    Forall (fun e => NoDup (map fst (snd e))) (@printed_strategy RNum g pl prof).
  Proof.
    intros [_ Hacts]. rewrite printed_closed_form. apply Forall_app. split.
    - rewrite Forall_map. apply Forall_forall. intros [pi row] Hin.
      unfold multi_item; cbn [fst snd]. apply combine_filter_fst_nodup.
      apply in_combine_l in Hin. rewrite Forall_forall in Hacts. now apply Hacts.
    - rewrite Forall_map. apply Forall_forall. intros [i a] _. cbn. constructor; [intros []|constructor].
  Qed.
End Printed.

Lemma and_fix_Forall {X} (P : X -> Prop) (go : list X -> Prop) :
  go [] -> (forall x r, go (x :: r) <-> P x /\ go r) -> forall l, go l <-> Forall P l.
Proof.
  intros H0 Hc. induction l as [|x l IH]; [split; [constructor|intros _; exact H0]|].
  now rewrite Hc, IH, Forall_cons_iff.
Qed.

(** *** [sort_by]: a stable insertion sort (generic) *)
Section SortBy.
  Context {A : Type} (leb : A -> A -> bool).
  Local Notation le := (fun a b => leb a b = true).

  Lemma insert_by_perm x l : Permutation (insert_by leb x l) (x :: l).
  Proof.
    induction l as [|y l IH]; cbn [insert_by]; [reflexivity|].
    destruct (leb x y); [reflexivity|].
    rewrite IH. apply perm_swap.
  Qed.

  Theorem sort_by_perm l : Permutation (sort_by leb l) l.
  Proof.
    induction l as [|x l IH]; cbn [sort_by fold_right]; [reflexivity|].
    fold (sort_by leb l). rewrite insert_by_perm. now constructor.
  Qed.

  Lemma sort_by_length l : length (sort_by leb l) = length l.
  Proof. apply Permutation_length, sort_by_perm. Qed.

  Lemma sort_by_In x l : In x (sort_by leb l) <-> In x l.
  Proof.
    split; apply Permutation_in; [apply sort_by_perm|apply Permutation_sym, sort_by_perm].
  Qed.

  Lemma sort_by_cons x l : sort_by leb (x :: l) = insert_by leb x (sort_by leb l).
  Proof. reflexivity. Qed.

  Theorem sort_by_sorted_id l : Sorted le l -> sort_by leb l = l.
  Proof.
    induction 1 as [|x l Hs IH Hd]; [reflexivity|].
    rewrite sort_by_cons, IH. destruct Hd as [|y l Hxy]; cbn [insert_by]; [reflexivity|].
    now rewrite Hxy.
  Qed.

  Section Total.
    Context (leb_total : forall a b, leb a b = true \/ leb b a = true)
            (leb_trans : forall a b c, leb a b = true -> leb b c = true -> leb a c = true).

    Lemma insert_by_sorted x l : StronglySorted le l -> StronglySorted le (insert_by leb x l).
    Proof.
      induction 1 as [|y l Hs IH Hall]; cbn [insert_by].
      - constructor; constructor.
      - destruct (leb x y) eqn:E.
        + constructor; [now constructor|]. constructor; [assumption|].
          eapply Forall_impl; [|exact Hall]. intros z Hz; cbn beta in *. eapply leb_trans; eassumption.
        + constructor; [assumption|].
          assert (Hyx : leb y x = true) by (destruct (leb_total x y); congruence).
          apply Forall_forall. intros z Hz.
          apply (Permutation_in _ (insert_by_perm x l)) in Hz. destruct Hz as [<-|Hz]; [assumption|].
          rewrite Forall_forall in Hall. now apply Hall.
    Qed.

    Theorem sort_by_sorted l : StronglySorted le (sort_by leb l).
    Proof.
      induction l as [|x l IH]; [constructor|]. rewrite sort_by_cons. now apply insert_by_sorted.
    Qed.
  End Total.
End SortBy.

(** sorting commutes with a map that the comparison does not see *)
Lemma insert_by_map {A B} (f : A -> B) (lebA : A -> A -> bool) (lebB : B -> B -> bool) x l :
  (forall a b, lebB (f a) (f b) = lebA a b) ->
  insert_by lebB (f x) (map f l) = map f (insert_by lebA x l).
Proof.
  intros H. induction l as [|y l IH]; cbn [insert_by map]; [reflexivity|].
  rewrite H. destruct (lebA x y); cbn [map]; [reflexivity|]. now rewrite IH.
Qed.

Lemma sort_by_map {A B} (f : A -> B) (lebA : A -> A -> bool) (lebB : B -> B -> bool) l :
  (forall a b, lebB (f a) (f b) = lebA a b) ->
  sort_by lebB (map f l) = map f (sort_by lebA l).
Proof.
  intros H. induction l as [|x l IH]; [reflexivity|].
  cbn [map]. rewrite !sort_by_cons, IH. now apply insert_by_map.
Qed.

Lemma map_payload_snd {K A B} (g : A -> B) (l : list (K * A)) :
  map g (map snd l) = map snd (map (fun x => (fst x, g (snd x))) l).
Proof. now rewrite !map_map. Qed.

Lemma Sorted_impl {A} (R1 R2 : A -> A -> Prop) l :
  (forall a b, R1 a b -> R2 a b) -> Sorted R1 l -> Sorted R2 l.
Proof.
  intros H. induction 1 as [|x l Hs IH Hd]; constructor; [assumption|].
  destruct Hd; constructor; auto.
Qed.

Definition key_leb {B} (a b : N * B) : bool := N.leb (fst a) (fst b).

Lemma key_leb_total {B} (a b : N * B) : key_leb a b = true \/ key_leb b a = true.
Proof. unfold key_leb. rewrite !N.leb_le. lia. Qed.

Lemma key_leb_trans {B} (a b c : N * B) :
  key_leb a b = true -> key_leb b c = true -> key_leb a c = true.
Proof. unfold key_leb. rewrite !N.leb_le. lia. Qed.

Theorem sort_by_key_sorted {B} (l : list (N * B)) :
  StronglySorted N.le (map fst (sort_by key_leb l)).
Proof.
  pose proof (sort_by_sorted key_leb key_leb_total key_leb_trans l) as H.
  induction H as [|x l' Hs IH Hall]; cbn [map]; constructor; [assumption|].
  rewrite Forall_map. eapply Forall_impl; [|exact Hall].
  intros y Hy. unfold key_leb in Hy. now apply N.leb_le.
Qed.

Theorem sort_by_key_id {B} (l : list (N * B)) :
  Sorted N.le (map fst l) -> sort_by key_leb l = l.
Proof.
  intros H. apply sort_by_sorted_id.
  induction l as [|x l IH]; [constructor|]. cbn [map] in H. inversion H as [|? ? Hs Hd]; subst.
  constructor; [now apply IH|]. destruct l as [|y l]; constructor.
  inversion Hd; subst. unfold key_leb. now apply N.leb_le.
Qed.

Corollary sort_by_key_id_strict {B} (l : list (N * B)) :
  Sorted N.lt (map fst l) -> sort_by key_leb l = l.
Proof. intros H. apply sort_by_key_id. revert H. apply Sorted_impl. intros; lia. Qed.

Section Json.
  Local Notation jnodeR := (@jnode RNum).
  Local Notation gnodeR := (@gnode RNum).

  Fixpoint jnode_ind' (P : jnodeR -> Prop)
           (HT : forall x, P (JTerm x))
           (HC : forall info outs, Forall (fun e => P (snd (snd e))) outs -> P (@JChance RNum info outs))
           (HP : forall pl info acts, Forall (fun e => P (snd e)) acts -> P (@JPlayer RNum pl info acts))
           (j : jnodeR) : P j :=
    match j with
    | JTerm x => HT x
    | JChance info outs =>
        HC info outs ((fix go (l : list (N * (R * jnodeR))) : Forall (fun e => P (snd (snd e))) l :=
                         match l with
                         | [] => Forall_nil _
                         | e :: r => Forall_cons e (jnode_ind' P HT HC HP (snd (snd e))) (go r)
                         end) outs)
    | JPlayer pl info acts =>
        HP pl info acts ((fix go (l : list (N * jnodeR)) : Forall (fun e => P (snd e)) l :=
                            match l with
                            | [] => Forall_nil _
                            | e :: r => Forall_cons e (jnode_ind' P HT HC HP (snd e)) (go r)
                            end) acts)
    end.

  (** the children of a node, converted, with their keys, in file order *)
  Definition jconv_c (e : N * (R * jnodeR)) : N * (R * gnodeR) :=
    (fst e, (fst (snd e), json_to_gnode (snd (snd e)))).
  Definition jconv_p (e : N * jnodeR) : N * gnodeR := (fst e, json_to_gnode (snd e)).

  Lemma json_to_gnode_JChance info (outs : list (N * (R * jnodeR))) :
    json_to_gnode (@JChance RNum info outs) =
    @GChance RNum info (map snd (sort_by key_leb (map jconv_c outs))).
  Proof.
    cbn [json_to_gnode]. unfold key_leb. apply f_equal, f_equal, f_equal.
    induction outs as [|[k [p c]] r IH]; [reflexivity|]. cbn [map]. rewrite <- IH. reflexivity.
  Qed.

  Lemma json_to_gnode_JPlayer pl info (acts : list (N * jnodeR)) :
    json_to_gnode (@JPlayer RNum pl info acts) =
    @GPlayer RNum pl info (sort_by key_leb (map jconv_p acts)).
  Proof.
    cbn [json_to_gnode]. unfold key_leb. apply f_equal, f_equal.
    induction acts as [|[k c] r IH]; [reflexivity|]. cbn [map]. rewrite <- IH. reflexivity.
  Qed.

  (** at every node the children are the converted children of the file, ordered by
      key: (i) sorted, (ii) a permutation *)
  Theorem json_chance_children info (outs : list (N * (R * jnodeR))) :
    exists kids : list (N * (R * gnodeR)),
      json_to_gnode (@JChance RNum info outs) = @GChance RNum info (map snd kids) /\
      StronglySorted N.le (map fst kids) /\
      Permutation kids (map jconv_c outs).
  Proof.
    exists (sort_by key_leb (map jconv_c outs)). split; [apply json_to_gnode_JChance|].
    split; [apply sort_by_key_sorted|apply sort_by_perm].
  Qed.

  Theorem json_player_children pl info (acts : list (N * jnodeR)) :
    exists kids : list (N * gnodeR),
      json_to_gnode (@JPlayer RNum pl info acts) = @GPlayer RNum pl info kids /\
      StronglySorted N.le (map fst kids) /\
      Permutation kids (map jconv_p acts).
  Proof.
    exists (sort_by key_leb (map jconv_p acts)). split; [apply json_to_gnode_JPlayer|].
    split; [apply sort_by_key_sorted|apply sort_by_perm].
  Qed.

  (** the plain structural conversion: no reordering *)
  Fixpoint json_plain (j : jnodeR) : gnodeR :=
    match j with
    | JTerm x => @GTerm RNum x
    | JChance info outs =>
        @GChance RNum info ((fix go (l : list (N * (R * jnodeR))) : list (R * gnodeR) :=
                         match l with
                         | [] => []
                         | (_, (p, c)) :: r => (p, json_plain c) :: go r
                         end) outs)
    | JPlayer pl info acts =>
        @GPlayer RNum pl info ((fix go (l : list (N * jnodeR)) : list (N * gnodeR) :=
                            match l with
                            | [] => []
                            | (k, c) :: r => (k, json_plain c) :: go r
                            end) acts)
    end.

  Lemma json_plain_JChance info (outs : list (N * (R * jnodeR))) :
    json_plain (@JChance RNum info outs) =
    @GChance RNum info (map (fun e => (fst (snd e), json_plain (snd (snd e)))) outs).
  Proof.
    cbn [json_plain]. apply f_equal.
    induction outs as [|[k [p c]] r IH]; [reflexivity|]. cbn [map]. rewrite <- IH. reflexivity.
  Qed.

  Lemma json_plain_JPlayer pl info (acts : list (N * jnodeR)) :
    json_plain (@JPlayer RNum pl info acts) =
    @GPlayer RNum pl info (map (fun e => (fst e, json_plain (snd e))) acts).
  Proof.
    cbn [json_plain]. apply f_equal.
    induction acts as [|[k c] r IH]; [reflexivity|]. cbn [map]. rewrite <- IH. reflexivity.
  Qed.

  (** the keys of every node are listed in (weakly) increasing order — what iterating a
      [BTreeMap] produces, strictly increasing even *)
  Fixpoint jordered (j : jnodeR) : Prop :=
    match j with
    | JTerm _ => True
    | JChance _ outs =>
        Sorted N.le (map fst outs) /\
        (fix go (l : list (N * (R * jnodeR))) : Prop :=
           match l with [] => True | (_, (_, c)) :: r => jordered c /\ go r end) outs
    | JPlayer _ _ acts =>
        Sorted N.le (map fst acts) /\
        (fix go (l : list (N * jnodeR)) : Prop :=
           match l with [] => True | (_, c) :: r => jordered c /\ go r end) acts
    end.

  Lemma jordered_JChance info (outs : list (N * (R * jnodeR))) :
    jordered (@JChance RNum info outs) <->
    Sorted N.le (map fst outs) /\ Forall (fun e => jordered (snd (snd e))) outs.
  Proof.
    cbn [jordered]. apply and_iff_compat_l, and_fix_Forall; [exact I|]. now intros [k [p c]] r.
  Qed.

  Lemma jordered_JPlayer pl info (acts : list (N * jnodeR)) :
    jordered (@JPlayer RNum pl info acts) <->
    Sorted N.le (map fst acts) /\ Forall (fun e => jordered (snd e)) acts.
  Proof.
    cbn [jordered]. apply and_iff_compat_l, and_fix_Forall; [exact I|]. now intros [k c] r.
  Qed.

  Theorem json_to_gnode_ordered (j : jnodeR) : jordered j -> json_to_gnode j = json_plain j.
  Proof.
    induction j as [x|info outs IH|pl info acts IH] using jnode_ind'; intros Ho.
    - reflexivity.
    - apply jordered_JChance in Ho as [Hs Hk].
      rewrite json_to_gnode_JChance, json_plain_JChance. apply f_equal.
      rewrite sort_by_key_id.
      + rewrite map_map. apply map_ext_in. intros e He. unfold jconv_c; cbn [snd fst]. apply f_equal.
        rewrite Forall_forall in IH, Hk. apply IH; auto.
      + rewrite map_map. cbn [jconv_c fst]. exact Hs.
    - apply jordered_JPlayer in Ho as [Hs Hk].
      rewrite json_to_gnode_JPlayer, json_plain_JPlayer. apply f_equal.
      rewrite sort_by_key_id.
      + apply map_ext_in. intros e He. unfold jconv_p. apply f_equal.
        rewrite Forall_forall in IH, Hk. apply IH; auto.
      + rewrite map_map. cbn [jconv_p fst]. exact Hs.
  Qed.

  (** after parsing, the only rejection category of the JSON route is the game error,
      and the constant is 0 *)
  Theorem json_load_rejected (j : jnodeR) r :
    json_load j = Rejected r -> exists e, r = RGame e /\ from_root (json_to_gnode j) = Err e.
  Proof.
    unfold json_load, load_tree. destruct (from_root (json_to_gnode j)) as [g|e]; [discriminate|].
    intros H; inversion H; subst. now exists e.
  Qed.

  Theorem json_load_loaded (j : jnodeR) g s :
    json_load j = Loaded (g, s) -> s = 0 /\ from_root (json_to_gnode j) = Ok g.
  Proof.
    unfold json_load, load_tree. destruct (from_root (json_to_gnode j)) as [g'|e]; [|discriminate].
    intros H; inversion H; subst. split; reflexivity.
  Qed.

  Theorem json_load_total (j : jnodeR) :
    (exists g, json_load j = Loaded (g, 0) /\ from_root (json_to_gnode j) = Ok g) \/
    (exists e, json_load j = Rejected (RGame e) /\ from_root (json_to_gnode j) = Err e).
  Proof.
    unfold json_load, load_tree. destruct (from_root (json_to_gnode j)) as [g|e].
    - left. exists g. split; reflexivity.
    - right. exists e. split; reflexivity.
  Qed.
End Json.
