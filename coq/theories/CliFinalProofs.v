(** * CliFinalProofs: the utilities printed for a constant-sum Gambit file (property C15);
    what [Strategy::from] collects has no duplicates. *)
From Coq Require Import Reals List Lra NArith.
From Cfr.theories Require Import Num RInst Tree GameWF Strat Eval Valid Cli CliProofs
     CliGambitProofs CliUtilityProofs FromRootGeneric FromRootProofs.
Import ListNotations.
Open Scope R_scope.

Local Notation gameR := (@game RNum).
Local Notation enodeR := (@enode RNum).

(** for a constant-sum file ([c] = the sum of the two players' own payoffs at every
    terminal) that loads to [(g, sum)], with [g1] the game of the file as written: for
    every valid profile the printed utilities are the two players' expected OWN payoffs of
    the printed profile on [g1]: they add up to [c] *)
Theorem cli_gambit_utilities_final numname (root : enodeR) (c : R) (g : gameR) (sum : R) :
  (forall p, In p (own_pairs root) -> fst p + snd p = c) ->
  @gambit_load RNum numname root = Loaded (g, sum) ->
  exists n1 n2 g1,
    final_names numname true root = Some n1 /\ final_names numname false root = Some n2 /\
    @from_root RNum (@joined RNum (outcomes_of root) n1 n2 0 root 0) = Ok g1 /\
    sum = c / 2 /\ g = CliGambitProofs.game_map_payoffs (fun x => x - c / 2) g1 /\
    forall clip prof, Valid g prof ->
      let out := @cli_choose RNum g sum clip prof in
      let e := @expected RNum g1 (split_by (fst (o_prof out)) (arities g1 true))
                         (split_by (snd (o_prof out)) (arities g1 false)) in
      Valid g1 (o_prof out) /\
      o_util1 out = e /\ o_util2 out = c - e /\ o_util1 out + o_util2 out = c.
Proof.
  intros Hc Hl.
  destruct (gambit_load_constant numname root c g sum Hc Hl) as (n1 & n2 & g1 & H1 & H2 & H3 & -> & ->).
  exists n1, n2, g1. do 5 (split; [assumption || reflexivity|]).
  destruct (from_root_sound _ g1 H3) as (HW & _ & HC).
  intros clip prof HV out e. apply Valid_game_map_payoffs in HV.
  destruct (cli_choose_shift (c / 2) g1 (c / 2) 0 clip prof HC HW HV) as (_ & B & _ & _ & _ & U1 & U2).
  destruct (cli_output_is_info_of_printed g1 0 clip prof) as (_ & _ & _ & V1 & V2).
  fold out in B, U1, U2. rewrite <- B in V1, V2.
  split; [rewrite B; now apply cli_printed_valid|]. change e with (si_util (@info RNum g1 (o_prof out))).
  lra.
Qed.

From Cfr.theories Require Import CliExamples.

Example ex_const_utilities numname g sum clip prof :
  @gambit_load RNum numname ex_const = Loaded (g, sum) -> Valid g prof ->
  sum = 5 /\
  o_util1 (@cli_choose RNum g sum clip prof) + o_util2 (@cli_choose RNum g sum clip prof) = 10.
Proof.
  intros Hl HV.
  destruct (cli_gambit_utilities_final numname ex_const 10 g sum) as (n1 & n2 & g1 & _ & _ & _ & Hs & _ & H).
  - rewrite ex_const_pairs. intros p [<-|[<-|[]]]; cbn [fst snd]; lra.
  - exact Hl.
  - split; [lra|]. destruct (H clip prof HV) as (_ & _ & _ & E). exact E.
Qed.

(** the two assertions of [Strategy::from] cannot fail on an accepted game *)
Theorem printed_no_duplicates (t : @gnode RNum) (g : gameR) pl prof :
  @from_root RNum t = Ok g ->
  NoDup (map fst (@printed_strategy RNum g pl prof)) /\
  Forall (fun e => NoDup (map fst (snd e))) (@printed_strategy RNum g pl prof).
Proof.
  intros H. destruct (from_root_sound _ g H) as ((_ & W1 & W2 & _) & _).
  assert (W : WFtables (g_infos g pl) (g_singles g pl)) by (destruct pl; assumption).
  split; [now apply printed_names_nodup|now apply printed_actions_nodup].
Qed.
