(** * SampledRate: pathwise rate theorem for the chance-sampled solver.

    For every [params], budget and stop predicate, and
    - every sampling oracle whose chance draws are in range ([DrawOK];
      [sampled_bound_rate]), or
    - every oracle whatsoever when 0 lies in the payoff range
      ([sampled_bound_rate_any_draw]),
    the bounds returned by [solve_single g Sampled ...] obey the CFR rate
    [b_pl * sqrt ran <= 2 * (hi - lo) * N_pl * sqrt A].
    On an out-of-range index the implementation panics ([outcomes[ind..=ind]]) while the
    model returns the value 0, which may lie outside the payoff range: for one game
    and oracle the inequality then fails ([out_of_range_draw_breaks_rate]).

    One chance-sampled pass changes the cumulative regrets exactly as an *unsampled*
    pass does when every chance row is replaced by the one-hot row of the index drawn
    ([samp_chance], [reg_sum_vincs_sampled]): the subtrees not sampled have chance
    reach [0].  Hence [cfr_inc], its orthogonality and its bound apply with the one-hot
    table, and the potential argument of [CfrRate.v] goes through. *)
From Coq Require Import Reals List Lra Lia Bool Arith NArith.
From Cfr.theories Require Import Num ListAux RInst Tree GameWF Strat Eval Solve Valid
     SolveValidProofs LoopProofs Incr IterChar CfMass CfrRate.
Import ListNotations.
Open Scope R_scope.

Local Notation nodeR := (@node RNum).
Local Notation gameR := (@game RNum).
Local Notation pstateR := (@pstate RNum).
Local Notation rinfoR := (@rinfo RNum).
Local Notation incrR := (@incr RNum).
Local Notation paramsR := (@params RNum).
Local Notation oracleR := (@oracle RNum).

Fixpoint hot (n k : nat) : list R :=
  match n with
  | O => []
  | S n' => match k with
            | O => 1 :: repeat 0 n'
            | S k' => 0 :: hot n' k'
            end
  end.

Lemma hot_length n k : length (hot n k) = n.
Proof.
  revert k; induction n as [|n IH]; intros k; [reflexivity|].
  destruct k as [|k]; cbn [hot length]; [now rewrite repeat_length|now rewrite IH].
Qed.

Lemma hot_nonneg n k : Forall (fun x => 0 <= x) (hot n k).
Proof.
  revert k; induction n as [|n IH]; intros [|k]; cbn [hot]; constructor; try lra; [|apply IH].
  apply Forall_forall. intros x Hx. apply repeat_spec in Hx. lra.
Qed.

Lemma hot_sum_in n k : (k < n)%nat -> Rsum (hot n k) = 1.
Proof.
  revert k; induction n as [|n IH]; intros k Hk; [lia|].
  destruct k as [|k]; cbn [hot Rsum]; [rewrite Rsum_repeat0; lra|rewrite IH by lia; lra].
Qed.

(** an index out of range gives the zero row *)
Lemma hot_sum_le n k : Rsum (hot n k) <= 1.
Proof.
  revert k; induction n as [|n IH]; intros [|k]; cbn [hot Rsum]; try lra.
  - rewrite Rsum_repeat0. lra.
  - specialize (IH k). lra.
Qed.

Lemma hot_VRow n k : (k < n)%nat -> VRow (hot n k).
Proof. intros H. split; [apply hot_nonneg|now apply hot_sum_in]. Qed.

Definition samp_chance (chance : list (list R)) (draw : oracleR) (pass : N) : list (list R) :=
  map (fun ci => hot (length (@row RNum chance ci)) (draw true ci pass (@row RNum chance ci)))
      (seq 0 (length chance)).

Lemma row_samp chance draw pass ci :
  @row RNum (samp_chance chance draw pass) ci =
  hot (length (@row RNum chance ci)) (draw true ci pass (@row RNum chance ci)).
Proof.
  unfold row, samp_chance. destruct (Nat.lt_ge_cases ci (length chance)) as [Hlt|Hge].
  - set (f := fun ci => hot (length (nth ci chance [])) (draw true ci pass (nth ci chance []))).
    rewrite (nth_indep _ [] (f 0%nat)) by (now rewrite map_length, seq_length).
    rewrite map_nth, seq_nth by assumption. reflexivity.
  - rewrite (nth_overflow chance) by assumption.
    rewrite nth_overflow by (now rewrite map_length, seq_length). reflexivity.
Qed.

Lemma samp_rows chance draw pass ci :
  Forall (fun p => 0 <= p) (@row RNum (samp_chance chance draw pass) ci) /\
  Rsum (@row RNum (samp_chance chance draw pass) ci) <= 1.
Proof. rewrite row_samp. split; [apply hot_nonneg|apply hot_sum_le]. Qed.

Lemma zsum_zeros (g : nodeR -> R -> R) ks n : (forall c, g c 0 = 0) -> zsum g ks (repeat 0 n) = 0.
Proof.
  intros Hg. revert n; induction ks as [|c ks IH]; intros [|n]; cbn [repeat zsum]; try reflexivity.
  rewrite Hg, IH. lra.
Qed.

Lemma zsum_hot (g : nodeR -> R -> R) ks k :
  (forall c, g c 0 = 0) ->
  zsum g ks (hot (length ks) k) = match nth_error ks k with Some c => g c 1 | None => 0 end.
Proof.
  intros Hg. revert k; induction ks as [|c ks IH]; intros [|k]; cbn [length hot zsum nth_error];
    try reflexivity.
  - rewrite zsum_zeros by assumption. lra.
  - rewrite Hg, IH. lra.
Qed.

Lemma val_player_hot (f : nodeR -> R) ks k e :
  @val_player RNum f ks (hot (length ks) k) e =
  e + match nth_error ks k with Some c => f c | None => 0 end.
Proof.
  rewrite val_player_zsum, zsum_hot by (intros; lra). destruct (nth_error ks k); lra.
Qed.

Lemma val_pick_nth (f : nodeR -> R) ks k :
  @val_pick RNum f ks k = match nth_error ks k with Some c => f c | None => 0 end.
Proof.
  revert k; induction ks as [|c ks IH]; intros k; destruct k as [|k]; cbn [val_pick nth_error];
    try reflexivity; try apply IH.
  change (add RNum) with Rplus. change (mul RNum) with Rmult.
  change (zero RNum) with 0. change (one RNum) with 1. lra.
Qed.

Lemma val_chance_hot (f : nodeR -> R) ks k e :
  @val_chance RNum f (hot (length ks) k) ks e = e + @val_pick RNum f ks k.
Proof. now rewrite val_chance_player, val_player_hot, val_pick_nth. Qed.

Lemma sum_chance_hot (f : nodeR -> R -> R -> R -> R) pc p1 p2 ks k :
  (forall c q1 q2, f c 0 q1 q2 = 0) ->
  sum_chance f pc p1 p2 (hot (length ks) k) ks =
  match nth_error ks k with Some c => f c (pc * 1) p1 p2 | None => 0 end.
Proof.
  intros Hf. rewrite sum_chance_zsum. apply zsum_hot. intros c. rewrite Rmult_0_r. apply Hf.
Qed.

Lemma incs_pick_nth (VI : nodeR -> R -> R -> R -> list incrR) pc p1 p2 ks k :
  @incs_pick RNum VI pc p1 p2 ks k =
  match nth_error ks k with Some c => VI c (pc * 1) p1 p2 | None => [] end.
Proof.
  revert k; induction ks as [|c ks IH]; intros k; destruct k as [|k]; cbn [incs_pick nth_error];
    try reflexivity. apply IH.
Qed.

Lemma val_pick_ext (f g : nodeR -> R) ks k :
  Forall (fun c => f c = g c) ks -> @val_pick RNum f ks k = @val_pick RNum g ks k.
Proof.
  intros H; revert k; induction H as [|c ks Hc H IH]; intros k; cbn [val_pick]; [reflexivity|].
  destruct k as [|k]; [now rewrite Hc|apply IH].
Qed.

Section SampledChar.
  Context (chance : list (list R)) (draw : oracleR) (pass : N) (sg : bool -> nat -> list R).
  Local Notation chance' := (samp_chance chance draw pass).
  Local Notation VV := (@vval RNum chance true draw pass sg).
  Local Notation VI := (@vincs RNum chance true draw pass sg).

  Lemma vval_sampled n : ValShaped chance sg n -> VV n = uval chance' sg n.
  Proof.
    induction n as [x|ci kids IH|pl i kids IH] using node_ind'; intros HV;
      inversion HV as [|? ? EL HR HVk|? ? ? EL HR HVk]; subst; cbn [vval uval].
    - reflexivity.
    - rewrite row_samp, <- EL, val_chance_hot, Rplus_0_l. apply val_pick_ext.
      exact (Forall_mp _ _ _ IH HVk).
    - apply val_player_ext. exact (Forall_mp _ _ _ IH HVk).
  Qed.

  Lemma Forall_vval_sampled ks :
    Forall (ValShaped chance sg) ks -> Forall (fun c => VV c = uval chance' sg c) ks.
  Proof. apply Forall_impl. intros c. apply vval_sampled. Qed.

  Theorem reg_sum_vincs_sampled pl i a n :
    ValShaped chance sg n ->
    forall pc p1 p2, reg_sum pl i a (VI n pc p1 p2) = cfr_inc chance' sg pl i a n pc p1 p2.
  Proof.
    induction n as [x|ci kids IH|pl' i' kids IH] using node_ind'; intros HV pc p1 p2;
      inversion HV as [|? ? EL HR HVk|? ? ? EL HR HVk]; subst.
    - reflexivity.
    - cbn [vincs cfr_inc]. rewrite row_samp, <- EL, incs_pick_nth.
      rewrite sum_chance_hot by (intros; apply cfr_inc_zero_pc).
      destruct (nth_error kids _) as [c|] eqn:Ek; [|reflexivity].
      apply nth_error_In in Ek. rewrite Forall_forall in IH, HVk. apply IH; auto.
    - cbn [vincs]. apply reg_sum_Player; [now apply Forall_vval_sampled|].
      rewrite Forall_forall in IH, HVk |- *. intros c Hc. unfold RSg. apply IH; auto.
  Qed.
End SampledChar.

Section SampledState.
  Context (chance : list (list R)) (draw : oracleR) (pass : N).

  Theorem vrec_sampled_value n pc p1 p2 (st : pstateR) :
    ValShaped chance (strat_view st) n ->
    fst (@vrec RNum chance true draw pass n pc p1 p2 st) =
    uval (samp_chance chance draw pass) (strat_view st) n.
  Proof. intros HV. rewrite vrec_incs. cbn [fst]. now apply vval_sampled. Qed.

  Theorem vrec_sampled_regret n pc p1 p2 (st : pstateR) pl i :
    reg_ok st pl i -> ValShaped chance (strat_view st) n ->
    cum_regret (ri_get (snd (@vrec RNum chance true draw pass n pc p1 p2 st)) pl i) =
    vadd (cum_regret (ri_get st pl i))
         (cfr_incs (samp_chance chance draw pass) (strat_view st) pl i n pc p1 p2).
  Proof.
    intros E HV. rewrite vrec_incs. cbn [snd]. apply fold_incr_cfr_incs; [exact E|reflexivity|].
    intros a. now apply reg_sum_vincs_sampled.
  Qed.
End SampledState.

(** only the chance rows of this table need an index in range; [ExternalRate.DrawsInRange]
    asks it of every non-empty weight list *)
Definition DrawOK (chance : list (list R)) (draw : oracleR) : Prop :=
  forall ci pass, (ci < length chance)%nat ->
                  (draw true ci pass (@row RNum chance ci) < length (@row RNum chance ci))%nat.

Lemma VRow_row_lt chance ci : VRow (@row RNum chance ci) -> (ci < length chance)%nat.
Proof.
  intros [_ Hs]. destruct (Nat.lt_ge_cases ci (length chance)) as [H|H]; [assumption|].
  unfold row in Hs. rewrite nth_overflow in Hs by assumption. cbn [Rsum] in Hs. lra.
Qed.

(** ** Sub-stochastic tables: values stay in a payoff range that contains 0.

    When a draw is out of range the one-hot row is all zeros.  If [lo <= 0 <= hi] the
    values still lie in [[lo, hi]] and the increments are still bounded by [hi - lo]. *)
Definition SRow (r : list R) : Prop := Forall (fun x => 0 <= x) r /\ Rsum r <= 1.

Lemma VRow_SRow r : VRow r -> SRow r.
Proof. intros [H1 H2]. split; [assumption|lra]. Qed.

Lemma hot_SRow n k : SRow (hot n k).
Proof. split; [apply hot_nonneg|apply hot_sum_le]. Qed.

Inductive SubShaped (chance : list (list R)) (sg : bool -> nat -> list R) : nodeR -> Prop :=
| SS_Term (x : R) : SubShaped chance sg (@Term RNum x)
| SS_Chance ci kids :
    length kids = length (@row RNum chance ci) -> SRow (@row RNum chance ci) ->
    Forall (SubShaped chance sg) kids -> SubShaped chance sg (@Chance RNum ci kids)
| SS_Player pl i kids :
    length kids = length (sg pl i) -> SRow (sg pl i) ->
    Forall (SubShaped chance sg) kids -> SubShaped chance sg (@Player RNum pl i kids).

Lemma SubShaped_RowShaped chance sg n : SubShaped chance sg n <-> RowShaped SRow chance sg n.
Proof.
  induction n as [x|ci kids IH|pl i kids IH] using node_ind'; split; intros H;
    inversion H as [|? ? EL HR Hk|? ? ? EL HR Hk]; subst; constructor; try assumption;
    revert Hk; apply Forall_mp; refine (Forall_impl _ _ IH); intros c Hc; apply Hc.
Qed.

Lemma ValShaped_SubShaped chance sg n : ValShaped chance sg n -> SubShaped chance sg n.
Proof.
  intros H. apply SubShaped_RowShaped, (RowShaped_impl VRow); [exact VRow_SRow|].
  now apply ValShaped_RowShaped.
Qed.

Lemma SRow_range lo hi :
  lo <= 0 <= hi ->
  forall r, SRow r -> Forall (fun p => 0 <= p) r /\ lo <= lo * Rsum r /\ hi * Rsum r <= hi.
Proof. intros H0 r [Hnn Hs]. pose proof (Rsum_nonneg _ Hnn). split; [exact Hnn|nra]. Qed.

Lemma RowShaped_samp (ok ok' : list R -> Prop) chance draw pass sg n :
  (forall ci, ok (@row RNum chance ci) ->
     ok' (hot (length (@row RNum chance ci)) (draw true ci pass (@row RNum chance ci)))) ->
  (forall r, ok r -> ok' r) ->
  RowShaped ok chance sg n -> RowShaped ok' (samp_chance chance draw pass) sg n.
Proof.
  intros Hhot Hmono. apply RowShaped_map; [|auto].
  intros ci HR. rewrite row_samp, hot_length. auto.
Qed.

Section SampledRateGen.
  Context (g : gameR) (draw : oracleR) (p : paramsR) (lo hi : R) (A : nat).
  Context (HWF : WFgame g) (HPR : PerfectRecall g) (HCO : ChanceOK g)
          (HPay : PayoffsIn lo hi (g_root g))
          (HA : forall pl, Forall (fun a => (a <= A)%nat) (arities g pl)).

  Local Notation D := (hi - lo).

  (** what is needed of the oracle: every regret increment of a sampled pass is bounded
      by the payoff range *)
  Definition IncBounded : Prop :=
    forall (st : pstateR) pass pl i a,
      InvA (arities g true) (arities g false) st ->
      (a < length (strat_view st pl i))%nat ->
      Rabs (cfr_inc (samp_chance (g_chance g) draw pass) (strat_view st) pl i a (g_root g) 1 1 1) <= D.

  Lemma samp_inc_bounded (ok : list R -> Prop) :
    (forall r, ok r -> Forall (fun p => 0 <= p) r /\ lo <= lo * Rsum r /\ hi * Rsum r <= hi) ->
    (forall pass st, InvA (arities g true) (arities g false) st ->
       RowShaped ok (samp_chance (g_chance g) draw pass) (strat_view st) (g_root g)) ->
    IncBounded.
  Proof.
    intros Hok HV st pass pl i a HI Ha.
    apply (cfr_inc_bound_game ok g); auto using samp_rows.
    apply Inv_rows. eapply Inv_of_InvA; eauto.
  Qed.

  Lemma root_RowShaped (st : pstateR) :
    InvA (arities g true) (arities g false) st ->
    RowShaped VRow (g_chance g) (strat_view st) (g_root g).
  Proof. intros HI. destruct HWF as (HS & _). now apply ValShaped_RowShaped, shaped_ValShaped. Qed.

  Lemma sampled_inc_bounded : DrawOK (g_chance g) draw -> IncBounded.
  Proof.
    intros HDraw. apply (samp_inc_bounded VRow (VRow_range lo hi)). intros pass st HI.
    apply (RowShaped_samp VRow); [|auto|now apply root_RowShaped].
    intros ci HR. apply hot_VRow, HDraw. now apply VRow_row_lt.
  Qed.

  Lemma sampled_inc_bounded_zero : lo <= 0 <= hi -> IncBounded.
  Proof.
    intros H0. apply (samp_inc_bounded SRow (SRow_range lo hi H0)). intros pass st HI.
    apply (RowShaped_samp VRow); [intros; apply hot_SRow|exact VRow_SRow|now apply root_RowShaped].
  Qed.

  Context (HB : IncBounded).

  Lemma iter_rate_sampled it (st : pstateR) :
    (1 <= it)%N -> K g lo hi A (N.to_nat it - 1) st ->
    K g lo hi A (N.to_nat it) (fst (@one_iter RNum g Sampled draw p it st)) /\
    Bnd g lo hi A it (fst (snd (@one_iter RNum g Sampled draw p it st)))
        (snd (snd (@one_iter RNum g Sampled draw p it st))).
  Proof.
    intros Hit HK.
    apply (iter_rate_vrec g draw p lo hi A HWF HCO HPay HA true
             (samp_chance (g_chance g) draw (it - 1)%N)); auto.
    - intros pl i E. apply vrec_sampled_regret; [exact E|].
      destruct HWF as (HS & _), HK as [HI _]. now apply shaped_ValShaped.
    - intros pl i a. apply HB. now destruct HK.
  Qed.

  Theorem sampled_bound_rate_gen budget (stop : R -> bool) strats b1 b2 ran :
    @solve_single RNum g Sampled draw p budget stop = (strats, Some (b1, b2), ran) ->
    (1 <= ran)%N /\
    b1 * sqrt (INR (N.to_nat ran)) <= 2 * D * INR (length (g_infos g true)) * sqrt (INR A) /\
    b2 * sqrt (INR (N.to_nat ran)) <= 2 * D * INR (length (g_infos g false)) * sqrt (INR A).
  Proof. apply (solve_rate_gen g draw p lo hi A HWF Sampled iter_rate_sampled). Qed.
End SampledRateGen.

Theorem sampled_bound_rate (g : gameR) (draw : oracleR) (p : paramsR) (lo hi : R) (A : nat) :
  WFgame g -> PerfectRecall g -> ChanceOK g -> PayoffsIn lo hi (g_root g) ->
  (forall pl, Forall (fun a => (a <= A)%nat) (arities g pl)) ->
  DrawOK (g_chance g) draw ->
  forall budget (stop : R -> bool) strats b1 b2 ran,
  @solve_single RNum g Sampled draw p budget stop = (strats, Some (b1, b2), ran) ->
  (1 <= ran)%N /\
  b1 * sqrt (INR (N.to_nat ran)) <= 2 * (hi - lo) * INR (length (g_infos g true)) * sqrt (INR A) /\
  b2 * sqrt (INR (N.to_nat ran)) <= 2 * (hi - lo) * INR (length (g_infos g false)) * sqrt (INR A).
Proof.
  intros HWF HPR HCO HPay HA HD. apply sampled_bound_rate_gen; try assumption.
  now apply sampled_inc_bounded.
Qed.

Theorem sampled_bound_rate_any_draw (g : gameR) (draw : oracleR) (p : paramsR) (lo hi : R) (A : nat) :
  WFgame g -> PerfectRecall g -> ChanceOK g -> PayoffsIn lo hi (g_root g) ->
  (forall pl, Forall (fun a => (a <= A)%nat) (arities g pl)) ->
  lo <= 0 <= hi ->
  forall budget (stop : R -> bool) strats b1 b2 ran,
  @solve_single RNum g Sampled draw p budget stop = (strats, Some (b1, b2), ran) ->
  (1 <= ran)%N /\
  b1 * sqrt (INR (N.to_nat ran)) <= 2 * (hi - lo) * INR (length (g_infos g true)) * sqrt (INR A) /\
  b2 * sqrt (INR (N.to_nat ran)) <= 2 * (hi - lo) * INR (length (g_infos g false)) * sqrt (INR A).
Proof.
  intros HWF HPR HCO HPay HA H0. apply sampled_bound_rate_gen; try assumption.
  now apply sampled_inc_bounded_zero.
Qed.

Corollary sampled_bound_rate_div (g : gameR) (draw : oracleR) (p : paramsR) (lo hi : R) (A : nat) :
  WFgame g -> PerfectRecall g -> ChanceOK g -> PayoffsIn lo hi (g_root g) ->
  (forall pl, Forall (fun a => (a <= A)%nat) (arities g pl)) ->
  DrawOK (g_chance g) draw \/ lo <= 0 <= hi ->
  forall budget (stop : R -> bool) strats b1 b2 ran,
  @solve_single RNum g Sampled draw p budget stop = (strats, Some (b1, b2), ran) ->
  b1 <= 2 * (hi - lo) * INR (num_infosets g) * sqrt (INR A) / sqrt (INR (N.to_nat ran)) /\
  b2 <= 2 * (hi - lo) * INR (num_infosets g) * sqrt (INR A) / sqrt (INR (N.to_nat ran)).
Proof.
  intros HWF HPR HCO HPay HA HD budget stop strats b1 b2 ran H.
  apply (rate_div_form g lo hi A HWF HCO HPay). destruct HD as [HD|HD].
  - eapply sampled_bound_rate; eauto.
  - eapply sampled_bound_rate_any_draw; eauto.
Qed.

(** matching pennies has no chance node: every oracle is in range *)
Example mp_rate_sampled (draw : oracleR) (p : paramsR) budget (stop : R -> bool) strats b1 b2 ran :
  @solve_single RNum mp_game Sampled draw p budget stop = (strats, Some (b1, b2), ran) ->
  (1 <= ran)%N /\
  b1 * sqrt (INR (N.to_nat ran)) <= 4 * sqrt 2 /\
  b2 * sqrt (INR (N.to_nat ran)) <= 4 * sqrt 2.
Proof.
  intros H.
  assert (HD : DrawOK (g_chance mp_game) draw) by (intros ci pass Hci; cbn in Hci; lia).
  apply mp_rate_const.
  exact (sampled_bound_rate mp_game draw p (-1) 1 2 mp_WF mp_PR mp_ChanceOK mp_Payoffs
           mp_arities HD budget stop strats b1 b2 ran H).
Qed.

(** the game with a chance root of [CfrRate.v]: any oracle that answers 0 or 1 at the root *)
Example seq_rate_sampled (draw : oracleR) (p : paramsR) budget (stop : R -> bool) strats b1 b2 ran :
  (forall pass, (draw true 0%nat pass [1 / 2; 1 / 2]%R < 2)%nat) ->
  @solve_single RNum seq_game Sampled draw p budget stop = (strats, Some (b1, b2), ran) ->
  (1 <= ran)%N /\ b1 * sqrt (INR (N.to_nat ran)) <= 8 * sqrt 2 /\ b2 * sqrt (INR (N.to_nat ran)) <= 0.
Proof.
  intros Hd H.
  assert (HD : DrawOK (g_chance seq_game) draw).
  { intros ci pass Hci. cbn in Hci. destruct ci as [|ci]; [|lia]. cbn. apply Hd. }
  apply seq_rate_const.
  exact (sampled_bound_rate seq_game draw p 0 2 2 seq_WF seq_PR seq_ChanceOK seq_Payoffs
           seq_arities HD budget stop strats b1 b2 ran H).
Qed.

(** an oracle that alternates between the two outcomes; with a positive budget the
    bounds are returned and obey the rate *)
Definition alt_draw : oracleR := fun _ _ pass _ => N.to_nat (pass mod 2)%N.

Example seq_rate_sampled_exists (p : paramsR) budget (stop : R -> bool) :
  budget <> 0%nat ->
  exists strats b1 b2 ran,
    @solve_single RNum seq_game Sampled alt_draw p budget stop = (strats, Some (b1, b2), ran) /\
    b1 * sqrt (INR (N.to_nat ran)) <= 8 * sqrt 2 /\ b2 * sqrt (INR (N.to_nat ran)) <= 0.
Proof.
  intros Hb.
  destruct (solve_single_some seq_game Sampled alt_draw p budget stop Hb)
    as (strats & b1 & b2 & ran & E).
  exists strats, b1, b2, ran. split; [exact E|].
  assert (Hd : forall pass, (alt_draw true 0%nat pass [1 / 2; 1 / 2]%R < 2)%nat).
  { intros pass. unfold alt_draw. pose proof (N.mod_upper_bound pass 2 ltac:(lia)). lia. }
  exact (proj2 (seq_rate_sampled alt_draw p budget stop strats b1 b2 ran Hd E)).
Qed.

(** A game with payoffs in [[5, 6]] and an oracle that always answers 7: the model's 0
    lies outside the payoff range, and after the first iteration the returned bound is
    5 > 2 * (6 - 5) * 1 * sqrt 2.  [out_of_range_draw_breaks_rate] states only that the
    inequality fails; that [bad_game] meets the other hypotheses of [sampled_bound_rate]
    is [bad_WF] ... [bad_arities]. *)
Definition bad_game : gameR :=
  @mkGame RNum [[1 / 2; 1 / 2]] [mkPinfo 0 [0%N; 1%N] None] [] [] []
          (@Player RNum true 0 [@Chance RNum 0 [@Term RNum 5; @Term RNum 6]; @Term RNum 5]).
Definition bad_draw : oracleR := fun _ _ _ _ => 7%nat.

Lemma bad_WF : WFgame bad_game.
Proof.
  split; [|split; [|split; [|split]]].
  - cbn. repeat split; lia.
  - apply WFtables_two_actions; repeat constructor. intros [].
  - apply WFtables_two_actions; constructor.
  - intros pl i h Hin. cbn in Hin. destruct Hin as [E|[]]. injection E as <- <- <-. reflexivity.
  - intros pl i j a Hi Hp. destruct pl; cbn in Hi; [|lia].
    destruct i as [|i]; [|lia]. cbn in Hp. discriminate.
Qed.

Lemma bad_PR : PerfectRecall bad_game.
Proof.
  exists (fun _ _ => []). intros pl i h Hin. cbn in Hin.
  destruct Hin as [E|[]]. injection E as _ _ <-. reflexivity.
Qed.

Lemma bad_ChanceOK : ChanceOK bad_game.
Proof. constructor; [|constructor]. split; [repeat constructor; lra|cbn [Rsum]; lra]. Qed.

Lemma bad_Payoffs : PayoffsIn 5 6 (g_root bad_game).
Proof. cbn. repeat (constructor; try lra). Qed.

Lemma bad_arities pl : Forall (fun a => (a <= 2)%nat) (arities bad_game pl).
Proof. destruct pl; cbn; repeat constructor. Qed.

Lemma bad_iter :
  snd (@vanilla_iter RNum bad_game true bad_draw (@p_vanilla RNum) 1 (@init_state RNum bad_game))
  = (5, 0).
Proof.
  rewrite vanilla_iter_state. cbv zeta. cbn [snd].
  unfold init_state. cbn [bad_game g_chance g_root g_infos1 g_infos2 map pi_actions length].
  lazy -[Rmax Rdiv Rplus Rmult Rminus Ropp INR N.to_nat Rinv IZR].
  replace (INR (N.to_nat 2)) with 2 by (simpl; lra).
  replace (INR (N.to_nat 1)) with 1 by (simpl; lra).
  set (x := 0 + 0 * (1 * 1) - _). set (y := 0 + 5 * (1 * 1) - _).
  assert (Hx : x = - 5 / 2) by (unfold x; lra).
  assert (Hy : y = 5 / 2) by (unfold y; lra).
  rewrite Hx, Hy. rewrite (Rmax_right (- 5 / 2) (5 / 2)) by lra.
  rewrite (Rmax_left (5 / 2) 0) by lra. f_equal. lra.
Qed.

Example out_of_range_draw_breaks_rate (stop : R -> bool) :
  exists strats b1 b2 ran,
    @solve_single RNum bad_game Sampled bad_draw (@p_vanilla RNum) 1 stop
    = (strats, Some (b1, b2), ran) /\
    ~ (b1 * sqrt (INR (N.to_nat ran)) <=
       2 * (6 - 5) * INR (length (g_infos bad_game true)) * sqrt (INR 2)).
Proof.
  rewrite solve_single_loop, loop_S. cbn [one_iter].
  pose proof bad_iter as H.
  destruct (vanilla_iter bad_game true bad_draw p_vanilla 1 (init_state bad_game)) as [st' [r1 r2]].
  cbn [snd] in H. injection H as -> ->.
  assert (Hs : sqrt 2 < sqrt (2 * 2)) by (apply sqrt_lt_1_alt; lra).
  rewrite sqrt_square in Hs by lra.
  assert (Hno : ~ (5 * sqrt (INR (N.to_nat 1)) <=
                   2 * (6 - 5) * INR (length (g_infos bad_game true)) * sqrt (INR 2))).
  { cbn [bad_game g_infos g_infos1 length]. replace (INR (N.to_nat 1)) with 1 by (simpl; lra).
    replace (INR 2) with 2 by (simpl; lra). replace (INR 1) with 1 by (simpl; lra).
    rewrite sqrt_1. lra. }
  destruct (stop _); cbn [solve_loop]; eexists _, 5, 0, 1%N; (split; [reflexivity|exact Hno]).
Qed.

(** with payoffs in [[0, 2]] the rate holds for *every* oracle, in range or not *)
Example seq_rate_sampled_any (draw : oracleR) (p : paramsR) budget (stop : R -> bool) strats b1 b2 ran :
  @solve_single RNum seq_game Sampled draw p budget stop = (strats, Some (b1, b2), ran) ->
  (1 <= ran)%N /\ b1 * sqrt (INR (N.to_nat ran)) <= 8 * sqrt 2 /\ b2 * sqrt (INR (N.to_nat ran)) <= 0.
Proof.
  intros H. apply seq_rate_const.
  exact (sampled_bound_rate_any_draw seq_game draw p 0 2 2 seq_WF seq_PR seq_ChanceOK seq_Payoffs
           seq_arities ltac:(lra) budget stop strats b1 b2 ran H).
Qed.
