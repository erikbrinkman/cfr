(** * CfrRate: the regret bounds returned by the unsampled solver obey the CFR rate.

    Payoffs in [[lo, hi]] ([D = hi - lo]), at most [A] actions per infoset, [N_pl]
    infosets of player [pl]: [b_pl * sqrt ran <= 2 * D * N_pl * sqrt A] for every
    [params] and every stop predicate ([bound_rate_all_params]).

    Stated for any method: a pass followed by [advance] keeps the potential of an
    infoset within [t * A * D^2] ([KI_pass]); the bounds are read off the potentials
    ([list_bound]); the loop preserves both ([solve_rate_gen]). *)
From Coq Require Import Reals List Lra Lia Bool Arith NArith.
From Cfr.theories Require Import Num ListAux RInst Tree GameWF Strat Eval Solve Valid TruncProofs
     SolveValidProofs RulesProofs LoopProofs Incr IterChar RmPotential CfMass.
Import ListNotations.
Open Scope R_scope.

Local Notation nodeR := (@node RNum).
Local Notation gameR := (@game RNum).
Local Notation pstateR := (@pstate RNum).
Local Notation rinfoR := (@rinfo RNum).
Local Notation paramsR := (@params RNum).

Lemma Rsum_le_const (l : list R) (c : R) :
  Forall (fun x => x <= c) l -> Rsum l <= INR (length l) * c.
Proof.
  induction 1 as [|x l Hx H IH]; [cbn [Rsum length INR]; lra|].
  cbn [Rsum length]. rewrite (S_INR (length l)). lra.
Qed.

Lemma sqsum_le (l : list R) (d : R) :
  Forall (fun x => Rabs x <= d) l -> sqsum l <= INR (length l) * (d * d).
Proof.
  intros H. unfold sqsum.
  replace (length l) with (length (map (fun x => x * x) l)) by apply map_length.
  apply Rsum_le_const. apply Forall_forall. intros y Hy.
  apply in_map_iff in Hy as (x & <- & Hx). rewrite Forall_forall in H. specialize (H x Hx).
  pose proof (Rabs_pos x). assert (x * x = Rabs x * Rabs x).
  { unfold Rabs. destruct (Rcase_abs x); lra. }
  nra.
Qed.

Lemma dot_pos_discount (p : paramsR) it (l r : list R) :
  dot (map pos (@discount_cum_regret RNum p it l)) r =
  @gen_discount RNum it (a_pos p) * dot (map pos l) r.
Proof.
  unfold discount_cum_regret. cbv zeta.
  pose proof (gen_discount_range it (a_pos p)) as H1.
  pose proof (gen_discount_range it (a_neg p)) as H2.
  set (f1 := gen_discount it (a_pos p)) in *. set (f2 := gen_discount it (a_neg p)) in *.
  change (ltb RNum) with Rltb. change (zero RNum) with 0. change (mul RNum) with Rmult.
  revert r; induction l as [|x l IH]; intros r; destruct r as [|y r]; cbn [map dot]; try lra.
  rewrite IH, pos_discount by lra. lra.
Qed.

Lemma dot_pos_zeros n (r : list R) : dot (map pos (@repeatT RNum 0 n)) r = 0.
Proof.
  revert r; induction n as [|n IH]; intros r; destruct r as [|y r]; cbn [repeatT map dot];
    try reflexivity. rewrite IH, pos_of_nonpos by lra. lra.
Qed.

Lemma sqpos_zeros n : sqpos (@repeatT RNum 0 n) = 0.
Proof.
  unfold sqpos. induction n as [|n IH]; cbn [repeatT map Rsum]; [reflexivity|].
  rewrite IH, pos_of_nonpos by lra. lra.
Qed.

Lemma vanilla_iter_fst (g : gameR) sampled draw (p : paramsR) it (st : pstateR) :
  fst (@vanilla_iter RNum g sampled draw p it st) =
  let st1 := snd (@vrec RNum (g_chance g) sampled draw (it - 1)%N (g_root g) 1 1 1 st) in
  (map (fun ri => fst (@advance RNum p it it ri)) (fst st1),
   map (fun ri => fst (@advance RNum p it it ri)) (snd st1)).
Proof. rewrite vanilla_iter_eq. cbv zeta. cbn [fst]. now rewrite !advance_all_map. Qed.

Section Rate.
  Context (g : gameR) (draw : @oracle RNum) (p : paramsR) (lo hi : R) (A : nat).
  Context (HWF : WFgame g) (HPR : PerfectRecall g) (HCO : ChanceOK g)
          (HPay : PayoffsIn lo hi (g_root g))
          (HA : forall pl, Forall (fun a => (a <= A)%nat) (arities g pl)).

  Local Notation D := (hi - lo).
  Local Notation IA := (InvA (arities g true) (arities g false)).

  Lemma init_InvA : IA (@init_state RNum g).
  Proof. apply init_state_inv, WFgame_arities_pos, HWF. Qed.

  Lemma D_nonneg : 0 <= D.
  Proof.
    destruct HWF as (HS & _).
    pose proof (shaped_ValShaped g (@init_state RNum g) (g_root g) HCO init_InvA HS) as HV.
    pose proof (uval_range _ _ lo hi _ HV HPay). lra.
  Qed.

  Definition NI (pl : bool) : nat := length (g_infos g pl).

  Lemma IA_len (st : pstateR) pl : IA st -> length (ps_get st pl) = NI pl.
  Proof.
    intros HI.
    assert (HF : Forall2 RInvA (arities g pl) (ps_get st pl)) by (destruct HI; destruct pl; assumption).
    apply Forall2_len in HF. unfold NI. rewrite <- HF. unfold arities. apply map_length.
  Qed.

  Lemma arity_le (st : pstateR) pl i :
    IA st -> (i < length (ps_get st pl))%nat -> (length (strat_view st pl i) <= A)%nat.
  Proof.
    intros HI Hi.
    assert (HF : Forall2 RInvA (arities g pl) (ps_get st pl)) by (destruct HI; destruct pl; assumption).
    pose proof (Forall2_len _ _ _ HF) as HL.
    pose proof (Forall2_nth RInvA _ _ i 0%nat (@mkRinfo RNum [] [] []) HF ltac:(lia)) as H.
    destruct H as (_ & _ & _ & _ & L3). unfold strat_view, ri_get. rewrite L3.
    specialize (HA pl). rewrite Forall_forall in HA. apply HA. apply nth_In. lia.
  Qed.

  (** the potential of an infoset after [t] iterations; the second half says of [strat]
      what the proof needs of regret matching: whatever is orthogonal to it is orthogonal
      to the positive part of the regrets it was computed from *)
  Definition KI (t : nat) (ri : rinfoR) : Prop :=
    sqpos (cum_regret ri) <= INR t * (INR A * (D * D)) /\
    forall r, dot (strat ri) r = 0 -> dot (map pos (cum_regret ri)) r = 0.

  Definition K (t : nat) (st : pstateR) : Prop :=
    IA st /\ forall pl, Forall (KI t) (ps_get st pl).

  Lemma K_init : K 0 (@init_state RNum g).
  Proof.
    split; [apply init_InvA|]. intros pl.
    assert (H : forall infos, Forall (KI 0) (map (fun pi => @rinfo_new RNum (length (pi_actions pi)))
                                                 infos)).
    { intros infos. apply Forall_map, Forall_forall. intros pi _.
      unfold KI, rinfo_new. cbn [cum_regret strat zero RNum]. split.
      - rewrite sqpos_zeros. cbn [INR]. lra.
      - intros r _. apply dot_pos_zeros. }
    destruct pl; apply H.
  Qed.

  (** the increment of a pass is orthogonal to the current strategy [sg pl i], so with
      entries bounded by [D] the potential grows by at most [A * D^2] ([pot_step]);
      discounting does not increase it, regret matching restores the second half *)
  Lemma KI_pass ch sg (st : pstateR) pl i (ri1 : rinfoR) t it ia :
    IA st -> (i < length (ps_get st pl))%nat -> KI t (@ri_get RNum st pl i) ->
    sg pl i = strat_view st pl i ->
    (forall a, (a < length (sg pl i))%nat -> Rabs (cfr_inc ch sg pl i a (g_root g) 1 1 1) <= D) ->
    cum_regret ri1 =
      vadd (cum_regret (@ri_get RNum st pl i)) (cfr_incs ch sg pl i (g_root g) 1 1 1) ->
    strat ri1 = strat (@ri_get RNum st pl i) ->
    KI (S t) (fst (@advance RNum p it ia ri1)).
  Proof.
    intros HI Hi [HK1 HK2] Esg HB E1 E2.
    pose proof (Inv_of_InvA _ _ _ HI) as HInv.
    set (ri := @ri_get RNum st pl i) in *.
    set (r := cfr_incs ch sg pl i (g_root g) 1 1 1) in *.
    assert (Hlr : length r = length (strat ri)).
    { unfold r. now rewrite cfr_incs_length, Esg. }
    assert (Hlc : length (cum_regret ri) = length r).
    { rewrite Hlr. apply (Inv_reg_ok st pl i HInv). }
    assert (Horth : dot (strat ri) r = 0).
    { change (strat ri) with (strat_view st pl i). rewrite <- Esg.
      apply cfr_inc_orthogonal. rewrite Esg. now apply Inv_strat_sum. }
    assert (Hsq : sqsum r <= INR A * (D * D)).
    { apply Rle_trans with (INR (length r) * (D * D)).
      - apply sqsum_le. now apply Forall_cfr_incs.
      - apply Rmult_le_compat_r; [pose proof D_nonneg; nra|]. apply le_INR.
        rewrite Hlr. now apply arity_le. }
    unfold KI, advance. cbn [fst cum_regret strat]. rewrite E1. split.
    - eapply Rle_trans; [apply sqpos_discount|].
      pose proof (pot_step (cum_regret ri) r Hlc (HK2 r Horth)). rewrite S_INR. lra.
    - intros r' Hr'. rewrite dot_pos_discount, (rm_dot p _ _ Hr'). lra.
  Qed.

  Definition Bnd (t : N) (b1 b2 : R) : Prop :=
    b1 * sqrt (INR (N.to_nat t)) <= 2 * D * INR (NI true) * sqrt (INR A) /\
    b2 * sqrt (INR (N.to_nat t)) <= 2 * D * INR (NI false) * sqrt (INR A).

  (** each positive regret is at most [sqrt (it * A) * D] ([max_le_sqrt_potential]) *)
  Lemma info_bound_KI it (ri : rinfoR) :
    (1 <= it)%N -> KI (N.to_nat it) ri ->
    info_bound it ri * sqrt (INR (N.to_nat it)) <= 2 * D * sqrt (INR A).
  Proof.
    intros Hit [HK _]. unfold info_bound. set (t := N.to_nat it) in *.
    assert (Ht : 0 < INR t) by (apply lt_0_INR; unfold t; lia).
    pose proof (sqrt_lt_R0 _ Ht) as Hs. pose proof D_nonneg as HD.
    pose proof (max_le_sqrt_potential (cum_regret ri)) as Hm.
    apply sqrt_le_1_alt in HK.
    rewrite sqrt_mult_alt, sqrt_mult_alt, sqrt_square in HK by (try apply pos_INR; lra).
    set (s := sqrt (INR t)) in *. replace (INR t) with (s * s) by (apply sqrt_sqrt; lra).
    apply Rle_trans with (2 * (s * (sqrt (INR A) * D)) / (s * s) * s); [|right; field; lra].
    apply Rmult_le_compat_r; [lra|]. apply Rmult_le_compat_r; [|lra].
    left. apply Rinv_0_lt_compat. nra.
  Qed.

  Lemma list_bound it (l : list rinfoR) n :
    (1 <= it)%N -> length l = n -> Forall (KI (N.to_nat it)) l ->
    Rsum (map (info_bound it) l) * sqrt (INR (N.to_nat it)) <= 2 * D * INR n * sqrt (INR A).
  Proof.
    intros Hit <- HK. rewrite <- Rsum_map_mult, map_map.
    replace (2 * D * INR (length l) * sqrt (INR A)) with (INR (length l) * (2 * D * sqrt (INR A)))
      by lra.
    rewrite <- (map_length (fun ri => info_bound it ri * sqrt (INR (N.to_nat it))) l).
    apply Rsum_le_const, Forall_map. eapply Forall_impl; [|exact HK]. intros ri. now apply info_bound_KI.
  Qed.

  Lemma K_bound it (st : pstateR) pl :
    (1 <= it)%N -> K (N.to_nat it) st ->
    Rsum (map (info_bound it) (ps_get st pl)) * sqrt (INR (N.to_nat it)) <=
    2 * D * INR (NI pl) * sqrt (INR A).
  Proof.
    intros Hit [HI HK]. apply list_bound; [exact Hit|now apply IA_len|apply HK].
  Qed.

  Lemma iter_rate_vrec sampled ch it (st : pstateR) :
    (forall pl i, reg_ok st pl i ->
       cum_regret (ri_get (snd (@vrec RNum (g_chance g) sampled draw (it - 1)%N (g_root g) 1 1 1 st))
                          pl i) =
       vadd (cum_regret (ri_get st pl i)) (cfr_incs ch (strat_view st) pl i (g_root g) 1 1 1)) ->
    (forall pl i a, (a < length (strat_view st pl i))%nat ->
       Rabs (cfr_inc ch (strat_view st) pl i a (g_root g) 1 1 1) <= D) ->
    (1 <= it)%N -> K (N.to_nat it - 1) st ->
    K (N.to_nat it) (fst (@vanilla_iter RNum g sampled draw p it st)) /\
    Bnd it (fst (snd (@vanilla_iter RNum g sampled draw p it st)))
        (snd (snd (@vanilla_iter RNum g sampled draw p it st))).
  Proof.
    intros Hreg HB Hit [HI HK].
    assert (HK' : K (N.to_nat it) (fst (@vanilla_iter RNum g sampled draw p it st))).
    { split.
      { destruct sampled; [exact (one_iter_inv _ _ g Sampled draw p it st HI)
                          |exact (one_iter_inv _ _ g Full draw p it st HI)]. }
      rewrite vanilla_iter_fst. cbv zeta. intros pl.
      set (st1 := snd (vrec _ _ _ _ _ _ _ _ _)).
      set (f := fun ri => fst (@advance RNum p it it ri)).
      replace (ps_get (map f (fst st1), map f (snd st1)) pl) with (map f (ps_get st1 pl))
        by (now destruct pl).
      apply Forall_map, Forall_ps_get. intros i Hi. unfold st1 in Hi. rewrite vrec_len in Hi.
      replace (N.to_nat it) with (S (N.to_nat it - 1)) by lia.
      apply (KI_pass ch (strat_view st) st pl i); auto.
      - now apply (proj1 (Forall_ps_get _ st pl) (HK pl)).
      - apply Hreg, Inv_reg_ok. now apply (Inv_of_InvA _ _ _ HI).
      - apply vrec_state_strat. }
    split; [exact HK'|]. rewrite (vanilla_iter_bounds g sampled draw p it st). cbn [fst snd].
    split; [exact (K_bound it _ true Hit HK')|exact (K_bound it _ false Hit HK')].
  Qed.

  Section Loop.
    Context (m : method).
    Context (Hiter : forall it (st : pstateR),
                (1 <= it)%N -> K (N.to_nat it - 1) st ->
                K (N.to_nat it) (fst (@one_iter RNum g m draw p it st)) /\
                Bnd it (fst (snd (@one_iter RNum g m draw p it st)))
                    (snd (snd (@one_iter RNum g m draw p it st)))).

    Lemma loop_rate_gen (stop : R -> bool) rem :
      forall it (st : pstateR) regs ran st' b1 b2 ran',
      (1 <= it)%N -> K (N.to_nat it - 1) st ->
      (forall c1 c2, regs = Some (c1, c2) -> (1 <= ran)%N /\ Bnd ran c1 c2) ->
      @solve_loop RNum g m draw p stop rem it st regs ran = (st', Some (b1, b2), ran') ->
      (1 <= ran')%N /\ Bnd ran' b1 b2.
    Proof.
      induction rem as [|r IH]; intros it st regs ran st' b1 b2 ran' Hit HK Hregs H.
      - cbn [solve_loop] in H. injection H as _ -> <-. now apply Hregs.
      - rewrite loop_S in H.
        destruct (Hiter it st Hit HK) as [HK' HB].
        destruct (one_iter g m draw p it st) as [st1 [r1 r2]]. cbn [fst snd] in HK', HB.
        destruct (stop (Rmax r1 r2)).
        + injection H as _ <- <- <-. split; [exact Hit|exact HB].
        + eapply (IH (it + 1)%N st1 (Some (r1, r2)) it); [lia| | |exact H].
          * replace (N.to_nat (it + 1) - 1)%nat with (N.to_nat it) by lia. exact HK'.
          * intros c1 c2 E. injection E as <- <-. split; [exact Hit|exact HB].
    Qed.

    Lemma solve_rate_gen budget (stop : R -> bool) strats b1 b2 ran :
      @solve_single RNum g m draw p budget stop = (strats, Some (b1, b2), ran) ->
      (1 <= ran)%N /\
      b1 * sqrt (INR (N.to_nat ran)) <= 2 * D * INR (length (g_infos g true)) * sqrt (INR A) /\
      b2 * sqrt (INR (N.to_nat ran)) <= 2 * D * INR (length (g_infos g false)) * sqrt (INR A).
    Proof.
      rewrite solve_single_loop.
      destruct (solve_loop _ _ _ _ _ _ _ _ _ _) as [[st regs'] ran'] eqn:E.
      intros H; injection H as _ -> ->.
      apply (loop_rate_gen stop budget 1%N (@init_state RNum g) None 0%N st b1 b2 ran) in E;
        [exact E|lia|exact K_init|intros; discriminate].
    Qed.
  End Loop.

  Lemma iter_rate it (st : pstateR) :
    (1 <= it)%N -> K (N.to_nat it - 1) st ->
    K (N.to_nat it) (fst (@one_iter RNum g Full draw p it st)) /\
    Bnd it (fst (snd (@one_iter RNum g Full draw p it st)))
        (snd (snd (@one_iter RNum g Full draw p it st))).
  Proof.
    intros Hit HK. apply (iter_rate_vrec false (g_chance g)); auto.
    - intros pl i. apply vrec_state_regret.
    - intros pl i a. now apply cfr_inc_bounded; [| | |destruct HK|].
  Qed.

  Theorem bound_rate_all_params budget (stop : R -> bool) strats b1 b2 ran :
    @solve_single RNum g Full draw p budget stop = (strats, Some (b1, b2), ran) ->
    (1 <= ran)%N /\
    b1 * sqrt (INR (N.to_nat ran)) <= 2 * D * INR (length (g_infos g true)) * sqrt (INR A) /\
    b2 * sqrt (INR (N.to_nat ran)) <= 2 * D * INR (length (g_infos g false)) * sqrt (INR A).
  Proof. exact (solve_rate_gen Full iter_rate budget stop strats b1 b2 ran). Qed.

  Lemma rate_num_infosets pl b s :
    0 <= s -> b * s <= 2 * D * INR (length (g_infos g pl)) * sqrt (INR A) ->
    b * s <= 2 * D * INR (num_infosets g) * sqrt (INR A).
  Proof.
    intros Hs H. pose proof D_nonneg as HD. pose proof (sqrt_pos (INR A)) as HsA.
    assert (HN : INR (length (g_infos g pl)) <= INR (num_infosets g)).
    { apply le_INR. unfold num_infosets. destruct pl; cbn [g_infos]; lia. }
    assert (HDA : 0 <= 2 * D * sqrt (INR A)) by nra. nra.
  Qed.

  Lemma rate_div_form (b1 b2 : R) (ran : N) :
    (1 <= ran)%N /\
    b1 * sqrt (INR (N.to_nat ran)) <= 2 * D * INR (length (g_infos g true)) * sqrt (INR A) /\
    b2 * sqrt (INR (N.to_nat ran)) <= 2 * D * INR (length (g_infos g false)) * sqrt (INR A) ->
    b1 <= 2 * D * INR (num_infosets g) * sqrt (INR A) / sqrt (INR (N.to_nat ran)) /\
    b2 <= 2 * D * INR (num_infosets g) * sqrt (INR A) / sqrt (INR (N.to_nat ran)).
  Proof.
    intros (Hr & H1 & H2).
    assert (Ht : 0 < INR (N.to_nat ran)) by (apply lt_0_INR; lia).
    assert (Hs : 0 < sqrt (INR (N.to_nat ran))) by (now apply sqrt_lt_R0).
    apply rate_num_infosets in H1, H2; try lra.
    split; apply (Rmult_le_reg_r (sqrt (INR (N.to_nat ran)))); try assumption;
      unfold Rdiv; now rewrite Rmult_assoc, Rinv_l, Rmult_1_r by lra.
  Qed.

  Corollary bound_rate_div budget (stop : R -> bool) strats b1 b2 ran :
    @solve_single RNum g Full draw p budget stop = (strats, Some (b1, b2), ran) ->
    b1 <= 2 * D * INR (num_infosets g) * sqrt (INR A) / sqrt (INR (N.to_nat ran)) /\
    b2 <= 2 * D * INR (num_infosets g) * sqrt (INR A) / sqrt (INR (N.to_nat ran)).
  Proof. intros H. apply rate_div_form. exact (bound_rate_all_params _ _ _ _ _ _ H). Qed.

  Corollary bound_at_rate t b :
    bound_at g Full draw p t = Some b ->
    b * sqrt (INR t) <= 2 * D * INR (num_infosets g) * sqrt (INR A).
  Proof.
    unfold bound_at.
    destruct (@solve_single RNum g Full draw p t never) as [[strats regs] ran] eqn:E.
    cbn [fst snd]. destruct regs as [[b1 b2]|]; [|discriminate].
    cbn [regs_bound]. intros H; injection H as <-.
    pose proof (solve_single_never_ran g Full draw p t) as Hr. rewrite E in Hr. cbn [snd] in Hr.
    subst ran.
    destruct (bound_rate_all_params t never strats b1 b2 _ E) as (_ & H1 & H2).
    rewrite Nat2N.id in H1, H2. pose proof (sqrt_pos (INR t)) as Hs.
    apply rate_num_infosets in H1, H2; try assumption.
    unfold Rmax. now destruct (Rle_dec b1 b2).
  Qed.
End Rate.

Theorem bound_rate_vanilla (g : gameR) draw (lo hi : R) (A : nat) budget (stop : R -> bool)
        strats b1 b2 ran :
  WFgame g -> PerfectRecall g -> ChanceOK g -> PayoffsIn lo hi (g_root g) ->
  (forall pl, Forall (fun a => (a <= A)%nat) (arities g pl)) ->
  @solve_single RNum g Full draw (@p_vanilla RNum) budget stop = (strats, Some (b1, b2), ran) ->
  (1 <= ran)%N /\
  b1 * sqrt (INR (N.to_nat ran)) <= 2 * (hi - lo) * INR (length (g_infos g true)) * sqrt (INR A) /\
  b2 * sqrt (INR (N.to_nat ran)) <= 2 * (hi - lo) * INR (length (g_infos g false)) * sqrt (INR A).
Proof. intros HWF HPR HCO HP HA. now apply bound_rate_all_params. Qed.

Theorem bound_rate_vanilla_div (g : gameR) draw (lo hi : R) (A : nat) budget (stop : R -> bool)
        strats b1 b2 ran :
  WFgame g -> PerfectRecall g -> ChanceOK g -> PayoffsIn lo hi (g_root g) ->
  (forall pl, Forall (fun a => (a <= A)%nat) (arities g pl)) ->
  @solve_single RNum g Full draw (@p_vanilla RNum) budget stop = (strats, Some (b1, b2), ran) ->
  b1 <= 2 * (hi - lo) * INR (num_infosets g) * sqrt (INR A) / sqrt (INR (N.to_nat ran)) /\
  b2 <= 2 * (hi - lo) * INR (num_infosets g) * sqrt (INR A) / sqrt (INR (N.to_nat ran)).
Proof. intros HWF HPR HCO HP HA. now apply bound_rate_div. Qed.

(** non-vacuity: with a positive budget the bounds are returned *)
Lemma solve_single_some (g : gameR) m draw (p : paramsR) budget (stop : R -> bool) :
  budget <> 0%nat ->
  exists strats b1 b2 ran, @solve_single RNum g m draw p budget stop = (strats, Some (b1, b2), ran).
Proof.
  intros Hb. destruct (@solve_single RNum g m draw p budget stop) as [[strats regs] ran] eqn:E.
  pose proof (solve_single_shape g m draw p budget stop) as HS.
  cbv zeta in HS. rewrite E in HS. cbn [fst snd] in HS. destruct HS as (HS & _).
  destruct regs as [[b1 b2]|]; [now exists strats, b1, b2, ran|]. exfalso. now apply Hb, HS.
Qed.

Lemma WFtables_two_actions (infos : list pinfo) :
  NoDup (map pi_name infos) -> Forall (fun pi => pi_actions pi = [0%N; 1%N]) infos ->
  WFtables infos [].
Proof.
  intros Hn Ha. split; [now rewrite app_nil_r|].
  eapply Forall_impl; [|exact Ha]. intros pi ->. cbn [length]. split; [|lia].
  constructor; [intros [H|[]]; discriminate|]. constructor; [intros []|constructor].
Qed.

(** *** matching pennies ([mp_game]): D = 2, one infoset per player, two actions *)
Lemma mp_WF : WFgame mp_game.
Proof.
  assert (HT : WFtables [mkPinfo 0 [0%N; 1%N] None] []).
  { apply WFtables_two_actions; repeat constructor. intros []. }
  split; [|split; [|split; [|split]]]; try exact HT.
  - cbn. repeat split; lia.
  - intros pl i h Hin. cbn in Hin.
    destruct Hin as [E|[E|[E|[]]]]; injection E as <- <- <-; reflexivity.
  - intros pl i j a Hi Hp. destruct pl; cbn in Hi; destruct i as [|i]; try lia;
      cbn in Hp; discriminate.
Qed.

Lemma mp_PR : PerfectRecall mp_game.
Proof.
  exists (fun _ _ => []). intros pl i h Hin. cbn in Hin.
  destruct Hin as [E|[E|[E|[]]]]; injection E as _ _ <-; reflexivity.
Qed.

Lemma mp_ChanceOK : ChanceOK mp_game.
Proof. constructor. Qed.

Lemma mp_Payoffs : PayoffsIn (-1) 1 (g_root mp_game).
Proof. cbn. repeat (constructor; try lra). Qed.

Lemma mp_arities pl : Forall (fun a => (a <= 2)%nat) (arities mp_game pl).
Proof. destruct pl; cbn; repeat constructor. Qed.

Lemma mp_rate_const (P : Prop) (x y : R) :
  P /\ x <= 2 * (1 - -1) * INR (length (g_infos mp_game true)) * sqrt (INR 2) /\
       y <= 2 * (1 - -1) * INR (length (g_infos mp_game false)) * sqrt (INR 2) ->
  P /\ x <= 4 * sqrt 2 /\ y <= 4 * sqrt 2.
Proof.
  cbn [mp_game g_infos g_infos1 g_infos2 length INR].
  replace (sqrt (1 + 1)) with (sqrt 2) by (f_equal; lra). intros (HP & H1 & H2).
  split; [exact HP|]. split; lra.
Qed.

Example mp_rate draw budget (stop : R -> bool) strats b1 b2 ran :
  @solve_single RNum mp_game Full draw (@p_vanilla RNum) budget stop = (strats, Some (b1, b2), ran) ->
  (1 <= ran)%N /\
  b1 * sqrt (INR (N.to_nat ran)) <= 4 * sqrt 2 /\
  b2 * sqrt (INR (N.to_nat ran)) <= 4 * sqrt 2.
Proof.
  intros H. apply mp_rate_const.
  exact (bound_rate_vanilla mp_game draw (-1) 1 2 budget stop strats b1 b2 ran
           mp_WF mp_PR mp_ChanceOK mp_Payoffs mp_arities H).
Qed.

Example mp_rate_exists draw budget (stop : R -> bool) :
  budget <> 0%nat ->
  exists strats b1 b2 ran,
    @solve_single RNum mp_game Full draw (@p_vanilla RNum) budget stop = (strats, Some (b1, b2), ran) /\
    b1 * sqrt (INR (N.to_nat ran)) <= 4 * sqrt 2 /\ b2 * sqrt (INR (N.to_nat ran)) <= 4 * sqrt 2.
Proof.
  intros Hb.
  destruct (solve_single_some mp_game Full draw (@p_vanilla RNum) budget stop Hb)
    as (strats & b1 & b2 & ran & E).
  exists strats, b1, b2, ran. split; [exact E|].
  exact (proj2 (mp_rate draw budget stop strats b1 b2 ran E)).
Qed.

(** *** a game with chance and two successive infosets of player one *)
Definition seq_game : gameR :=
  @mkGame RNum [[1 / 2; 1 / 2]]
          [mkPinfo 0 [0%N; 1%N] None; mkPinfo 1 [0%N; 1%N] (Some (0%nat, 0%nat))] [] [] []
          (@Chance RNum 0
             [@Player RNum true 0 [@Player RNum true 1 [@Term RNum 1; @Term RNum 0]; @Term RNum 0];
              @Player RNum true 0 [@Player RNum true 1 [@Term RNum 0; @Term RNum 2]; @Term RNum 1]]).

Lemma seq_WF : WFgame seq_game.
Proof.
  split; [|split; [|split; [|split]]].
  - cbn. repeat split; lia.
  - apply WFtables_two_actions; [|repeat constructor].
    constructor; [intros [H|[]]; discriminate|]. constructor; [intros []|constructor].
  - apply WFtables_two_actions; constructor.
  - intros pl i h Hin. cbn in Hin.
    destruct Hin as [E|[E|[E|[E|[]]]]]; injection E as <- <- <-; reflexivity.
  - intros pl i j a Hi Hp. destruct pl; cbn in Hi; [|lia].
    destruct i as [|[|i]]; try lia; cbn in Hp; [discriminate|].
    injection Hp as <- <-. lia.
Qed.

Lemma seq_PR : PerfectRecall seq_game.
Proof.
  exists (fun _ i => match i with O => [] | _ => [(0%nat, 0%nat)] end).
  intros pl i h Hin. cbn in Hin.
  destruct Hin as [E|[E|[E|[E|[]]]]]; injection E as _ <- <-; reflexivity.
Qed.

Lemma seq_ChanceOK : ChanceOK seq_game.
Proof.
  constructor; [|constructor]. split; [repeat constructor; lra|cbn [Rsum]; lra].
Qed.

Lemma seq_Payoffs : PayoffsIn 0 2 (g_root seq_game).
Proof. cbn. repeat (constructor; try lra). Qed.

Lemma seq_arities pl : Forall (fun a => (a <= 2)%nat) (arities seq_game pl).
Proof. destruct pl; cbn; repeat constructor. Qed.

Lemma seq_rate_const (P : Prop) (x y : R) :
  P /\ x <= 2 * (2 - 0) * INR (length (g_infos seq_game true)) * sqrt (INR 2) /\
       y <= 2 * (2 - 0) * INR (length (g_infos seq_game false)) * sqrt (INR 2) ->
  P /\ x <= 8 * sqrt 2 /\ y <= 0.
Proof.
  cbn [seq_game g_infos g_infos1 g_infos2 length INR].
  replace (sqrt (1 + 1)) with (sqrt 2) by (f_equal; lra). intros (HP & H1 & H2).
  split; [exact HP|]. split; lra.
Qed.

Example seq_rate draw (p : paramsR) budget (stop : R -> bool) strats b1 b2 ran :
  @solve_single RNum seq_game Full draw p budget stop = (strats, Some (b1, b2), ran) ->
  (1 <= ran)%N /\ b1 * sqrt (INR (N.to_nat ran)) <= 8 * sqrt 2 /\ b2 * sqrt (INR (N.to_nat ran)) <= 0.
Proof.
  intros H. apply seq_rate_const.
  exact (bound_rate_all_params seq_game draw p 0 2 2 seq_WF seq_PR seq_ChanceOK seq_Payoffs
           seq_arities budget stop strats b1 b2 ran H).
Qed.
