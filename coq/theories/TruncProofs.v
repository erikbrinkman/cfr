(** * TruncProofs: [Strategies::truncate] keeps a valid profile and only removes
    small actions (property C18).  All statements are about the real-number
    instance; the threshold is generalised to an arbitrary *monotone* predicate
    [above] on probabilities, which covers every f64 threshold: a finite [h]
    ([above p := h < p]), [-inf] (constantly true), [+inf] and NaN (constantly
    false). *)
From Coq Require Import Reals List Lra Lia Bool Arith.
From Cfr.theories Require Import Num RInst Tree Strat Valid.
Import ListNotations.
Open Scope R_scope.

Definition mono (above : R -> bool) : Prop :=
  forall p q, above p = true -> p <= q -> above q = true.

Lemma mono_thr h : mono (fun p => Rltb h p).
Proof. intros p q H Hq. apply Rltb_true in H. apply Rltb_true. lra. Qed.
Lemma mono_true : mono (fun _ => true).   Proof. intros p q H _; exact H. Qed.
Lemma mono_false : mono (fun _ => false). Proof. intros p q H _; exact H. Qed.

Lemma Rsum_filter_le (f : R -> bool) l :
  Forall (fun x => 0 <= x) l -> 0 <= Rsum (filter f l) <= Rsum l.
Proof.
  induction 1 as [|x l Hx Hl IH]; cbn [filter Rsum]; [lra|].
  destruct (f x); cbn [Rsum]; lra.
Qed.

Lemma Rsum_trunc (f : R -> bool) c l :
  Rsum (map (fun p => if f p then p / c else 0) l) = Rsum (filter f l) / c.
Proof.
  induction l as [|x l IH]; cbn [map filter Rsum]; [unfold Rdiv; lra|].
  rewrite IH. destruct (f x); cbn [Rsum]; unfold Rdiv; lra.
Qed.

Lemma Rsum_filter_all (f : R -> bool) l :
  (forall x, In x l -> f x = true) -> filter f l = l.
Proof.
  induction l as [|x l IH]; intros H; cbn [filter]; [reflexivity|].
  rewrite (H x (or_introl eq_refl)), IH; [reflexivity|]. intros y Hy; apply H; now right.
Qed.

Lemma Rsum_ge_In x l : Forall (fun x => 0 <= x) l -> In x l -> x <= Rsum l.
Proof.
  induction 1 as [|y l Hy Hl IH]; intros Hin; [destruct Hin|].
  pose proof (Rsum_nonneg l Hl). cbn [Rsum]. destruct Hin as [->|Hin]; [lra|]. specialize (IH Hin); lra.
Qed.

Lemma Rsum_filter_pos_all (f : R -> bool) l :
  Forall (fun x => 0 <= x) l ->
  (forall x, In x l -> 0 < x -> f x = true) -> Rsum (filter f l) = Rsum l.
Proof.
  induction 1 as [|x l Hx Hl IH]; intros H; cbn [filter Rsum]; [reflexivity|].
  assert (IH' : Rsum (filter f l) = Rsum l) by (apply IH; intros y Hy; apply H; now right).
  destruct (f x) eqn:E; cbn [Rsum]; [lra|].
  destruct Hx as [Hp| <-]; [rewrite (H x (or_introl eq_refl) Hp) in E; discriminate|lra].
Qed.

Section Trunc.
  Local Notation trunc := (@truncate_row_by RNum).

  Lemma trunc_unfold (above : R -> bool) (row : list R) :
    trunc above row =
    let total := Rsum (filter above row) in
    if Rltb 0 total then map (fun p => if above p then p / total else 0) row else row.
  Proof. unfold truncate_row_by. cbn. rewrite sum_Rsum. reflexivity. Qed.

  Lemma trunc_length (above : R -> bool) (row : list R) : length (trunc above row) = length row.
  Proof.
    rewrite trunc_unfold; cbv zeta. destruct (Rltb 0 _); [apply map_length|reflexivity].
  Qed.

  (** C18.1 on one infoset: the result is a distribution, for *any* predicate *)
  Lemma trunc_valid (above : R -> bool) (row : list R) : VRow row -> VRow (trunc above row).
  Proof.
    intros [Hnn Hs]. rewrite trunc_unfold; cbv zeta.
    destruct (Rltb 0 _) eqn:E; [|split; assumption].
    apply Rltb_true in E. split.
    - rewrite Forall_map. eapply Forall_impl; [|exact Hnn]. intros x Hx.
      destruct (above x); [now apply Rle_mult_inv_pos|lra].
    - rewrite Rsum_trunc. unfold Rdiv. apply Rinv_r. lra.
  Qed.

  Lemma kept_total_pos (above : R -> bool) (row : list R) :
    mono above -> VRow row -> (exists p, In p row /\ above p = true) ->
    0 < Rsum (filter above row).
  Proof.
    intros Hm [Hnn Hs] (p & Hp & Ha).
    pose proof Hnn as Hnn'. rewrite Forall_forall in Hnn'. pose proof (Hnn' p Hp) as [Hpos| <-].
    - pose proof (Rsum_ge_In p _ (incl_Forall (incl_filter above row) Hnn)) as H.
      rewrite filter_In in H. specialize (H (conj Hp Ha)). lra.
    - rewrite Rsum_filter_all; [lra|]. intros x Hx. apply (Hm 0); [assumption|now apply Hnn'].
  Qed.

  (** C18.2a: where some action exceeds the threshold, exactly those actions remain,
      rescaled proportionally *)
  Lemma trunc_support (above : R -> bool) (row : list R) :
    mono above -> VRow row -> (exists p, In p row /\ above p = true) ->
    let total := Rsum (filter above row) in
    0 < total /\
    trunc above row = map (fun p => if above p then p / total else 0) row.
  Proof.
    intros Hm Hv Hex total. pose proof (kept_total_pos above row Hm Hv Hex) as Hpos.
    split; [exact Hpos|]. rewrite trunc_unfold; cbv zeta.
    fold total. destruct (Rltb 0 total) eqn:E; [reflexivity|]. apply Rltb_false in E. unfold total in E. lra.
  Qed.

  (** C18.2b: an infoset in which no action exceeds the threshold is unchanged *)
  Lemma trunc_none (above : R -> bool) (row : list R) :
    (forall p, In p row -> above p = false) -> trunc above row = row.
  Proof.
    intros H. rewrite trunc_unfold; cbv zeta.
    assert (filter above row = []) as ->.
    { induction row as [|x l IH]; cbn [filter]; [reflexivity|].
      rewrite (H x (or_introl eq_refl)). apply IH. intros p Hp; apply H; now right. }
    cbn [Rsum]. destruct (Rltb 0 0) eqn:E; [|reflexivity]. apply Rltb_true in E; lra.
  Qed.

  (** C18.3: a threshold below every positive probability changes nothing *)
  Lemma trunc_small (above : R -> bool) (row : list R) :
    VRow row -> (forall p, In p row -> 0 < p -> above p = true) -> trunc above row = row.
  Proof.
    intros [Hnn Hs] H. rewrite trunc_unfold; cbv zeta.
    rewrite (Rsum_filter_pos_all above row Hnn H), Hs.
    destruct (Rltb 0 1) eqn:E; [|reflexivity].
    rewrite <- (map_id row) at 2. apply map_ext_in. intros p Hp.
    destruct (above p) eqn:Ea; [field|].
    rewrite Forall_forall in Hnn.
    destruct (Hnn p Hp) as [Hpos| <-]; [rewrite (H p Hp Hpos) in Ea; discriminate|reflexivity].
  Qed.

  (** C18.4: truncating twice equals truncating once *)
  Lemma trunc_idem (above : R -> bool) (row : list R) :
    mono above -> VRow row -> trunc above (trunc above row) = trunc above row.
  Proof.
    intros Hm [Hnn Hs]. pose proof (trunc_unfold above row) as Heq. cbv zeta in Heq.
    set (total := Rsum (filter above row)) in *.
    destruct (Rltb 0 total) eqn:E; [|now rewrite !Heq]. apply Rltb_true in E.
    assert (Htot1 : total <= 1) by (pose proof (Rsum_filter_le above row Hnn); unfold total; lra).
    apply trunc_small; [now apply trunc_valid|].
    (* a kept entry only grows when divided by a total of at most one, so stays above *)
    rewrite Heq. intros q Hq Hqpos. apply in_map_iff in Hq as (p & <- & Hp).
    destruct (above p) eqn:Ea; [|lra]. apply (Hm p); [assumption|].
    assert (p / total * total = p) by (field; lra). nra.
  Qed.
End Trunc.

Lemma length_concat_nsum {A} (rows : list (list A)) :
  length (concat rows) = nsum (map (@length A) rows).
Proof.
  induction rows as [|r rows IH]; [reflexivity|].
  cbn [concat map nsum fold_right]. fold (nsum (map (@length A) rows)). now rewrite app_length, IH.
Qed.

Section Flat.
  Definition truncR_flat (above : R -> bool) (ars : list nat) (flat : list R) : list R :=
    concat (map (@truncate_row_by RNum above) (split_by flat ars)).

  Lemma truncate_flat_is h ars flat :
    @truncate_flat RNum h ars flat = truncR_flat (fun p => Rltb h p) ars flat.
  Proof. reflexivity. Qed.

  Lemma trunc_flat_split (above : R -> bool) ars (flat : list R) :
    length flat = nsum ars ->
    split_by (truncR_flat above ars flat) ars =
    map (@truncate_row_by RNum above) (split_by flat ars).
  Proof.
    intros H. unfold truncR_flat.
    rewrite <- (split_by_length flat ars H) at 2.
    rewrite <- (length_concat_map (@truncate_row_by RNum above)) by apply trunc_length.
    apply split_by_concat.
  Qed.

  Lemma trunc_flat_length (above : R -> bool) ars (flat : list R) :
    length flat = nsum ars -> length (truncR_flat above ars flat) = nsum ars.
  Proof.
    intros H. unfold truncR_flat.
    rewrite length_concat_nsum, length_concat_map by apply trunc_length. now rewrite split_by_length.
  Qed.

  Theorem trunc_flat_valid (above : R -> bool) ars (flat : list R) :
    VFlat ars flat -> VFlat ars (truncR_flat above ars flat).
  Proof.
    intros [Hl Hv]. split; [now apply trunc_flat_length|].
    rewrite trunc_flat_split by assumption.
    rewrite Forall_map. eapply Forall_impl; [|exact Hv]. intros r; apply trunc_valid.
  Qed.

  Theorem trunc_flat_idem (above : R -> bool) ars (flat : list R) :
    mono above -> VFlat ars flat ->
    truncR_flat above ars (truncR_flat above ars flat) = truncR_flat above ars flat.
  Proof.
    intros Hm [Hl Hv]. unfold truncR_flat at 1. rewrite trunc_flat_split by assumption.
    unfold truncR_flat. f_equal. rewrite map_map. apply map_ext_in.
    intros r Hr. rewrite Forall_forall in Hv. apply trunc_idem; auto.
  Qed.

  Theorem trunc_flat_small (above : R -> bool) ars (flat : list R) :
    VFlat ars flat -> (forall p, In p flat -> 0 < p -> above p = true) ->
    truncR_flat above ars flat = flat.
  Proof.
    intros [Hl Hv] H. unfold truncR_flat.
    rewrite <- (concat_split_by flat ars Hl) at 2. f_equal.
    rewrite <- (map_id (split_by flat ars)) at 2. apply map_ext_in.
    intros r Hr. rewrite Forall_forall in Hv. apply trunc_small; [auto|].
    intros p Hp. apply H. rewrite <- (concat_split_by flat ars Hl). apply in_concat. eauto.
  Qed.
End Flat.
