(** * AvgRealisation: the average strategy returned by the solver realises the weighted
    average of the per-iteration strategies (property C02, part 2).

    For a player with perfect recall, against *any* opponent table [tau], when the
    cumulative strategy is discounted by positive factors [e t] and [w t = 1 / (e 1 * ... * e t)]:
    [u(avg, tau) = sum_t w_t u(sigma^t, tau) / sum_t w_t].

    [avg_abstract] proves this for any weighted family of tables and any table [A] that
    satisfies the averaging equation [AvgEq] at every infoset; [dsinc_reach]: the traversal
    adds to [cum_strat] (number of nodes of the infoset) x (own reach of its history), hence
    [avg_strat] of [cum_strat] satisfies that equation ([avg_eq_traj]).  [wavg_realisation]
    is the theorem, [avg_realisation] the vanilla solve ([e t = 1]). *)
From Coq Require Import Reals List Lra Lia Bool Arith NArith.
From Cfr.theories Require Import Num RInst Tree GameWF Strat Eval Solve Valid
     SolveValidProofs Incr IterChar EvalSpec CfrSpec LcfrSpec Decomposition.
Import ListNotations.
Open Scope R_scope.

Local Notation node := (@node RNum).
Local Notation game := (@game RNum).
Local Notation incr := (@incr RNum).
Local Notation oracle := (@oracle RNum).
Local Notation params := (@params RNum).

(** own reach probability of a history under a strategy table *)
Definition ppi (tbl : list (list R)) (h : hist) : R :=
  fold_right (fun ia acc => prob tbl (fst ia) (snd ia) * acc) 1 h.

Lemma ppi_app tbl h i a : ppi tbl (h ++ [(i, a)]) = ppi tbl h * prob tbl i a.
Proof.
  induction h as [|x h IH]; cbn [app ppi fold_right fst snd]; [lra|].
  fold (ppi tbl (h ++ [(i, a)])). fold (ppi tbl h). rewrite IH. lra.
Qed.

Lemma ppi_nonneg tbl h : (forall i a, 0 <= prob tbl i a) -> 0 <= ppi tbl h.
Proof.
  intros Hp. induction h as [|x h IH]; cbn [ppi fold_right]; [lra|].
  fold (ppi tbl h). apply Rmult_le_pos; auto.
Qed.

Definition PRwit_me (g : game) (me : bool) (H : bool -> nat -> hist) : Prop :=
  forall i h, In (me, i, h) (@hists RNum (g_root g) [] []) -> h = H me i.

Section Abstract.
  Context (chance : list (list R)) (me : bool) (tau : list (list R)).
  Context (T : nat) (w : nat -> R) (sig : nat -> list (list R)) (A : list (list R)).
  Context (H : bool -> nat -> hist).

  Definition U (own : list (list R)) : node -> R :=
    u chance (if me then own else tau) (if me then tau else own).

  Lemma U_tbl_me own : (if me then (if me then own else tau) else (if me then tau else own)) = own.
  Proof. destruct me; reflexivity. Qed.
  Lemma U_tbl_other own pl :
    pl <> me -> (if pl then (if me then own else tau) else (if me then tau else own)) = tau.
  Proof. destruct me, pl; try congruence; reflexivity. Qed.

  Definition Ih (h : hist) : Prop :=
    Rsumn T w * ppi A h = Rsumn T (fun t => w t * ppi (sig t) h).

  (** the averaging equation at infoset [i], action [b] *)
  Definition AvgEq (i b : nat) : Prop :=
    Rsumn T (fun t => w t * ppi (sig t) (H me i)) * prob A i b =
    Rsumn T (fun t => w t * ppi (sig t) (H me i) * prob (sig t) i b).

  Definition Good (x : hentry) : Prop :=
    let '(pl, i, h) := x in pl = me -> h = H me i /\ forall b, AvgEq i b.

  Lemma avg_node : forall n h1 h2,
    allp (fun _ _ => True) (fun _ _ _ => True) n -> HSub Good n h1 h2 -> Ih (hme me h1 h2) ->
    Rsumn T w * ppi A (hme me h1 h2) * U A n =
    Rsumn T (fun t => w t * ppi (sig t) (hme me h1 h2) * U (sig t) n).
  Proof.
    refine (hist_ind _ _ Good _ _ _ _).
    - intros x h1 h2 HI. unfold U, Ih in *. cbn [u]. rewrite HI, Rmult_comm, <- Rsumn_scal.
      apply Rsumn_ext. intros t _. lra.
    - intros ci kids h1 h2 _ IH HI. unfold U. rewrite u_Chance_n. rewrite <- Rsumn_scal.
      rewrite (Rsumn_ext _ _ (fun b => Rsumn T (fun t => nth b (rowR chance ci) 0 *
                                (w t * ppi (sig t) (hme me h1 h2) * U (sig t) (nth b kids d0))))).
      + rewrite Rsumn_exchange. apply Rsumn_ext. intros t _.
        rewrite u_Chance_n, <- Rsumn_scal. apply Rsumn_ext. intros b _. unfold U. lra.
      + intros b Hb. rewrite Rsumn_scal, <- (IH b Hb HI). unfold U. lra.
    - intros pl j kids h1 h2 _ Hg IH HI. destruct (Bool.bool_dec pl me) as [Epl|Npl].
      + subst pl. destruct (Hg eq_refl) as [Hh Havg].
        change (if me then h1 else h2) with (hme me h1 h2) in Hh.
        unfold U. rewrite u_Player_n, U_tbl_me, <- Rsumn_scal.
        rewrite (Rsumn_ext _ _ (fun b => Rsumn T (fun t =>
                    w t * ppi (sig t) (hme me h1 h2 ++ [(j, b)]) * U (sig t) (nth b kids d0)))).
        * rewrite Rsumn_exchange. apply Rsumn_ext. intros t _. unfold U.
          rewrite u_Player_n, U_tbl_me, <- Rsumn_scal. apply Rsumn_ext. intros b _.
          rewrite ppi_app. lra.
        * intros b Hb.
          assert (HIb : Ih (hme me h1 h2 ++ [(j, b)])).
          { unfold Ih, AvgEq in *. rewrite ppi_app, <- Rmult_assoc, HI, Hh, (Havg b).
            apply Rsumn_ext. intros t _. rewrite ppi_app. lra. }
          pose proof (IH b Hb) as E. rewrite hme_ext_same in E.
          rewrite <- (E HIb), ppi_app. unfold U. lra.
      + unfold U. rewrite u_Player_n, (U_tbl_other A pl Npl), <- Rsumn_scal.
        rewrite (Rsumn_ext _ _ (fun b => Rsumn T (fun t => prob tau j b *
                                  (w t * ppi (sig t) (hme me h1 h2) * U (sig t) (nth b kids d0))))).
        * rewrite Rsumn_exchange. apply Rsumn_ext. intros t _. unfold U.
          rewrite u_Player_n, (U_tbl_other (sig t) pl Npl), <- Rsumn_scal.
          apply Rsumn_ext. intros b _. lra.
        * intros b Hb. rewrite Rsumn_scal.
          pose proof (IH b Hb) as E. rewrite (hme_ext_other me pl j b h1 h2 Npl) in E.
          rewrite <- (E HI). unfold U. lra.
  Qed.

  Theorem avg_abstract (root : node) :
    HSub Good root [] [] ->
    Rsumn T w * U A root = Rsumn T (fun t => w t * U (sig t) root).
  Proof.
    intros HS.
    assert (HI : Ih (hme me [] [])).
    { unfold Ih. replace (hme me [] []) with (@nil (nat * nat)) by (destruct me; reflexivity).
      cbn [ppi fold_right]. rewrite Rmult_1_r. apply Rsumn_ext. intros; lra. }
    pose proof (avg_node root [] [] (allp_True root) HS HI) as E.
    replace (hme me [] []) with (@nil (nat * nat)) in E by (destruct me; reflexivity).
    cbn [ppi fold_right] in E. rewrite Rmult_1_r in E. rewrite E.
    apply Rsumn_ext. intros; lra.
  Qed.
End Abstract.

Section Cnt.
  Context (me : bool) (i : nat).

  (** number of nodes of infoset [(me, i)] in a subtree *)
  Fixpoint cnt (n : node) : R :=
    match n with
    | Term _ => 0
    | Chance _ kids => Rsum (map cnt kids)
    | Player pl j kids =>
        (if Bool.eqb pl me && Nat.eqb j i then 1 else 0) + Rsum (map cnt kids)
    end.

  Lemma Rsum_map_nonneg {A} (f : A -> R) l : Forall (fun x => 0 <= f x) l -> 0 <= Rsum (map f l).
  Proof. induction 1 as [|x l Hx _ IH]; cbn [map Rsum]; lra. Qed.

  Lemma Rsum_map_ge_in {A} (f : A -> R) l k :
    Forall (fun x => 0 <= f x) l -> In k l -> f k <= Rsum (map f l).
  Proof.
    induction 1 as [|x l Hx Hl IH]; intros Hin; [destruct Hin|].
    cbn [map Rsum]. pose proof (Rsum_map_nonneg f l Hl).
    destruct Hin as [->|Hin]; [lra|]. specialize (IH Hin). lra.
  Qed.

  Lemma hists_c_in h1 h2 ks x :
    In x (hists_c h1 h2 ks) -> exists k, In k ks /\ In x (@hists RNum k h1 h2).
  Proof.
    induction ks as [|k r IH]; cbn [hists_c]; [intros []|].
    intros Hin. apply in_app_or in Hin as [Hin|Hin].
    - exists k. split; [now left|assumption].
    - destruct (IH Hin) as (k' & Hk & Hx). exists k'. split; [now right|assumption].
  Qed.

  Lemma hists_p_in pl j h1 h2 ks a x :
    In x (hists_p pl j h1 h2 ks a) -> exists k h1' h2', In k ks /\ In x (@hists RNum k h1' h2').
  Proof.
    revert a; induction ks as [|k r IH]; intros a; cbn [hists_p]; [intros []|].
    intros Hin. apply in_app_or in Hin as [Hin|Hin].
    - exists k. do 2 eexists. split; [now left|eassumption].
    - destruct (IH _ Hin) as (k' & h1' & h2' & Hk & Hx). exists k', h1', h2'.
      split; [now right|assumption].
  Qed.

  Lemma cnt_nonneg n : 0 <= cnt n.
  Proof.
    induction n as [x|ci kids IH|pl j kids IH] using GameWF.node_ind'; cbn [cnt]; [lra| |];
      pose proof (Rsum_map_nonneg cnt kids IH); [|destruct (_ && _)]; lra.
  Qed.

  Lemma cnt_kids_nonneg kids : Forall (fun k => 0 <= cnt k) kids.
  Proof. apply Forall_forall. intros k _. apply cnt_nonneg. Qed.

  Lemma cnt_kid k kids : In k kids -> cnt k <= Rsum (map cnt kids).
  Proof. apply Rsum_map_ge_in, cnt_kids_nonneg. Qed.

  Lemma cnt_pos n : forall h1 h2 h, In (me, i, h) (@hists RNum n h1 h2) -> 1 <= cnt n.
  Proof.
    induction n as [x|ci kids IH|pl j kids IH] using GameWF.node_ind'; intros h1 h2 h Hin.
    - destruct Hin.
    - rewrite hists_Chance in Hin. apply hists_c_in in Hin as (k & Hk & Hx).
      rewrite Forall_forall in IH. pose proof (IH k Hk _ _ _ Hx). pose proof (cnt_kid k kids Hk).
      cbn [cnt]. lra.
    - rewrite hists_Player in Hin. cbn [cnt]. destruct Hin as [E|Hin].
      + injection E as -> -> _. rewrite Bool.eqb_reflx, Nat.eqb_refl. cbn [andb].
        pose proof (Rsum_map_nonneg cnt kids (cnt_kids_nonneg kids)). lra.
      + apply hists_p_in in Hin as (k & h1' & h2' & Hk & Hx).
        rewrite Forall_forall in IH. pose proof (IH k Hk _ _ _ Hx). pose proof (cnt_kid k kids Hk).
        destruct (_ && _); lra.
  Qed.

  Context (chance : list (list R)) (draw : oracle) (pass : N).
  Context (s1 s2 : list (list R)) (H : bool -> nat -> hist).

  Local Notation sg := (sg_of s1 s2).
  Local Notation vv := (@vval RNum chance false draw pass sg).
  Local Notation vi := (@vincs RNum chance false draw pass sg).
  Local Notation own := (if me then s1 else s2).

  Definition OKP' (pl : bool) (j : nat) (kids : list node) : Prop := length (sg pl j) = length kids.

  Definition ownp (p1 p2 : R) : R := if me then p1 else p2.

  Lemma ownp_same p1 p2 pr : ownp (q1_of me p1 pr) (q2_of me p2 pr) = ownp p1 p2 * pr.
  Proof. unfold ownp, q1_of, q2_of. destruct me; reflexivity. Qed.
  Lemma ownp_other pl p1 p2 pr : pl <> me -> ownp (q1_of pl p1 pr) (q2_of pl p2 pr) = ownp p1 p2.
  Proof. unfold ownp, q1_of, q2_of. destruct me, pl; try congruence; reflexivity. Qed.

  Lemma strat_sum_node : forall n h1 h2,
    allp (OKC chance) OKP' n -> HSub (PRme me H) n h1 h2 ->
    forall pc p1 p2, ownp p1 p2 = ppi own (hme me h1 h2) ->
      msum (strat_of me i) (vi n pc p1 p2) = cnt n * ppi own (H me i).
  Proof.
    refine (hist_ind _ _ _ _ _ _ _).
    - intros x h1 h2 pc p1 p2 _. cbn [vincs cnt]. rewrite msum_nil. lra.
    - intros ci kids h1 h2 Hc IH pc p1 p2 Hp. unfold OKC in Hc.
      rewrite vincs_Chance, msum_incs_chance by assumption.
      cbn [cnt]. rewrite (Rsum_map_nth cnt kids d0), Rmult_comm, <- Rsumn_scal.
      apply Rsumn_ext. intros b Hb. rewrite (IH b Hb _ p1 p2 Hp). lra.
    - intros pl j kids h1 h2 Hl Hh IH pc p1 p2 Hp. unfold OKP' in Hl.
      rewrite vincs_Player. cbv zeta.
      rewrite msum_cons, msum_app, msum_incs_player by assumption.
      rewrite msum_cons, msum_nil. cbn [strat_of].
      cbn [cnt]. rewrite (Rsum_map_nth cnt kids d0), Rmult_plus_distr_r.
      rewrite (Rmult_comm (Rsumn _ _)), <- Rsumn_scal.
      rewrite (Rsumn_ext _ _ (fun b => ppi own (H me i) * cnt (nth b kids d0))).
      + destruct (Bool.eqb_spec pl me) as [Epl|Npl]; cbn [andb]; [|lra].
        destruct (Nat.eqb_spec j i) as [Ej|Nj]; [|lra].
        subst pl j. specialize (Hh eq_refl).
        change (if me then h1 else h2) with (hme me h1 h2) in Hh.
        tR. change (if me then p1 else p2) with (ownp p1 p2). rewrite Hp, Hh. lra.
      + intros b Hb. rewrite Rplus_0_r. tR. rewrite (IH b Hb); [lra|].
        destruct (Bool.bool_dec pl me) as [Epl|Npl].
        * subst pl. rewrite ownp_same, hme_ext_same, ppi_app, Hp. unfold prob, sg_of. reflexivity.
        * rewrite (ownp_other pl p1 p2 _ Npl), (hme_ext_other me pl j b h1 h2 Npl). exact Hp.
  Qed.
End Cnt.


Lemma Rsumn_zero_nonneg n F :
  (forall b, (b < n)%nat -> 0 <= F b) -> Rsumn n F = 0 -> forall b, (b < n)%nat -> F b = 0.
Proof.
  induction n as [|n IH]; intros Hnn Hs b Hb; [lia|].
  rewrite Rsumn_S_last in Hs.
  assert (0 <= Rsumn n F) by (apply Rsumn_nonneg; intros; apply Hnn; lia).
  pose proof (Hnn n ltac:(lia)).
  destruct (Nat.eq_dec b n) as [->|Hne]; [lra|].
  apply IH; [intros; apply Hnn; lia|lra|lia].
Qed.

Lemma Rsumn_const_one n : Rsumn n (fun _ => 1) = INR n.
Proof. induction n as [|n IH]; [reflexivity|]. rewrite Rsumn_S_last, IH, S_INR. lra. Qed.

Lemma nth_nonneg (l : list R) a : Forall (fun x => 0 <= x) l -> 0 <= nth a l 0.
Proof.
  intros Hl. destruct (Nat.lt_ge_cases a (length l)) as [Ha|Ha].
  - rewrite Forall_forall in Hl. apply Hl. now apply nth_In.
  - rewrite nth_overflow by assumption. lra.
Qed.

(** the weights [1 / (e 1 * ... * e t)] are positive *)
Lemma dprod_inv_pos e t : (forall t, (1 <= t)%nat -> 0 < e t) -> 0 < / dprod e t.
Proof. intros He. apply Rinv_0_lt_compat. now apply dprod_pos. Qed.

Lemma dprod_inv_sum_pos e T :
  (forall t, (1 <= t)%nat -> 0 < e t) -> (1 <= T)%nat -> 0 < Rsumn T (fun t => / dprod e t).
Proof.
  intros He HT. destruct T as [|k]; [lia|]. rewrite Rsumn_S_last.
  assert (0 <= Rsumn k (fun t => / dprod e t))
    by (apply Rsumn_nonneg; intros b _; left; now apply dprod_inv_pos).
  pose proof (dprod_inv_pos e k He). lra.
Qed.

Section TrajAvg.
  Context (g : game) (Hwf : @WFgame RNum g).
  Context (draw : oracle) (p : params) (e : nat -> R).
  Context (He_pos : forall t, (1 <= t)%nat -> 0 < e t).
  Context (He_avg : forall t cs, (1 <= t)%nat ->
              @discount_average_strat RNum p (N.of_nat t) cs = map (fun a => a * e t) cs).
  Context (me : bool) (H : bool -> nat -> hist) (HPR : PRwit_me g me H).
  Context (T : nat).

  Let Hpos : arities_pos g := WFgame_arities_pos g Hwf.
  Local Notation sigma := (dsigma_at g draw p).
  Local Notation sig := (fun t => sigma (S t) me).
  Local Notation A := (davg g draw p T me).
  Local Notation root := (g_root g).
  Local Notation w := (fun t => / dprod e t).

  Lemma prob_sigma_nonneg t pl i a : 0 <= prob (sigma (S t) pl) i a.
  Proof.
    unfold prob. rewrite (dsigma_at_row g draw p). apply nth_nonneg.
    exact (InvA_strat_nonneg _ _ _ pl i (dstate_at_inv g draw p Hpos t)).
  Qed.

  Lemma sigma_row_oob t i : (ninfos g me <= i)%nat -> rowR (sig t) i = [].
  Proof.
    intros Hi. unfold rowR. apply nth_overflow. unfold dsigma_at, tbl_strat.
    rewrite map_length, (dstate_at_len g draw p Hpos). exact Hi.
  Qed.

  Lemma avg_row_oob i : (ninfos g me <= i)%nat -> rowR A i = [].
  Proof.
    intros Hi. unfold rowR. apply nth_overflow. unfold davg.
    rewrite map_length, (dstate_at_len g draw p Hpos). exact Hi.
  Qed.

  Lemma avg_row i :
    (i < ninfos g me)%nat ->
    rowR A i = @avg_strat RNum (cum_strat (@ri_get RNum (dstate_at g draw p T) me i)).
  Proof.
    intros Hi. unfold rowR, davg, ri_get.
    rewrite (nth_indep _ _ ((fun ri => @avg_strat RNum (cum_strat ri)) (@mkRinfo RNum [] [] [])))
      by (rewrite map_length, (dstate_at_len g draw p Hpos); exact Hi).
    now rewrite (map_nth (fun ri => @avg_strat RNum (cum_strat ri))).
  Qed.

  Lemma dsinc_reach t i : dsinc g draw p t me i = cnt me i root * ppi (sig t) (H me i).
  Proof.
    unfold dsinc. rewrite (strat_view_dsigma g draw p).
    rewrite <- (strat_sum_vincs _ _ draw 0%N).
    replace (sigma (S t) me)
      with (if me then sigma (S t) true else sigma (S t) false)
      by (destruct me; reflexivity).
    apply (strat_sum_node me i (g_chance g) draw 0%N
                          (sigma (S t) true) (sigma (S t) false) H root [] []).
    - pose proof Hwf as (Hsh & _). eapply allp_impl; [| |exact (shaped_allp g _ Hsh)].
      + intros ci kids Hc. exact Hc.
      + intros pl j kids (Hj & Hlen & _). unfold OKP', sg_of.
        rewrite (dsigma_Fits g Hwf draw p t pl j Hj). now symmetry.
    - intros [[pl j] h] Hin. unfold PRme. intros ->. now apply HPR.
    - unfold ownp, hme. destruct me; reflexivity.
  Qed.

  Lemma avg_eq_traj i h :
    In (me, i, h) (@hists RNum root [] []) ->
    forall b, AvgEq me T w sig A H i b.
  Proof.
    intros Hin b. unfold AvgEq.
    destruct (Nat.lt_ge_cases i (ninfos g me)) as [Hi|Hi].
    2:{ unfold prob at 1. rewrite (avg_row_oob i Hi), nth_nil_R, Rmult_0_r. symmetry.
        apply Rsumn_zero_ext. intros t _. unfold prob. rewrite (sigma_row_oob t i Hi), nth_nil_R. lra. }
    set (ri := @ri_get RNum (dstate_at g draw p T) me i).
    destruct (dstate_at_RInvA g draw p Hpos T me i Hi) as (_ & Hnn & _ & L2 & _). fold ri in Hnn, L2.
    set (ar := arity g me i) in *.
    destruct (Nat.lt_ge_cases b ar) as [Hb|Hb].
    2:{ unfold prob at 1. rewrite (avg_row i Hi). fold ri.
        rewrite nth_overflow by (rewrite avg_strat_length; tR; lia). rewrite Rmult_0_r. symmetry.
        apply Rsumn_zero_ext. intros t _. unfold prob.
        rewrite nth_overflow by (rewrite (dsigma_at_length g draw p Hpos t me i Hi); exact Hb). lra. }
    set (c0 := cnt me i root).
    assert (Hc0 : 1 <= c0) by (exact (cnt_pos me i root [] [] h Hin)).
    pose proof (dprod_pos e T He_pos) as HPT.
    set (c := c0 * dprod e T).
    assert (Hc : 0 < c) by (unfold c; nra).
    set (PP := Rsumn T (fun t => w t * ppi (sig t) (H me i))).
    set (Q := fun a => Rsumn T (fun t => w t * ppi (sig t) (H me i) * prob (sig t) i a)).
    change (PP * prob A i b = Q b).
    (* [cum_strat = c * Q] entry-wise, so its sum is [c * PP]; when that is zero every term
       of [PP] is zero and both sides vanish, otherwise [c] cancels *)
    assert (Ecs : forall a, nth a (cum_strat ri) 0 = c * Q a).
    { intros a.
      pose proof (dcstrat_at_sum g draw p e He_pos He_avg Hpos T me i a Hi) as Eq.
      unfold dcstrat_at in Eq. fold ri in Eq. rewrite Eq. unfold Q, c.
      rewrite (Rmult_comm c0), Rmult_assoc. apply f_equal.
      rewrite <- Rsumn_scal. apply Rsumn_ext. intros t _. rewrite dsinc_reach. fold c0. lra. }
    assert (Esum : Rsum (cum_strat ri) = c * PP).
    { rewrite Rsum_nth. tR. rewrite L2. fold ar.
      rewrite (Rsumn_ext ar _ (fun a => c * Q a)) by (intros a _; apply Ecs).
      rewrite Rsumn_scal. apply f_equal. unfold Q, PP. rewrite Rsumn_exchange.
      apply Rsumn_ext. intros t _. rewrite Rsumn_scal.
      destruct (dsigma_at_VRow g draw p Hpos t me i Hi) as [_ Hone].
      rewrite Rsum_nth, (dsigma_at_length g draw p Hpos t me i Hi) in Hone. fold ar in Hone.
      unfold prob. rewrite Hone. lra. }
    unfold prob at 1. rewrite (avg_row i Hi). fold ri. rewrite avg_strat_unfold, Esum.
    destruct (Reqb (c * PP) 0) eqn:Ez.
    - apply Reqb_true in Ez.
      assert (HP0 : PP = 0) by nra.
      assert (Hz : forall t, (t < T)%nat -> w t * ppi (sig t) (H me i) = 0).
      { apply Rsumn_zero_nonneg; [|exact HP0]. intros t _.
        apply Rmult_le_pos; [left; now apply dprod_inv_pos|].
        apply ppi_nonneg. intros. apply prob_sigma_nonneg. }
      rewrite HP0, Rmult_0_l. symmetry. unfold Q. apply Rsumn_zero_ext.
      intros t Ht. rewrite (Hz t Ht). lra.
    - apply Reqb_false in Ez.
      assert (Hcn : c <> 0) by lra.
      assert (HP0 : PP <> 0) by (intros E0; apply Ez; rewrite E0; lra).
      rewrite (nth_indep _ 0 ((fun x => x / (c * PP)) 0)) by (rewrite map_length; tR; lia).
      rewrite (map_nth (fun x => x / (c * PP))). tR. rewrite (Ecs b). field. split; assumption.
  Qed.
End TrajAvg.

Theorem wavg_realisation (g : game) (Hwf : @WFgame RNum g) (draw : oracle) (p : params) (e : nat -> R)
        (me : bool) (H : bool -> nat -> hist) (T : nat) (tau : list (list R)) :
  (forall t, (1 <= t)%nat -> 0 < e t) ->
  (forall t cs, (1 <= t)%nat ->
                @discount_average_strat RNum p (N.of_nat t) cs = map (fun a => a * e t) cs) ->
  PRwit_me g me H -> (1 <= T)%nat ->
  u_me g me (davg g draw p T me) tau =
  / Rsumn T (fun t => / dprod e t)
  * Rsumn T (fun t => / dprod e t * u_me g me (dsigma_at g draw p (S t) me) tau).
Proof.
  intros He_pos He_avg HPR HT.
  assert (HS : HSub (Good me T (fun t => / dprod e t) (fun t => dsigma_at g draw p (S t) me)
                          (davg g draw p T me) H) (g_root g) [] []).
  { intros [[pl i] h] Hin. unfold Good. intros ->. split; [now apply HPR|].
    exact (avg_eq_traj g Hwf draw p e He_pos He_avg me H HPR T i h Hin). }
  pose proof (avg_abstract (g_chance g) me tau T (fun t => / dprod e t)
                           (fun t => dsigma_at g draw p (S t) me) (davg g draw p T me) H (g_root g) HS) as Eq.
  pose proof (dprod_inv_sum_pos e T He_pos HT) as HWpos.
  set (W := Rsumn T (fun t => / dprod e t)) in *.
  unfold u_me, u_game. unfold U in Eq. destruct me.
  - rewrite <- Eq. field. lra.
  - rewrite (Rsumn_ext T _ (fun t => -1 * (/ dprod e t * u (g_chance g) tau (dsigma_at g draw p (S t) false) (g_root g))))
      by (intros; ring).
    rewrite Rsumn_scal, <- Eq. field. lra.
Qed.

Theorem avg_realisation (g : game) (draw : oracle) (me : bool) (H : bool -> nat -> hist)
        (T : nat) (tau : list (list R)) :
  @WFgame RNum g -> PRwit_me g me H -> (1 <= T)%nat ->
  u_me g me (avg g draw T me) tau =
  / INR T * Rsumn T (fun t => u_me g me (sigma_at g draw (S t) me) tau).
Proof.
  intros Hwf HPR HT.
  rewrite avg_vanilla, sigma_at_vanilla,
    (wavg_realisation g Hwf draw _ (fun _ => 1) me H T tau (fun _ _ => Rlt_0_1)
                      vanilla_discount_avg HPR HT).
  rewrite <- Rsumn_const_one. f_equal; [f_equal|]; apply Rsumn_ext; intros t _;
    rewrite dprod_one, Rinv_1; lra.
Qed.
