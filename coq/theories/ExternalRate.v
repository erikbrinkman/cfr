(** * ExternalRate: pathwise rate theorem for the external-sampling solver.

    One pass of [erec] for the active player [me] changes the cumulative regrets of
    [me] exactly as an *unsampled* pass does when every chance row is replaced by the
    one-hot row of the chance index drawn and every row of the *other* player by the
    one-hot row of the action drawn ([ext_sg], [ext_reg_sum]); the regrets of the
    other player are untouched ([ext_reg_sum_other]).  The sampled path has
    counterfactual reach 1, everything off the path has reach 0.  Hence orthogonality
    and the bound [|inc| <= hi - lo] are those of [cfr_inc] ([IterChar.v],
    [CfMass.v]) and the potential argument of [CfrRate.v] applies to both passes of
    [external_iter]  ([external_bound_rate]).

    As for the chance-sampled method the draws have to be in range ([DrawsInRange]):
    out of range the implementation panics (slice index) while the model returns 0. *)
From Coq Require Import Reals List Lra Lia Bool Arith NArith.
From Cfr.theories Require Import Num ListAux RInst Tree GameWF Strat Eval Solve Valid TruncProofs
     SolveValidProofs LoopProofs Incr IterChar RmPotential CfMass CfrRate ExtIncr SampledRate.
Import ListNotations.
Open Scope R_scope.

Local Notation nodeR := (@node RNum).
Local Notation gameR := (@game RNum).
Local Notation pstateR := (@pstate RNum).
Local Notation rinfoR := (@rinfo RNum).
Local Notation incrR := (@incr RNum).
Local Notation paramsR := (@params RNum).
Local Notation oracleR := (@oracle RNum).

Definition tr (x : e_incr) : incrR :=
  match x with
  | E_IStrat pl i => @IStrat RNum pl i 1
  | E_IReg pl i a v => @IReg RNum pl i a v
  | E_IRegAll pl i v => @IRegAll RNum pl i v
  end.

Lemma e_fold_tr (l : list e_incr) (st : pstateR) :
  fold_left e_apply_incr l st = fold_left apply_incr (map tr l) st.
Proof. exact (e_fold_to_incr l st). Qed.

Lemma sum_player_hot (f : nodeR -> R -> R -> R -> R) (pl' : bool) pc p1 p2 ks k :
  (forall c : nodeR, (if pl' then f c pc (p1 * 0) p2 else f c pc p1 (p2 * 0)) = 0) ->
  sum_player f pl' pc p1 p2 ks (hot (length ks) k) =
  match nth_error ks k with
  | Some c => if pl' then f c pc (p1 * 1) p2 else f c pc p1 (p2 * 1)
  | None => 0
  end.
Proof. intros Hf. rewrite sum_player_zsum. now apply zsum_hot. Qed.

Lemma val_player_scal (s : R) (f : nodeR -> R) ks ss :
  @val_player RNum (fun c => s * f c) ks ss 0 = s * @val_player RNum f ks ss 0.
Proof.
  rewrite !val_player_zsum, !Rplus_0_l, <- zsum_scal. apply zsum_ext, Forall_forall. intros c _ p. lra.
Qed.

Lemma act_val_scal (s : R) (f : nodeR -> R) ks ss a :
  act_val (fun c => s * f c) ks ss a = s * act_val f ks ss a.
Proof.
  revert ss a; induction ks as [|c ks IH]; intros ss a; destruct ss as [|p ss]; cbn [act_val];
    try lra. destruct a as [|a]; [reflexivity|apply IH].
Qed.

Lemma goval_val_player (V : nodeR -> R) ks ss a e :
  goval (fun _ c => V c) ks ss a e = @val_player RNum V ks ss e.
Proof.
  revert ss a e; induction ks as [|c ks IH]; intros ss a e; destruct ss as [|p ss];
    cbn [goval val_player]; try reflexivity. apply IH.
Qed.

Section Unfold.
  Context (chance : list (list R)) (draw : oracleR) (cpass ppass : N) (noff : nat) (me : bool)
          (sg : bool -> nat -> list R).
  Local Notation EV := (eval chance draw cpass ppass noff me sg).
  Local Notation EI := (eincs chance draw cpass ppass noff me sg).

  Lemma eval_Chance ci kids :
    EV (Chance ci kids) = pickf EV 0 kids (draw true ci cpass (@row RNum chance ci)).
  Proof. reflexivity. Qed.

  Lemma eval_Player pl i kids :
    EV (Player pl i kids) =
    if Bool.eqb pl me then @val_player RNum EV kids (sg pl i) 0
    else pickf EV 0 kids (pdraw draw ppass noff sg pl i).
  Proof. cbn [eval]. destruct (Bool.eqb pl me); [apply goval_val_player|reflexivity]. Qed.

  Lemma eincs_Term x : EI (Term x) = [].
  Proof. reflexivity. Qed.

  Lemma eincs_Chance ci kids :
    EI (Chance ci kids) = pickf EI [] kids (draw true ci cpass (@row RNum chance ci)).
  Proof. reflexivity. Qed.

  Lemma eincs_Player pl i kids :
    EI (Player pl i kids) =
    if Bool.eqb pl me
    then gotr (fun a c => EI c ++ [E_IReg pl i a (EV c)]) kids (sg pl i) O
         ++ [E_IRegAll pl i (EV (Player pl i kids))]
    else E_IStrat pl i :: pickf EI [] kids (pdraw draw ppass noff sg pl i).
  Proof. unfold eincs. cbn [etr]. destruct (Bool.eqb pl me); reflexivity. Qed.
End Unfold.

Definition sgn (me : bool) : R := if me then 1 else -1.

Section ExtChar.
  Context (chance : list (list R)) (draw : oracleR) (cpass ppass : N) (noff : nat)
          (sg : bool -> nat -> list R).
  Local Notation chance' := (samp_chance chance draw cpass).

  (** the strategies of the equivalent unsampled pass: the active player's own rows,
      the one-hot row of the sampled action for the other player *)
  Definition ext_sg (me : bool) : bool -> nat -> list R :=
    fun pl i => if Bool.eqb pl me then sg pl i
                else hot (length (sg pl i)) (pdraw draw ppass noff sg pl i).

  Lemma ext_sg_me me i : ext_sg me me i = sg me i.
  Proof. unfold ext_sg. now rewrite Bool.eqb_reflx. Qed.

  Lemma ext_sg_other me pl i :
    Bool.eqb pl me = false ->
    ext_sg me pl i = hot (length (sg pl i)) (pdraw draw ppass noff sg pl i).
  Proof. intros E. unfold ext_sg. now rewrite E. Qed.

  (** the value returned by the pass: the value of the one-hot profile, from the
      point of view of the active player *)
  Lemma eval_uval me n :
    ValShaped chance sg n ->
    eval chance draw cpass ppass noff me sg n = sgn me * uval chance' (ext_sg me) n.
  Proof.
    induction n as [x|ci kids IH|pl i kids IH] using node_ind'; intros HV;
      inversion HV as [|? ? EL HR HVk|? ? ? EL HR HVk]; subst.
    - cbn [eval uval]. unfold sgn. destruct me; lra.
    - rewrite eval_Chance. cbn [uval].
      rewrite pickf_nth, row_samp, <- EL, val_chance_hot, val_pick_nth, Rplus_0_l.
      destruct (nth_error kids _) as [c|] eqn:Ek; [|lra].
      apply nth_error_In in Ek. rewrite Forall_forall in IH, HVk. apply IH; auto.
    - rewrite eval_Player. cbn [uval].
      destruct (Bool.eqb pl me) eqn:Epl.
      + apply Bool.eqb_prop in Epl. subst pl. rewrite ext_sg_me.
        rewrite <- val_player_scal. apply val_player_ext.
        exact (Forall_mp _ _ _ IH HVk).
      + rewrite (ext_sg_other me pl i Epl).
        rewrite pickf_nth, <- EL, val_player_hot, Rplus_0_l.
        destruct (nth_error kids _) as [c|] eqn:Ek; [|lra].
        apply nth_error_In in Ek. rewrite Forall_forall in IH, HVk. apply IH; auto.
  Qed.

  Lemma ext_reg_other me pl i a n :
    pl <> me ->
    forall x, In x (eincs chance draw cpass ppass noff me sg n) -> reg_of pl i a (tr x) = 0.
  Proof.
    intros Hne. induction n as [y|ci kids IH|pl' i' kids IH] using node_ind'; intros x Hx;
      try rewrite Forall_forall in IH.
    - destruct Hx.
    - rewrite eincs_Chance, pickf_nth in Hx.
      destruct (nth_error kids _) as [c|] eqn:Ek; [|destruct Hx].
      apply nth_error_In in Ek. eapply IH; eauto.
    - rewrite eincs_Player in Hx. destruct (Bool.eqb pl' me) eqn:Epl.
      + apply Bool.eqb_prop in Epl. subst pl'.
        assert (Eb : Bool.eqb me pl = false) by (apply Bool.eqb_false_iff; congruence).
        apply in_app_or in Hx as [Hx|[<-|[]]].
        * apply gotr_In in Hx as (j & c & Hj & _ & Hx).
          apply in_app_or in Hx as [Hx|[<-|[]]].
          -- apply nth_error_In in Hj. eapply IH; eauto.
          -- cbn [tr reg_of]. rewrite Eb. reflexivity.
        * cbn [tr reg_of]. rewrite Eb. reflexivity.
      + destruct Hx as [<-|Hx]; [reflexivity|]. rewrite pickf_nth in Hx.
        destruct (nth_error kids _) as [c|] eqn:Ek; [|destruct Hx].
        apply nth_error_In in Ek. eapply IH; eauto.
  Qed.

  Theorem ext_reg_sum_other me pl i a n :
    pl <> me -> reg_sum pl i a (map tr (eincs chance draw cpass ppass noff me sg n)) = 0.
  Proof.
    intros Hne. unfold reg_sum. apply Rsum_all_zero. apply Forall_forall. intros y Hy.
    apply in_map_iff in Hy as (z & <- & Hz). apply in_map_iff in Hz as (x & <- & Hx).
    eapply ext_reg_other; eauto.
  Qed.

  Section Own.
    Context (me : bool) (i a : nat).
    Local Notation EV := (eval chance draw cpass ppass noff me sg).
    Local Notation EI := (eincs chance draw cpass ppass noff me sg).
    Local Notation F := (cfr_inc chance' (ext_sg me) me i a).

    Definition ERS (c : nodeR) : Prop :=
      forall pc p1 p2, pc * oppw me p1 p2 = 1 -> reg_sum me i a (map tr (EI c)) = F c pc p1 p2.

    Lemma ext_reg_sum_loop i' ks :
      Forall ERS ks -> forall ss ai pc p1 p2, pc * oppw me p1 p2 = 1 ->
      reg_sum me i a (map tr (gotr (fun b c => EI c ++ [E_IReg me i' b (EV c)]) ks ss ai)) =
      (if Nat.eqb i' i then (if Nat.leb ai a then act_val EV ks ss (a - ai) else 0) else 0)
      + sum_player F me pc p1 p2 ks ss.
    Proof.
      induction 1 as [|c ks Hc H IH]; intros ss ai pc p1 p2 Hr; destruct ss as [|prob ss];
        cbn [gotr map sum_player act_val].
      1-3: unfold reg_sum; cbn [map Rsum]; destruct (Nat.eqb i' i); [destruct (Nat.leb ai a)|]; lra.
      rewrite !map_app, !reg_sum_app. cbn [map tr].
      rewrite (IH ss (S ai) pc p1 p2 Hr).
      rewrite (Hc pc (if me then p1 * prob else p1) (if me then p2 else p2 * prob))
        by (unfold oppw in *; destruct me; exact Hr).
      unfold reg_sum at 1. cbn [map Rsum reg_of]. rewrite Bool.eqb_reflx. cbn [andb].
      assert (EF : (if me then F c pc (p1 * prob) p2 else F c pc p1 (p2 * prob)) =
                   F c pc (if me then p1 * prob else p1) (if me then p2 else p2 * prob))
        by (destruct me; reflexivity).
      rewrite EF. set (Fc := F c pc _ _).
      rewrite (pick_step ai a (EV c) (act_val EV ks ss)).
      destruct (Nat.eqb i' i); cbn [andb]; [destruct (Nat.eqb ai a)|]; lra.
    Qed.

    Theorem ext_reg_sum n : ValShaped chance sg n -> ERS n.
    Proof.
      induction n as [x|ci kids IH|pl' i' kids IH] using node_ind'; intros HV pc p1 p2 Hr;
        inversion HV as [|? ? EL HR HVk|? ? ? EL HR HVk]; subst.
      - reflexivity.
      - rewrite eincs_Chance, pickf_nth. cbn [cfr_inc]. rewrite row_samp, <- EL.
        rewrite sum_chance_hot by (intros; apply cfr_inc_zero_pc).
        destruct (nth_error kids _) as [c|] eqn:Ek; [|reflexivity].
        apply nth_error_In in Ek. rewrite Forall_forall in IH, HVk. apply IH; auto.
        rewrite Rmult_1_r. exact Hr.
      - rewrite eincs_Player. cbn [cfr_inc]. destruct (Bool.eqb pl' me) eqn:Epl.
        + apply Bool.eqb_prop in Epl. subst pl'.
          rewrite map_app, reg_sum_app.
          rewrite (ext_reg_sum_loop i' kids) with (pc := pc) (p1 := p1) (p2 := p2); try assumption.
          2:{ exact (Forall_mp _ _ _ IH HVk). }
          unfold reg_sum at 1. cbn [map tr Rsum reg_of]. rewrite Bool.eqb_reflx. cbn [andb].
          rewrite ext_sg_me. rewrite eval_Player, Bool.eqb_reflx.
          assert (EVk : Forall (fun c => EV c = sgn me * uval chance' (ext_sg me) c) kids).
          { refine (Forall_impl _ _ HVk). intros c. apply eval_uval. }
          rewrite (val_player_ext _ _ kids (sg me i') 0 EVk), val_player_scal.
          rewrite (act_val_ext _ _ kids (sg me i') _ EVk), act_val_scal.
          cbn [Nat.leb]. rewrite Nat.sub_0_r.
          unfold is_info. rewrite Bool.eqb_reflx. cbn [andb].
          assert (Ecfw : cfw me pc p1 p2 = sgn me).
          { unfold cfw, sgn, oppw in *. destruct me; lra. }
          rewrite Ecfw. unfold node_regret.
          destruct (Nat.eqb i' i); lra.
        + replace (is_info pl' i' me i) with false.
          2:{ symmetry. unfold is_info. now rewrite Epl. }
          rewrite Rplus_0_l. cbn [map tr]. unfold reg_sum. cbn [map Rsum reg_of].
          rewrite Rplus_0_l. fold (reg_sum me i a (map tr (pickf EI [] kids (pdraw draw ppass noff sg pl' i')))).
          rewrite (ext_sg_other me pl' i' Epl), <- EL, pickf_nth.
          assert (Hne : pl' <> me) by (now apply Bool.eqb_false_iff).
          rewrite sum_player_hot.
          2:{ intros c. destruct pl'; apply cfr_inc_zero; unfold oppw in *;
                destruct me; try congruence; lra. }
          destruct (nth_error kids _) as [c|] eqn:Ek; [|reflexivity].
          apply nth_error_In in Ek. rewrite Forall_forall in IH, HVk.
          destruct pl'; apply IH; auto; unfold oppw in *; destruct me; try congruence;
            rewrite Rmult_1_r; exact Hr.
    Qed.
  End Own.
End ExtChar.

(** every non-empty weight list, chance or player; [SampledRate.DrawOK] asks it of the
    chance rows of one table only *)
Definition DrawsInRange (draw : oracleR) : Prop :=
  forall kind id pass (w : list R), w <> [] -> (draw kind id pass w < length w)%nat.

Lemma VRow_ne (r : list R) : VRow r -> r <> [].
Proof. intros H E. apply (VRow_nonempty _ H). now rewrite E. Qed.

Lemma RowShaped_ext_sg (ok ok' : list R -> Prop) chance draw ppass noff sg me n :
  (forall pl i, ok (sg pl i) -> ok' (hot (length (sg pl i)) (pdraw draw ppass noff sg pl i))) ->
  (forall r, ok r -> ok' r) ->
  RowShaped ok chance sg n -> RowShaped ok' chance (ext_sg draw ppass noff sg me) n.
Proof.
  intros Hhot Hmono. apply RowShaped_map; [auto|].
  intros pl i HR. unfold ext_sg. destruct (Bool.eqb pl me); [auto|]. rewrite hot_length. auto.
Qed.

Lemma ValShaped_ext chance draw cpass ppass noff sg me n :
  DrawsInRange draw -> ValShaped chance sg n ->
  ValShaped (samp_chance chance draw cpass) (ext_sg draw ppass noff sg me) n.
Proof.
  intros HD HV. apply ValShaped_RowShaped, (RowShaped_ext_sg VRow), (RowShaped_samp VRow); auto.
  - intros pl i HR. apply hot_VRow, HD. now apply VRow_ne.
  - intros ci HR. apply hot_VRow, HD. now apply VRow_ne.
  - now apply ValShaped_RowShaped.
Qed.

Lemma ext_sg_rows draw ppass noff sg me :
  (forall pl i, Forall (fun p => 0 <= p) (sg pl i) /\ Rsum (sg pl i) <= 1) ->
  forall pl i, Forall (fun p => 0 <= p) (ext_sg draw ppass noff sg me pl i) /\
               Rsum (ext_sg draw ppass noff sg me pl i) <= 1.
Proof.
  intros H pl i. unfold ext_sg. destruct (Bool.eqb pl me); [apply H|].
  split; [apply hot_nonneg|apply hot_sum_le].
Qed.

Section ExtState.
  Context (chance : list (list R)) (draw : oracleR) (cpass ppass : N) (noff : nat) (me : bool)
          (n : nodeR) (st : pstateR).
  Local Notation st' := (snd (@erec RNum chance draw cpass ppass noff me n st)).

  Lemma erec_state_strat pl i : strat (ri_get st' pl i) = strat (ri_get st pl i).
  Proof. exact (erec_strat_view chance draw cpass ppass noff me n st pl i). Qed.

  Theorem erec_state_other pl i :
    pl <> me -> cum_regret (ri_get st' pl i) = cum_regret (ri_get st pl i).
  Proof.
    intros Hne. rewrite erec_incs. cbn [snd]. rewrite e_fold_tr.
    apply (nth_ext _ _ 0 0).
    - apply fold_incr_regret_len.
    - intros a Ha. rewrite fold_incr_regret_len in Ha.
      rewrite fold_incr_regret_nth by assumption.
      rewrite ext_reg_sum_other by assumption. apply Rplus_0_r.
  Qed.

  Theorem erec_state_regret i :
    reg_ok st me i -> ValShaped chance (strat_view st) n ->
    cum_regret (ri_get st' me i) =
    vadd (cum_regret (ri_get st me i))
         (cfr_incs (samp_chance chance draw cpass) (ext_sg draw ppass noff (strat_view st) me)
                   me i n 1 1 1).
  Proof.
    intros E HV. rewrite erec_incs. cbn [snd]. rewrite e_fold_tr.
    apply fold_incr_cfr_incs; [exact E|apply ext_sg_me|].
    intros a. apply (ext_reg_sum chance draw cpass ppass noff (strat_view st) me i a n HV).
    unfold oppw. destruct me; lra.
  Qed.
End ExtState.

Section ExternalRateGen.
  Context (g : gameR) (draw : oracleR) (p : paramsR) (lo hi : R) (A : nat).
  Context (HWF : WFgame g) (HPR : PerfectRecall g) (HCO : ChanceOK g)
          (HPay : PayoffsIn lo hi (g_root g))
          (HA : forall pl, Forall (fun a => (a <= A)%nat) (arities g pl)).

  Local Notation D := (hi - lo).
  Local Notation IA := (InvA (arities g true) (arities g false)).
  Local Notation noff := (length (g_infos1 g)).

  (** what is needed of the oracle: every regret increment of a pass is bounded by the
      payoff range *)
  Definition ExtIncBounded : Prop :=
    forall (st : pstateR) cpass ppass me i a,
      IA st -> (a < length (strat_view st me i))%nat ->
      Rabs (cfr_inc (samp_chance (g_chance g) draw cpass)
                    (ext_sg draw ppass noff (strat_view st) me) me i a (g_root g) 1 1 1) <= D.

  Lemma ext_inc_bounded_of (ok : list R -> Prop) :
    (forall r, ok r -> Forall (fun p => 0 <= p) r /\ lo <= lo * Rsum r /\ hi * Rsum r <= hi) ->
    (forall (st : pstateR) cpass ppass me, IA st ->
       RowShaped ok (samp_chance (g_chance g) draw cpass)
                 (ext_sg draw ppass noff (strat_view st) me) (g_root g)) ->
    ExtIncBounded.
  Proof.
    intros Hok HV st cpass ppass me i a HI Ha.
    apply (cfr_inc_bound_game ok g); auto using samp_rows.
    - apply ext_sg_rows, Inv_rows. eapply Inv_of_InvA; eauto.
    - now rewrite ext_sg_me.
  Qed.

  Lemma ext_inc_bounded : DrawsInRange draw -> ExtIncBounded.
  Proof.
    intros HD. apply (ext_inc_bounded_of VRow (VRow_range lo hi)). intros st cpass ppass me HI.
    apply ValShaped_RowShaped, ValShaped_ext; [exact HD|].
    destruct HWF as (HS & _). now apply shaped_ValShaped.
  Qed.

  Lemma ext_inc_bounded_zero : lo <= 0 <= hi -> ExtIncBounded.
  Proof.
    intros H0. apply (ext_inc_bounded_of SRow (SRow_range lo hi H0)). intros st cpass ppass me HI.
    apply (RowShaped_ext_sg SRow), (RowShaped_samp VRow);
      auto using VRow_SRow; try (intros; apply hot_SRow).
    now apply (root_RowShaped g HWF HCO).
  Qed.

  Context (HB : ExtIncBounded).

  (** half an iteration: one pass for the player [me], then [advance] on the infosets of
      [me] *)
  Definition half me cpass ppass it ia (st : pstateR) : pstateR :=
    let st1 := snd (@erec RNum (g_chance g) draw cpass ppass noff me (g_root g) st) in
    ps_set st1 me (map (fun ri => fst (@advance RNum p it ia ri)) (ps_get st1 me)).

  Lemma external_iter_half it st :
    let st2 := half true (2 * (it - 1))%N (it - 1)%N it (it - 1)%N st in
    let st3 := half false (2 * (it - 1) + 1)%N it it it st2 in
    @external_iter RNum g draw p it st =
    (st3, (Rsum (map (info_bound it) (fst st2)), Rsum (map (info_bound it) (snd st3)))).
  Proof.
    rewrite external_iter_eq. cbv zeta. unfold half. cbn [ps_set ps_get fst snd].
    set (st1 := snd (erec _ _ _ _ _ true _ st)).
    rewrite (advance_all_bound_eq p it (it - 1) (fst st1)), (advance_all_map p it (it - 1) (fst st1)).
    cbn [fst snd]. set (st2 := (_, snd st1)).
    set (st1' := snd (erec _ _ _ _ _ false _ st2)).
    now rewrite (advance_all_bound_eq p it it (snd st1')), (advance_all_map p it it (snd st1')).
  Qed.

  (** a half iteration advances the potential of the infosets of [me] by one step and
      leaves the infosets of the other player untouched *)
  Lemma pass_K me cpass ppass t t' it ia (st : pstateR) :
    IA st -> Forall (KI lo hi A t) (ps_get st me) -> Forall (KI lo hi A t') (ps_get st (negb me)) ->
    let st2 := half me cpass ppass it ia st in
    IA st2 /\ Forall (KI lo hi A (S t)) (ps_get st2 me) /\ Forall (KI lo hi A t') (ps_get st2 (negb me)).
  Proof.
    intros HI Hme Hother st2.
    set (st1 := snd (@erec RNum (g_chance g) draw cpass ppass noff me (g_root g) st)).
    assert (HI1 : IA st1) by (now apply erec_inv).
    assert (HL : forall pl, length (ps_get st1 pl) = length (ps_get st pl)).
    { intros pl. now rewrite !(IA_len g _ pl). }
    replace (ps_get st2 me) with (map (fun ri => fst (@advance RNum p it ia ri)) (ps_get st1 me))
      by (now destruct me).
    replace (ps_get st2 (negb me)) with (ps_get st1 (negb me)) by (now destruct me).
    split; [|split].
    - assert (Hadv : forall a l, Forall2 RInvA a l ->
                Forall2 RInvA a (map (fun ri => fst (@advance RNum p it ia ri)) l)).
      { intros a l H. apply (advance_all_inv a p it ia l 0) in H. now rewrite advance_all_map in H. }
      destruct HI1 as [H1 H2]. unfold st2, half. fold st1. destruct me; split; cbn [ps_set ps_get fst snd]; auto.
    - apply Forall_map, Forall_ps_get. intros i Hi. rewrite HL in Hi.
      apply (KI_pass g p lo hi A HWF HCO HPay HA (samp_chance (g_chance g) draw cpass)
               (ext_sg draw ppass noff (strat_view st) me) st me i); auto.
      + now apply (proj1 (Forall_ps_get _ st me) Hme).
      + apply ext_sg_me.
      + intros a Ha. rewrite ext_sg_me in Ha. now apply HB.
      + apply erec_state_regret.
        * apply Inv_reg_ok. now apply (Inv_of_InvA _ _ _ HI).
        * destruct HWF as (HS & _). now apply shaped_ValShaped.
      + apply erec_state_strat.
    - apply Forall_ps_get. intros i Hi. rewrite HL in Hi.
      pose proof (proj1 (Forall_ps_get _ st (negb me)) Hother i Hi) as HK. unfold KI, st1 in *.
      rewrite erec_state_other, erec_state_strat; [exact HK|apply no_fixpoint_negb].
  Qed.

  Lemma iter_rate_external it (st : pstateR) :
    (1 <= it)%N -> K g lo hi A (N.to_nat it - 1) st ->
    K g lo hi A (N.to_nat it) (fst (@one_iter RNum g External draw p it st)) /\
    Bnd g lo hi A it (fst (snd (@one_iter RNum g External draw p it st)))
        (snd (snd (@one_iter RNum g External draw p it st))).
  Proof.
    intros Hit [HI HK]. cbn [one_iter]. rewrite external_iter_half. cbv zeta. cbn [fst snd].
    set (t := (N.to_nat it - 1)%nat) in *.
    assert (Et : N.to_nat it = S t) by (unfold t; lia). rewrite Et.
    destruct (pass_K true (2 * (it - 1))%N (it - 1)%N t t it (it - 1)%N st HI (HK true) (HK false))
      as (HI2 & A1 & B1).
    set (st2 := half true _ _ _ _ st) in *.
    destruct (pass_K false (2 * (it - 1) + 1)%N it t (S t) it it st2 HI2 B1 A1) as (HI3 & A2 & B2).
    set (st3 := half false _ _ _ _ st2) in *.
    rewrite <- Et in *.
    split; [split; [exact HI3|intros []; assumption]|split].
    - apply (list_bound g lo hi A HWF HCO HPay); [exact Hit|exact (IA_len g st2 true HI2)|exact A1].
    - apply (list_bound g lo hi A HWF HCO HPay); [exact Hit|exact (IA_len g st3 false HI3)|exact A2].
  Qed.

  Theorem external_bound_rate_gen budget (stop : R -> bool) strats b1 b2 ran :
    @solve_single RNum g External draw p budget stop = (strats, Some (b1, b2), ran) ->
    (1 <= ran)%N /\
    b1 * sqrt (INR (N.to_nat ran)) <= 2 * D * INR (length (g_infos g true)) * sqrt (INR A) /\
    b2 * sqrt (INR (N.to_nat ran)) <= 2 * D * INR (length (g_infos g false)) * sqrt (INR A).
  Proof. apply (solve_rate_gen g draw p lo hi A HWF External iter_rate_external). Qed.
End ExternalRateGen.

Theorem external_bound_rate (g : gameR) (draw : oracleR) (p : paramsR) (lo hi : R) (A : nat) :
  WFgame g -> PerfectRecall g -> ChanceOK g -> PayoffsIn lo hi (g_root g) ->
  (forall pl, Forall (fun a => (a <= A)%nat) (arities g pl)) ->
  DrawsInRange draw ->
  forall budget (stop : R -> bool) strats b1 b2 ran,
  @solve_single RNum g External draw p budget stop = (strats, Some (b1, b2), ran) ->
  (1 <= ran)%N /\
  b1 * sqrt (INR (N.to_nat ran)) <= 2 * (hi - lo) * INR (length (g_infos g true)) * sqrt (INR A) /\
  b2 * sqrt (INR (N.to_nat ran)) <= 2 * (hi - lo) * INR (length (g_infos g false)) * sqrt (INR A).
Proof.
  intros HWF HPR HCO HPay HA HD. apply external_bound_rate_gen; try assumption.
  now apply ext_inc_bounded.
Qed.

Theorem external_bound_rate_any_draw (g : gameR) (draw : oracleR) (p : paramsR) (lo hi : R) (A : nat) :
  WFgame g -> PerfectRecall g -> ChanceOK g -> PayoffsIn lo hi (g_root g) ->
  (forall pl, Forall (fun a => (a <= A)%nat) (arities g pl)) ->
  lo <= 0 <= hi ->
  forall budget (stop : R -> bool) strats b1 b2 ran,
  @solve_single RNum g External draw p budget stop = (strats, Some (b1, b2), ran) ->
  (1 <= ran)%N /\
  b1 * sqrt (INR (N.to_nat ran)) <= 2 * (hi - lo) * INR (length (g_infos g true)) * sqrt (INR A) /\
  b2 * sqrt (INR (N.to_nat ran)) <= 2 * (hi - lo) * INR (length (g_infos g false)) * sqrt (INR A).
Proof.
  intros HWF HPR HCO HPay HA H0. apply external_bound_rate_gen; try assumption.
  now apply ext_inc_bounded_zero.
Qed.

Corollary external_bound_rate_div (g : gameR) (draw : oracleR) (p : paramsR) (lo hi : R) (A : nat) :
  WFgame g -> PerfectRecall g -> ChanceOK g -> PayoffsIn lo hi (g_root g) ->
  (forall pl, Forall (fun a => (a <= A)%nat) (arities g pl)) ->
  DrawsInRange draw \/ lo <= 0 <= hi ->
  forall budget (stop : R -> bool) strats b1 b2 ran,
  @solve_single RNum g External draw p budget stop = (strats, Some (b1, b2), ran) ->
  b1 <= 2 * (hi - lo) * INR (num_infosets g) * sqrt (INR A) / sqrt (INR (N.to_nat ran)) /\
  b2 <= 2 * (hi - lo) * INR (num_infosets g) * sqrt (INR A) / sqrt (INR (N.to_nat ran)).
Proof.
  intros HWF HPR HCO HPay HA HD budget stop strats b1 b2 ran H.
  apply (rate_div_form g lo hi A HWF HCO HPay). destruct HD as [HD|HD].
  - eapply external_bound_rate; eauto.
  - eapply external_bound_rate_any_draw; eauto.
Qed.

Example mp_rate_external (draw : oracleR) (p : paramsR) budget (stop : R -> bool) strats b1 b2 ran :
  DrawsInRange draw ->
  @solve_single RNum mp_game External draw p budget stop = (strats, Some (b1, b2), ran) ->
  (1 <= ran)%N /\
  b1 * sqrt (INR (N.to_nat ran)) <= 4 * sqrt 2 /\
  b2 * sqrt (INR (N.to_nat ran)) <= 4 * sqrt 2.
Proof.
  intros HD H.
  apply mp_rate_const.
  exact (external_bound_rate mp_game draw p (-1) 1 2 mp_WF mp_PR mp_ChanceOK mp_Payoffs
           mp_arities HD budget stop strats b1 b2 ran H).
Qed.

Example seq_rate_external (draw : oracleR) (p : paramsR) budget (stop : R -> bool) strats b1 b2 ran :
  DrawsInRange draw ->
  @solve_single RNum seq_game External draw p budget stop = (strats, Some (b1, b2), ran) ->
  (1 <= ran)%N /\ b1 * sqrt (INR (N.to_nat ran)) <= 8 * sqrt 2 /\ b2 * sqrt (INR (N.to_nat ran)) <= 0.
Proof.
  intros HD H.
  apply seq_rate_const.
  exact (external_bound_rate seq_game draw p 0 2 2 seq_WF seq_PR seq_ChanceOK seq_Payoffs
           seq_arities HD budget stop strats b1 b2 ran H).
Qed.

(** two in-range oracles: always the first alternative; alternate with the pass number *)
Definition first_draw : oracleR := fun _ _ _ _ => 0%nat.
Definition mod_draw : oracleR := fun _ _ pass w => (N.to_nat pass mod length w)%nat.

Lemma first_draw_ok : DrawsInRange first_draw.
Proof. intros kind id pass w Hw. unfold first_draw. destruct w; [congruence|cbn [length]; lia]. Qed.

Lemma mod_draw_ok : DrawsInRange mod_draw.
Proof.
  intros kind id pass w Hw. unfold mod_draw. apply Nat.mod_upper_bound.
  destruct w; [congruence|cbn [length]; lia].
Qed.

Example mp_rate_external_exists (p : paramsR) budget (stop : R -> bool) :
  budget <> 0%nat ->
  exists strats b1 b2 ran,
    @solve_single RNum mp_game External mod_draw p budget stop = (strats, Some (b1, b2), ran) /\
    b1 * sqrt (INR (N.to_nat ran)) <= 4 * sqrt 2 /\ b2 * sqrt (INR (N.to_nat ran)) <= 4 * sqrt 2.
Proof.
  intros Hb.
  destruct (solve_single_some mp_game External mod_draw p budget stop Hb)
    as (strats & b1 & b2 & ran & E).
  exists strats, b1, b2, ran. split; [exact E|].
  exact (proj2 (mp_rate_external mod_draw p budget stop strats b1 b2 ran mod_draw_ok E)).
Qed.

(** with payoffs in [[-1, 1]] the rate holds for *every* oracle, in range or not *)
Example mp_rate_external_any (draw : oracleR) (p : paramsR) budget (stop : R -> bool) strats b1 b2 ran :
  @solve_single RNum mp_game External draw p budget stop = (strats, Some (b1, b2), ran) ->
  (1 <= ran)%N /\
  b1 * sqrt (INR (N.to_nat ran)) <= 4 * sqrt 2 /\
  b2 * sqrt (INR (N.to_nat ran)) <= 4 * sqrt 2.
Proof.
  intros H. apply mp_rate_const.
  exact (external_bound_rate_any_draw mp_game draw p (-1) 1 2 mp_WF mp_PR mp_ChanceOK mp_Payoffs
           mp_arities ltac:(lra) budget stop strats b1 b2 ran H).
Qed.
