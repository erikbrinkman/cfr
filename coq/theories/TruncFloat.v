(** * TruncFloat: binary64 read through Flocq, and [Strategies::truncate] at [FNum].

    The first part is what every file about the instance [FNum] stands on:
    [FR] and [Ffin] read a primitive float through [Prim2B] and [B2R]; by the
    [_equiv] theorems of [Flocq.IEEE754.PrimFloat] and [Bplus_correct],
    [Bdiv_correct], [Bltb_correct] the operations are correctly rounded (to
    nearest, ties to even) real operations as long as the rounded result does
    not overflow; float sums of rows, and their error against the exact sum [RS].

    The second part is the validity half of property C18 for the very function
    that the correspondence check executes, [@truncate_row FNum]: no NaN, no
    infinity, no entry outside [0,1] can come out of a valid binary64 row, for
    every threshold (finite, infinite or NaN). *)
From Coq Require Import List ZArith NArith Reals Floats Bool Lia Lra Uint63.
From Flocq Require Import Core IEEE754.BinarySingleNaN IEEE754.PrimFloat Plus_error Relative.
From Cfr.theories Require Import Num ListAux FInst Tree Strat.
Import ListNotations.

Local Existing Instance Flocq.IEEE754.PrimFloat.Hprec.
Local Existing Instance Flocq.IEEE754.PrimFloat.Hmax.

Local Open Scope R_scope.
Local Notation float := PrimFloat.float.
Local Notation Hp := Flocq.IEEE754.PrimFloat.Hprec.
Local Notation Hm := Flocq.IEEE754.PrimFloat.Hmax.

Local Instance fexp_valid : Valid_exp (SpecFloat.fexp prec emax) := fexp_correct prec emax Hp.

Definition rnd (x : R) : R := round radix2 (SpecFloat.fexp prec emax) ZnearestE x.
(** representable in binary64 (ignoring overflow) *)
Definition fmt (x : R) : Prop := generic_format radix2 (SpecFloat.fexp prec emax) x.

(** real value of a float (0 for NaN and the infinities) *)
Definition FR (x : float) : R := B2R (Prim2B x).
Definition Ffin (x : float) : Prop := is_finite (Prim2B x) = true.

Definition fin01 (x : float) : Prop := Ffin x /\ 0 <= FR x <= 1.

Definition fin01b (x : float) : bool := PrimFloat.leb 0 x && PrimFloat.leb x 1.

Lemma fmt_FR : forall x, fmt (FR x).
Proof. intros x. apply generic_format_B2R. Qed.

Lemma fmt_0 : fmt 0.
Proof. apply generic_format_0. Qed.

Lemma fmt_1 : fmt 1.
Proof.
  unfold fmt. rewrite <- (Bone_correct prec emax Hp Hm). apply generic_format_B2R.
Qed.

Lemma fmt_IZR : forall n : Z, (Z.abs n < 2 ^ 53)%Z -> fmt (IZR n).
Proof.
  intros n Hn. unfold fmt.
  apply (generic_format_FLT radix2 (SpecFloat.emin prec emax) prec).
  apply (FLT_spec radix2 (SpecFloat.emin prec emax) prec (IZR n) (Float radix2 n 0)).
  - unfold F2R. cbn [Fnum Fexp bpow]. lra.
  - exact Hn.
  - cbv. discriminate.
Qed.

Lemma bpow53_lt_emax : IZR (2 ^ 53) < bpow radix2 emax.
Proof.
  change (2 ^ 53)%Z with (Zpower radix2 53).
  rewrite IZR_Zpower by lia. apply bpow_lt. reflexivity.
Qed.

Lemma Prim2B_zero : Prim2B 0%float = B754_zero false.
Proof. change 0%float with PrimFloat.zero. rewrite zero_equiv. apply Prim2B_B2Prim. Qed.

Lemma Prim2B_one : Prim2B 1%float = Bone.
Proof. change 1%float with PrimFloat.one. rewrite one_equiv. apply Prim2B_B2Prim. Qed.

Lemma Ffin_zero : Ffin 0%float.
Proof. unfold Ffin. rewrite Prim2B_zero. reflexivity. Qed.

Lemma FR_zero : FR 0%float = 0.
Proof. unfold FR. rewrite Prim2B_zero. reflexivity. Qed.

Lemma Ffin_one : Ffin 1%float.
Proof. unfold Ffin. rewrite Prim2B_one. apply is_finite_Bone. Qed.

Lemma FR_one : FR 1%float = 1.
Proof. unfold FR. rewrite Prim2B_one. apply Bone_correct. Qed.

Lemma fin01_zero : fin01 0%float.
Proof. split. apply Ffin_zero. rewrite FR_zero. lra. Qed.

Lemma Rdiv_ge : forall c p t, 0 < t -> c * t <= p -> c <= p / t.
Proof.
  intros c p t Ht H. apply Rmult_le_reg_r with t; [exact Ht|].
  unfold Rdiv. rewrite Rmult_assoc, Rinv_l, Rmult_1_r by lra. exact H.
Qed.

Lemma Rdiv_01 : forall p t, 0 <= p <= t -> 0 < t -> 0 <= p / t <= 1.
Proof.
  intros p t [H0 H1] Ht. split; [apply Rdiv_ge; lra|].
  apply Rmult_le_reg_r with t; [exact Ht|].
  unfold Rdiv. rewrite Rmult_assoc, Rinv_l, Rmult_1_r by lra. lra.
Qed.

Lemma rel_close_inv : forall t S w, 0 < t -> Rabs (t - S) <= w * t -> Rabs (S / t - 1) <= w.
Proof.
  intros t S w Ht H.
  replace (S / t - 1) with (- (t - S) * / t) by (field; lra).
  rewrite Rabs_mult, Rabs_Ropp, (Rabs_pos_eq (/ t)) by (left; apply Rinv_0_lt_compat; exact Ht).
  apply Rmult_le_reg_r with t; [exact Ht|].
  rewrite Rmult_assoc, Rinv_l, Rmult_1_r by lra. exact H.
Qed.

Lemma rnd_le_fmt : forall x y, fmt y -> x <= y -> rnd x <= y.
Proof. intros x y Hy Hxy. unfold rnd. apply round_le_generic; auto with typeclass_instances. Qed.

Lemma rnd_ge_fmt : forall x y, fmt x -> x <= y -> x <= rnd y.
Proof. intros x y Hx Hxy. unfold rnd. apply round_ge_generic; auto with typeclass_instances. Qed.

Lemma rnd_fmt : forall x, fmt x -> rnd x = x.
Proof. intros x Hx. unfold rnd. apply round_generic; auto with typeclass_instances. Qed.

Lemma rnd_le : forall x y, x <= y -> rnd x <= rnd y.
Proof. intros x y H. unfold rnd. apply round_le; auto with typeclass_instances. Qed.

Lemma rnd_between : forall a b x, fmt a -> fmt b -> a <= x <= b -> a <= rnd x <= b.
Proof. intros a b x Ha Hb [H1 H2]. split; [apply rnd_ge_fmt | apply rnd_le_fmt]; assumption. Qed.

Lemma fmt_bpow : forall e : Z, (-1074 <= e)%Z -> fmt (bpow radix2 e).
Proof.
  intros e He. unfold fmt.
  apply (generic_format_FLT_bpow radix2 (SpecFloat.emin prec emax) prec). exact He.
Qed.

Lemma fmt_pos_ge_eta : forall x, fmt x -> 0 < x -> bpow radix2 (-1074) <= x.
Proof.
  intros x Hx H0.
  apply (generic_format_ge_bpow radix2 (SpecFloat.fexp prec emax) (-1074)); try assumption.
  intros e. unfold SpecFloat.fexp. apply Z.le_max_r.
Qed.

Lemma small_lt_emax : forall x : R, Rabs x <= IZR (2 ^ 53) -> Rabs x < bpow radix2 emax.
Proof. intros x Hx. apply Rle_lt_trans with (1 := Hx). apply bpow53_lt_emax. Qed.

Lemma nonneg_lt_emax : forall (x : R) (n : Z),
  0 <= x <= IZR n -> (n <= 2 ^ 53)%Z -> Rabs x < bpow radix2 emax.
Proof.
  intros x n [H0 Hn] Hle. apply small_lt_emax. rewrite Rabs_pos_eq by exact H0.
  apply Rle_trans with (1 := Hn). apply IZR_le. exact Hle.
Qed.

(** the common shape of Flocq's correctness statements, read in the no-overflow case *)
Lemma no_overflow : forall (b : binary_float prec emax) (x : R) (f : bool) (P Q : Prop),
  (if Rlt_bool (Rabs (rnd x)) (bpow radix2 emax)
   then B2R b = rnd x /\ is_finite b = f /\ P else Q) ->
  Rabs (rnd x) < bpow radix2 emax ->
  is_finite b = f /\ B2R b = rnd x.
Proof. intros b x f P Q H Hb. rewrite Rlt_bool_true in H by exact Hb. tauto. Qed.

Lemma add_ok : forall x y,
  Ffin x -> Ffin y ->
  Rabs (rnd (FR x + FR y)) < bpow radix2 emax ->
  Ffin (x + y)%float /\ FR (x + y)%float = rnd (FR x + FR y).
Proof.
  intros x y Hx Hy Hb. unfold Ffin, FR. rewrite add_equiv.
  apply (no_overflow _ _ _ _ _ (Bplus_correct prec emax Hp Hm mode_NE _ _ Hx Hy) Hb).
Qed.

Lemma sub_ok : forall x y,
  Ffin x -> Ffin y ->
  Rabs (rnd (FR x - FR y)) < bpow radix2 emax ->
  Ffin (x - y)%float /\ FR (x - y)%float = rnd (FR x - FR y).
Proof.
  intros x y Hx Hy Hb. unfold Ffin, FR. rewrite sub_equiv.
  apply (no_overflow _ _ _ _ _ (Bminus_correct prec emax Hp Hm mode_NE _ _ Hx Hy) Hb).
Qed.

Lemma mul_ok : forall x y,
  Ffin x -> Ffin y ->
  Rabs (rnd (FR x * FR y)) < bpow radix2 emax ->
  Ffin (x * y)%float /\ FR (x * y)%float = rnd (FR x * FR y).
Proof.
  intros x y Hx Hy Hb. unfold Ffin, FR in *. rewrite mul_equiv.
  destruct (no_overflow _ _ _ _ _ (Bmult_correct prec emax Hp Hm mode_NE (Prim2B x) (Prim2B y)) Hb)
    as [Hf He].
  rewrite Hx, Hy in Hf. split; assumption.
Qed.

Lemma div_ok : forall x y,
  Ffin x -> FR y <> 0 ->
  Rabs (rnd (FR x / FR y)) < bpow radix2 emax ->
  Ffin (x / y)%float /\ FR (x / y)%float = rnd (FR x / FR y).
Proof.
  intros x y Hx Hy Hb. unfold Ffin, FR in *. rewrite div_equiv.
  destruct (no_overflow _ _ _ _ _ (Bdiv_correct prec emax Hp Hm mode_NE (Prim2B x) (Prim2B y) Hy) Hb)
    as [Hf He].
  rewrite Hx in Hf. split; assumption.
Qed.

(** a finite sum has finite operands and is their correctly rounded sum: an
    overflow would have produced an infinity *)
Lemma add_fin_inv : forall x y, Ffin (x + y)%float ->
  Ffin x /\ Ffin y /\ FR (x + y)%float = rnd (FR x + FR y).
Proof.
  intros x y. unfold Ffin, FR. rewrite add_equiv. intros Hf.
  assert (Hxy : is_finite (Prim2B x) = true /\ is_finite (Prim2B y) = true).
  { destruct (Prim2B x) as [|[|]| |], (Prim2B y) as [|[|]| |];
      try discriminate Hf; split; reflexivity. }
  destruct Hxy as [Hx Hy]. split; [exact Hx|]. split; [exact Hy|].
  generalize (Bplus_correct prec emax Hp Hm mode_NE _ _ Hx Hy).
  change (round_mode mode_NE) with ZnearestE.
  destruct (Rlt_bool _ _); [intros [H _]; exact H|].
  intros [H _]. rewrite <- is_finite_SF_B2SF, H in Hf. discriminate Hf.
Qed.

Lemma FR_abs : forall x, FR (PrimFloat.abs x) = Rabs (FR x).
Proof. intros x. unfold FR. rewrite abs_equiv. apply B2R_Babs. Qed.

Lemma Ffin_abs : forall x, Ffin x -> Ffin (PrimFloat.abs x).
Proof. intros x Hx. unfold Ffin. rewrite abs_equiv, is_finite_Babs. exact Hx. Qed.

(** [usize as f64] is exact below 2^53 *)
Lemma of_N_ok : forall n : nat, (Z.of_nat n < 2 ^ 53)%Z ->
  Ffin (f_of_N (N.of_nat n)) /\ FR (f_of_N (N.of_nat n)) = INR n.
Proof.
  intros n Hn. unfold f_of_N. rewrite nat_N_Z.
  assert (Hlt : (Z.of_nat n <? 2 ^ 62)%Z = true) by (apply Z.ltb_lt; lia).
  rewrite Hlt.
  unfold Ffin, FR. rewrite of_int63_equiv.
  rewrite Uint63.of_Z_spec.
  rewrite Z.mod_small by (change wB with (2 ^ 63)%Z; lia).
  assert (HF : F2R (Float radix2 (Z.of_nat n) 0) = IZR (Z.of_nat n)).
  { unfold F2R. cbn [Fnum Fexp bpow]. lra. }
  assert (Hr : rnd (IZR (Z.of_nat n)) = IZR (Z.of_nat n)) by (apply rnd_fmt, fmt_IZR; lia).
  generalize (binary_normalize_correct prec emax Hp Hm mode_NE (Z.of_nat n) 0 false).
  cbv zeta. change (round_mode mode_NE) with ZnearestE. rewrite HF. intros H.
  destruct (no_overflow _ _ _ _ _ H) as [Hf He].
  { rewrite Hr. apply (nonneg_lt_emax _ (Z.of_nat n)); [split; [apply IZR_le; lia | lra] | lia]. }
  split; [exact Hf|]. rewrite He, Hr. symmetry. apply INR_IZR_INZ.
Qed.

Lemma ltb_fin : forall x y, Ffin x -> Ffin y ->
  PrimFloat.ltb x y = Rlt_bool (FR x) (FR y).
Proof.
  intros x y Hx Hy. rewrite ltb_equiv. apply Bltb_correct; assumption.
Qed.

Lemma leb_fin : forall x y, Ffin x -> Ffin y ->
  PrimFloat.leb x y = Rle_bool (FR x) (FR y).
Proof.
  intros x y Hx Hy. rewrite leb_equiv. apply Bleb_correct; assumption.
Qed.

Lemma ltb_zero_pos : forall t, Ffin t ->
  (PrimFloat.ltb 0 t = true <-> 0 < FR t).
Proof.
  intros t Ht. rewrite (ltb_fin 0 t Ffin_zero Ht), FR_zero.
  destruct (Rlt_bool_spec 0 (FR t)) as [H|H]; split; intro H'; try reflexivity;
    try assumption; try discriminate; lra.
Qed.

Lemma ltb0_false_zero : forall p, fin01 p -> PrimFloat.ltb 0 p = false -> FR p = 0.
Proof.
  intros p [Hpf [Hp0 _]] Hlt.
  destruct (Rle_lt_or_eq_dec _ _ Hp0) as [Hpos|Hz]; [|symmetry; exact Hz].
  apply (ltb_zero_pos p Hpf) in Hpos. rewrite Hpos in Hlt. discriminate.
Qed.

Lemma Bsign_pos : forall x : binary_float prec emax,
  is_finite x = true -> 0 < B2R x -> Bsign x = false.
Proof.
  intros x Hx H0. destruct x as [s|s| |s m e He]; try discriminate Hx.
  - cbn in H0. lra.
  - destruct s; [|reflexivity]. exfalso.
    cbn [B2R cond_Zopp] in H0.
    assert (H := F2R_lt_0 radix2 (Float radix2 (Z.opp (Z.pos m)) e)).
    cbn [Fnum] in H. specialize (H ltac:(lia)). lra.
Qed.

Lemma FR_one_inv : forall t : float, Ffin t -> FR t = 1 -> t = 1%float.
Proof.
  intros t Ht H1. apply Prim2B_inj. rewrite Prim2B_one.
  apply B2R_Bsign_inj; [exact Ht | apply is_finite_Bone | rewrite Bone_correct; exact H1 |].
  rewrite Bsign_Bone. apply Bsign_pos; [exact Ht | fold (FR t); lra].
Qed.

Lemma div_pzero_pos : forall t, Ffin t -> 0 < FR t -> (0 / t)%float = 0%float.
Proof.
  intros t Ht Ht0. apply Prim2B_inj. rewrite div_equiv, Prim2B_zero.
  assert (Hs := Bsign_pos _ Ht Ht0). unfold Ffin, FR in *.
  destruct (Prim2B t) as [s|s| |s m e He]; try discriminate Ht.
  - cbn in Ht0. lra.
  - cbn in Hs. subst s. reflexivity.
Qed.

Lemma add_step : forall acc p (n : Z),
  Ffin acc -> fin01 p -> 0 <= FR acc <= IZR n -> (0 <= n)%Z -> (n + 1 < 2 ^ 53)%Z ->
  Ffin (acc + p)%float /\
  FR (acc + p)%float = rnd (FR acc + FR p) /\
  FR acc <= FR (acc + p)%float /\
  FR p <= FR (acc + p)%float /\
  FR (acc + p)%float <= IZR (n + 1).
Proof.
  intros acc p n Ha [Hp [Hp0 Hp1]] [Ha0 Han] Hn0 Hn.
  assert (Hup : rnd (FR acc + FR p) <= IZR (n + 1)).
  { apply rnd_le_fmt; [apply fmt_IZR; lia | rewrite plus_IZR; lra]. }
  assert (Hlo1 : FR acc <= rnd (FR acc + FR p)) by (apply rnd_ge_fmt; [apply fmt_FR | lra]).
  assert (Hlo2 : FR p <= rnd (FR acc + FR p)) by (apply rnd_ge_fmt; [apply fmt_FR | lra]).
  destruct (add_ok acc p Ha Hp) as [Hf He].
  { apply (nonneg_lt_emax _ (n + 1)); [lra | lia]. }
  rewrite He. repeat split; assumption.
Qed.

Lemma fsum_inv : forall (l : list float) (acc : float) (n : Z),
  Forall fin01 l ->
  Ffin acc -> 0 <= FR acc <= IZR n -> (0 <= n)%Z ->
  (n + Z.of_nat (length l) < 2 ^ 53)%Z ->
  Ffin (fold_left PrimFloat.add l acc) /\
  FR acc <= FR (fold_left PrimFloat.add l acc) /\
  FR (fold_left PrimFloat.add l acc) <= IZR (n + Z.of_nat (length l)) /\
  Forall (fun p => FR p <= FR (fold_left PrimFloat.add l acc)) l.
Proof.
  induction l as [|p l IH]; intros acc n Hl Ha Hb Hn0 Hn.
  - cbn [fold_left length]. rewrite Z.add_0_r.
    repeat split; try assumption; try lra. constructor.
  - inversion Hl as [|p' l' Hp Hl']; subst.
    change (length (p :: l)) with (S (length l)) in *.
    rewrite Nat2Z.inj_succ in *.
    cbn [fold_left].
    destruct (add_step acc p n Ha Hp Hb Hn0 ltac:(lia)) as [Hf [_ [H1 [H2 H3]]]].
    assert (Hb' : 0 <= FR (acc + p)%float <= IZR (n + 1)) by (split; [lra | exact H3]).
    destruct (IH (acc + p)%float (n + 1)%Z Hl' Hf Hb' ltac:(lia) ltac:(lia))
      as [G1 [G2 [G3 G4]]].
    replace (n + Z.succ (Z.of_nat (length l)))%Z with (n + 1 + Z.of_nat (length l))%Z by lia.
    repeat split; try assumption; try lra.
    constructor; [lra | exact G4].
Qed.

Lemma sum_FNum : forall l : list float, @sum FNum l = fold_left PrimFloat.add l 0%float.
Proof. reflexivity. Qed.

Lemma sum_fin01 : forall l : list float,
  Forall fin01 l -> (Z.of_nat (length l) < 2 ^ 53)%Z ->
  Ffin (@sum FNum l) /\ 0 <= FR (@sum FNum l) <= INR (length l) /\
  Forall (fun p => FR p <= FR (@sum FNum l)) l.
Proof.
  intros l Hl Hlen. rewrite sum_FNum.
  destruct (fsum_inv l 0%float 0%Z Hl Ffin_zero) as [G1 [G2 [G3 G4]]];
    [rewrite FR_zero; lra | lia | lia |].
  rewrite FR_zero in G2. rewrite Z.add_0_l, <- INR_IZR_INZ in G3. tauto.
Qed.

Lemma fin01b_spec : forall x, fin01b x = true <-> fin01 x.
Proof.
  intros x. unfold fin01b, fin01.
  assert (Hnf : is_finite (Prim2B x) = false ->
                (PrimFloat.leb 0 x && PrimFloat.leb x 1)%bool = false).
  { intros Hx. rewrite !leb_equiv, Prim2B_zero, Prim2B_one.
    destruct (Prim2B x) as [s|s| |s m e He]; try discriminate Hx.
    - destruct s; vm_compute; reflexivity.
    - vm_compute; reflexivity. }
  destruct (is_finite (Prim2B x)) eqn:Hx.
  - rewrite (leb_fin 0 x Ffin_zero Hx), (leb_fin x 1 Hx Ffin_one), FR_zero, FR_one.
    destruct (Rle_bool_spec 0 (FR x)) as [H0|H0];
      destruct (Rle_bool_spec (FR x) 1) as [H1|H1]; cbn [andb]; split;
      try (intros [_ [G0 G1]]; exfalso; lra); try discriminate; try reflexivity.
    intros _. split; [exact Hx | split; assumption].
  - rewrite (Hnf eq_refl). split; [discriminate|].
    intros [Hf _]. unfold Ffin in Hf. rewrite Hx in Hf. discriminate.
Qed.

Lemma truncate_row_FNum : forall (h : float) (row : list float),
  @truncate_row FNum h row =
  let total := fold_left PrimFloat.add (filter (fun p => PrimFloat.ltb h p) row) 0%float in
  if PrimFloat.ltb 0 total
  then map (fun p => if PrimFloat.ltb h p then PrimFloat.div p total else 0%float) row
  else row.
Proof. reflexivity. Qed.

Lemma Forall_filter : forall (A : Type) (P : A -> Prop) (f : A -> bool) (l : list A),
  Forall P l -> Forall P (filter f l).
Proof. intros A P f l. apply incl_Forall, incl_filter. Qed.

Lemma filter_length_le : forall (A : Type) (f : A -> bool) (l : list A),
  (length (filter f l) <= length l)%nat.
Proof.
  intros A f l. induction l as [|x l IH]; cbn [filter length]; [lia|].
  destruct (f x); cbn [length]; lia.
Qed.

Theorem truncate_row_total_ok : forall (h : float) (row : list float),
  Forall fin01 row ->
  (Z.of_nat (length row) < 2 ^ 53)%Z ->
  let kept := filter (fun p => ltb FNum h p) row in
  let total := @sum FNum kept in
  Ffin total /\
  0 <= FR total <= INR (length row) /\
  Forall (fun p => FR p <= FR total) kept.
Proof.
  intros h row Hrow Hlen kept total.
  assert (Hkl : (@length float kept <= length row)%nat) by apply filter_length_le.
  destruct (sum_fin01 kept (Forall_filter _ _ _ _ Hrow)) as [G1 [[G2 G3] G4]]; [lia|].
  apply le_INR in Hkl.
  split; [exact G1|]. split; [split; [exact G2 | exact (Rle_trans _ _ _ G3 Hkl)] | exact G4].
Qed.

Lemma div_part_ok : forall p t,
  Ffin p -> Ffin t -> 0 <= FR p <= FR t -> 0 < FR t ->
  fin01 (p / t)%float /\ FR (p / t)%float = rnd (FR p / FR t).
Proof.
  intros p t Hp Ht Hpt Ht0.
  assert (Hr := rnd_between 0 1 _ fmt_0 fmt_1 (Rdiv_01 _ _ Hpt Ht0)).
  destruct (div_ok p t Hp ltac:(lra)) as [Hf He].
  { apply (nonneg_lt_emax _ 1 Hr). lia. }
  rewrite <- He in Hr. split; [split|]; assumption.
Qed.

Lemma div_part_zero : forall p t,
  Ffin p -> Ffin t -> 0 <= FR p <= FR t -> 0 < FR t ->
  (FR p = 0 -> FR (p / t)%float = 0) /\
  (bpow radix2 (-1074) * FR t <= FR p -> bpow radix2 (-1074) <= FR (p / t)%float).
Proof.
  intros p t Hp Ht Hpt Ht0.
  destruct (div_part_ok p t Hp Ht Hpt Ht0) as [_ He]. rewrite He. split.
  - intros Hz. rewrite Hz. unfold Rdiv. rewrite Rmult_0_l. apply rnd_fmt, fmt_0.
  - intros Hbig. apply rnd_ge_fmt; [apply fmt_bpow; lia | apply Rdiv_ge; assumption].
Qed.

(** 2^-1074 * 2^53 = 2^-1021: what is not tiny at all is not tiny against a sum
    of at most 2^53 numbers in [0,1] *)
Lemma not_tiny_len : forall (t x : R) (n : nat),
  t <= INR n -> (Z.of_nat n < 2 ^ 53)%Z ->
  bpow radix2 (-1021) <= x -> bpow radix2 (-1074) * t <= x.
Proof.
  intros t x n Ht Hn Hx. apply Rle_trans with (2 := Hx).
  replace (bpow radix2 (-1021)) with (bpow radix2 (-1074) * IZR (2 ^ 53))
    by (change (IZR (2 ^ 53)) with (bpow radix2 53); rewrite <- bpow_plus; reflexivity).
  apply Rmult_le_compat_l; [apply bpow_ge_0|].
  apply Rle_trans with (1 := Ht). rewrite INR_IZR_INZ. apply IZR_le. lia.
Qed.

Theorem truncate_row_float_valid : forall (h : float) (row : list float),
  Forall fin01 row ->
  (Z.of_nat (length row) < 2 ^ 53)%Z ->
  Forall fin01 (@truncate_row FNum h row).
Proof.
  intros h row Hrow Hlen.
  destruct (truncate_row_total_ok h row Hrow Hlen) as [Hf [[Ht0 _] Hge]].
  rewrite sum_FNum in Hf, Ht0, Hge. cbn [ltb FNum] in Hf, Ht0, Hge.
  rewrite truncate_row_FNum. cbv zeta.
  set (total := fold_left PrimFloat.add (filter (fun p => PrimFloat.ltb h p) row) 0%float) in *.
  destruct (PrimFloat.ltb 0 total) eqn:Hpos; [|exact Hrow].
  apply (ltb_zero_pos total Hf) in Hpos.
  rewrite Forall_forall in Hge, Hrow.
  apply Forall_map, Forall_forall. intros p Hin.
  destruct (PrimFloat.ltb h p) eqn:Hab; [|apply fin01_zero].
  destruct (Hrow p Hin) as [Hpf [Hp0 _]].
  assert (Hpt : FR p <= FR total) by (apply Hge, filter_In; split; assumption).
  apply (div_part_ok p total Hpf Hf (conj Hp0 Hpt) Hpos).
Qed.

Lemma Bltb_mono_r : forall h q p : binary_float prec emax,
  is_finite q = true -> is_finite p = true -> B2R q <= B2R p ->
  Bltb h q = true -> Bltb h p = true.
Proof.
  intros h q p Hq Hp Hqp Hhq.
  destruct (is_finite h) eqn:Hh.
  - rewrite (Bltb_correct prec emax h q Hh Hq) in Hhq.
    rewrite (Bltb_correct prec emax h p Hh Hp).
    destruct (Rlt_bool_spec (B2R h) (B2R q)) as [H|H]; [|discriminate].
    apply Rlt_bool_true. lra.
  - destruct h as [s|s| |s m e He]; try discriminate Hh.
    + destruct s.
      * destruct p as [sp|sp| |sp mp ep Hep]; try discriminate Hp; reflexivity.
      * destruct q as [sq|sq| |sq mq eq Heq]; try discriminate Hq; discriminate Hhq.
    + destruct q as [sq|sq| |sq mq eq Heq]; discriminate Hhq.
Qed.

Lemma ltb_mono_r : forall h q p : float,
  Ffin q -> Ffin p -> FR q <= FR p ->
  PrimFloat.ltb h q = true -> PrimFloat.ltb h p = true.
Proof.
  intros h q p Hq Hp Hqp. rewrite !ltb_equiv.
  apply Bltb_mono_r; assumption.
Qed.

Lemma ltb_nan_l : forall h p : float, PrimFloat.is_nan h = true -> PrimFloat.ltb h p = false.
Proof.
  intros h p Hh. rewrite is_nan_equiv in Hh. rewrite ltb_equiv.
  destruct (Prim2B h) as [s|s| |s m e He]; try discriminate Hh. reflexivity.
Qed.

Lemma ltb_pinf_l : forall p : float, PrimFloat.ltb infinity p = false.
Proof.
  intros p. rewrite ltb_equiv, infinity_equiv, Prim2B_B2Prim.
  destruct (Prim2B p) as [s|s| |s m e He]; try reflexivity. destruct s; reflexivity.
Qed.

Lemma ltb_ge1_l : forall h p : float, Ffin h -> 1 <= FR h -> fin01 p -> PrimFloat.ltb h p = false.
Proof.
  intros h p Hh H1 [Hp [_ Hp1]]. rewrite (ltb_fin h p Hh Hp).
  apply Rlt_bool_false. lra.
Qed.

Lemma filter_existsb_false : forall (A : Type) (f : A -> bool) (l : list A),
  existsb f l = false -> filter f l = [].
Proof.
  intros A f l. induction l as [|x l IH]; cbn [existsb filter]; [reflexivity|].
  destruct (f x); cbn [orb]; [discriminate | exact IH].
Qed.

Theorem truncate_row_float_unchanged : forall (h : float) (row : list float),
  existsb (fun p => ltb FNum h p) row = false ->
  @truncate_row FNum h row = row.
Proof.
  intros h row Hex. rewrite truncate_row_FNum. cbv zeta.
  change (@existsb float (fun p => PrimFloat.ltb h p) row = false) in Hex.
  rewrite (filter_existsb_false float _ _ Hex). cbn [fold_left].
  reflexivity.
Qed.

Lemma truncate_row_float_none : forall (h : float) (row : list float),
  (forall p, In p row -> PrimFloat.ltb h p = false) -> @truncate_row FNum h row = row.
Proof.
  intros h row H. apply truncate_row_float_unchanged.
  induction row as [|x l IH]; cbn [existsb]; [reflexivity|].
  cbn [ltb FNum]. rewrite (H x (or_introl eq_refl)). apply IH.
  intros y Hy. apply H. right. exact Hy.
Qed.

Theorem truncate_row_float_nan : forall (h : float) (row : list float),
  PrimFloat.is_nan h = true -> @truncate_row FNum h row = row.
Proof. intros h row Hh. apply truncate_row_float_none. intros p _. apply ltb_nan_l, Hh. Qed.

Theorem truncate_row_float_pinf : forall row : list float,
  @truncate_row FNum infinity row = row.
Proof. intros row. apply truncate_row_float_none. intros p _. apply ltb_pinf_l. Qed.

Theorem truncate_row_float_ge1 : forall (h : float) (row : list float),
  Forall fin01 row -> Ffin h -> 1 <= FR h -> @truncate_row FNum h row = row.
Proof.
  intros h row Hrow Hh H1. apply truncate_row_float_none. intros p Hp.
  rewrite Forall_forall in Hrow. apply ltb_ge1_l; auto.
Qed.

Lemma truncate_row_float_length : forall (h : float) (row : list float),
  length (@truncate_row FNum h row) = length row.
Proof.
  intros h row. rewrite truncate_row_FNum. cbv zeta.
  destruct (PrimFloat.ltb 0 _); [apply map_length | reflexivity].
Qed.

Theorem truncate_row_float_support : forall (h : float) (row : list float),
  Forall fin01 row ->
  (Z.of_nat (length row) < 2 ^ 53)%Z ->
  existsb (fun p => ltb FNum h p) row = true ->
  let out := @truncate_row FNum h row in
  let total := @sum FNum (filter (fun p => ltb FNum h p) row) in
  length out = length row /\
  forall k, (k < length row)%nat ->
    let p := nth k row 0%float in
    let y := nth k out 0%float in
    (* not above the threshold: exactly +0 *)
    (ltb FNum h p = false -> y = 0%float) /\
    (* above the threshold: the correctly rounded quotient by the total *)
    (ltb FNum h p = true ->
       FR p <= FR total /\
       (0 < FR total -> y = (p / total)%float /\ FR y = rnd (FR p / FR total)) /\
       (FR total = 0 -> y = p)) /\
    (* above and zero: zero *)
    (ltb FNum h p = true -> FR p = 0 -> FR y = 0) /\
    (* above and not tiny: not zero *)
    (ltb FNum h p = true -> bpow radix2 (-1021) <= FR p -> bpow radix2 (-1074) <= FR y).
Proof.
  intros h row Hrow Hlen Hex out total.
  split; [apply truncate_row_float_length|].
  destruct (truncate_row_total_ok h row Hrow Hlen) as [Hf [[Ht0 Htn] Hge]].
  fold total in Hf, Ht0, Htn, Hge.
  assert (Hout : out = if PrimFloat.ltb 0 total
            then map (fun p => if PrimFloat.ltb h p then PrimFloat.div p total else 0%float) row
            else row) by reflexivity.
  cbn [ltb FNum] in *.
  rewrite Forall_forall in Hge, Hrow.
  intros k Hk. set (p := nth k row 0%float). set (y := nth k out 0%float).
  assert (Hp : In p row) by (apply nth_In; exact Hk).
  destruct (Hrow p Hp) as [Hpf [Hp0 _]].
  assert (Hpt : PrimFloat.ltb h p = true -> FR p <= FR total).
  { intros Hab. apply Hge, filter_In. split; assumption. }
  destruct (Rle_lt_or_eq_dec 0 _ Ht0) as [Hpos|Hz].
  - assert (Hy : y = if PrimFloat.ltb h p then PrimFloat.div p total else 0%float).
    { unfold y. rewrite Hout, (proj2 (ltb_zero_pos total Hf) Hpos).
      apply (nth_map_lt (fun p => if PrimFloat.ltb h p then PrimFloat.div p total else 0%float)).
      exact Hk. }
    destruct (PrimFloat.ltb h p); [|repeat split; try discriminate; intros _; exact Hy].
    assert (Hp01 := conj Hp0 (Hpt eq_refl)).
    destruct (div_part_ok p total Hpf Hf Hp01 Hpos) as [_ He].
    destruct (div_part_zero p total Hpf Hf Hp01 Hpos) as [Hzero Hbig].
    rewrite <- Hy in He, Hzero, Hbig.
    split; [discriminate|]. split; [|split].
    + intros _. split; [auto|]. split; [auto | intros Hc; lra].
    + intros _. exact Hzero.
    + intros _ Hb. apply Hbig, (not_tiny_len _ _ _ Htn Hlen Hb).
  - (* total = 0: the witness of [Hex] is a zero above [h], so every entry is
       above [h]; the row is unchanged *)
    apply existsb_exists in Hex. destruct Hex as [q [Hq Hhq]].
    destruct (Hrow q Hq) as [Hqf [Hq0 _]].
    assert (Hqt : FR q <= FR total) by (apply Hge, filter_In; split; assumption).
    assert (Hab : PrimFloat.ltb h p = true).
    { apply (ltb_mono_r h q p Hqf Hpf); [lra | exact Hhq]. }
    assert (Hy : y = p).
    { unfold y. rewrite Hout.
      destruct (PrimFloat.ltb 0 total) eqn:E; [|reflexivity].
      apply (ltb_zero_pos total Hf) in E. lra. }
    assert (Hp' := Hpt Hab). assert (He := bpow_gt_0 radix2 (-1021)).
    rewrite Hab, Hy. repeat split; try discriminate; intros; try lra; auto.
Qed.

(** The support in "iff" form, for rows whose non-zero entries are not tiny
    (at least 2^-1021; below that a quotient can underflow to zero, see
    [ex_trunc_underflow]). *)
Corollary truncate_row_float_support_iff : forall (h : float) (row : list float),
  Forall fin01 row ->
  (Z.of_nat (length row) < 2 ^ 53)%Z ->
  existsb (fun p => ltb FNum h p) row = true ->
  (forall p, In p row -> FR p = 0 \/ bpow radix2 (-1021) <= FR p) ->
  forall k, (k < length row)%nat ->
    (FR (nth k (@truncate_row FNum h row) 0%float) = 0 <->
     (ltb FNum h (nth k row 0%float) = false \/ FR (nth k row 0%float) = 0)).
Proof.
  intros h row Hrow Hlen Hex Hbig k Hk.
  destruct (truncate_row_float_support h row Hrow Hlen Hex) as [_ Hs].
  destruct (Hs k Hk) as [S1 [_ [S3 S4]]]. clear Hs.
  assert (Hin : In (nth k row 0%float) row) by (apply nth_In; exact Hk).
  split.
  - intros Hy. destruct (ltb FNum h (nth k row 0%float)) eqn:Hab; [|left; reflexivity].
    right. destruct (Hbig _ Hin) as [Hz|Hb]; [exact Hz|].
    exfalso. specialize (S4 eq_refl Hb).
    assert (0 < bpow radix2 (-1074)) by apply bpow_gt_0. lra.
  - intros [Hna|Hz].
    + rewrite (S1 Hna). apply FR_zero.
    + destruct (ltb FNum h (nth k row 0%float)) eqn:Hab.
      * apply S3; [reflexivity | exact Hz].
      * rewrite (S1 eq_refl). apply FR_zero.
Qed.

Lemma Forall_firstn_skipn : forall (A : Type) (P : A -> Prop) (n : nat) (l : list A),
  Forall P l -> Forall P (firstn n l) /\ Forall P (skipn n l).
Proof. intros A P n l H. apply Forall_app. rewrite firstn_skipn. exact H. Qed.

Lemma Forall_firstn' : forall (A : Type) (P : A -> Prop) (n : nat) (l : list A),
  Forall P l -> Forall P (firstn n l).
Proof. intros A P n l H. apply (Forall_firstn_skipn A P n l H). Qed.

Lemma Forall_skipn' : forall (A : Type) (P : A -> Prop) (n : nat) (l : list A),
  Forall P l -> Forall P (skipn n l).
Proof. intros A P n l H. apply (Forall_firstn_skipn A P n l H). Qed.

Theorem truncate_flat_float_valid : forall (h : float) (ars : list nat) (flat : list float),
  Forall fin01 flat ->
  (Z.of_nat (length flat) < 2 ^ 53)%Z ->
  Forall fin01 (@truncate_flat FNum h ars flat).
Proof.
  intros h ars. unfold truncate_flat.
  induction ars as [|n ars IH]; intros flat Hf Hlen; cbn [split_by map concat]; [constructor|].
  destruct (Forall_firstn_skipn _ _ n flat Hf) as [H1 H2].
  apply Forall_app. split.
  - apply truncate_row_float_valid; [exact H1|].
    apply Z.le_lt_trans with (2 := Hlen), Nat2Z.inj_le. rewrite firstn_length. apply Nat.le_min_r.
  - apply IH; [exact H2|].
    apply Z.le_lt_trans with (2 := Hlen), Nat2Z.inj_le. rewrite skipn_length. apply Nat.le_sub_l.
Qed.

Theorem truncate_float_valid : forall (g : @game FNum) (h : float) (prof : list float * list float),
  Forall fin01 (fst prof) -> Forall fin01 (snd prof) ->
  (Z.of_nat (length (fst prof)) < 2 ^ 53)%Z ->
  (Z.of_nat (length (snd prof)) < 2 ^ 53)%Z ->
  Forall fin01 (fst (@truncate FNum g h prof)) /\
  Forall fin01 (snd (@truncate FNum g h prof)).
Proof.
  intros g h prof H1 H2 L1 L2. unfold truncate. cbn [fst snd].
  split; apply truncate_flat_float_valid; assumption.
Qed.

Definition u53 : R := bpow radix2 (-53).
Definition eta1075 : R := bpow radix2 (-1075).

(** exact real sum of the values of a list of floats *)
Definition RS (l : list float) : R := fold_right Rplus 0 (map FR l).

Lemma RS_nil : RS [] = 0.
Proof. reflexivity. Qed.

Lemma RS_cons : forall x l, RS (x :: l) = FR x + RS l.
Proof. reflexivity. Qed.

Lemma RS_map_filter : forall (f : float -> bool) (g : float -> float) (l : list float),
  RS (map (fun r => if f r then g r else 0%float) l) = RS (map g (filter f l)).
Proof.
  intros f g l. induction l as [|x l IH]; cbn [map filter]; [reflexivity|].
  destruct (f x); cbn [map]; rewrite !RS_cons, IH; [reflexivity | rewrite FR_zero; lra].
Qed.

Lemma u53_pos : 0 < u53.
Proof. apply bpow_gt_0. Qed.

Lemma eta_pos : 0 < eta1075.
Proof. apply bpow_gt_0. Qed.

Lemma eta_le_u53 : eta1075 <= u53.
Proof. apply bpow_le. lia. Qed.

Lemma u53_2p53 : u53 * IZR (2 ^ 53) = 1.
Proof.
  change (IZR (2 ^ 53)) with (bpow radix2 53). unfold u53.
  rewrite <- bpow_plus. reflexivity.
Qed.

Lemma len_u53_le_1 : forall n : nat, (Z.of_nat n < 2 ^ 53)%Z -> INR n * u53 <= 1.
Proof.
  intros n Hn. rewrite <- u53_2p53, Rmult_comm, INR_IZR_INZ.
  apply Rmult_le_compat_l; [left; apply u53_pos | apply IZR_le; lia].
Qed.

Lemma half_bpow : forall e : Z, / 2 * bpow radix2 e = bpow radix2 (e - 1).
Proof.
  intros e. unfold Zminus. rewrite bpow_plus. rewrite Rmult_comm. reflexivity.
Qed.

(** Two bounds on one rounding, named after their first use.  [add_err]: a sum
    of two binary64 numbers, error relative to the rounded result, no absolute
    term (such a sum is exact in the subnormal range).  [div_err]: any real [x],
    relative error [u53] plus the subnormal term [eta1075]. *)
Lemma add_err : forall x y, fmt x -> fmt y ->
  Rabs (rnd (x + y) - (x + y)) <= u53 * Rabs (rnd (x + y)).
Proof.
  intros x y Hx Hy.
  destruct (FLT_plus_error_N_round_ex radix2 (SpecFloat.emin prec emax) prec
              (fun n => negb (Z.even n)) x y Hx Hy) as [e [He Heq]].
  change (round radix2 (FLT_exp (SpecFloat.emin prec emax) prec)
            (Znearest (fun n => negb (Z.even n))) (x + y)) with (rnd (x + y)) in Heq.
  unfold u_ro in He. rewrite half_bpow in He.
  change (bpow radix2 (- prec + 1 - 1)) with u53 in He.
  set (r := rnd (x + y)) in *.
  rewrite Heq.
  replace (r - r * (1 + e)) with (- (r * e)) by lra.
  rewrite Rabs_Ropp, Rabs_mult, Rmult_comm.
  apply Rmult_le_compat_r; [apply Rabs_pos | exact He].
Qed.

Lemma div_err : forall x, Rabs (rnd x - x) <= u53 * Rabs x + eta1075.
Proof.
  intros x.
  destruct (error_N_FLT radix2 (SpecFloat.emin prec emax) prec eq_refl
              (fun n => negb (Z.even n)) x) as [e [et [He [Het [_ Heq]]]]].
  change (round radix2 (FLT_exp (SpecFloat.emin prec emax) prec)
            (Znearest (fun n => negb (Z.even n))) x) with (rnd x) in Heq.
  rewrite half_bpow in He, Het.
  change (bpow radix2 (- prec + 1 - 1)) with u53 in He.
  change (bpow radix2 (SpecFloat.emin prec emax - 1)) with eta1075 in Het.
  rewrite Heq.
  replace (x * (1 + e) + et - x) with (x * e + et) by lra.
  apply Rle_trans with (1 := Rabs_triang _ _).
  apply Rplus_le_compat; [|exact Het].
  rewrite Rabs_mult, Rmult_comm.
  apply Rmult_le_compat_r; [apply Rabs_pos | exact He].
Qed.

(** Sums of non-negative floats whose float sum is finite: nothing else is
    asked of the terms, a finite sum has finite terms. *)
Definition nonneg (x : float) : Prop := 0 <= FR x.

Lemma fin01_nonneg : forall l, Forall fin01 l -> Forall nonneg l.
Proof. intros l. apply Forall_impl. intros a [_ [H _]]. exact H. Qed.

(** No partial sum overflowed, and rounding to nearest is monotone: the sum is
    at least the start value and at least every term. *)
Lemma fsum_fin_inv : forall (l : list float) (acc : float),
  Forall nonneg l -> Ffin (fold_left PrimFloat.add l acc) ->
  Ffin acc /\ Forall Ffin l /\
  (0 <= FR acc ->
   FR acc <= FR (fold_left PrimFloat.add l acc) /\
   Forall (fun p => FR p <= FR (fold_left PrimFloat.add l acc)) l).
Proof.
  induction l as [|p l IH]; intros acc Hl Hf; cbn [fold_left] in *.
  - split; [exact Hf|]. split; [constructor|]. intros _. split; [lra | constructor].
  - inversion Hl as [|p' l' Hp Hl']; subst.
    destruct (IH _ Hl' Hf) as [Hap [Hlf Hge]].
    destruct (add_fin_inv acc p Hap) as [Ha [Hpf He]].
    split; [exact Ha|]. split; [constructor; assumption|]. intros Ha0.
    assert (H1 : FR acc <= FR (acc + p)%float)
      by (rewrite He; apply rnd_ge_fmt; [apply fmt_FR | unfold nonneg in Hp; lra]).
    assert (H2 : FR p <= FR (acc + p)%float)
      by (rewrite He; apply rnd_ge_fmt; [apply fmt_FR | lra]).
    destruct (Hge ltac:(lra)) as [G1 G2].
    split; [lra|]. constructor; [lra | exact G2].
Qed.

Lemma sum_fin_inv : forall l : list float, Forall nonneg l -> Ffin (@sum FNum l) ->
  Forall Ffin l /\ 0 <= FR (@sum FNum l) /\ Forall (fun p => FR p <= FR (@sum FNum l)) l.
Proof.
  intros l Hl Hf. rewrite sum_FNum in *.
  destruct (fsum_fin_inv l 0%float Hl Hf) as [_ [G1 G2]].
  rewrite FR_zero in G2. destruct (G2 (Rle_refl 0)). tauto.
Qed.

(** the error is relative to the computed sum, not to the exact one *)
Lemma fsum_err_nn : forall (l : list float) (acc : float),
  Forall nonneg l -> 0 <= FR acc ->
  Ffin (fold_left PrimFloat.add l acc) ->
  Rabs (FR (fold_left PrimFloat.add l acc) - (FR acc + RS l))
  <= INR (length l) * u53 * FR (fold_left PrimFloat.add l acc).
Proof.
  induction l as [|p l IH]; intros acc Hl Ha Hf.
  - cbn [fold_left length INR]. rewrite RS_nil, Rplus_0_r, Rminus_eq_0, Rabs_R0. lra.
  - inversion Hl as [|p' l' Hp Hl']; subst.
    change (length (p :: l)) with (S (length l)).
    rewrite S_INR, RS_cons. cbn [fold_left] in *.
    destruct (fsum_fin_inv l _ Hl' Hf) as [Hap [_ Hge]].
    destruct (add_fin_inv acc p Hap) as [_ [_ He]].
    assert (Ha' : 0 <= FR (acc + p)%float)
      by (rewrite He; apply rnd_ge_fmt; [apply fmt_0 | unfold nonneg in Hp; lra]).
    destruct (Hge Ha') as [G2 _]. specialize (IH _ Hl' Ha' Hf).
    assert (Hadd := add_err (FR acc) (FR p) (fmt_FR acc) (fmt_FR p)).
    rewrite <- He, (Rabs_pos_eq _ Ha') in Hadd.
    set (F := FR (fold_left PrimFloat.add l (acc + p)%float)) in *.
    set (a' := FR (acc + p)%float) in *.
    assert (Hu := u53_pos).
    assert (HuF : u53 * a' <= u53 * F) by (apply Rmult_le_compat_l; lra).
    apply Rabs_le_inv in IH. apply Rabs_le_inv in Hadd.
    apply Rabs_le.
    lra.
Qed.

Lemma fsum_err : forall (l : list float) (acc : float) (n : Z),
  Forall fin01 l ->
  Ffin acc -> 0 <= FR acc <= IZR n -> (0 <= n)%Z ->
  (n + Z.of_nat (length l) < 2 ^ 53)%Z ->
  Rabs (FR (fold_left PrimFloat.add l acc) - (FR acc + RS l))
  <= INR (length l) * u53 * FR (fold_left PrimFloat.add l acc).
Proof.
  intros l acc n Hl Ha Hb Hn0 Hn.
  apply fsum_err_nn; [apply fin01_nonneg, Hl | apply Hb | apply (fsum_inv l acc n); assumption].
Qed.

Lemma sum_err : forall l : list float, Forall nonneg l -> Ffin (@sum FNum l) ->
  Rabs (FR (@sum FNum l) - RS l) <= INR (length l) * u53 * FR (@sum FNum l).
Proof.
  intros l Hl Hf. rewrite sum_FNum in *.
  assert (H := fsum_err_nn l 0%float Hl). rewrite FR_zero, Rplus_0_l in H.
  apply H; [lra | exact Hf].
Qed.

Lemma div_row_err : forall (t : float) (l : list float),
  Ffin t -> 0 < FR t ->
  Forall Ffin l -> Forall nonneg l -> Forall (fun p => FR p <= FR t) l ->
  Rabs (RS (map (fun p => PrimFloat.div p t) l) - RS l / FR t)
  <= u53 * (RS l / FR t) + INR (length l) * eta1075.
Proof.
  intros t l Ht Ht0 Hf. induction Hf as [|p l Hpf Hlf IH]; intros Hnn Hle.
  - cbn [map length INR]. rewrite RS_nil. unfold Rdiv.
    rewrite Rmult_0_l, Rminus_0_r, Rabs_R0. lra.
  - inversion Hnn as [|p1 l1 Hp0 Hnn']; inversion Hle as [|p2 l2 Hpt Hle']; subst.
    specialize (IH Hnn' Hle'). cbn [map].
    destruct (div_part_ok p t Hpf Ht (conj Hp0 Hpt) Ht0) as [_ He].
    change (length (p :: l)) with (S (length l)).
    rewrite S_INR, !RS_cons, He.
    assert (Hd := div_err (FR p / FR t)).
    rewrite (Rabs_pos_eq _ (proj1 (Rdiv_01 _ _ (conj Hp0 Hpt) Ht0))) in Hd.
    unfold Rdiv in *.
    apply Rabs_le_inv in IH. apply Rabs_le_inv in Hd. apply Rabs_le. lra.
Qed.

Theorem norm_row_sum : forall l : list float,
  Forall nonneg l ->
  (Z.of_nat (length l) < 2 ^ 53)%Z ->
  Ffin (@sum FNum l) -> 0 < FR (@sum FNum l) ->
  Rabs (RS (map (fun p => PrimFloat.div p (@sum FNum l)) l) - 1)
  <= (2 * INR (length l) + 2) * bpow radix2 (-53).
Proof.
  intros l Hl Hlen Hf Hpos.
  destruct (sum_fin_inv l Hl Hf) as [Hlf [_ Hge]].
  assert (HQ := rel_close_inv _ _ _ Hpos (sum_err l Hl Hf)).
  assert (HA := div_row_err _ l Hf Hpos Hlf Hl Hge).
  assert (HNu := len_u53_le_1 _ Hlen).
  change (bpow radix2 (-53)) with u53.
  set (Q := RS l / FR (@sum FNum l)) in *. set (N := INR (length l)) in *.
  assert (Hu := u53_pos). assert (Heta := eta_pos). assert (Heu := eta_le_u53).
  assert (HN0 : 0 <= N) by apply pos_INR.
  apply Rabs_le_inv in HQ. apply Rabs_le_inv in HA. apply Rabs_le.
  assert (HuQ : u53 * Q <= u53 * (1 + 1)) by (apply Rmult_le_compat_l; lra).
  assert (HNe : N * eta1075 <= N * u53) by (apply Rmult_le_compat_l; lra).
  lra.
Qed.

(** the shape of [truncate_row] and of the main branch of [regret_match] *)
Lemma filter_div_sum : forall (c : float -> bool) (row : list float),
  Forall nonneg (filter c row) ->
  (Z.of_nat (length row) < 2 ^ 53)%Z ->
  let t := @sum FNum (filter c row) in
  Ffin t -> 0 < FR t ->
  Rabs (RS (map (fun p => if c p then PrimFloat.div p t else 0%float) row) - 1)
  <= (2 * INR (length row) + 2) * bpow radix2 (-53).
Proof.
  intros c row Hk Hlen t Hf Hpos.
  assert (Hkl : (length (filter c row) <= length row)%nat) by apply filter_length_le.
  rewrite (RS_map_filter c (fun p => PrimFloat.div p t)).
  apply Rle_trans with (1 := norm_row_sum _ Hk ltac:(lia) Hf Hpos).
  apply Rmult_le_compat_r; [apply bpow_ge_0|].
  apply le_INR in Hkl. lra.
Qed.

Theorem truncate_row_float_sum : forall (h : float) (row : list float),
  Forall fin01 row ->
  (Z.of_nat (length row) < 2 ^ 53)%Z ->
  0 < FR (@sum FNum (filter (fun p => ltb FNum h p) row)) ->
  Rabs (RS (@truncate_row FNum h row) - 1)
  <= (2 * INR (length row) + 2) * bpow radix2 (-53).
Proof.
  intros h row Hrow Hlen Hpos.
  destruct (truncate_row_total_ok h row Hrow Hlen) as [Hf _].
  assert (Hlt : ltb FNum (zero FNum) (@sum FNum (filter (fun p => ltb FNum h p) row)) = true)
    by (apply (ltb_zero_pos _ Hf), Hpos).
  unfold truncate_row, truncate_row_by. cbv zeta. rewrite Hlt.
  apply (filter_div_sum (fun p => ltb FNum h p) row); try assumption.
  apply fin01_nonneg, Forall_filter, Hrow.
Qed.

Lemma total_pos_of_entry : forall (h : float) (row : list float) (q : float),
  Forall fin01 row ->
  (Z.of_nat (length row) < 2 ^ 53)%Z ->
  In q row -> ltb FNum h q = true -> 0 < FR q ->
  0 < FR (@sum FNum (filter (fun p => ltb FNum h p) row)).
Proof.
  intros h row q Hrow Hlen Hq Hab Hq0.
  destruct (truncate_row_total_ok h row Hrow Hlen) as [_ [_ Hge]].
  rewrite Forall_forall in Hge.
  apply Rlt_le_trans with (1 := Hq0). apply Hge.
  apply filter_In. split; assumption.
Qed.

Lemma forallb_fin01b : forall row : list float,
  forallb fin01b row = true -> Forall fin01 row.
Proof.
  intros row H. apply Forall_forall. intros x Hx.
  apply fin01b_spec. rewrite forallb_forall in H. apply H. exact Hx.
Qed.

Corollary truncate_row_float_valid_2p20 : forall (h : float) (row : list float),
  Forall fin01 row ->
  (Z.of_nat (length row) <= 2 ^ 20)%Z ->
  Forall fin01 (@truncate_row FNum h row).
Proof.
  intros h row Hrow Hlen. apply truncate_row_float_valid; [exact Hrow | lia].
Qed.

Definition ex_row : list float := [0.5; 0.25; 0.25]%float.
(* 0.3 and 0.2 are not binary64 numbers; the nearest ones are written exactly *)
Definition ex_row2 : list float :=
  [0.5; 0x1.3333333333333p-2; 0x1.999999999999ap-3]%float.

Example ex_row_fin01 : Forall fin01 ex_row.
Proof. apply forallb_fin01b. vm_compute. reflexivity. Qed.

Example ex_row2_fin01 : Forall fin01 ex_row2.
Proof. apply forallb_fin01b. vm_compute. reflexivity. Qed.

Example ex_trunc_03 :
  @truncate_row FNum 0x1.3333333333333p-2%float ex_row = [1; 0; 0]%float.
Proof. vm_compute. reflexivity. Qed.

Example ex_trunc_nan : @truncate_row FNum nan ex_row = ex_row.
Proof. vm_compute. reflexivity. Qed.

Example ex_trunc_pinf : @truncate_row FNum infinity ex_row = ex_row.
Proof. vm_compute. reflexivity. Qed.

Example ex_trunc_ninf :
  @truncate_row FNum neg_infinity ex_row = ex_row.
Proof. vm_compute. reflexivity. Qed.

(** 0.5 + 0.3 rounds to 0.8; 0.3/0.8 rounds below 0.375: the row sums to
    1 - 2^-54, not to 1 *)
Example ex_trunc2 :
  @truncate_row FNum 0.25%float ex_row2 = [0.625; 0x1.7ffffffffffffp-2; 0]%float.
Proof. vm_compute. reflexivity. Qed.

(** all entries zero and a negative threshold: total is 0, row unchanged
    (signed zeros included) *)
Example ex_trunc_zero :
  @truncate_row FNum (-1)%float [0; 0; -0]%float = [0; 0; -0]%float.
Proof. vm_compute. reflexivity. Qed.

(** underflow of a surviving entry: 2^-1074 / 4 rounds to +0, so the support of
    the result can be smaller than "the entries above the threshold" *)
Example ex_trunc_underflow :
  @truncate_row FNum 0%float [0x1p-1074; 1; 1; 1; 1]%float = [0; 0.25; 0.25; 0.25; 0.25]%float.
Proof. vm_compute. reflexivity. Qed.

Example ex_valid_instance : Forall fin01 (@truncate_row FNum 0.25%float ex_row2).
Proof.
  apply truncate_row_float_valid; [exact ex_row2_fin01 | vm_compute; reflexivity].
Qed.
