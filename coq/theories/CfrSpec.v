(** * CfrSpec: vocabulary for the CFR convergence argument (property C02), over [RNum]:
    finite sums [Rsumn]; [allp], a predicate on every node of a subtree, and [hist_ind],
    induction over a subtree with the histories it is entered with; the value [vval] of the
    unsampled traversal is the expected payoff [u]; [msum], additive measures on the
    increments of a traversal; the trajectory [state_at], [sigma_at], [avg], [regret_at] of
    the vanilla solve; pure strategies as tables of one-hot rows. *)
From Coq Require Import Reals List Lra Lia Bool Arith NArith FunctionalExtensionality.
From Cfr.theories Require Import Num RInst Tree GameWF Strat Eval Solve Valid
     SolveValidProofs Incr IterChar EvalSpec BestResponseProofs.
Import ListNotations.
Open Scope R_scope.

Local Notation node := (@node RNum).
Local Notation game := (@game RNum).
Local Notation pstate := (@pstate RNum).
Local Notation rinfo := (@rinfo RNum).
Local Notation incr := (@incr RNum).
Local Notation oracle := (@oracle RNum).

Lemma Rsum_map_zero {A} (l : list A) : Rsum (map (fun _ => 0) l) = 0.
Proof. induction l as [|x l IH]; cbn [map Rsum]; [lra|rewrite IH; lra]. Qed.

Lemma Rsum_exchange {A B} (F : A -> B -> R) la lb :
  Rsum (map (fun a => Rsum (map (F a) lb)) la) =
  Rsum (map (fun b => Rsum (map (fun a => F a b) la)) lb).
Proof.
  induction la as [|a la IH]; cbn [map Rsum].
  - now rewrite Rsum_map_zero.
  - rewrite IH, <- Rsum_map_plus. reflexivity.
Qed.

Lemma Rsum_map_le {A} (F G : A -> R) l :
  (forall x, In x l -> F x <= G x) -> Rsum (map F l) <= Rsum (map G l).
Proof.
  induction l as [|x l IH]; intros H; cbn [map Rsum]; [lra|].
  pose proof (H x (or_introl eq_refl)). specialize (IH (fun y Hy => H y (or_intror Hy))). lra.
Qed.

Definition Rsumn (n : nat) (F : nat -> R) : R := Rsum (map F (seq 0 n)).

Lemma Rsumn_ext n F G : (forall b, (b < n)%nat -> F b = G b) -> Rsumn n F = Rsumn n G.
Proof. intros H. apply Rsum_map_ext_in. intros b Hb. apply in_seq in Hb. apply H; lia. Qed.

Lemma Rsumn_le n F G : (forall b, (b < n)%nat -> F b <= G b) -> Rsumn n F <= Rsumn n G.
Proof. intros H. apply Rsum_map_le. intros b Hb. apply in_seq in Hb. apply H; lia. Qed.

Lemma Rsumn_plus n F G : Rsumn n (fun b => F b + G b) = Rsumn n F + Rsumn n G.
Proof. apply Rsum_map_plus. Qed.

Lemma Rsumn_scal n c F : Rsumn n (fun b => c * F b) = c * Rsumn n F.
Proof.
  unfold Rsumn. induction (seq 0 n) as [|x l IH]; cbn [map Rsum]; [lra|rewrite IH; lra].
Qed.

Lemma Rsumn_zero n : Rsumn n (fun _ => 0) = 0.
Proof. apply Rsum_map_zero. Qed.

Lemma Rsumn_zero_ext n F : (forall b, (b < n)%nat -> F b = 0) -> Rsumn n F = 0.
Proof. intros H. rewrite <- (Rsumn_zero n). now apply Rsumn_ext. Qed.

Lemma Rsumn_exchange n m (F : nat -> nat -> R) :
  Rsumn n (fun i => Rsumn m (F i)) = Rsumn m (fun j => Rsumn n (fun i => F i j)).
Proof. apply Rsum_exchange. Qed.

Lemma Rsumn_0 F : Rsumn 0 F = 0.
Proof. reflexivity. Qed.

Lemma Rsumn_S n F : Rsumn (S n) F = F 0%nat + Rsumn n (fun b => F (S b)).
Proof. unfold Rsumn. cbn [seq map Rsum]. rewrite <- seq_shift, map_map. reflexivity. Qed.

Lemma Rsumn_S_last n F : Rsumn (S n) F = Rsumn n F + F n.
Proof.
  unfold Rsumn. rewrite seq_S, map_app, Rsum_app. cbn [map Rsum Nat.add]. lra.
Qed.

Lemma Rsumn_single n k F :
  (k < n)%nat -> Rsumn n (fun b => if Nat.eqb b k then F b else 0) = F k.
Proof.
  revert k F; induction n as [|n IH]; intros k F Hk; [lia|].
  rewrite Rsumn_S. destruct k as [|k].
  - cbn [Nat.eqb]. rewrite Rsumn_zero. lra.
  - cbn [Nat.eqb]. rewrite (IH k (fun b => F (S b))) by lia. lra.
Qed.

Lemma Rsumn_nonneg n F : (forall b, (b < n)%nat -> 0 <= F b) -> 0 <= Rsumn n F.
Proof. intros H. rewrite <- (Rsumn_zero n). now apply Rsumn_le. Qed.

Lemma Rsum_map_nth {A} (F : A -> R) (l : list A) (d : A) :
  Rsum (map F l) = Rsumn (length l) (fun b => F (nth b l d)).
Proof.
  induction l as [|x l IH]; [reflexivity|].
  cbn [map Rsum length]. rewrite Rsumn_S, IH. reflexivity.
Qed.

Lemma Rsum_nth (l : list R) : Rsum l = Rsumn (length l) (fun b => nth b l 0).
Proof. rewrite <- (map_id l) at 1. apply (Rsum_map_nth (fun x => x)). Qed.

Lemma nth_nil_R (b : nat) : nth b (@nil R) 0 = 0.
Proof. destruct b; reflexivity. Qed.

Lemma dot_Rsumn (ps xs : list R) :
  dot ps xs = Rsumn (length xs) (fun b => nth b ps 0 * nth b xs 0).
Proof.
  revert ps; induction xs as [|x xs IH]; intros ps.
  - unfold dot. destruct ps; reflexivity.
  - destruct ps as [|p ps].
    + unfold dot. cbn [combine map Rsum]. symmetry. apply Rsumn_zero_ext.
      intros b _. rewrite nth_nil_R. lra.
    + cbn [length]. rewrite Rsumn_S. cbn [nth]. rewrite <- IH. unfold dot.
      cbn [combine map Rsum fst snd]. reflexivity.
Qed.

Definition d0 : node := @Term RNum 0.

Section AllP.
  Context (PC : nat -> list node -> Prop) (PP : bool -> nat -> list node -> Prop).

  Fixpoint allp (n : node) : Prop :=
    match n with
    | Term _ => True
    | Chance ci kids =>
        PC ci kids /\
        (fix go (ks : list node) : Prop :=
           match ks with [] => True | k :: r => allp k /\ go r end) kids
    | Player pl i kids =>
        PP pl i kids /\
        (fix go (ks : list node) : Prop :=
           match ks with [] => True | k :: r => allp k /\ go r end) kids
    end.

  Lemma allp_go ks :
    (fix go (ks : list node) : Prop :=
       match ks with [] => True | k :: r => allp k /\ go r end) ks <-> Forall allp ks.
  Proof.
    induction ks as [|k r IH]; [split; constructor|].
    rewrite Forall_cons_iff, <- IH. reflexivity.
  Qed.

  Lemma allp_Chance ci kids : allp (Chance ci kids) <-> PC ci kids /\ Forall allp kids.
  Proof. cbn [allp]. now rewrite allp_go. Qed.

  Lemma allp_Player pl i kids : allp (Player pl i kids) <-> PP pl i kids /\ Forall allp kids.
  Proof. cbn [allp]. now rewrite allp_go. Qed.
End AllP.

Lemma allp_impl (PC PC' : nat -> list node -> Prop) (PP PP' : bool -> nat -> list node -> Prop) n :
  (forall ci kids, PC ci kids -> PC' ci kids) ->
  (forall pl i kids, PP pl i kids -> PP' pl i kids) ->
  allp PC PP n -> allp PC' PP' n.
Proof.
  intros HC HP.
  induction n as [x|ci kids IH|pl i kids IH] using GameWF.node_ind'; [trivial| |].
  - intros [H1 H2]%allp_Chance. apply allp_Chance. split; [auto|].
    rewrite Forall_forall in IH, H2 |- *. intros k Hk. apply IH; auto.
  - intros [H1 H2]%allp_Player. apply allp_Player. split; [auto|].
    rewrite Forall_forall in IH, H2 |- *. intros k Hk. apply IH; auto.
Qed.

Lemma allp_and (PC PC' : nat -> list node -> Prop) (PP PP' : bool -> nat -> list node -> Prop) n :
  allp PC PP n -> allp PC' PP' n ->
  allp (fun ci kids => PC ci kids /\ PC' ci kids) (fun pl i kids => PP pl i kids /\ PP' pl i kids) n.
Proof.
  induction n as [x|ci kids IH|pl i kids IH] using GameWF.node_ind'; [trivial| |].
  - intros [H1 H2]%allp_Chance [H3 H4]%allp_Chance. apply allp_Chance. split; [auto|].
    rewrite Forall_forall in IH, H2, H4 |- *. intros k Hk. apply IH; auto.
  - intros [H1 H2]%allp_Player [H3 H4]%allp_Player. apply allp_Player. split; [auto|].
    rewrite Forall_forall in IH, H2, H4 |- *. intros k Hk. apply IH; auto.
Qed.

Lemma allp_True n : allp (fun _ _ => True) (fun _ _ _ => True) n.
Proof.
  induction n as [x|ci kids IH|pl i kids IH] using GameWF.node_ind'; [exact I| |];
    [rewrite allp_Chance|rewrite allp_Player]; auto.
Qed.

(** the shape predicate of [GameWF] in [allp] form *)
Definition arity (g : game) (pl : bool) (i : nat) : nat := nth i (arities g pl) 0%nat.

Lemma arity_eq (g : game) pl i :
  length (pi_actions (nth i (g_infos g pl) (mkPinfo 0%N [] None))) = arity g pl i.
Proof.
  unfold arity, arities.
  change 0%nat with (length (pi_actions (mkPinfo 0%N [] None))).
  now rewrite (map_nth (fun pi => length (pi_actions pi))).
Qed.

Definition ShapeC (g : game) (ci : nat) (kids : list node) : Prop :=
  length (rowR (g_chance g) ci) = length kids.
Definition ShapeP (g : game) (pl : bool) (i : nat) (kids : list node) : Prop :=
  (i < length (g_infos g pl))%nat /\ length kids = arity g pl i /\ (2 <= length kids)%nat.

Lemma shaped_go (g : game) ks :
  (fix go (ks : list node) : Prop :=
     match ks with [] => True | k :: r => @shaped RNum g k /\ go r end) ks <->
  Forall (@shaped RNum g) ks.
Proof.
  induction ks as [|k r IH]; [split; constructor|].
  rewrite Forall_cons_iff, <- IH. reflexivity.
Qed.

Lemma shaped_allp (g : game) n : @shaped RNum g n -> allp (ShapeC g) (ShapeP g) n.
Proof.
  induction n as [x|ci kids IH|pl i kids IH] using GameWF.node_ind'; [trivial| |].
  - cbn [shaped]. intros (H1 & H2 & H3 & H4%shaped_go). apply allp_Chance. split.
    + unfold ShapeC, rowR. now rewrite H2.
    + rewrite Forall_forall in IH, H4 |- *. intros k Hk. apply IH; auto.
  - cbn [shaped]. intros (H1 & H2 & H3 & H4%shaped_go). apply allp_Player. split.
    + unfold ShapeP. rewrite <- arity_eq. auto.
    + rewrite Forall_forall in IH, H4 |- *. intros k Hk. apply IH; auto.
Qed.

Definition hist := list (nat * nat).
Definition hentry := (bool * nat * hist)%type.

Definition hists_c (h1 h2 : hist) :=
  fix go (ks : list node) : list hentry :=
    match ks with
    | [] => []
    | k :: r => @hists RNum k h1 h2 ++ go r
    end.

Definition hists_p (pl : bool) (i : nat) (h1 h2 : hist) :=
  fix go (ks : list node) (a : nat) : list hentry :=
    match ks with
    | [] => []
    | k :: r =>
        @hists RNum k (if pl then h1 ++ [(i, a)] else h1) (if pl then h2 else h2 ++ [(i, a)])
        ++ go r (S a)
    end.

Lemma hists_Chance ci kids h1 h2 : @hists RNum (Chance ci kids) h1 h2 = hists_c h1 h2 kids.
Proof. reflexivity. Qed.

Lemma hists_Player pl i kids h1 h2 :
  @hists RNum (Player pl i kids) h1 h2 =
  (pl, i, if pl then h1 else h2) :: hists_p pl i h1 h2 kids 0.
Proof. reflexivity. Qed.

Definition ext1 (pl : bool) (i b : nat) (h1 : hist) : hist := if pl then h1 ++ [(i, b)] else h1.
Definition ext2 (pl : bool) (i b : nat) (h2 : hist) : hist := if pl then h2 else h2 ++ [(i, b)].

Lemma hists_c_kid h1 h2 ks b x :
  (b < length ks)%nat -> In x (@hists RNum (nth b ks d0) h1 h2) -> In x (hists_c h1 h2 ks).
Proof.
  revert b; induction ks as [|k r IH]; intros b Hb Hx; cbn [length] in Hb; [lia|].
  cbn [hists_c]. apply in_or_app. destruct b as [|b]; cbn [nth] in Hx; [now left|right].
  apply (IH b); [lia|assumption].
Qed.

Lemma hists_p_kid pl i h1 h2 ks a b x :
  (b < length ks)%nat ->
  In x (@hists RNum (nth b ks d0) (ext1 pl i (a + b) h1) (ext2 pl i (a + b) h2)) ->
  In x (hists_p pl i h1 h2 ks a).
Proof.
  revert a b; induction ks as [|k r IH]; intros a b Hb Hx; cbn [length] in Hb; [lia|].
  cbn [hists_p]. apply in_or_app. destruct b as [|b]; cbn [nth] in Hx.
  - left. rewrite Nat.add_0_r in Hx. exact Hx.
  - right. apply (IH (S a) b); [lia|]. rewrite Nat.add_succ_r in Hx. exact Hx.
Qed.

(** a property of every decision node of a subtree entered with histories [h1], [h2] *)
Definition HSub (P : hentry -> Prop) (n : node) (h1 h2 : hist) : Prop :=
  forall x, In x (@hists RNum n h1 h2) -> P x.

Lemma HSub_Chance P ci kids h1 h2 b :
  HSub P (Chance ci kids) h1 h2 -> (b < length kids)%nat -> HSub P (nth b kids d0) h1 h2.
Proof.
  intros H Hb x Hx. apply H. rewrite hists_Chance. now apply (hists_c_kid h1 h2 kids b).
Qed.

Lemma HSub_Player_here P pl i kids h1 h2 :
  HSub P (Player pl i kids) h1 h2 -> P (pl, i, if pl then h1 else h2).
Proof. intros H. apply H. rewrite hists_Player. now left. Qed.

Lemma HSub_Player_kid P pl i kids h1 h2 b :
  HSub P (Player pl i kids) h1 h2 -> (b < length kids)%nat ->
  HSub P (nth b kids d0) (ext1 pl i b h1) (ext2 pl i b h2).
Proof.
  intros H Hb x Hx. apply H. rewrite hists_Player. right.
  apply (hists_p_kid pl i h1 h2 kids 0 b); assumption.
Qed.

(** each case gets what [allp] and [HSub] say of its own node; the children come with
    their histories *)
Lemma hist_ind (PC : nat -> list node -> Prop) (PP : bool -> nat -> list node -> Prop)
      (Q : hentry -> Prop) (P : node -> hist -> hist -> Prop) :
  (forall x h1 h2, P (Term x) h1 h2) ->
  (forall ci kids h1 h2, PC ci kids ->
     (forall b, (b < length kids)%nat -> P (nth b kids d0) h1 h2) -> P (Chance ci kids) h1 h2) ->
  (forall pl i kids h1 h2, PP pl i kids -> Q (pl, i, if pl then h1 else h2) ->
     (forall b, (b < length kids)%nat -> P (nth b kids d0) (ext1 pl i b h1) (ext2 pl i b h2)) ->
     P (Player pl i kids) h1 h2) ->
  forall n h1 h2, allp PC PP n -> HSub Q n h1 h2 -> P n h1 h2.
Proof.
  intros HT HC HP.
  induction n as [x|ci kids IH|pl i kids IH] using GameWF.node_ind'; intros h1 h2 Hok HS.
  - apply HT.
  - apply allp_Chance in Hok as [Hc Hk]. rewrite Forall_nth in IH, Hk.
    apply HC; [exact Hc|]. intros b Hb.
    exact (IH b d0 Hb h1 h2 (Hk b d0 Hb) (HSub_Chance _ _ _ _ _ b HS Hb)).
  - apply allp_Player in Hok as [Hp Hk]. rewrite Forall_nth in IH, Hk.
    apply HP; [exact Hp|exact (HSub_Player_here _ _ _ _ _ _ HS)|]. intros b Hb.
    exact (IH b d0 Hb _ _ (Hk b d0 Hb) (HSub_Player_kid _ _ _ _ _ _ b HS Hb)).
Qed.

Definition hme (me : bool) (h1 h2 : hist) : hist := if me then h1 else h2.

Lemma hme_ext_same me i b h1 h2 :
  hme me (ext1 me i b h1) (ext2 me i b h2) = hme me h1 h2 ++ [(i, b)].
Proof. destruct me; reflexivity. Qed.

Lemma hme_ext_other me pl i b h1 h2 :
  pl <> me -> hme me (ext1 pl i b h1) (ext2 pl i b h2) = hme me h1 h2.
Proof. destruct me, pl; try congruence; reflexivity. Qed.

Definition sg_of (s1 s2 : list (list R)) : bool -> nat -> list R :=
  fun pl i => rowR (if pl then s1 else s2) i.

Definition tbl_strat (st : pstate) (pl : bool) : list (list R) := map (@strat RNum) (@ps_get RNum st pl).

Lemma strat_view_tbl (st : pstate) :
  strat_view st = sg_of (tbl_strat st true) (tbl_strat st false).
Proof.
  apply functional_extensionality; intros pl. apply functional_extensionality; intros i.
  unfold strat_view, sg_of, tbl_strat, rowR, ri_get.
  change (@nil R) with (@strat RNum (mkRinfo [] [] [])).
  destruct pl; now rewrite map_nth.
Qed.

Definition prob (tbl : list (list R)) (i a : nat) : R := nth a (rowR tbl i) 0.

Lemma map_ext_Forall_R {A} (f g : A -> R) l :
  Forall (fun x => f x = g x) l -> map f l = map g l.
Proof. induction 1 as [|x l Hx _ IH]; cbn [map]; [reflexivity|now rewrite Hx, IH]. Qed.

Lemma val_chance_dot (recv : node -> R) ps ks ex :
  @val_chance RNum recv ps ks ex = ex + dot ps (map recv ks).
Proof.
  revert ps ex; induction ks as [|k ks IH]; intros ps ex.
  - destruct ps; unfold dot; cbn [val_chance map combine Rsum]; lra.
  - destruct ps as [|p ps]; [unfold dot; cbn [val_chance map combine Rsum]; lra|].
    cbn [val_chance map]. rewrite IH. unfold dot. cbn [combine map Rsum fst snd add mul RNum]. lra.
Qed.

Lemma val_player_dot (recv : node -> R) ks ss e1 :
  @val_player RNum recv ks ss e1 = e1 + dot ss (map recv ks).
Proof.
  revert ss e1; induction ks as [|k ks IH]; intros ss e1.
  - destruct ss; unfold dot; cbn [val_player map combine Rsum]; lra.
  - destruct ss as [|p ss]; [unfold dot; cbn [val_player map combine Rsum]; lra|].
    cbn [val_player map]. rewrite IH. unfold dot. cbn [combine map Rsum fst snd add mul RNum]. lra.
Qed.

Lemma exp_player_acc (recv : node -> R) mult ks ss e :
  @exp_player RNum recv mult ks ss e = e + mult * dot ss (map recv ks).
Proof.
  revert ss e; induction ks as [|k ks IH]; intros ss e.
  - destruct ss; unfold dot; cbn [exp_player map combine Rsum]; lra.
  - destruct ss as [|p ss]; [unfold dot; cbn [exp_player map combine Rsum]; lra|].
    cbn [exp_player map]. rewrite IH. unfold dot. cbn [combine map Rsum fst snd add mul RNum]. lra.
Qed.

Lemma vval_u chance draw pass s1 s2 n :
  @vval RNum chance false draw pass (sg_of s1 s2) n = u chance s1 s2 n.
Proof.
  induction n as [x|ci kids IH|pl i kids IH] using GameWF.node_ind'.
  - reflexivity.
  - cbn [vval u]. rewrite val_chance_dot. cbn [zero RNum].
    rewrite (map_ext_Forall_R _ _ _ IH). rewrite <- rowR_row. lra.
  - cbn [vval u]. rewrite val_player_dot. cbn [zero RNum].
    rewrite (map_ext_Forall_R _ _ _ IH). unfold sg_of. lra.
Qed.

Lemma u_nth chance s1 s2 kids b :
  nth b (map (u chance s1 s2) kids) 0 = u chance s1 s2 (nth b kids d0).
Proof. change 0 with (u chance s1 s2 d0). apply map_nth. Qed.

Lemma u_Chance_n chance s1 s2 ci kids :
  u chance s1 s2 (Chance ci kids) =
  Rsumn (length kids) (fun b => nth b (rowR chance ci) 0 * u chance s1 s2 (nth b kids d0)).
Proof.
  cbn [u]. rewrite dot_Rsumn, map_length. apply Rsumn_ext. intros b _. now rewrite u_nth.
Qed.

Lemma u_Player_n chance s1 s2 pl i kids :
  u chance s1 s2 (Player pl i kids) =
  Rsumn (length kids) (fun b => prob (if pl then s1 else s2) i b * u chance s1 s2 (nth b kids d0)).
Proof.
  cbn [u]. rewrite dot_Rsumn, map_length. apply Rsumn_ext. intros b _. now rewrite u_nth.
Qed.

Definition msum (mu : incr -> R) (L : list incr) : R := Rsum (map mu L).

Lemma msum_nil mu : msum mu [] = 0.
Proof. reflexivity. Qed.
Lemma msum_cons mu x L : msum mu (x :: L) = mu x + msum mu L.
Proof. reflexivity. Qed.
Lemma msum_app mu L1 L2 : msum mu (L1 ++ L2) = msum mu L1 + msum mu L2.
Proof. unfold msum. now rewrite map_app, Rsum_app. Qed.

Lemma msum_incs_chance mu (vi : node -> R -> R -> R -> list incr) pc p1 p2 ps ks :
  length ps = length ks ->
  msum mu (@incs_chance RNum vi pc p1 p2 ps ks) =
  Rsumn (length ks) (fun b => msum mu (vi (nth b ks d0) (pc * nth b ps 0) p1 p2)).
Proof.
  revert ps; induction ks as [|k ks IH]; intros ps Hl.
  - destruct ps; reflexivity.
  - destruct ps as [|p ps]; [discriminate|]. cbn [length] in Hl.
    cbn [incs_chance length]. rewrite msum_app, Rsumn_S, IH by lia. reflexivity.
Qed.

Definition q1_of (pl : bool) (p1 prob : R) : R := if pl then p1 * prob else p1.
Definition q2_of (pl : bool) (p2 prob : R) : R := if pl then p2 else p2 * prob.

Lemma msum_incs_player mu (vv : node -> R) (vi : node -> R -> R -> R -> list incr)
      pl i pc p1 p2 mult ks ss ai :
  length ss = length ks ->
  msum mu (@incs_player RNum vv vi pl i pc p1 p2 mult ks ss ai) =
  Rsumn (length ks)
        (fun b => msum mu (vi (nth b ks d0) pc (q1_of pl p1 (nth b ss 0)) (q2_of pl p2 (nth b ss 0)))
                  + mu (@IReg RNum pl i (ai + b) (vv (nth b ks d0) * mult))).
Proof.
  revert ss ai; induction ks as [|k ks IH]; intros ss ai Hl.
  - destruct ss; reflexivity.
  - destruct ss as [|p ss]; [discriminate|]. cbn [length] in Hl.
    cbn [incs_player length]. rewrite Rsumn_S. cbn [nth]. rewrite Nat.add_0_r.
    unfold q1_of, q2_of. destruct pl; rewrite msum_app, msum_cons, IH by lia;
      cbn [mul RNum]; rewrite <- Rplus_assoc; f_equal; apply Rsumn_ext; intros b _;
      rewrite Nat.add_succ_r; reflexivity.
Qed.

Lemma vincs_Chance chance draw pass sg ci kids pc p1 p2 :
  @vincs RNum chance false draw pass sg (Chance ci kids) pc p1 p2 =
  @incs_chance RNum (@vincs RNum chance false draw pass sg) pc p1 p2 (rowR chance ci) kids.
Proof. reflexivity. Qed.

Lemma vincs_Player chance draw pass sg pl i kids pc p1 p2 :
  @vincs RNum chance false draw pass sg (Player pl i kids) pc p1 p2 =
  let mine := if pl then p1 else p2 in
  let mult := if pl then pc * p2 else - p1 * pc in
  @IStrat RNum pl i mine ::
  @incs_player RNum (@vval RNum chance false draw pass sg) (@vincs RNum chance false draw pass sg)
               pl i pc p1 p2 mult kids (sg pl i) 0 ++
  [@IRegAll RNum pl i (@exp_player RNum (@vval RNum chance false draw pass sg) mult kids (sg pl i) 0)].
Proof. reflexivity. Qed.

Lemma fold_left_Rmax_ge (r : list R) (x : R) :
  x <= fold_left Rmax r x /\ forall a, (a < length r)%nat -> nth a r 0 <= fold_left Rmax r x.
Proof.
  revert x; induction r as [|y r IH]; intros x; cbn [fold_left length].
  - split; [lra|intros; lia].
  - destruct (IH (Rmax x y)) as [H1 H2]. split.
    + pose proof (Rmax_l x y). lra.
    + intros [|a] Ha; cbn [nth]; [pose proof (Rmax_r x y); lra|apply H2; lia].
Qed.

Lemma Rmaxl_ge (l : list R) a : (a < length l)%nat -> nth a l 0 <= Rmaxl l.
Proof.
  unfold Rmaxl, reduce_max. destruct l as [|x r]; cbn [length]; [lia|].
  intros Ha. change (fmax RNum) with Rmax.
  destruct (fold_left_Rmax_ge r x) as [H1 H2].
  destruct a as [|a]; cbn [nth]; [exact H1|apply H2; lia].
Qed.

(** ** The trajectory of the unsampled vanilla solve: the instance at [p_vanilla] of the
    trajectory of [LcfrSpec.v], where its theory is *)
Definition ninfos (g : game) (pl : bool) : nat := length (g_infos g pl).

Section Traj.
  Context (g : game) (draw : oracle).

    Fixpoint state_at (t : nat) : pstate :=
    match t with
    | O => @init_state RNum g
    | S k => fst (@vanilla_iter RNum g false draw (@p_vanilla RNum) (N.of_nat (S k)) (state_at k))
    end.

  (** the strategy used *during* iteration [t] (1-based) *)
  Definition sigma_at (t : nat) (pl : bool) : list (list R) := tbl_strat (state_at (t - 1)) pl.

  (** the average strategy after [T] iterations, row-wise what [final_strats] returns *)
  Definition avg (T : nat) (pl : bool) : list (list R) :=
    map (fun ri => @avg_strat RNum (cum_strat ri)) (@ps_get RNum (state_at T) pl).

  Definition regret_at (T : nat) (pl : bool) (i a : nat) : R :=
    nth a (cum_regret (@ri_get RNum (state_at T) pl i)) 0.
End Traj.


Definition IsPure (g : game) (me : bool) (S : list (list R)) (s : nat -> nat) : Prop :=
  forall i, (i < ninfos g me)%nat ->
            rowR S i = onehot (s i) (arity g me i) /\ (s i < arity g me i)%nat.

Fixpoint find_one (r : list R) : nat :=
  match r with
  | [] => 0%nat
  | x :: r' => if Reqb x 1 then 0%nat else S (find_one r')
  end.

Lemma find_one_onehot a n : (a < n)%nat -> find_one (onehot a n) = a.
Proof.
  revert a; induction n as [|n IH]; intros a Ha; [lia|].
  destruct a as [|a]; cbn [onehot find_one].
  - assert (E : Reqb 1 1 = true) by (now apply Reqb_true). now rewrite E.
  - assert (E : Reqb 0 1 = false) by (apply Reqb_false; lra). rewrite E. apply f_equal. apply IH; lia.
Qed.

Lemma nth_repeat_zero n b : nth b (repeat 0 n) 0 = 0.
Proof. revert b; induction n as [|n IH]; intros [|b]; cbn [repeat nth]; auto. Qed.

Lemma nth_onehot a n b :
  (a < n)%nat -> nth b (onehot a n) 0 = if Nat.eqb b a then 1 else 0.
Proof.
  revert a b; induction n as [|n IH]; intros a b Ha; [lia|].
  destruct a as [|a], b as [|b]; cbn [onehot nth Nat.eqb]; try reflexivity.
  - apply nth_repeat_zero.
  - apply IH; lia.
Qed.

Lemma onehot_length a n : length (onehot a n) = n.
Proof. apply BestResponseProofs.onehot_length. Qed.

Lemma PureOf_IsPure (g : game) me S :
  PureOf g me S -> IsPure g me S (fun i => find_one (rowR S i)).
Proof.
  intros [Hlen Hrows] i Hi. unfold ninfos in Hi. rewrite <- arities_length, <- Hlen, map_length in Hi.
  assert (Hin : In (rowR S i) S) by (unfold rowR; now apply nth_In).
  rewrite Forall_forall in Hrows. destruct (Hrows _ Hin) as (a & Ha & Hr).
  assert (Har : length (rowR S i) = arity g me i).
  { unfold arity. rewrite <- Hlen. unfold rowR.
    change 0%nat with (@length R []). now rewrite (map_nth (@length R)). }
  rewrite Har in *. cbv beta. rewrite Hr. rewrite find_one_onehot by assumption. auto.
Qed.

Definition pure_tbl (g : game) (me : bool) (s : nat -> nat) : list (list R) :=
  map (fun i => onehot (s i) (arity g me i)) (seq 0 (ninfos g me)).

Lemma pure_tbl_IsPure (g : game) me s :
  (forall i, (i < ninfos g me)%nat -> (s i < arity g me i)%nat) -> IsPure g me (pure_tbl g me s) s.
Proof.
  intros Hs i Hi. split; [|now apply Hs]. unfold pure_tbl, rowR.
  rewrite (nth_indep _ _ ((fun i => onehot (s i) (arity g me i)) 0%nat))
    by (now rewrite map_length, seq_length).
  rewrite (map_nth (fun i => onehot (s i) (arity g me i))), seq_nth by assumption. reflexivity.
Qed.

