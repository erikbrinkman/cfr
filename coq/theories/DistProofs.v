(** * DistProofs: [Strategies::distance] (property C19), at the real-number instance.

    The model ([Strat.distance_player]) sums [|l_i - r_i|^p] over the flat vector of a
    player, and divides by [2 * #infosets] (zero for a player without infosets).
    Here: the sum as a recursive real sum, zero / symmetry / sign, the bound by 1 for
    [p >= 1] on valid profiles, its sharpness, and its failure for every [0 < p < 1]. *)
From Coq Require Import Reals List Lra Lia Bool Arith NArith.
From Cfr.theories Require Import Num RInst Tree Strat Valid.
Import ListNotations.
Open Scope R_scope.

Local Ltac vrow := split; [repeat (apply Forall_cons; [lra|]); apply Forall_nil | cbn [Rsum]; lra].
Local Ltac vflat := split; [reflexivity|]; cbn [split_by firstn skipn];
  repeat (apply Forall_cons; [vrow|]); apply Forall_nil.

(* [exp], [ln] also name projections of [Num]: fix them to the real functions here *)
Local Notation exp := Rtrigo_def.exp.
Local Notation ln := Rpower.ln.

Lemma Rpowf_0 (p : R) : p <> 0 -> Rpowf 0 p = 0.
Proof.
  intros Hp. unfold Rpowf. destruct (Req_EM_T p 0); [contradiction|].
  destruct (Rlt_dec 0 0); [lra|reflexivity].
Qed.

Lemma Rpowf_pos (x p : R) : 0 < x -> 0 < Rpowf x p.
Proof.
  intros Hx. unfold Rpowf. destruct (Req_EM_T p 0); [lra|].
  destruct (Rlt_dec 0 x); [|lra]. unfold Rpower. apply exp_pos.
Qed.

Lemma Rpowf_1_l (p : R) : Rpowf 1 p = 1.
Proof.
  unfold Rpowf. destruct (Req_EM_T p 0); [reflexivity|].
  destruct (Rlt_dec 0 1); [|lra]. unfold Rpower. rewrite ln_1, Rmult_0_r. apply exp_0.
Qed.

Lemma exp_le_mono (a b : R) : a <= b -> exp a <= exp b.
Proof. intros [H| ->]; [left; now apply exp_increasing|right; reflexivity]. Qed.

Lemma ln_nonpos (x : R) : 0 < x -> x <= 1 -> ln x <= 0.
Proof.
  intros H0 [H1|H1].
  - rewrite <- ln_1. left. now apply ln_increasing.
  - subst x. rewrite ln_1. lra.
Qed.

(** the key inequality of the range: on [0,1], a power [p >= 1] only decreases *)
Lemma Rpowf_le_base (x p : R) : 0 <= x <= 1 -> 1 <= p -> Rpowf x p <= x.
Proof.
  intros [H0 H1] Hp. unfold Rpowf. destruct (Req_EM_T p 0); [lra|].
  destruct (Rlt_dec 0 x) as [Hx|Hx]; [|lra].
  unfold Rpower. rewrite <- (exp_ln x Hx) at 2. apply exp_le_mono.
  pose proof (ln_nonpos x Hx H1). nra.
Qed.

(** ... and a power [0 < p < 1] strictly increases, strictly inside [(0,1)] *)
Lemma Rpowf_gt_base (x p : R) : 0 < x < 1 -> 0 < p < 1 -> x < Rpowf x p.
Proof.
  intros [H0 H1] [Hp0 Hp1]. unfold Rpowf. destruct (Req_EM_T p 0); [lra|].
  destruct (Rlt_dec 0 x) as [Hx|Hx]; [|lra].
  unfold Rpower. rewrite <- (exp_ln x Hx) at 1. apply exp_increasing.
  assert (ln x < 0) by (rewrite <- ln_1; now apply ln_increasing). nra.
Qed.

Definition dterm (p : R) (lr : R * R) : R := Rpowf (Rabs (fst lr - snd lr)) p.

Definition Rdsum (p : R) (l r : list R) : R := Rsum (map (dterm p) (combine l r)).

Lemma fold_left_add_map {A} (f : A -> R) (xs : list A) (a : R) :
  fold_left (fun d x => d + f x) xs a = a + Rsum (map f xs).
Proof.
  revert a; induction xs as [|x xs IH]; intros a; cbn [fold_left map Rsum]; [lra|].
  rewrite IH; lra.
Qed.

Lemma dist_sum_Rdsum (p : R) (l r : list R) : @dist_sum RNum p l r = Rdsum p l r.
Proof.
  unfold dist_sum, Rdsum. cbn [add sub absv pow zero RNum T].
  rewrite (fold_left_add_map (dterm p)). lra.
Qed.

Lemma distance_player_S (p : R) (n : nat) (l r : list R) :
  @distance_player RNum p (S n) l r = Rdsum p l r / (2 * INR (S n)).
Proof.
  unfold distance_player. rewrite dist_sum_Rdsum, of_N_INR.
  unfold two. cbn [add mul div one RNum]. replace (1 + 1) with 2 by lra. reflexivity.
Qed.

Lemma two_n_pos (n : nat) : 0 < 2 * INR (S n).
Proof. pose proof (pos_INR n). rewrite S_INR. lra. Qed.

Lemma Rdsum_nil_l p r : Rdsum p [] r = 0.
Proof. reflexivity. Qed.
Lemma Rdsum_nil_r p l : Rdsum p l [] = 0.
Proof. unfold Rdsum. destruct l; reflexivity. Qed.
Lemma Rdsum_cons p x l y r :
  Rdsum p (x :: l) (y :: r) = Rpowf (Rabs (x - y)) p + Rdsum p l r.
Proof. reflexivity. Qed.

Lemma Rdsum_nonneg p l r : 0 <= Rdsum p l r.
Proof.
  unfold Rdsum. apply Rsum_nonneg. apply Forall_forall. intros y Hy.
  apply in_map_iff in Hy as (lr & <- & _). apply Rpowf_nonneg.
Qed.

(** ** Zero on equal arguments *)
Lemma Rdsum_refl p l : p <> 0 -> Rdsum p l l = 0.
Proof.
  intros Hp. induction l as [|x l IH]; [reflexivity|].
  rewrite Rdsum_cons, IH. replace (x - x) with 0 by lra. rewrite Rabs_R0, Rpowf_0 by assumption. lra.
Qed.

Lemma distance_player_refl (p : R) (n : nat) (l : list R) :
  0 < p -> @distance_player RNum p n l l = 0.
Proof.
  intros Hp. destruct n as [|n]; [reflexivity|].
  rewrite distance_player_S, Rdsum_refl by lra. unfold Rdiv. lra.
Qed.

Lemma distance_refl (g : @game RNum) (p : R) (a : list R * list R) :
  0 < p -> @distance RNum g p a a = Some (0, 0).
Proof.
  intros Hp. unfold distance. cbn [ltb zero RNum].
  now rewrite (proj2 (Rltb_true 0 p) Hp), !distance_player_refl.
Qed.

(** ** Symmetry *)
Lemma Rdsum_sym p l r : Rdsum p l r = Rdsum p r l.
Proof.
  revert r; induction l as [|x l IH]; intros r.
  - now rewrite Rdsum_nil_l, Rdsum_nil_r.
  - destruct r as [|y r]; [now rewrite Rdsum_nil_l, Rdsum_nil_r|].
    rewrite !Rdsum_cons, IH, (Rabs_minus_sym x y). reflexivity.
Qed.

Lemma distance_player_sym (p : R) (n : nat) (l r : list R) :
  @distance_player RNum p n l r = @distance_player RNum p n r l.
Proof.
  destruct n as [|n]; [reflexivity|]. now rewrite !distance_player_S, Rdsum_sym.
Qed.

Lemma distance_sym (g : @game RNum) (p : R) (a b : list R * list R) :
  @distance RNum g p a b = @distance RNum g p b a.
Proof.
  unfold distance. destruct (ltb RNum (zero RNum) p); [|reflexivity].
  now rewrite (distance_player_sym p _ (fst a)), (distance_player_sym p _ (snd a)).
Qed.

(** ** Sign *)
Lemma distance_player_nonneg (p : R) (n : nat) (l r : list R) :
  0 <= @distance_player RNum p n l r.
Proof.
  destruct n as [|n]; [cbn; lra|]. rewrite distance_player_S.
  pose proof (Rdsum_nonneg p l r). pose proof (two_n_pos n).
  apply Rmult_le_pos; [assumption|]. left. now apply Rinv_0_lt_compat.
Qed.

Lemma Rdsum_pos p (l r : list R) : length l = length r -> l <> r -> 0 < Rdsum p l r.
Proof.
  revert r; induction l as [|x l IH]; intros [|y r] Hlen Hne; try discriminate.
  - now contradiction Hne.
  - rewrite Rdsum_cons. pose proof (Rpowf_nonneg (Rabs (x - y)) p).
    destruct (Req_EM_T x y) as [->|Hxy].
    + assert (0 < Rdsum p l r); [|lra].
      apply IH; [now injection Hlen|]. intros ->; now apply Hne.
    + pose proof (Rdsum_nonneg p l r).
      assert (0 < Rpowf (Rabs (x - y)) p); [|lra].
      apply Rpowf_pos, Rabs_pos_lt. lra.
Qed.

Lemma distance_player_pos (p : R) (n : nat) (l r : list R) :
  length l = length r -> (n > 0)%nat -> l <> r -> 0 < @distance_player RNum p n l r.
Proof.
  intros Hlen Hn Hne. destruct n as [|n]; [lia|]. rewrite distance_player_S.
  pose proof (Rdsum_pos p l r Hlen Hne). pose proof (two_n_pos n).
  apply Rmult_lt_0_compat; [assumption|]. now apply Rinv_0_lt_compat.
Qed.

(** conversely a zero distance (with infosets, equal lengths) means equal vectors *)
Lemma distance_player_zero_iff (p : R) (n : nat) (l r : list R) :
  0 < p -> length l = length r -> (n > 0)%nat ->
  (@distance_player RNum p n l r = 0 <-> l = r).
Proof.
  intros Hp Hlen Hn. split.
  - intros H0. destruct (list_eq_dec Req_EM_T l r) as [E|E]; [exact E|].
    pose proof (distance_player_pos p n l r Hlen Hn E). lra.
  - intros ->. now apply distance_player_refl.
Qed.

(** ** Range: at most one for [p >= 1] *)
Lemma Rdsum_split p (a : nat) (l r : list R) :
  Rdsum p l r = Rdsum p (firstn a l) (firstn a r) + Rdsum p (skipn a l) (skipn a r).
Proof.
  revert l r; induction a as [|a IH]; intros l r.
  - cbn [firstn skipn]. rewrite Rdsum_nil_l. lra.
  - destruct l as [|x l]; [cbn [firstn skipn]; rewrite !Rdsum_nil_l; lra|].
    destruct r as [|y r]; [cbn [firstn skipn]; rewrite !Rdsum_nil_r; lra|].
    cbn [firstn skipn]. rewrite !Rdsum_cons, (IH l r). lra.
Qed.

Lemma Rdsum_row_le p (l r : list R) :
  1 <= p ->
  Forall (fun x => 0 <= x) l -> Forall (fun x => 0 <= x) r -> Rsum l <= 1 -> Rsum r <= 1 ->
  Rdsum p l r <= Rsum l + Rsum r.
Proof.
  intros Hp Hl; revert r; induction Hl as [|x l Hx Hl IH]; intros r Hr Sl Sr.
  - rewrite Rdsum_nil_l. pose proof (Rsum_nonneg r Hr). cbn [Rsum]. lra.
  - destruct Hr as [|y r Hy Hr].
    + rewrite Rdsum_nil_r. pose proof (Rsum_nonneg l Hl). cbn [Rsum]. lra.
    + cbn [Rsum] in *. pose proof (Rsum_nonneg l Hl). pose proof (Rsum_nonneg r Hr).
      rewrite Rdsum_cons.
      assert (Rdsum p l r <= Rsum l + Rsum r) by (apply IH; [assumption|lra|lra]).
      assert (Hab : 0 <= Rabs (x - y) <= 1 /\ Rabs (x - y) <= x + y)
        by (unfold Rabs; destruct (Rcase_abs (x - y)); lra).
      pose proof (Rpowf_le_base _ p (proj1 Hab) Hp). lra.
Qed.

Lemma Rdsum_vrow_le p (l r : list R) : 1 <= p -> VRow l -> VRow r -> Rdsum p l r <= 2.
Proof.
  intros Hp [Hl Sl] [Hr Sr]. pose proof (Rdsum_row_le p l r Hp Hl Hr). lra.
Qed.

Lemma Rdsum_flat_le p ars : 1 <= p ->
  forall l r : list R,
    length l = nsum ars -> length r = nsum ars ->
    Forall VRow (split_by l ars) -> Forall VRow (split_by r ars) ->
    Rdsum p l r <= 2 * INR (length ars).
Proof.
  intros Hp. induction ars as [|a ars IH]; intros l r Ll Lr Hl Hr.
  - destruct l; [|discriminate]. rewrite Rdsum_nil_l. cbn [length INR]. lra.
  - cbn [split_by] in Hl, Hr. inversion Hl as [|? ? Hl1 Hl2]; inversion Hr as [|? ? Hr1 Hr2]; subst.
    cbn [nsum fold_right] in Ll, Lr. fold (nsum ars) in Ll, Lr.
    rewrite (Rdsum_split p a l r).
    pose proof (Rdsum_vrow_le p _ _ Hp Hl1 Hr1).
    assert (Rdsum p (skipn a l) (skipn a r) <= 2 * INR (length ars)).
    { apply IH; try assumption; rewrite skipn_length; lia. }
    change (length (a :: ars)) with (S (length ars)). rewrite S_INR. lra.
Qed.

Lemma distance_player_le_1 (p : R) (ars : list nat) (n : nat) (l r : list R) :
  1 <= p -> VFlat ars l -> VFlat ars r -> n = length ars ->
  @distance_player RNum p n l r <= 1.
Proof.
  intros Hp [Ll Hl] [Lr Hr] ->. destruct (length ars) as [|n] eqn:E; [cbn; lra|].
  rewrite distance_player_S. pose proof (Rdsum_flat_le p ars Hp l r Ll Lr Hl Hr) as H.
  rewrite E in H. pose proof (two_n_pos n).
  apply (Rmult_le_reg_r (2 * INR (S n))); [assumption|].
  unfold Rdiv. rewrite Rmult_assoc, Rinv_l by lra. lra.
Qed.

Lemma Rabs_1_0 : Rabs (1 - 0) = 1.
Proof. replace (1 - 0) with 1 by lra. apply Rabs_R1. Qed.
Lemma Rabs_0_1 : Rabs (0 - 1) = 1.
Proof. rewrite Rabs_minus_sym. apply Rabs_1_0. Qed.

(** the bound is attained: two different pure strategies in one binary infoset *)
Lemma distance_player_attains_1 (p : R) :
  VFlat [2%nat] [1; 0] /\ VFlat [2%nat] [0; 1] /\
  @distance_player RNum p 1 [1; 0] [0; 1] = 1.
Proof.
  split; [vflat|]. split; [vflat|].
  rewrite distance_player_S, !Rdsum_cons, Rdsum_nil_l, Rabs_1_0, Rabs_0_1, !Rpowf_1_l.
  cbn [INR]. change (T RNum) with R. field.
Qed.

(** ** For every [0 < p < 1] the documented range fails with three actions *)
Lemma vflat_100 : VFlat [3%nat] [1; 0; 0].
Proof.
  vflat.
Qed.
Lemma vflat_0hh : VFlat [3%nat] [0; /2; /2].
Proof.
  vflat.
Qed.

Lemma Rabs_0_half : Rabs (0 - /2) = /2.
Proof. rewrite Rabs_minus_sym. replace (/2 - 0) with (/2) by lra. apply Rabs_pos_eq. lra. Qed.

Lemma distance_player_small_p (p : R) :
  0 < p < 1 -> 1 < @distance_player RNum p 1 [1; 0; 0] [0; /2; /2].
Proof.
  intros Hp. rewrite distance_player_S, !Rdsum_cons, Rdsum_nil_l, Rabs_1_0, Rabs_0_half, Rpowf_1_l.
  assert (H : /2 < Rpowf (/2) p) by (apply Rpowf_gt_base; lra).
  cbn [INR]. lra.
Qed.

(** at [p = 1] the same pair is exactly at the bound (so 1 is the threshold exponent) *)
Lemma Rpowf_1_r (x : R) : 0 <= x -> Rpowf x 1 = x.
Proof.
  intros Hx. unfold Rpowf. destruct (Req_EM_T 1 0); [lra|].
  destruct (Rlt_dec 0 x); [now apply Rpower_1|lra].
Qed.

Lemma distance_player_p1_three :
  @distance_player RNum 1 1 [1; 0; 0] [0; /2; /2] = 1.
Proof.
  rewrite distance_player_S, !Rdsum_cons, Rdsum_nil_l, Rabs_1_0, Rabs_0_half, Rpowf_1_l.
  rewrite Rpowf_1_r by lra. cbn [INR]. change (T RNum) with R. field.
Qed.

Lemma distance_player_small_p_exists :
  exists (ars : list nat) (l r : list R) (p : R),
    0 < p < 1 /\ VFlat ars l /\ VFlat ars r /\ 1 < @distance_player RNum p (length ars) l r.
Proof.
  exists [3%nat], [1; 0; 0], [0; /2; /2], (/2).
  split; [lra|]. split; [apply vflat_100|]. split; [apply vflat_0hh|].
  apply distance_player_small_p. lra.
Qed.

(** ** The panic on a non-positive exponent *)
Lemma distance_none_iff (g : @game RNum) (p : R) (a b : list R * list R) :
  @distance RNum g p a b = None <-> ~ 0 < p.
Proof.
  unfold distance. cbn [ltb zero RNum]. destruct (Rltb 0 p) eqn:E.
  - apply Rltb_true in E. split; [discriminate|contradiction].
  - apply Rltb_false in E. split; [intros _; lra|reflexivity].
Qed.

Lemma distance_game_range (g : @game RNum) (p : R) (a b : list R * list R) :
  1 <= p -> Valid g a -> Valid g b ->
  exists d1 d2, @distance RNum g p a b = Some (d1, d2) /\ 0 <= d1 <= 1 /\ 0 <= d2 <= 1.
Proof.
  intros Hp [Va1 Va2] [Vb1 Vb2]. unfold distance. cbn [ltb zero RNum].
  rewrite (proj2 (Rltb_true 0 p)) by lra. eexists; eexists; split; [reflexivity|].
  split; (split; [apply distance_player_nonneg|eapply distance_player_le_1; eauto; symmetry]).
  - exact (map_length _ (g_infos g true)).
  - exact (map_length _ (g_infos g false)).
Qed.

Lemma distance_player_pos_iff (p : R) (ars : list nat) (n : nat) (l r : list R) :
  0 < p -> VFlat ars l -> VFlat ars r -> n = length ars ->
  (0 < @distance_player RNum p n l r <-> l <> r).
Proof.
  intros Hp [Ll _] [Lr _] ->. split.
  - intros H ->. rewrite distance_player_refl in H by assumption. lra.
  - intros Hne. apply distance_player_pos; [congruence| |assumption].
    destruct ars; [|cbn; lia]. destruct l, r; try discriminate. now contradiction Hne.
Qed.

Lemma distance_game_pos (g : @game RNum) (p : R) (a b : list R * list R) :
  0 < p -> Valid g a -> Valid g b ->
  exists d1 d2, @distance RNum g p a b = Some (d1, d2) /\
                (0 < d1 <-> fst a <> fst b) /\ (0 < d2 <-> snd a <> snd b).
Proof.
  intros Hp [Va1 Va2] [Vb1 Vb2]. unfold distance. cbn [ltb zero RNum].
  rewrite (proj2 (Rltb_true 0 p) Hp). eexists; eexists; split; [reflexivity|].
  split; eapply distance_player_pos_iff; eauto; symmetry.
  - exact (map_length _ (g_infos g true)).
  - exact (map_length _ (g_infos g false)).
Qed.

(** ** A concrete pair strictly inside the range: two binary infosets, the profiles
    differ (maximally) in the first and agree in the second: distance one half. *)
Lemma vflat_ex_l : VFlat [2%nat; 2%nat] [1; 0; /2; /2].
Proof.
  vflat.
Qed.
Lemma vflat_ex_r : VFlat [2%nat; 2%nat] [0; 1; /2; /2].
Proof.
  vflat.
Qed.

Lemma distance_player_example (p : R) :
  0 < p -> @distance_player RNum p 2 [1; 0; /2; /2] [0; 1; /2; /2] = /2.
Proof.
  intros Hp. rewrite distance_player_S, !Rdsum_cons, Rdsum_nil_l, Rabs_1_0, Rabs_0_1, !Rpowf_1_l.
  replace (/2 - /2) with 0 by lra. rewrite Rabs_R0, Rpowf_0 by lra.
  cbn [INR]. change (T RNum) with R. field.
Qed.
