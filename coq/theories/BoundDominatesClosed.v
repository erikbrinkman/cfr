(** * BoundDominatesClosed: property C02 in the form [Properties/C02.v] states it.  The two
    statements of [BoundDominates.v] that carry the best-response theorems of C01 as
    hypotheses are given [br_upper] and [br_attained]. *)
From Coq Require Import Reals List Lra Lia Bool Arith NArith.
From Cfr.theories Require Import Num RInst Tree GameWF Strat Eval Solve Valid
     SolveValidProofs LoopProofs EvalSpec EvalProofs BestResponseProofs CfrSpec BoundDominates.
Import ListNotations.
Open Scope R_scope.

Local Notation game := (@game RNum).
Local Notation oracle := (@oracle RNum).

Theorem bound_dominates_closed (g : game) (draw : oracle) budget (stop : R -> bool) strats b1 b2 ran :
  @WFgame RNum g -> @PerfectRecall RNum g -> ChanceOK g ->
  @solve_single RNum g Full draw (@p_vanilla RNum) budget stop = (strats, Some (b1, b2), ran) ->
  @si_regret RNum (@info RNum g strats) <= Rmax b1 b2 /\ 0 <= b1 /\ 0 <= b2.
Proof. intros Hwf HPR HCh. exact (bound_dominates g Hwf HPR HCh draw budget stop strats b1 b2 ran). Qed.

Theorem early_stop_sound_closed (g : game) (draw : oracle) budget (r : R) strats b1 b2 ran :
  @WFgame RNum g -> @PerfectRecall RNum g -> ChanceOK g ->
  @solve_single RNum g Full draw (@p_vanilla RNum) budget (@stop_at RNum r) =
    (strats, Some (b1, b2), ran) ->
  (ran < N.of_nat budget)%N ->
  @si_regret RNum (@info RNum g strats) < r.
Proof. intros Hwf HPR HCh. exact (early_stop_sound br_upper br_attained g Hwf HPR HCh draw budget r strats b1 b2 ran). Qed.

Theorem bound_dominates_each_closed (g : game) (draw : oracle) budget (stop : R -> bool) strats b1 b2 ran :
  @WFgame RNum g -> @PerfectRecall RNum g -> ChanceOK g ->
  @solve_single RNum g Full draw (@p_vanilla RNum) budget stop = (strats, Some (b1, b2), ran) ->
  0 <= si_reg1 (@info RNum g strats) <= Rmax b1 b2 /\
  0 <= si_reg2 (@info RNum g strats) <= Rmax b1 b2.
Proof. intros Hwf HPR HCh. exact (bound_dominates_each g Hwf HPR HCh draw budget stop strats b1 b2 ran). Qed.

Example mp_bound_dominates_closed (draw : oracle) (budget : nat) (stop : R -> bool) :
  (1 <= budget)%nat ->
  exists strats b1 b2 ran,
    @solve_single RNum SolveValidProofs.mp_game Full draw (@p_vanilla RNum) budget stop =
      (strats, Some (b1, b2), ran) /\
    @si_regret RNum (@info RNum SolveValidProofs.mp_game strats) <= Rmax b1 b2 /\ 0 <= b1 /\ 0 <= b2.
Proof. exact (mp_bound_dominates br_upper br_attained draw budget stop). Qed.

(** the factor 2 in [cum_regret_bound] cannot be dropped *)
Theorem halved_bound_refuted_closed (draw : oracle) :
  exists (g : game) budget stop strats b1 b2 ran,
    @WFgame RNum g /\ @PerfectRecall RNum g /\ ChanceOK g /\
    @solve_single RNum g Full draw (@p_vanilla RNum) budget stop = (strats, Some (b1, b2), ran) /\
    Rmax b1 b2 / 2 < @si_regret RNum (@info RNum g strats) /\
    @si_regret RNum (@info RNum g strats) <= Rmax b1 b2.
Proof.
  destruct (halved_bound_refuted draw) as (strats & b1 & b2 & ran & E & Hlt).
  exists g2, 2%nat, LoopProofs.never, strats, b1, b2, ran.
  split; [exact g2_WFgame|]. split; [exact g2_PerfectRecall|]. split; [exact g2_ChanceOK|].
  split; [exact E|]. split; [exact Hlt|].
  exact (proj1 (bound_dominates_closed g2 draw 2 _ strats b1 b2 ran g2_WFgame g2_PerfectRecall g2_ChanceOK E)).
Qed.
