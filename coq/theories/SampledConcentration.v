(** * SampledConcentration: second moment and a Chebyshev bound for the chance-sampled solver.

    [SampledMartingale.v] shows that along a run of the chance-sampled solver the differences
    [d_t = sampled increment - true increment] of the regret of [(pl, i, a)] are martingale
    differences.  Here:

    - [md_orthogonal_past], [md_orthogonal]: [d_t] is orthogonal to every function of the
      first [t] draw vectors, in particular to [d_s], [s < t], under the expectation over any
      number [T > t] of iterations;
    - [mart_second_moment]: [E[M_T^2] = sum_{t<T} E[d_t^2]] for [M_T = sum_{t<T} d_t];
    - [md_abs_bound]: [|d_t| <= 2 (hi - lo)] on every history that carries weight;
    - [chebyshev_run]: the finite Chebyshev inequality for [expect_run];
    - [sampled_chebyshev], [sampled_chebyshev_rate], [sampled_chebyshev_vanilla],
      [sampled_deviation_vanishes]: the probability bounds. *)
From Coq Require Import Reals List Lra Lia Bool Arith NArith.
From Cfr.theories Require Import ListAux RInst Tree GameWF Eval Solve Valid SolveValidProofs
     Incr CfMass CfrRate SampledRate FinExp Unbiased SampledMartingale.
Import ListNotations.
Open Scope R_scope.

Local Notation nodeR := (@node RNum).
Local Notation gameR := (@game RNum).
Local Notation pstateR := (@pstate RNum).
Local Notation paramsR := (@params RNum).
Local Notation oracleR := (@oracle RNum).

(** [draw_in rows] (every draw is an index into its chance row) is the weight predicate of
    the run [SampledMartingale.sampled_IsRun]; [history_in rows n] is [FinExp.run_hist] of
    that run from the empty history. *)
Definition draw_in (rows : list (list R)) (d : list nat) : Prop :=
  Forall2 (fun k r => (k < length r)%nat) d rows.

Definition history_in (rows : list (list R)) (n : nat) (ds : list (list nat)) : Prop :=
  length ds = n /\ Forall (draw_in rows) ds.

Lemma history_in_nth rows n ds t :
  history_in rows n ds -> (t < n)%nat -> draw_in rows (nth t ds []).
Proof.
  intros [Hl HF] Ht. rewrite Forall_forall in HF. apply HF. apply nth_In. lia.
Qed.

Lemma draw_in_nth rows d ci :
  draw_in rows d -> (ci < length rows)%nat -> (nth ci d O < length (nth ci rows []))%nat.
Proof.
  intros H Hci. apply (Forall2_nth _ d rows ci O [] H). now rewrite (Forall2_len _ _ _ H).
Qed.

Lemma expect_run_sum_upto rows n m (F : nat -> list (list nat) -> R) :
  expect_run rows n (fun ds => sum_upto m (fun t => F t ds)) =
  sum_upto m (fun t => expect_run rows n (F t)).
Proof. apply E_sum_upto, Lin_expect_run. Qed.

Definition ind_ge (lam x : R) : R := if Rle_dec lam (Rabs x) then 1 else 0.

Lemma ind_ge_range lam x : 0 <= ind_ge lam x <= 1.
Proof. unfold ind_ge. destruct (Rle_dec lam (Rabs x)); lra. Qed.

Lemma ind_ge_true lam x : lam <= Rabs x -> ind_ge lam x = 1.
Proof. intros H. unfold ind_ge. now destruct (Rle_dec lam (Rabs x)). Qed.

Lemma ind_ge_le_sq lam x : 0 < lam -> ind_ge lam x <= x ^ 2 / lam ^ 2.
Proof.
  intros Hl. unfold ind_ge, Rdiv.
  assert (Hu : 0 < / lam ^ 2) by (apply Rinv_0_lt_compat; nra).
  assert (E : lam ^ 2 * / lam ^ 2 = 1) by (apply Rinv_r; nra).
  assert (Hx : 0 <= x ^ 2) by nra.
  destruct (Rle_dec lam (Rabs x)) as [H|H].
  - assert (H2 : lam ^ 2 <= x ^ 2).
    { rewrite <- (pow2_abs x). pose proof (Rabs_pos x). nra. }
    pose proof (Rmult_le_compat_r (/ lam ^ 2) _ _ (Rlt_le _ _ Hu) H2). lra.
  - apply Rmult_le_pos; lra.
Qed.

Theorem chebyshev_run rows n lam (f : list (list nat) -> R) :
  Forall (Forall (fun x => 0 <= x)) rows -> 0 < lam ->
  expect_run rows n (fun ds => ind_ge lam (f ds)) <=
  expect_run rows n (fun ds => f ds ^ 2) / lam ^ 2.
Proof.
  intros Hr Hl. unfold Rdiv. rewrite Rmult_comm.
  apply (Pos_scal (Pos_expect_run rows n Hr) (Lin_expect_run rows n)). intros ds _.
  pose proof (ind_ge_le_sq lam (f ds) Hl) as H. unfold Rdiv in H. lra.
Qed.

Lemma expect_run_ind_range rows n lam (f : list (list nat) -> R) :
  Forall (Forall (fun x => 0 <= x)) rows -> Forall (fun r => Rsum r = 1) rows ->
  0 <= expect_run rows n (fun ds => ind_ge lam (f ds)) <= 1.
Proof.
  intros Hn Hs. apply (Pos_range (Pos_expect_run rows n Hn) (Lin_expect_run rows n)).
  - induction n as [|n IH]; [reflexivity|].
    apply (one_comp (Pos_expect rows Hn) (fun _ => expect_run rows n)); auto.
    now apply expect_const.
  - intros ds. apply ind_ge_range.
Qed.

Section Conc.
  Context (g : gameR) (p : paramsR).
  Context (HWF : WFgame g) (HCO : ChanceOK g) (HNR : NoRepeat (g_root g)).
  Local Notation rows := (g_chance g).

  (** [md] is the difference that [inc_diff_at] and [inc_diff_orthogonal] of
      [SampledMartingale.v] are about *)
  Definition md (pl : bool) (i a : nat) (ds : list (list nat)) (t : nat) : R :=
    sampled_inc_at g p pl i a ds t - true_inc_at g p pl i a ds t.
  Definition mart (pl : bool) (i a : nat) (T : nat) (ds : list (list nat)) : R :=
    sum_upto T (md pl i a ds).

  Lemma mart_split pl i a T ds :
    mart pl i a T ds =
    sum_upto T (sampled_inc_at g p pl i a ds) - sum_upto T (true_inc_at g p pl i a ds).
  Proof. unfold mart, md. apply sum_upto_minus. Qed.

  Lemma md_firstn pl i a ds n t : (t < n)%nat -> md pl i a (firstn n ds) t = md pl i a ds t.
  Proof.
    intros Ht. unfold md, sampled_inc_at, true_inc_at.
    rewrite firstn_firstn, Nat.min_l by lia. now rewrite nth_firstn_lt by assumption.
  Qed.

  Theorem md_orthogonal_past pl i a n T (h : list (list nat) -> R) :
    (n < T)%nat ->
    expect_run rows T (fun ds => h (firstn n ds) * md pl i a ds n) = 0.
  Proof. exact (inc_diff_orthogonal g p HWF HCO HNR pl i a n T h). Qed.

  Theorem md_orthogonal_cross pl i a pl' i' a' s t T :
    (s < t)%nat -> (t < T)%nat ->
    expect_run rows T (fun ds => md pl' i' a' ds s * md pl i a ds t) = 0.
  Proof.
    intros Hs Ht.
    rewrite <- (md_orthogonal_past pl i a t T (fun ds => md pl' i' a' ds s) Ht).
    apply (E_ext (Lin_expect_run rows T)). intros ds. now rewrite md_firstn by assumption.
  Qed.

  Theorem md_orthogonal pl i a s t T :
    (s < t)%nat -> (t < T)%nat ->
    expect_run rows T (fun ds => md pl i a ds s * md pl i a ds t) = 0.
  Proof. apply md_orthogonal_cross. Qed.

  (** [mart] along the run [SampledMartingale.sampled_IsRun]: from the draw vectors [pre]
      on, the sum of the differences of the iterations [ds] *)
  Local Notation Sys := (sampled_IsRun g HCO).
  Local Notation mart_from pl i a :=
    (fun pre ds => sum_upto (length ds) (fun t => md pl i a (pre ++ ds) (length pre + t)%nat)).

  Lemma mart_from_sum pl i a : IsSum snoc (mart_from pl i a) (newest (md pl i a)).
  Proof. exact (IsAt_sum _ _ (inc_diff_at g p pl i a)). Qed.

  Lemma md_mean_zero pl i a pre : expect rows (newest (md pl i a) pre) = 0.
  Proof. exact (inc_diff_mean_zero g p HWF HCO HNR pl i a pre). Qed.

  Lemma mart_run pl i a (G : R -> R) T :
    expect_run rows T (fun ds => G (mart pl i a T ds)) =
    expect_run rows T (fun ds => G (mart_from pl i a [] ds)).
  Proof.
    apply (run_ext Sys T [] _ _ (Forall_nil _)). intros ds Hds.
    now rewrite <- (hist_length Hds).
  Qed.

  Theorem mart_second_moment pl i a T :
    expect_run rows T (fun ds => mart pl i a T ds ^ 2) =
    sum_upto T (fun t => expect_run rows T (fun ds => md pl i a ds t ^ 2)).
  Proof.
    rewrite (mart_run pl i a (fun y => y ^ 2)).
    exact (run_second_moment Sys _ _ (inc_diff_at g p pl i a) _ (mart_from_sum pl i a)
                             (fun pre _ => md_mean_zero pl i a pre) T [] (Forall_nil _)).
  Qed.

  Section Bounded.
    Context (pl : bool) (i a : nat) (C : R).
    Context (HC : forall T ds t, history_in rows T ds -> (t < T)%nat -> Rabs (md pl i a ds t) <= C).

    Lemma md_newest_bound pre d :
      Forall (draw_in rows) pre -> draw_in rows d -> Rabs (newest (md pl i a) pre d) <= C.
    Proof.
      intros Hpre Hd. apply (HC (S (length pre))); [|lia].
      split; [rewrite app_length; cbn [length]; lia|]. apply Forall_app. auto.
    Qed.

    Lemma mart_second_moment_le T :
      expect_run rows T (fun ds => mart pl i a T ds ^ 2) <= C ^ 2 * INR T.
    Proof.
      rewrite (mart_run pl i a (fun y => y ^ 2)).
      exact (run_sq_le Sys _ (fun pre _ => md_mean_zero pl i a pre) _ (mart_from_sum pl i a) C md_newest_bound
                       T [] (Forall_nil _)).
    Qed.

    Theorem mart_chebyshev_gen T lam :
      0 < lam ->
      expect_run rows T (fun ds => ind_ge lam (mart pl i a T ds)) <= C ^ 2 * INR T / lam ^ 2.
    Proof.
      intros Hl. eapply Rle_trans; [apply chebyshev_run; [apply ChanceOK_nonneg, HCO|assumption]|].
      unfold Rdiv. apply Rmult_le_compat_r; [|apply mart_second_moment_le].
      apply Rlt_le, Rinv_0_lt_compat. nra.
    Qed.
  End Bounded.
End Conc.

Lemma draw_in_DrawOK chance d : draw_in chance d -> DrawOK chance (draw_of d).
Proof. intros H ci pass Hci. unfold draw_of, row. now apply draw_in_nth. Qed.

Section Bound.
  Context (g : gameR) (p : paramsR) (lo hi : R).
  Context (HWF : WFgame g) (HPR : PerfectRecall g) (HCO : ChanceOK g)
          (HPay : PayoffsIn lo hi (g_root g)).
  Local Notation rows := (g_chance g).
  Local Notation IA := (InvA (arities g true) (arities g false)).

  (** the sampled increment is [cfr_inc] over the one-hot chance table of the draws *)
  Lemma sampled_inc_abs pl i a it (st : pstateR) d :
    IA st -> draw_in rows d -> (a < length (strat_view st pl i))%nat ->
    Rabs (sampled_inc g pl i a it st d) <= hi - lo.
  Proof.
    intros HI Hd Ha. unfold sampled_inc. rewrite reg_sum_vincs_sampled.
    - apply (sampled_inc_bounded g (draw_of d) lo hi HWF HPR HCO HPay (draw_in_DrawOK _ _ Hd));
        assumption.
    - apply shaped_ValShaped; [assumption|assumption|]. now destruct HWF as (HS & _).
  Qed.

  Lemma true_inc_abs pl i a (st : pstateR) :
    IA st -> (a < length (strat_view st pl i))%nat -> Rabs (true_inc g pl i a st) <= hi - lo.
  Proof. intros HI Ha. unfold true_inc. now apply cfr_inc_bounded. Qed.

  Context (pl : bool) (i a : nat).
  Context (Hi : (i < length (arities g pl))%nat) (Ha : (a < nth i (arities g pl) O)%nat).

  Lemma run_state_action ds : (a < length (strat_view (run_state g p ds) pl i))%nat.
  Proof. rewrite (proj1 (proj2 (InvA_lens g _ pl i (run_state_inv g p ds HWF) Hi))). exact Ha. Qed.

  Theorem sampled_inc_at_abs T ds t :
    history_in rows T ds -> (t < T)%nat -> Rabs (sampled_inc_at g p pl i a ds t) <= hi - lo.
  Proof.
    intros Hds Ht. unfold sampled_inc_at. apply sampled_inc_abs.
    - now apply run_state_inv.
    - eapply history_in_nth; eauto.
    - apply run_state_action.
  Qed.

  Theorem true_inc_at_abs ds t : Rabs (true_inc_at g p pl i a ds t) <= hi - lo.
  Proof.
    unfold true_inc_at. apply true_inc_abs; [now apply run_state_inv|apply run_state_action].
  Qed.

  Theorem md_abs_bound T ds t :
    history_in rows T ds -> (t < T)%nat -> Rabs (md g p pl i a ds t) <= 2 * (hi - lo).
  Proof.
    intros Hds Ht. unfold md.
    pose proof (sampled_inc_at_abs T ds t Hds Ht) as H1. pose proof (true_inc_at_abs ds t) as H2.
    unfold Rminus. eapply Rle_trans; [apply Rabs_triang|]. rewrite Rabs_Ropp. lra.
  Qed.

  Context (HNR : NoRepeat (g_root g)).

  Theorem mart_second_moment_bound T :
    expect_run rows T (fun ds => mart g p pl i a T ds ^ 2) <= 4 * (hi - lo) ^ 2 * INR T.
  Proof.
    replace (4 * (hi - lo) ^ 2) with ((2 * (hi - lo)) ^ 2) by lra.
    apply (mart_second_moment_le g p HWF HCO HNR pl i a (2 * (hi - lo)) md_abs_bound).
  Qed.

  (** the weight of the histories on which the accumulated sampled regret deviates from
      the accumulated true counterfactual regret by [lam] or more *)
  Theorem sampled_chebyshev T lam :
    0 < lam ->
    expect_run rows T (fun ds => ind_ge lam (mart g p pl i a T ds)) <=
    4 * (hi - lo) ^ 2 * INR T / lam ^ 2.
  Proof.
    intros Hl. replace (4 * (hi - lo) ^ 2) with ((2 * (hi - lo)) ^ 2) by lra.
    apply (mart_chebyshev_gen g p HWF HCO HNR pl i a (2 * (hi - lo)) md_abs_bound T lam Hl).
  Qed.

  Corollary sampled_chebyshev_explicit T lam :
    0 < lam ->
    expect_run rows T
      (fun ds => if Rle_dec lam (Rabs (sum_upto T (sampled_inc_at g p pl i a ds) -
                                       sum_upto T (true_inc_at g p pl i a ds)))
                 then 1 else 0) <=
    4 * (hi - lo) ^ 2 * INR T / lam ^ 2.
  Proof.
    intros Hl. eapply Rle_trans; [|apply (sampled_chebyshev T lam Hl)].
    apply Req_le, (E_ext (Lin_expect_run rows T)). intros ds. unfold ind_ge. now rewrite mart_split.
  Qed.
End Bound.

Lemma ind_ge_scale eps x c : 0 < c -> ind_ge eps (x / c) = ind_ge (eps * c) x.
Proof.
  intros Hc. unfold ind_ge.
  assert (E : Rabs (x / c) * c = Rabs x).
  { unfold Rdiv. rewrite Rabs_mult, (Rabs_right (/ c)) by (left; apply Rinv_0_lt_compat, Hc).
    rewrite Rmult_assoc, Rinv_l, Rmult_1_r by lra. reflexivity. }
  destruct (Rle_dec eps (Rabs (x / c))) as [H1|H1], (Rle_dec (eps * c) (Rabs x)) as [H2|H2];
    try reflexivity; exfalso.
  - apply H2. rewrite <- E. apply Rmult_le_compat_r; lra.
  - apply H1, (Rmult_le_reg_r c); [exact Hc|]. now rewrite E.
Qed.

(** a Chebyshev bound [K n / lam^2], read at [lam = eps n] *)
Lemma chebyshev_rate_form {A} (E : (A -> R) -> R) (M : A -> R) K n eps :
  Lin E -> (0 < n)%nat -> 0 < eps ->
  (forall lam, 0 < lam -> E (fun a => ind_ge lam (M a)) <= K * INR n / lam ^ 2) ->
  E (fun a => ind_ge eps (M a / INR n)) <= K / (eps ^ 2 * INR n).
Proof.
  intros L Hn He HE. apply lt_0_INR in Hn.
  rewrite (E_ext L _ (fun a => ind_ge (eps * INR n) (M a))) by (intros; now apply ind_ge_scale).
  eapply Rle_trans; [apply HE, Rmult_lt_0_compat; assumption|].
  apply Req_le. field. lra.
Qed.

Section Rate.
  Context (g : gameR) (p : paramsR) (lo hi : R).
  Context (HWF : WFgame g) (HPR : PerfectRecall g) (HCO : ChanceOK g)
          (HPay : PayoffsIn lo hi (g_root g)) (HNR : NoRepeat (g_root g)).
  Context (pl : bool) (i a : nat).
  Context (Hi : (i < length (arities g pl))%nat) (Ha : (a < nth i (arities g pl) O)%nat).
  Local Notation rows := (g_chance g).

  Theorem sampled_chebyshev_rate T eps :
    (0 < T)%nat -> 0 < eps ->
    expect_run rows T (fun ds => ind_ge eps (mart g p pl i a T ds / INR T)) <=
    4 * (hi - lo) ^ 2 / (eps ^ 2 * INR T).
  Proof.
    intros HT He.
    exact (chebyshev_rate_form _ _ _ T eps (Lin_expect_run rows T) HT He
             (sampled_chebyshev g p lo hi HWF HPR HCO HPay pl i a Hi Ha HNR T)).
  Qed.

  Theorem sampled_deviation_vanishes eps delta :
    0 < eps -> 0 < delta ->
    exists T0 : nat, forall T, (T0 <= T)%nat ->
      expect_run rows T (fun ds => ind_ge eps (mart g p pl i a T ds / INR T)) <= delta.
  Proof.
    intros He Hd.
    exact (rate_vanishes _ _ eps delta He Hd (fun T HT => sampled_chebyshev_rate T eps HT He)).
  Qed.
End Rate.

Section VanillaConc.
  Context (g : gameR) (lo hi : R).
  Context (HWF : WFgame g) (HPR : PerfectRecall g) (HCO : ChanceOK g)
          (HPay : PayoffsIn lo hi (g_root g)) (HNR : NoRepeat (g_root g)).
  Context (pl : bool) (i a : nat).
  Context (Hi : (i < length (arities g pl))%nat) (Ha : (a < nth i (arities g pl) O)%nat).
  Local Notation rows := (g_chance g).
  Local Notation pv := (@p_vanilla RNum).

  (** the deviation of the cumulative regret the solver holds after the run [ds] from the sum
      of the true counterfactual regret increments at the strategies the run has played *)
  Definition regret_dev (T : nat) (ds : list (list nat)) : R :=
    nth a (cum_regret (@ri_get RNum (run_state g pv ds) pl i)) 0 -
    sum_upto T (true_inc_at g pv pl i a ds).

  Lemma regret_dev_mart T ds : length ds = T -> regret_dev T ds = mart g pv pl i a T ds.
  Proof.
    intros Hl. unfold regret_dev. rewrite mart_split, <- Hl.
    now rewrite (run_state_regret_vanilla g HWF ds pl i a Hi Ha).
  Qed.

  Lemma regret_dev_run (G : R -> R) T :
    expect_run rows T (fun ds => G (regret_dev T ds)) =
    expect_run rows T (fun ds => G (mart g pv pl i a T ds)).
  Proof.
    apply (run_ext (sampled_IsRun g HCO) T [] _ _ (Forall_nil _)). intros ds Hds.
    now rewrite (regret_dev_mart T ds (hist_length Hds)).
  Qed.

  Theorem vanilla_second_moment_bound T :
    expect_run rows T (fun ds => regret_dev T ds ^ 2) <= 4 * (hi - lo) ^ 2 * INR T.
  Proof.
    rewrite (regret_dev_run (fun y => y ^ 2)).
    now apply (mart_second_moment_bound g pv lo hi HWF HPR HCO HPay pl i a Hi Ha HNR T).
  Qed.

  Theorem sampled_chebyshev_vanilla T lam :
    0 < lam ->
    expect_run rows T (fun ds => ind_ge lam (regret_dev T ds)) <=
    4 * (hi - lo) ^ 2 * INR T / lam ^ 2.
  Proof.
    rewrite (regret_dev_run (ind_ge lam)).
    now apply (sampled_chebyshev g pv lo hi HWF HPR HCO HPay pl i a Hi Ha HNR T lam).
  Qed.

  Theorem sampled_chebyshev_rate_vanilla T eps :
    (0 < T)%nat -> 0 < eps ->
    expect_run rows T (fun ds => ind_ge eps (regret_dev T ds / INR T)) <=
    4 * (hi - lo) ^ 2 / (eps ^ 2 * INR T).
  Proof.
    rewrite (regret_dev_run (fun y => ind_ge eps (y / INR T))).
    now apply (sampled_chebyshev_rate g pv lo hi HWF HPR HCO HPay HNR pl i a Hi Ha T eps).
  Qed.

  Theorem sampled_deviation_vanishes_vanilla eps delta :
    0 < eps -> 0 < delta ->
    exists T0 : nat, forall T, (T0 <= T)%nat ->
      expect_run rows T (fun ds => ind_ge eps (regret_dev T ds / INR T)) <= delta.
  Proof.
    intros He Hd.
    exact (rate_vanishes _ _ eps delta He Hd
                         (fun T HT => sampled_chebyshev_rate_vanilla T eps HT He)).
  Qed.
End VanillaConc.

(** ** Non-vacuity on [seq_game] (chance root, payoffs in [0, 2]) *)
Lemma seq_idx_true_0 : (0 < length (arities seq_game true))%nat.
Proof. cbn. lia. Qed.
Lemma seq_act_true_0_0 : (0 < nth 0 (arities seq_game true) O)%nat.
Proof. cbn. lia. Qed.

Example seq_chebyshev_2 (p : paramsR) lam :
  0 < lam ->
  expect_run (g_chance seq_game) 2 (fun ds => ind_ge lam (mart seq_game p true 0 0 2 ds)) <=
  32 / lam ^ 2.
Proof.
  intros Hl.
  pose proof (sampled_chebyshev seq_game p 0 2 seq_WF seq_PR seq_ChanceOK seq_Payoffs true 0 0
                seq_idx_true_0 seq_act_true_0_0 seq_NoRepeat 2 lam Hl) as H.
  replace (32 / lam ^ 2) with (4 * (2 - 0) ^ 2 * INR 2 / lam ^ 2); [exact H|].
  unfold Rdiv. f_equal. cbn [INR]. lra.
Qed.

Example seq_second_moment_2 (p : paramsR) :
  expect_run (g_chance seq_game) 2 (fun ds => mart seq_game p true 0 0 2 ds ^ 2) =
  expect_run (g_chance seq_game) 2 (fun ds => md seq_game p true 0 0 ds 0 ^ 2) +
  expect_run (g_chance seq_game) 2 (fun ds => md seq_game p true 0 0 ds 1 ^ 2).
Proof.
  rewrite (mart_second_moment seq_game p seq_WF seq_ChanceOK seq_NoRepeat true 0 0 2).
  cbn [sum_upto]. lra.
Qed.

Example seq_vanilla_chebyshev_2 lam :
  0 < lam ->
  expect_run (g_chance seq_game) 2 (fun ds => ind_ge lam (regret_dev seq_game true 0 0 2 ds)) <=
  32 / lam ^ 2.
Proof.
  intros Hl.
  pose proof (sampled_chebyshev_vanilla seq_game 0 2 seq_WF seq_PR seq_ChanceOK seq_Payoffs
                seq_NoRepeat true 0 0 seq_idx_true_0 seq_act_true_0_0 2 lam Hl) as H.
  replace (32 / lam ^ 2) with (4 * (2 - 0) ^ 2 * INR 2 / lam ^ 2); [exact H|].
  unfold Rdiv. f_equal. cbn [INR]. lra.
Qed.

(** numbers for the first iteration: the difference is [+1/8] or [-1/8] according to the draw,
    its second moment is [1/64], and the generic Chebyshev inequality is attained at [lam = 1/8] *)
Lemma seq_md_first (p : paramsR) k :
  md seq_game p true 0 0 [[k]] 0 =
  sampled_inc seq_game true 0 0 (N.of_nat 1) (@init_state RNum seq_game) [k] -
  true_inc seq_game true 0 0 (@init_state RNum seq_game).
Proof. reflexivity. Qed.

Lemma seq_first_expect (p : paramsR) (G : R -> R) :
  expect_run (g_chance seq_game) 1 (fun ds => G (mart seq_game p true 0 0 1 ds)) =
  1 / 2 * G (1 / 8) + 1 / 2 * G (- (1 / 8)).
Proof.
  destruct (seq_first_iteration (N.of_nat 1)) as (E0 & E1 & Et).
  change (g_chance seq_game) with [[1 / 2; 1 / 2]]. cbn [expect_run expect wsum].
  unfold mart. cbn [sum_upto]. rewrite !seq_md_first, E0, E1, Et.
  replace (0 + (1 / 4 - 1 / 8)) with (1 / 8) by lra.
  replace (0 + (0 - 1 / 8)) with (- (1 / 8)) by lra. lra.
Qed.

Example seq_second_moment_1 (p : paramsR) :
  expect_run (g_chance seq_game) 1 (fun ds => mart seq_game p true 0 0 1 ds ^ 2) = 1 / 64.
Proof. rewrite (seq_first_expect p (fun y => y ^ 2)). lra. Qed.

Example seq_chebyshev_attained (p : paramsR) :
  expect_run (g_chance seq_game) 1 (fun ds => ind_ge (1 / 8) (mart seq_game p true 0 0 1 ds)) = 1 /\
  expect_run (g_chance seq_game) 1 (fun ds => mart seq_game p true 0 0 1 ds ^ 2) / (1 / 8) ^ 2 = 1.
Proof.
  split; [|rewrite seq_second_moment_1; lra].
  rewrite (seq_first_expect p (ind_ge (1 / 8))), !ind_ge_true;
    [lra|rewrite Rabs_left; lra|rewrite Rabs_right; lra].
Qed.

(** ** The statements that [Properties/C04.v] uses *)
Check md_orthogonal :
  forall (g : gameR) (p : paramsR), WFgame g -> ChanceOK g -> NoRepeat (g_root g) ->
  forall pl i a s t T, (s < t)%nat -> (t < T)%nat ->
    expect_run (g_chance g) T (fun ds => md g p pl i a ds s * md g p pl i a ds t) = 0.
Check md_orthogonal_past :
  forall (g : gameR) (p : paramsR), WFgame g -> ChanceOK g -> NoRepeat (g_root g) ->
  forall pl i a n T (h : list (list nat) -> R), (n < T)%nat ->
    expect_run (g_chance g) T (fun ds => h (firstn n ds) * md g p pl i a ds n) = 0.
Check mart_second_moment :
  forall (g : gameR) (p : paramsR), WFgame g -> ChanceOK g -> NoRepeat (g_root g) ->
  forall pl i a T,
    expect_run (g_chance g) T (fun ds => mart g p pl i a T ds ^ 2) =
    sum_upto T (fun t => expect_run (g_chance g) T (fun ds => md g p pl i a ds t ^ 2)).
Check chebyshev_run :
  forall rows n lam (f : list (list nat) -> R),
    Forall (Forall (fun x => 0 <= x)) rows -> 0 < lam ->
    expect_run rows n (fun ds => ind_ge lam (f ds)) <= expect_run rows n (fun ds => f ds ^ 2) / lam ^ 2.
Check mart_chebyshev_gen :
  forall (g : gameR) (p : paramsR), WFgame g -> ChanceOK g -> NoRepeat (g_root g) ->
  forall pl i a C,
    (forall T ds t, history_in (g_chance g) T ds -> (t < T)%nat -> Rabs (md g p pl i a ds t) <= C) ->
    forall T lam, 0 < lam ->
      expect_run (g_chance g) T (fun ds => ind_ge lam (mart g p pl i a T ds)) <= C ^ 2 * INR T / lam ^ 2.
Check md_abs_bound :
  forall (g : gameR) (p : paramsR) lo hi,
    WFgame g -> PerfectRecall g -> ChanceOK g -> PayoffsIn lo hi (g_root g) ->
  forall pl i a, (i < length (arities g pl))%nat -> (a < nth i (arities g pl) O)%nat ->
  forall T ds t, history_in (g_chance g) T ds -> (t < T)%nat ->
    Rabs (md g p pl i a ds t) <= 2 * (hi - lo).
Check mart_second_moment_bound :
  forall (g : gameR) (p : paramsR) lo hi,
    WFgame g -> PerfectRecall g -> ChanceOK g -> PayoffsIn lo hi (g_root g) ->
  forall pl i a, (i < length (arities g pl))%nat -> (a < nth i (arities g pl) O)%nat ->
  NoRepeat (g_root g) ->
  forall T, expect_run (g_chance g) T (fun ds => mart g p pl i a T ds ^ 2) <= 4 * (hi - lo) ^ 2 * INR T.
Check sampled_chebyshev :
  forall (g : gameR) (p : paramsR) lo hi,
    WFgame g -> PerfectRecall g -> ChanceOK g -> PayoffsIn lo hi (g_root g) ->
  forall pl i a, (i < length (arities g pl))%nat -> (a < nth i (arities g pl) O)%nat ->
  NoRepeat (g_root g) ->
  forall T lam, 0 < lam ->
    expect_run (g_chance g) T (fun ds => ind_ge lam (mart g p pl i a T ds)) <=
    4 * (hi - lo) ^ 2 * INR T / lam ^ 2.
Check sampled_chebyshev_explicit :
  forall (g : gameR) (p : paramsR) lo hi,
    WFgame g -> PerfectRecall g -> ChanceOK g -> PayoffsIn lo hi (g_root g) ->
  forall pl i a, (i < length (arities g pl))%nat -> (a < nth i (arities g pl) O)%nat ->
  NoRepeat (g_root g) ->
  forall T lam, 0 < lam ->
    expect_run (g_chance g) T
      (fun ds => if Rle_dec lam (Rabs (sum_upto T (sampled_inc_at g p pl i a ds) -
                                       sum_upto T (true_inc_at g p pl i a ds)))
                 then 1 else 0) <=
    4 * (hi - lo) ^ 2 * INR T / lam ^ 2.
Check sampled_chebyshev_rate :
  forall (g : gameR) (p : paramsR) lo hi,
    WFgame g -> PerfectRecall g -> ChanceOK g -> PayoffsIn lo hi (g_root g) -> NoRepeat (g_root g) ->
  forall pl i a, (i < length (arities g pl))%nat -> (a < nth i (arities g pl) O)%nat ->
  forall T eps, (0 < T)%nat -> 0 < eps ->
    expect_run (g_chance g) T (fun ds => ind_ge eps (mart g p pl i a T ds / INR T)) <=
    4 * (hi - lo) ^ 2 / (eps ^ 2 * INR T).
Check sampled_deviation_vanishes :
  forall (g : gameR) (p : paramsR) lo hi,
    WFgame g -> PerfectRecall g -> ChanceOK g -> PayoffsIn lo hi (g_root g) -> NoRepeat (g_root g) ->
  forall pl i a, (i < length (arities g pl))%nat -> (a < nth i (arities g pl) O)%nat ->
  forall eps delta, 0 < eps -> 0 < delta ->
    exists T0 : nat, forall T, (T0 <= T)%nat ->
      expect_run (g_chance g) T (fun ds => ind_ge eps (mart g p pl i a T ds / INR T)) <= delta.
Check sampled_chebyshev_vanilla :
  forall (g : gameR) lo hi,
    WFgame g -> PerfectRecall g -> ChanceOK g -> PayoffsIn lo hi (g_root g) -> NoRepeat (g_root g) ->
  forall pl i a, (i < length (arities g pl))%nat -> (a < nth i (arities g pl) O)%nat ->
  forall T lam, 0 < lam ->
    expect_run (g_chance g) T (fun ds => ind_ge lam (regret_dev g pl i a T ds)) <=
    4 * (hi - lo) ^ 2 * INR T / lam ^ 2.
Check sampled_chebyshev_rate_vanilla :
  forall (g : gameR) lo hi,
    WFgame g -> PerfectRecall g -> ChanceOK g -> PayoffsIn lo hi (g_root g) -> NoRepeat (g_root g) ->
  forall pl i a, (i < length (arities g pl))%nat -> (a < nth i (arities g pl) O)%nat ->
  forall T eps, (0 < T)%nat -> 0 < eps ->
    expect_run (g_chance g) T (fun ds => ind_ge eps (regret_dev g pl i a T ds / INR T)) <=
    4 * (hi - lo) ^ 2 / (eps ^ 2 * INR T).
Check sampled_deviation_vanishes_vanilla :
  forall (g : gameR) lo hi,
    WFgame g -> PerfectRecall g -> ChanceOK g -> PayoffsIn lo hi (g_root g) -> NoRepeat (g_root g) ->
  forall pl i a, (i < length (arities g pl))%nat -> (a < nth i (arities g pl) O)%nat ->
  forall eps delta, 0 < eps -> 0 < delta ->
    exists T0 : nat, forall T, (T0 <= T)%nat ->
      expect_run (g_chance g) T (fun ds => ind_ge eps (regret_dev g pl i a T ds / INR T)) <= delta.
