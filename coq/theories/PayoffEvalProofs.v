(** * PayoffEvalProofs: scaling, shifting and swapping payoffs/players — evaluation
    side (property C12), and the definitions shared with the solver side
    ([PayoffSolveProofs]). *)
From Coq Require Import Reals List Lra Lia Bool Arith NArith.
From Cfr.theories Require Import Num ListAux RInst Tree GameWF Eval Valid
     SolveValidProofs EvalSpec EvalProofs BestResponseProofs.
Import ListNotations.
Open Scope R_scope.

Local Notation nodeR := (@node RNum).
Local Notation gameR := (@game RNum).

Fixpoint map_payoffs (f : R -> R) (n : nodeR) : nodeR :=
  match n with
  | Term x => @Term RNum (f x)
  | Chance ci kids => @Chance RNum ci (map (map_payoffs f) kids)
  | Player pl i kids => @Player RNum pl i (map (map_payoffs f) kids)
  end.

Definition game_map_payoffs (f : R -> R) (g : gameR) : gameR :=
  @mkGame RNum (g_chance g) (g_infos1 g) (g_infos2 g) (g_singles1 g) (g_singles2 g)
         (map_payoffs f (g_root g)).

Definition scale (c : R) (g : gameR) : gameR := game_map_payoffs (fun x => c * x) g.
Definition shift (k : R) (g : gameR) : gameR := game_map_payoffs (fun x => x + k) g.

(** exchange the players: tables exchanged, [pl] flipped, payoffs negated *)
Fixpoint swap_node (n : nodeR) : nodeR :=
  match n with
  | Term x => @Term RNum (- x)
  | Chance ci kids => @Chance RNum ci (map swap_node kids)
  | Player pl i kids => @Player RNum (negb pl) i (map swap_node kids)
  end.

Definition swap (g : gameR) : gameR :=
  @mkGame RNum (g_chance g) (g_infos2 g) (g_infos1 g) (g_singles2 g) (g_singles1 g)
         (swap_node (g_root g)).

(** one family covering the three: players flipped or not, payoff [x |-> f x] *)
Definition fl (flip pl : bool) : bool := if flip then negb pl else pl.

Fixpoint tnode (flip : bool) (f : R -> R) (n : nodeR) : nodeR :=
  match n with
  | Term x => @Term RNum (f x)
  | Chance ci kids => @Chance RNum ci (map (tnode flip f) kids)
  | Player pl i kids => @Player RNum (fl flip pl) i (map (tnode flip f) kids)
  end.

Definition tgame (flip : bool) (f : R -> R) (g : gameR) : gameR :=
  @mkGame RNum (g_chance g) (g_infos g (fl flip true)) (g_infos g (fl flip false))
         (g_singles g (fl flip true)) (g_singles g (fl flip false))
         (tnode flip f (g_root g)).

Definition aff (s k x : R) : R := s * x + k.
Definition sgn (flip : bool) : R := if flip then -1 else 1.
Definition swp {A} (flip : bool) (p : A * A) : A * A := if flip then (snd p, fst p) else p.

Lemma fl_eqb flip a b : Bool.eqb (fl flip a) (fl flip b) = Bool.eqb a b.
Proof. destruct flip, a, b; reflexivity. Qed.

Lemma map_payoffs_tnode f f' n : (forall x, f x = f' x) -> map_payoffs f n = tnode false f' n.
Proof.
  intros H. induction n as [x|ci kids IH|pl i kids IH] using node_ind'; cbn [tnode map_payoffs fl].
  - now rewrite H.
  - apply f_equal. now apply map_ext_Forall.
  - apply f_equal. now apply map_ext_Forall.
Qed.

Lemma swap_node_tnode f' n : (forall x, - x = f' x) -> swap_node n = tnode true f' n.
Proof.
  intros H. induction n as [x|ci kids IH|pl i kids IH] using node_ind'; cbn [tnode swap_node fl].
  - now rewrite H.
  - apply f_equal. now apply map_ext_Forall.
  - apply f_equal. now apply map_ext_Forall.
Qed.

Lemma game_map_tgame f f' g : (forall x, f x = f' x) -> game_map_payoffs f g = tgame false f' g.
Proof.
  intros H. unfold game_map_payoffs, tgame. cbn [fl g_infos g_singles]. apply f_equal.
  now apply map_payoffs_tnode.
Qed.

Lemma scale_tgame c g : scale c g = tgame false (aff c 0) g.
Proof. apply game_map_tgame. intros x; unfold aff; lra. Qed.

Lemma shift_tgame k g : shift k g = tgame false (aff 1 k) g.
Proof. apply game_map_tgame. intros x; unfold aff; lra. Qed.

Lemma swap_tgame g : swap g = tgame true (aff (-1) 0) g.
Proof.
  unfold swap, tgame. cbn [fl g_infos g_singles negb]. apply f_equal.
  apply swap_node_tnode. intros x; unfold aff; lra.
Qed.

Lemma arities_tgame flip f g pl : arities (tgame flip f g) (fl flip pl) = arities g pl.
Proof. unfold arities, tgame. destruct flip, pl; reflexivity. Qed.

Lemma repeatT_zero_scale gm n : map (Rmult gm) (@repeatT RNum 0 n) = @repeatT RNum 0 n.
Proof. induction n as [|n IH]; cbn [repeatT map]; [reflexivity|]. now rewrite IH, Rmult_0_r. Qed.

Lemma dot_ones {A} ps (l : list A) : length ps = length l -> dot ps (map (fun _ => 1) l) = Rsum ps.
Proof.
  revert l. induction ps as [|p ps IH]; intros [|x l] Hl; try discriminate; [reflexivity|].
  cbn [map]. rewrite dot_cons. cbn [Rsum]. rewrite IH by (cbn [length] in Hl; lia). lra.
Qed.

Lemma row_swap flip pl (s1 s2 : list (list R)) i :
  rowR (if fl flip pl then fst (swp flip (s1, s2)) else snd (swp flip (s1, s2))) i =
  rowR (if pl then s1 else s2) i.
Proof. destruct flip, pl; reflexivity. Qed.

Section ExpAcc.
  Context (ch s1 s2 : list (list R)).
  Local Notation E := (@exp_acc RNum ch s1 s2).

  Lemma ego_acc keep reach ks :
    Forall (fun c => forall r a, E c r a = a + E c r 0) ks ->
    forall ps acc, ego keep E reach ps ks acc = acc + ego keep E reach ps ks 0.
  Proof.
    induction 1 as [|c ks Hc HK IH]; intros ps acc; destruct ps as [|p ps]; cbn [ego]; try lra.
    destruct (keep p); [|apply IH].
    rewrite Hc, (Hc _ (ego keep E reach ps ks 0)), (IH ps acc). lra.
  Qed.

  Lemma exp_acc_acc n : forall reach acc, E n reach acc = acc + E n reach 0.
  Proof.
    induction n as [x|ci kids IH|pl i kids IH] using node_ind'; intros reach acc.
    - rewrite !exp_acc_Term. lra.
    - rewrite !exp_acc_Chance. now apply ego_acc.
    - rewrite !exp_acc_Player. now apply ego_acc.
  Qed.
End ExpAcc.

Definition ones (n : nodeR) : nodeR := tnode false (fun _ => 1) n.

Section ExpLin.
  Context (flip : bool) (s k : R) (ch s1 s2 : list (list R)).
  Local Notation tn := (tnode flip (aff s k)).
  Local Notation E := (@exp_acc RNum ch s1 s2).
  Local Notation E' := (@exp_acc RNum ch (fst (swp flip (s1, s2))) (snd (swp flip (s1, s2)))).

  Definition LinP (c : nodeR) : Prop :=
    forall reach acc acc', E' (tn c) reach acc' - acc' = s * (E c reach acc - acc) + k * E (ones c) reach 0.

  Lemma ego_lin keep reach ks :
    Forall LinP ks -> forall ps acc acc',
    ego keep E' reach ps (map tn ks) acc' - acc' =
    s * (ego keep E reach ps ks acc - acc) + k * ego keep E reach ps (map ones ks) 0.
  Proof.
    induction 1 as [|c ks Hc HK IH]; intros ps acc acc'; destruct ps as [|p ps]; cbn [ego map]; try lra.
    specialize (IH ps acc acc'). destruct (keep p); [|exact IH].
    specialize (Hc (p * reach) (ego keep E reach ps ks acc) (ego keep E' reach ps (map tn ks) acc')).
    rewrite (exp_acc_acc ch s1 s2 (ones c) (p * reach) (ego keep E reach ps (map ones ks) 0)). lra.
  Qed.

  Lemma exp_acc_lin n : LinP n.
  Proof.
    induction n as [x|ci kids IH|pl i kids IH] using node_ind'; intros reach acc acc'.
    - unfold ones. cbn [tnode]. rewrite !exp_acc_Term. unfold aff. lra.
    - unfold ones. cbn [tnode]. rewrite !exp_acc_Chance. now apply ego_lin.
    - unfold ones. cbn [tnode fl]. rewrite !exp_acc_Player. rewrite row_swap. now apply ego_lin.
  Qed.
End ExpLin.

Definition RowsOK (g : gameR) (s1 s2 : list (list R)) : Prop :=
  forall pl, Forall2 (fun a r => length r = a /\ VRow r) (arities g pl) (if pl then s1 else s2).

Lemma RowsOK_row (g : gameR) pl (s : list (list R)) i kids :
  Forall2 (fun a r => length r = a /\ VRow r) (arities g pl) s -> shaped g (Player pl i kids) ->
  length (rowR s i) = length kids /\ VRow (rowR s i).
Proof.
  intros HR Hsh. destruct (shaped_Player g pl i kids Hsh) as (Hi & -> & _).
  apply (Forall2_nth _ _ _ i O [] HR). now rewrite arities_length.
Qed.

Lemma chance_row_shaped (g : gameR) ci kids :
  ChanceOK g -> shaped g (Chance ci kids) ->
  length (rowR (g_chance g) ci) = length kids /\ Rsum (rowR (g_chance g) ci) = 1.
Proof.
  intros HC Hsh. destruct (shaped_Chance g ci kids Hsh) as (H1 & H2 & _).
  split; [now symmetry|]. unfold ChanceOK in HC. rewrite Forall_forall in HC.
  apply (HC (nth ci (g_chance g) [])). now apply nth_In.
Qed.

Section Mass.
  Context (g : gameR) (s1 s2 : list (list R)).
  Context (HC : ChanceOK g) (HR : RowsOK g s1 s2).
  Local Notation E := (@exp_acc RNum (g_chance g) s1 s2).

  Lemma exp_acc_mass n : shaped g n -> forall reach acc, E (ones n) reach acc = acc + reach * 1.
  Proof.
    induction n as [x|ci kids IH|pl i kids IH] using node_ind'; intros Hsh reach acc;
      unfold ones; cbn [tnode fl]; fold ones.
    - rewrite exp_acc_Term. lra.
    - rewrite exp_acc_Chance. destruct (shaped_Chance g ci kids Hsh) as (_ & _ & _ & H4).
      destruct (chance_row_shaped g ci kids HC Hsh) as [Hl Hsum].
      rewrite (ego_sum _ _ (fun _ => 1)), dot_ones, Hsum;
        [reflexivity|now rewrite map_length|apply skips_none|].
      apply Forall_map. rewrite Forall_forall in IH, H4 |- *. auto.
    - rewrite exp_acc_Player. destruct (shaped_Player g pl i kids Hsh) as (_ & _ & _ & H4).
      destruct (RowsOK_row g pl _ i kids (HR pl) Hsh) as [Hl [Hnn Hsum]].
      rewrite (ego_sum _ _ (fun _ => 1)), dot_ones, Hsum;
        [reflexivity|now rewrite map_length|apply skips_nonneg, Hnn|].
      apply Forall_map. rewrite Forall_forall in IH, H4 |- *. auto.
  Qed.
End Mass.

Lemma Valid_RowsOK (g : gameR) prof :
  Valid g prof ->
  RowsOK g (split_by (fst prof) (arities g true)) (split_by (snd prof) (arities g false)).
Proof.
  intros [[L1 V1] [L2 V2]] pl.
  assert (Gen : forall ars rows, map (@length R) rows = ars -> Forall VRow rows ->
                Forall2 (fun a r => length r = a /\ VRow r) ars rows).
  { intros ars rows <- V. induction V; cbn [map]; constructor; auto. }
  destruct pl; apply Gen; auto using split_by_length.
Qed.

Lemma expected_tgame flip s k (g : gameR) (s1 s2 : list (list R)) :
  @expected RNum (tgame flip (aff s k) g) (fst (swp flip (s1, s2))) (snd (swp flip (s1, s2))) =
  s * @expected RNum g s1 s2 + k * @exp_acc RNum (g_chance g) s1 s2 (ones (g_root g)) 1 0.
Proof.
  unfold expected. cbn [tgame g_chance g_root one zero RNum].
  pose proof (exp_acc_lin flip s k (g_chance g) s1 s2 (g_root g) 1 0 0) as H. lra.
Qed.

Theorem expected_scale c (g : gameR) s1 s2 :
  @expected RNum (scale c g) s1 s2 = c * @expected RNum g s1 s2.
Proof.
  rewrite scale_tgame. pose proof (expected_tgame false c 0 g s1 s2) as H.
  cbn [swp fst snd] in H. rewrite H. lra.
Qed.

Theorem expected_swap (g : gameR) s1 s2 :
  @expected RNum (swap g) s2 s1 = - @expected RNum g s1 s2.
Proof.
  rewrite swap_tgame. pose proof (expected_tgame true (-1) 0 g s1 s2) as H.
  cbn [swp fst snd] in H. rewrite H. lra.
Qed.

Theorem expected_shift k (g : gameR) s1 s2 :
  ChanceOK g -> shaped g (g_root g) -> RowsOK g s1 s2 ->
  @expected RNum (shift k g) s1 s2 = @expected RNum g s1 s2 + k.
Proof.
  intros HC Hsh HR. rewrite shift_tgame. pose proof (expected_tgame false 1 k g s1 s2) as H.
  cbn [swp fst snd] in H. rewrite H, (exp_acc_mass g s1 s2 HC HR _ Hsh). lra.
Qed.

(** ** Best responses: the view of [fl flip me] in the transformed game is the view of [me]
    with the leaves mapped by [aff gm kap], [gm = s * sgn flip], [kap = k] or [- k] *)
Fixpoint dmap (f : R -> R) (t : dtree) : dtree :=
  match t with
  | Leaf v => Leaf (f v)
  | Scale w t' => Scale w (dmap f t')
  | Nat ks => Nat (map (dmap f) ks)
  | Dec i kids => Dec i (map (dmap f) kids)
  end.

Lemma zipK_dmap keep f ps ts :
  map (dmap f) (zipK keep ps ts) = zipK keep ps (map (dmap f) ts).
Proof.
  unfold zipK. revert ts. induction ps as [|p ps IH]; intros [|t ts]; cbn [map combine filter fst];
    try reflexivity.
  destruct (keep p); cbn [map]; now rewrite IH.
Qed.

Lemma view_tnode flip s k ch so me n :
  view ch so (fl flip me) (tnode flip (aff s k) n) =
  dmap (aff (s * sgn flip) (if fl flip me then k else - k)) (view ch so me n).
Proof.
  induction n as [x|ci kids IH|pl i kids IH] using node_ind'; cbn [tnode view dmap].
  - apply f_equal. unfold aff, sgn. destruct flip, me; cbn [fl negb]; lra.
  - rewrite zipK_dmap, !map_map. do 2 apply f_equal. now apply map_ext_Forall.
  - rewrite fl_eqb. destruct (Bool.eqb pl me); cbn [dmap]; rewrite ?zipK_dmap, !map_map;
      f_equal; [|f_equal]; now apply map_ext_Forall.
Qed.

Definition dnmap (f : R -> R) (d : dn) : dn :=
  mkDn (d_hs d) (d_i d) (d_rho d) (map (dmap f) (d_kids d)).

Lemma dnodes_dmap f t : forall hs rho,
  dnodes hs rho (dmap f t) = map (dnmap f) (dnodes hs rho t).
Proof.
  induction t as [v|w t IH|ks IH|i kids IH] using dtree_ind'; intros hs rho; cbn [dmap].
  - reflexivity.
  - apply IH.
  - rewrite !dnodes_Nat. induction IH as [|k r Hk _ IHr]; cbn [map dn_nat]; [reflexivity|].
    now rewrite map_app, Hk, IHr.
  - rewrite !dnodes_Dec. cbn [map]. apply f_equal. generalize O.
    induction IH as [|k r Hk _ IHr]; intros a; cbn [map dn_dec]; [reflexivity|].
    now rewrite map_app, Hk, IHr.
Qed.

Fixpoint mass (t : dtree) : R :=
  match t with
  | Leaf _ | Dec _ _ => 1
  | Scale w t' => w * mass t'
  | Nat ks => Rsum (map mass ks)
  end.

Lemma sv_aff gm kap mu mu' t : forall hs rho,
  (forall d, In d (dnodes hs rho t) -> mu' (d_i d) = gm * mu (d_i d) + kap) ->
  sv mu' (dmap (aff gm kap) t) = gm * sv mu t + kap * mass t.
Proof.
  induction t as [v|w t IH|ks IH|i kids IH] using dtree_ind'; intros hs rho H; cbn [dmap sv mass].
  - unfold aff. lra.
  - rewrite (IH hs (w * rho) H). lra.
  - pose proof (Forall_kids_Nat _ (fun d => mu' (d_i d) = gm * mu (d_i d) + kap) hs rho ks IH H) as HF.
    rewrite map_map, (map_ext_Forall _ _ HF), Rsum_map_plus.
    rewrite <- (map_map (sv mu) (Rmult gm)), <- (map_map mass (Rmult kap)), !Rsum_map_Rmult. reflexivity.
  - pose proof (H (mkDn hs i rho kids) ltac:(rewrite dnodes_Dec; now left)) as Hi. cbn [d_i] in Hi. lra.
Qed.

Lemma mass_zipK keep ps (vw : nodeR -> dtree) ks :
  Skips0 keep ps -> length ps = length ks -> Rsum ps = 1 ->
  Forall (fun c => mass (vw c) = 1) ks -> mass (Nat (zipK keep ps (map vw ks))) = 1.
Proof.
  intros Hk Hl Hs HF. cbn [mass]. rewrite (Rsum_zipK keep mass) by (reflexivity || exact Hk).
  now rewrite map_map, (map_ext_Forall _ (fun _ => 1) HF), dot_ones.
Qed.

Lemma mass_view (g : gameR) so me n :
  ChanceOK g -> Forall2 (fun a r => length r = a /\ VRow r) (arities g (negb me)) so ->
  shaped g n -> mass (view (g_chance g) so me n) = 1.
Proof.
  intros HC HSO. induction n as [x|ci kids IH|pl i kids IH] using node_ind'; intros Hsh; cbn [view].
  - reflexivity.
  - destruct (shaped_Chance g ci kids Hsh) as (_ & _ & _ & Hall).
    destruct (chance_row_shaped g ci kids HC Hsh) as [Hl Hsum].
    apply mass_zipK; [apply skips_none|assumption..|rewrite Forall_forall in IH, Hall |- *; auto].
  - destruct (Bool.eqb_spec pl me) as [_|Hpl]; [reflexivity|].
    destruct (shaped_Player g pl i kids Hsh) as (_ & _ & _ & Hall).
    replace pl with (negb me) in Hsh by (destruct pl, me; cbn [negb]; congruence).
    destruct (RowsOK_row g (negb me) so i kids HSO Hsh) as [Hl [Hnn Hsum]].
    apply mass_zipK; [apply skips_nonneg, Hnn|assumption..|rewrite Forall_forall in IH, Hall |- *; auto].
Qed.

Definition emap (f : R -> R) (e : ventry) : ventry := (fst e, (map (dmap f) (e_kids e), e_p e)).

Lemma Rmax_aff gm c a b : 0 <= gm -> Rmax (aff gm c a) (aff gm c b) = aff gm c (Rmax a b).
Proof.
  intros H. unfold aff. rewrite <- RmaxRmult by assumption.
  unfold Rmax. repeat destruct (Rle_dec _ _); lra.
Qed.

Lemma reduce_max_map (f : R -> R) (l : list R) :
  (forall a b, Rmax (f a) (f b) = f (Rmax a b)) ->
  @reduce_max RNum (map f l) = option_map f (@reduce_max RNum l).
Proof.
  intros H. destruct l as [|x r]; cbn [map reduce_max option_map]; [reflexivity|]. apply f_equal.
  revert x. induction r as [|v r IH]; intros x; cbn [map fold_left]; [reflexivity|].
  change (fmax RNum) with Rmax. now rewrite H, IH.
Qed.

Section VAff.
  Context (gm kap : R) (mu mu' : nat -> R).
  Local Notation em := (emap (aff gm kap)).

  Definition KidsAff (e : ventry) : Prop :=
    forall t, In t (e_kids e) -> sv mu' (dmap (aff gm kap) t) = gm * sv mu t + kap.

  Lemma vstep_aff c pays e :
    KidsAff e ->
    vstep mu' (map (aff gm c) pays) (em e) = map (aff gm (c + kap * e_p e)) (vstep mu pays e).
  Proof.
    unfold KidsAff, vstep. cbn [emap e_kids e_p fst snd]. generalize (e_kids e) as kids.
    induction pays as [|x pays IH]; intros [|t kids] H; cbn [map combine fst snd]; try reflexivity.
    rewrite IH by (intros; apply H; now right). rewrite (H t) by now left. apply (f_equal2 cons); [unfold aff; lra|reflexivity].
  Qed.

  Lemma vfold_aff mine : (forall e, In e mine -> KidsAff e) -> forall c pays,
    fold_left (vstep mu') (map em mine) (map (aff gm c) pays) =
    map (aff gm (c + kap * Rsum (map e_p mine))) (fold_left (vstep mu) mine pays).
  Proof.
    induction mine as [|e mine IH]; intros H c pays; cbn [map fold_left Rsum].
    - now rewrite Rmult_0_r, Rplus_0_r.
    - rewrite vstep_aff by (apply H; now left). rewrite IH by (intros; apply H; now right).
      apply (f_equal (fun c' => map (aff gm c') _)). lra.
  Qed.

  (** every infoset holding a node gains [kap], provided its arity is positive and its
      nodes have positive reach and that many children *)
  Lemma vresolve_aff E ar i :
    0 <= gm -> (forall e, In e (vmine E i) -> KidsAff e) ->
    (kap = 0 \/ forall e, In e (vmine E i) -> 0 < e_p e /\ length (e_kids e) = ar /\ (1 <= ar)%nat) ->
    vresolve (map em E) ar mu' i =
    gm * vresolve E ar mu i + match vmine E i with [] => 0 | _ :: _ => kap end.
  Proof.
    intros Hgm HK HS.
    assert (Hm : vmine (map em E) i = map em (vmine E i)) by (apply filter_map_comm; reflexivity).
    destruct (vmine E i) as [|e0 l0] eqn:Em.
    - rewrite (vresolve_empty _ _ _ _ Em), (vresolve_empty _ _ _ _ Hm). lra.
    - rewrite !vresolve_nonempty by (rewrite ?Hm, ?Em; discriminate). rewrite Hm, Em.
      set (mine := e0 :: l0) in *.
      replace (map e_p (map em mine)) with (map e_p mine) by (now rewrite map_map).
      set (tot := Rsum (map e_p mine)).
      assert (HP : vpayoffs mu' (map em mine) ar = map (aff gm (kap * tot)) (vpayoffs mu mine ar)).
      { unfold vpayoffs, tot. rewrite <- (Rplus_0_l (kap * _)), <- vfold_aff by exact HK. apply f_equal.
        generalize ar as n. induction n as [|n IH]; cbn [repeatT map]; [reflexivity|].
        rewrite <- IH. apply (f_equal2 cons); [unfold aff; lra|reflexivity]. }
      rewrite HP, reduce_max_map by (intros; now apply Rmax_aff).
      assert (Hne : kap = 0 \/ (0 < tot /\ @reduce_max RNum (vpayoffs mu mine ar) <> None)).
      { destruct HS as [HS|HE]; [now left|right]. split.
        - apply Rsum_pos_nonempty; [discriminate|]. apply Forall_map, Forall_forall.
          intros e He. apply HE, He.
        - assert (HL : length (vpayoffs mu mine ar) = ar).
          { unfold vpayoffs. rewrite vpayoffs_fold_length; rewrite repeatT_length; [reflexivity|].
            intros e He. apply HE, He. }
          destruct (HE e0 (or_introl eq_refl)) as (_ & _ & Har).
          destruct (vpayoffs mu mine ar); [cbn [length] in HL; lia|discriminate]. }
      destruct (@reduce_max RNum (vpayoffs mu mine ar)) as [m|]; cbn [option_map].
      + destruct (Rltb 0 tot) eqn:Et.
        * apply Rltb_true in Et. unfold aff. field. lra.
        * apply Rltb_false in Et. destruct Hne as [->|[Ht _]]; lra.
      + destruct Hne as [->|[_ Hn]]; [lra|congruence].
  Qed.
End VAff.

Section BRAff.
  Context (flip : bool) (s k : R) (g : gameR) (me : bool) (so : list (list R)).
  Local Notation gm := (s * sgn flip).
  Local Notation kap := (if fl flip me then k else - k).
  Local Notation ch := (g_chance g).
  Local Notation vw := (view (g_chance g) so me).
  Local Notation D := (dnodes [] 1 (vw (g_root g))).
  Local Notation E := (map forget D).
  Local Notation ars := (arities g me).
  Local Notation nodes := (@collect RNum ch so me (g_root g) 1 []).
  Local Notation nodes' := (@collect RNum ch so (fl flip me) (tnode flip (aff s k) (g_root g)) 1 []).
  Local Notation rf := (@resolve_from RNum ch so me nodes ars).
  Local Notation rf' := (@resolve_from RNum ch so (fl flip me) nodes' ars).

  (** what a non-zero shift needs: normalised chance and opponent rows, and own infoset
      indices that increase along every path (the table is filled from the last index
      down, and the value of an infoset met below infoset [i] is read from the part
      already computed) *)
  Definition ShiftOK : Prop :=
    ChanceOK g /\ shaped g (g_root g) /\
    Forall2 (fun a r => length r = a /\ VRow r) (arities g (negb me)) so /\
    forall d, In d D -> HistLt d.

  Context (Hgm : 0 <= gm) (HS : k = 0 \/ ShiftOK).

  Lemma D_ok d :
    ShiftOK -> In d D ->
    0 < d_rho d /\ (d_i d < length ars)%nat /\ length (d_kids d) = nth (d_i d) ars O /\
    (2 <= length (d_kids d))%nat /\ Forall (fun t => mass t = 1) (d_kids d).
  Proof.
    intros (HC & Hsh & HSO & _) Hd.
    destruct (root_props g so me d HC Hsh Hd) as (_ & Hpos & kids & Hk & ->).
    destruct (shaped_Player g me _ kids Hk) as (H1 & H2 & H3 & H4).
    rewrite map_length, arities_length. repeat split; try assumption.
    apply Forall_map. eapply Forall_impl; [|exact H4]. intros c Hc. now apply mass_view.
  Qed.

  Lemma nodes_view0 : map (vlift ch so me) nodes = E.
  Proof. exact (collect_view ch so me (g_root g) [] 1 []). Qed.

  Lemma nodes'_view : map (vlift ch so (fl flip me)) nodes' = map (emap (aff gm kap)) E.
  Proof.
    rewrite (collect_view ch so (fl flip me) _ [] 1 []), view_tnode, dnodes_dmap, !map_map.
    reflexivity.
  Qed.

  Definition lv (j : nat) : R := match vmine E j with [] => 0 | _ :: _ => kap end.

  Lemma In_vmine_E e j : In e (vmine E j) -> exists d, In d D /\ d_i d = j /\ e = forget d.
  Proof.
    rewrite vmine_forget. intros He. apply in_map_iff in He. destruct He as (d & <- & Hd).
    apply filter_In in Hd. destruct Hd as [Hd Hj]. apply Nat.eqb_eq in Hj. now exists d.
  Qed.

  Lemma lv_live d : In d D -> lv (d_i d) = kap.
  Proof.
    intros Hd. unfold lv.
    assert (H : In (forget d) (vmine E (d_i d))).
    { rewrite vmine_forget. apply in_map, filter_In. split; [exact Hd|apply Nat.eqb_refl]. }
    destruct (vmine E (d_i d)); [destruct H|reflexivity].
  Qed.

  Lemma lv_k0 j : k = 0 -> lv j = kap.
  Proof. intros ->. unfold lv. destruct (vmine E j), (fl flip me); lra. Qed.

  Lemma lv_out j : (length ars <= j)%nat -> lv j = 0.
  Proof.
    intros Hj. destruct HS as [Hk|HOK]; [rewrite lv_k0 by exact Hk; destruct (fl flip me); lra|].
    unfold lv. destruct (vmine E j) as [|e l] eqn:Em; [reflexivity|].
    destruct (In_vmine_E e j) as (d & Hd & <- & _); [rewrite Em; now left|].
    destruct (D_ok d HOK Hd) as (_ & Hlt & _). lia.
  Qed.

  Lemma sv_shift mu mu' t hs rho :
    (forall d, In d (dnodes hs rho t) -> mu' (d_i d) = gm * mu (d_i d) + kap) ->
    k = 0 \/ mass t = 1 -> sv mu' (dmap (aff gm kap) t) = gm * sv mu t + kap.
  Proof.
    intros H Hm. rewrite (sv_aff gm kap mu mu' t hs rho H).
    destruct Hm as [->| ->]; destruct (fl flip me); lra.
  Qed.

  Lemma rf_aff cnt : forall i, (i + cnt = length ars)%nat -> forall m,
    nth m (rf' i cnt) 0 = gm * nth m (rf i cnt) 0 + lv (i + m).
  Proof.
    induction cnt as [|cnt IH]; intros i Hi m.
    - cbn [resolve_from]. rewrite lv_out by lia. destruct m; cbn [nth]; lra.
    - rewrite !rf_S. destruct m as [|m]; cbn [nth].
      2:{ rewrite (IH (S i)) by lia. do 2 apply f_equal. lia. }
      rewrite Nat.add_0_r, !resolve_one_view, nodes'_view, nodes_view0.
      apply vresolve_aff; [exact Hgm| |].
      + intros e He t Ht. apply In_vmine_E in He. destruct He as (d & Hd & <- & ->).
        cbn [forget e_kids fst snd] in Ht. destruct (In_nth_error _ _ Ht) as [a Ha].
        apply (sv_shift _ _ t (d_hs d ++ [(d_i d, a)]) (d_rho d)).
        * (* the table is read at the infosets met below infoset [d_i d]: for [k = 0] the
             relation holds at every index, otherwise these have larger indices and hold a node *)
          intros d' Hd'. rewrite (IH (S (d_i d))) by lia. apply f_equal.
          destruct HS as [Hk|HOK]; [now apply lv_k0|].
          pose proof (below_gt _ (proj2 (proj2 (proj2 HOK))) d a t d' Hd Ha Hd') as Hlt.
          replace (S (d_i d) + (d_i d' - S (d_i d)))%nat with (d_i d') by lia.
          apply lv_live. eapply dnodes_sub; eassumption.
        * destruct HS as [Hk|HOK]; [now left|right].
          destruct (D_ok d HOK Hd) as (_ & _ & _ & _ & HM). rewrite Forall_forall in HM. now apply HM.
      + destruct HS as [Hk|HOK]; [left; destruct (fl flip me); lra|right].
        intros e He. apply In_vmine_E in He. destruct He as (d & Hd & <- & ->).
        destruct (D_ok d HOK Hd) as (H1 & _ & H3 & H4 & _). cbn [forget e_p e_kids fst snd].
        repeat split; try assumption. lia.
  Qed.

  Theorem br_value_tgame :
    @br_value RNum (tgame flip (aff s k) g) (fl flip me) so = gm * @br_value RNum g me so + kap.
  Proof.
    unfold br_value. cbv zeta. cbn [tgame g_chance g_root]. rewrite arities_tgame.
    change (one RNum) with 1. change (zero RNum) with 0. rewrite !search_view, view_tnode.
    rewrite (sv_shift (fun j => nth j (rf O (length ars)) 0) _ _ [] 1).
    - lra.
    - intros d Hd. rewrite rf_aff by reflexivity. cbn [Nat.add]. now rewrite lv_live.
    - destruct HS as [Hk|HOK]; [now left|right]. destruct HOK as (HC & Hsh & HSO & _).
      now apply mass_view.
  Qed.
End BRAff.

Lemma Rmax_scale0 gm a : 0 <= gm -> Rmax (gm * a) 0 = gm * Rmax a 0.
Proof. intros H. rewrite <- RmaxRmult by assumption. now rewrite Rmult_0_r. Qed.

Definition OwnIncr (g : gameR) : Prop :=
  forall me so d, In d (dnodes [] 1 (view (g_chance g) so me (g_root g))) -> HistLt d.

Theorem info_tgame flip s k (g : gameR) (prof : list R * list R) :
  0 <= s * sgn flip ->
  (k = 0 \/ (ChanceOK g /\ shaped g (g_root g) /\ Valid g prof /\ OwnIncr g)) ->
  @info RNum (tgame flip (aff s k) g) (swp flip prof) =
  let i := @info RNum g prof in
  @mkSinfo RNum (s * si_util i + k)
           (s * sgn flip * fst (swp flip (si_reg1 i, si_reg2 i)))
           (s * sgn flip * snd (swp flip (si_reg1 i, si_reg2 i))).
Proof.
  intros Hgm HS. unfold info. cbv zeta. cbn [si_util si_reg1 si_reg2].
  change (fmax RNum) with Rmax. change (sub RNum) with Rminus. change (add RNum) with Rplus.
  change (zero RNum) with 0. change (T RNum) with R.
  set (s1 := split_by (fst prof) (arities g true)).
  set (s2 := split_by (snd prof) (arities g false)).
  assert (He : @expected RNum (tgame flip (aff s k) g) (fst (swp flip (s1, s2))) (snd (swp flip (s1, s2)))
               = s * @expected RNum g s1 s2 + k).
  { rewrite expected_tgame. destruct HS as [->|(HC & Hsh & HV & _)]; [lra|].
    rewrite (exp_acc_mass g s1 s2 HC (Valid_RowsOK g prof HV) _ Hsh). lra. }
  assert (HB : forall me, @br_value RNum (tgame flip (aff s k) g) (fl flip me) (if me then s2 else s1) =
                          s * sgn flip * @br_value RNum g me (if me then s2 else s1)
                          + (if fl flip me then k else - k)).
  { intros me. apply br_value_tgame; [exact Hgm|].
    destruct HS as [Hk|(HC & Hsh & HV & HI)]; [now left|right]. repeat split; try assumption.
    - destruct me; apply (Valid_RowsOK g prof HV).
    - apply HI. }
  pose proof (arities_tgame flip (aff s k) g true) as A1.
  pose proof (arities_tgame flip (aff s k) g false) as A2.
  pose proof (HB true) as B1. pose proof (HB false) as B2. unfold sgn in *.
  destruct flip; cbn [fl negb swp fst snd] in *; rewrite A1, A2; fold s1 s2; rewrite He, B1, B2;
    (apply f_equal3; [reflexivity|..]); rewrite <- Rmax_scale0 by assumption;
    apply (f_equal (fun v => Rmax v 0)); lra.
Qed.

(** scaling by [c > 0]: utility and both regrets multiplied by [c] *)
Theorem info_scale c (g : gameR) (prof : list R * list R) :
  0 < c ->
  @info RNum (scale c g) prof =
  let i := @info RNum g prof in
  @mkSinfo RNum (c * si_util i) (c * si_reg1 i) (c * si_reg2 i).
Proof.
  intros Hc. rewrite scale_tgame.
  pose proof (info_tgame false c 0 g prof) as H. cbn [swp fst snd] in H. unfold sgn in H.
  rewrite H; [|lra|now left]. cbv zeta. change (T RNum) with R. apply f_equal3; lra.
Qed.

(** exchanging the players and negating the payoffs: utility negated,
    regrets exchanged *)
Theorem info_swap (g : gameR) (prof : list R * list R) :
  @info RNum (swap g) (snd prof, fst prof) =
  let i := @info RNum g prof in
  @mkSinfo RNum (- si_util i) (si_reg2 i) (si_reg1 i).
Proof.
  rewrite swap_tgame.
  pose proof (info_tgame true (-1) 0 g prof) as H. cbn [swp fst snd] in H. unfold sgn in H.
  rewrite H; [|lra|now left]. cbv zeta. change (T RNum) with R. apply f_equal3; lra.
Qed.


Corollary info_scale_regret c (g : gameR) prof :
  0 < c -> si_regret (@info RNum (scale c g) prof) = c * si_regret (@info RNum g prof) :> R.
Proof.
  intros Hc. rewrite info_scale by assumption. cbv zeta. unfold si_regret. cbn [si_reg1 si_reg2 fmax RNum].
  apply RmaxRmult. lra.
Qed.

Corollary info_swap_regret (g : gameR) prof :
  si_regret (@info RNum (swap g) (snd prof, fst prof)) = si_regret (@info RNum g prof) :> R.
Proof.
  rewrite info_swap. cbv zeta. unfold si_regret. cbn [si_reg1 si_reg2 fmax RNum]. apply Rmax_comm.
Qed.

(** adding [k] to the payoffs adds [k] to the utility of a valid profile *)
Theorem info_shift_util k (g : gameR) (prof : list R * list R) :
  ChanceOK g -> shaped g (g_root g) -> Valid g prof ->
  si_util (@info RNum (shift k g) prof) = si_util (@info RNum g prof) + k.
Proof.
  intros HC Hsh HV. unfold info. cbv zeta. cbn [si_util].
  replace (arities (shift k g) true) with (arities g true) by reflexivity.
  replace (arities (shift k g) false) with (arities g false) by reflexivity.
  apply expected_shift; try assumption. now apply Valid_RowsOK.
Qed.
