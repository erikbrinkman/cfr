(** * EvalFloat: [regret::expected] at binary64 itself (instance [FNum]).

    Property C01 says that the reported player-one utility is the expected terminal
    payoff.  Over the reals this is [EvalProofs.expected_exact]; this file is about the
    very function that is executed, [@expected FNum], and gives a forward error bound:

      | FR (expected g s1 s2) - U |  <=  ((1 + 2^-53)^k - 1) * (S + L * B * 2^-1022)

    where [U] is the exact (real) expected payoff computed from the real values of the
    same binary64 probabilities and payoffs, [S] the sum over the leaves of
    reach * |payoff|, [L] the number of leaves, [B >= 1] a bound on the |payoffs|, and
    [k = depth + 1 + L].  The term [L * B * 2^-1022] pays for every possible underflow
    of a product (no hypothesis "no underflow" is needed); the result is finite (no
    NaN, no infinity) as soon as [(1+2^-53)^k * (S + L*B*2^-1022) < 2^1024].

    Evaluation order analysed (see [Eval.exp_acc]): depth first with one running
    accumulator; the reach probability is multiplied down the path
    ([reach_new = fl (p x reach)], one rounding per level), a leaf does
    [fl (acc + fl (reach x payoff))] (two roundings), children are visited last to first,
    and actions whose probability is not [> 0] are skipped at player nodes.
    Rounding count: a leaf at depth [j] sees [j] roundings on its reach, one for the
    product with the payoff, and then one per addition performed from that leaf on,
    at most [L]: hence [k = depth + 1 + L].

    The analysis of the traversal is shared with the next-infoset search of [BRFloat]:
    [GSp] is the specification of a traversal with one accumulator, [GSp_leaf] and
    [GSp_node] establish it at a leaf and at an inner node. *)
From Coq Require Import List ZArith Reals Floats Bool Lia Lra Arith Psatz.
From Flocq Require Import Core IEEE754.BinarySingleNaN IEEE754.PrimFloat Plus_error Relative.
From Cfr.theories Require Import Num ListAux FInst RInst Tree GameWF Eval Valid EvalSpec EvalProofs
  TruncFloat NormFloat.
Import ListNotations.

Local Existing Instance Flocq.IEEE754.PrimFloat.Hprec.
Local Existing Instance Flocq.IEEE754.PrimFloat.Hmax.

Local Open Scope R_scope.
Local Notation float := PrimFloat.float.
Local Notation Hp := Flocq.IEEE754.PrimFloat.Hprec.
Local Notation Hm := Flocq.IEEE754.PrimFloat.Hmax.
Local Notation node := (@node FNum).
Local Notation game := (@game FNum).

Local Instance fexp_valid'' : Valid_exp (SpecFloat.fexp prec emax) := fexp_correct prec emax Hp.

(** ** Constants *)

(** smallest positive normal binary64 number *)
Definition om1022 : R := bpow radix2 (-1022).
(** overflow threshold *)
Definition Omax : R := bpow radix2 emax.

(** [(1 + 2^-53)^m]: the accumulated rounding factor of [m] operations *)
Definition G (m : nat) : R := (1 + u53) ^ m.

Lemma om1022_pos : 0 < om1022.
Proof. apply bpow_gt_0. Qed.

Lemma om1022_le_1 : om1022 <= 1.
Proof. change 1 with (bpow radix2 0). apply bpow_le. lia. Qed.

Lemma u53_om1022 : u53 * om1022 = eta1075.
Proof. unfold u53, om1022, eta1075. rewrite <- bpow_plus. reflexivity. Qed.

Lemma bp_lt_Omax : forall k : Z, (k < 1024)%Z -> bpow radix2 k < Omax.
Proof. intros k Hk. apply bpow_lt. exact Hk. Qed.

Lemma one_lt_Omax : 1 < Omax.
Proof. apply (bp_lt_Omax 0). reflexivity. Qed.

Lemma FR_lt_Omax : forall x : float, Rabs (FR x) < Omax.
Proof. intros x. unfold FR, Omax. apply abs_B2R_lt_emax. Qed.


Lemma G_0 : G 0 = 1.
Proof. reflexivity. Qed.

Lemma G_S : forall m, G (S m) = (1 + u53) * G m.
Proof. reflexivity. Qed.

Lemma G_add : forall a b, G (a + b) = G a * G b.
Proof. intros a b. unfold G. apply pow_add. Qed.

Lemma G_ge_1 : forall m, 1 <= G m.
Proof. intros m. unfold G. apply pow_R1_Rle. generalize u53_pos. lra. Qed.

Lemma G_pos : forall m, 0 < G m.
Proof. intros m. generalize (G_ge_1 m). lra. Qed.

Lemma G_mono : forall m n, (m <= n)%nat -> G m <= G n.
Proof. intros m n H. unfold G. apply Rle_pow; [generalize u53_pos; lra | exact H]. Qed.

Lemma G_le_mul : forall m x, 0 <= x -> x <= G m * x.
Proof. intros m x Hx. assert (H := G_ge_1 m). nra. Qed.

Lemma Gx_mono : forall m n x y, (m <= n)%nat -> 0 <= x <= y -> G m * x <= G n * y.
Proof.
  intros m n x y Hmn Hxy. assert (H1 := G_ge_1 m). assert (H2 := G_mono m n Hmn).
  apply Rmult_le_compat; lra.
Qed.

Lemma Gm1_mono : forall m n x y, (m <= n)%nat -> 0 <= x <= y -> (G m - 1) * x <= (G n - 1) * y.
Proof.
  intros m n x y Hmn Hxy. assert (H1 := G_ge_1 m). assert (H2 := G_mono m n Hmn).
  apply Rmult_le_compat; lra.
Qed.

Lemma ov_mono : forall m1 m2 M1 M2,
  (m1 <= m2)%nat -> 0 <= M1 <= M2 -> G m2 * M2 < Omax -> G m1 * M1 < Omax.
Proof.
  intros m1 m2 M1 M2 Hm HM. apply Rle_lt_trans. apply Gx_mono; assumption.
Qed.

Lemma G_inv_bound : forall k, INR k * u53 <= 1 -> G k * (1 - INR k * u53) <= 1.
Proof.
  assert (Hu := u53_pos).
  induction k as [|k IH]; intros Hk.
  - rewrite G_0. cbn [INR]. lra.
  - rewrite S_INR in Hk |- *. rewrite G_S.
    assert (Hk0 : 0 <= INR k) by apply pos_INR.
    assert (Hk' : INR k * u53 <= 1) by lra.
    specialize (IH Hk').
    assert (HG := G_ge_1 k).
    assert (Hle : (1 + u53) * (1 - (INR k + 1) * u53) <= 1 - INR k * u53) by nra.
    apply Rle_trans with (2 := IH).
    replace ((1 + u53) * G k * (1 - (INR k + 1) * u53))
      with (G k * ((1 + u53) * (1 - (INR k + 1) * u53))) by lra.
    apply Rmult_le_compat_l; [lra | exact Hle].
Qed.

Lemma G_small : forall k, INR k * u53 <= / 2 ->
  G k <= 2 /\ G k - 1 <= 2 * (INR k * u53).
Proof.
  intros k Hk.
  assert (H := G_inv_bound k ltac:(lra)).
  assert (HG := G_ge_1 k).
  assert (Hk0 : 0 <= INR k * u53).
  { apply Rmult_le_pos; [apply pos_INR | left; apply u53_pos]. }
  assert (H2 : G k <= 2) by nra.
  split; [exact H2|]. nra.
Qed.

Lemma G_lin : forall k, INR k * u53 <= / 2 -> G k - 1 <= INR k * bpow radix2 (-52).
Proof.
  intros k Hk. destruct (G_small k Hk) as [_ H].
  replace (bpow radix2 (-52)) with (2 * u53); [lra|].
  unfold u53. change 2 with (bpow radix2 1). rewrite <- bpow_plus. reflexivity.
Qed.

(** ** The three real-number steps of the error analysis *)

Lemma reach_step_R : forall p r rho r' g,
  0 <= p <= 1 -> 0 <= rho -> 0 <= r -> 0 <= g ->
  Rabs (r - rho) <= g * (rho + om1022) ->
  Rabs (r' - p * r) <= u53 * (p * r + om1022) ->
  Rabs (r' - p * rho) <= ((1 + u53) * (1 + g) - 1) * (p * rho + om1022).
Proof.
  intros p r rho r' g [Hp0 Hp1] Hrho Hr Hg He Hd.
  assert (Hu := u53_pos). assert (Hw := om1022_pos).
  apply Rabs_le_inv in He. apply Rabs_le_inv in Hd. apply Rabs_le.
  set (e := r - rho) in *.
  assert (Er : r = rho + e) by (unfold e; lra).
  rewrite Er in Hd.
  assert (H1 : p * e <= p * (g * (rho + om1022))) by (apply Rmult_le_compat_l; lra).
  assert (H2 : - (p * (g * (rho + om1022))) <= p * e).
  { replace (- (p * (g * (rho + om1022)))) with (p * (- (g * (rho + om1022)))) by lra.
    apply Rmult_le_compat_l; lra. }
  assert (H3 : u53 * (p * e) <= u53 * (p * (g * (rho + om1022))))
    by (apply Rmult_le_compat_l; lra).
  assert (H4 : 0 <= (1 - p) * (g * (1 + u53) * om1022)).
  { apply Rmult_le_pos; [lra|]. apply Rmult_le_pos; [|lra]. apply Rmult_le_pos; lra. }
  replace (r' - p * rho) with ((r' - p * (rho + e)) + p * e) by lra.
  split; lra.
Qed.

Lemma leaf_step_R : forall r rho x t g B,
  0 <= rho -> 0 <= r -> 0 <= g -> Rabs x <= B -> 1 <= B ->
  Rabs (r - rho) <= g * (rho + om1022) ->
  Rabs (t - r * x) <= u53 * (Rabs (r * x) + om1022) ->
  Rabs (t - rho * x) <= ((1 + u53) * (1 + g) - 1) * (rho * Rabs x + om1022 * B).
Proof.
  intros r rho x t g B Hrho Hr Hg HxB HB He Hd.
  assert (Hu := u53_pos). assert (Hw := om1022_pos).
  rewrite Rabs_mult, (Rabs_pos_eq r Hr) in Hd.
  set (a := Rabs x) in *.
  assert (Ha : 0 <= a) by apply Rabs_pos.
  replace (t - rho * x) with ((t - r * x) + (r - rho) * x) by lra.
  apply Rle_trans with (1 := Rabs_triang _ _).
  rewrite (Rabs_mult (r - rho) x). fold a.
  assert (H1 : Rabs (r - rho) * a <= g * (rho + om1022) * a)
    by (apply Rmult_le_compat_r; assumption).
  assert (Hr' : r <= rho + g * (rho + om1022)).
  { apply Rabs_le_inv in He. lra. }
  assert (H2 : u53 * (r * a) <= u53 * ((rho + g * (rho + om1022)) * a)).
  { apply Rmult_le_compat_l; [lra|]. apply Rmult_le_compat_r; assumption. }
  assert (H3 : 0 <= g * (1 + u53) * om1022 * (B - a)).
  { apply Rmult_le_pos; [|lra]. apply Rmult_le_pos; [|lra]. apply Rmult_le_pos; lra. }
  assert (H4 : 0 <= u53 * om1022 * (B - 1)).
  { apply Rmult_le_pos; [|lra]. apply Rmult_le_pos; lra. }
  lra.
Qed.

Lemma acc_step_R : forall a A M t tau mu a' g,
  0 <= g -> Rabs A <= M -> Rabs tau <= mu ->
  Rabs (a - A) <= g * M ->
  Rabs (t - tau) <= g * mu ->
  Rabs (a' - (a + t)) <= u53 * Rabs (a + t) ->
  Rabs (A + tau) <= M + mu /\
  Rabs (a' - (A + tau)) <= ((1 + u53) * (1 + g) - 1) * (M + mu) /\
  Rabs a' <= (1 + u53) * (1 + g) * (M + mu).
Proof.
  intros a A M t tau mu a' g Hg HA Htau Ha Ht Hd.
  assert (Hu := u53_pos).
  assert (HM : 0 <= M) by (apply Rle_trans with (2 := HA); apply Rabs_pos).
  assert (Hmu : 0 <= mu) by (apply Rle_trans with (2 := Htau); apply Rabs_pos).
  assert (HAt : Rabs (A + tau) <= M + mu).
  { apply Rle_trans with (1 := Rabs_triang _ _). lra. }
  assert (HE : Rabs ((a + t) - (A + tau)) <= g * (M + mu)).
  { replace ((a + t) - (A + tau)) with ((a - A) + (t - tau)) by lra.
    apply Rle_trans with (1 := Rabs_triang _ _). lra. }
  assert (Hat : Rabs (a + t) <= (1 + g) * (M + mu)).
  { replace (a + t) with ((A + tau) + ((a + t) - (A + tau))) by lra.
    apply Rle_trans with (1 := Rabs_triang _ _). lra. }
  assert (H1 : u53 * Rabs (a + t) <= u53 * ((1 + g) * (M + mu)))
    by (apply Rmult_le_compat_l; lra).
  assert (Hmain : Rabs (a' - (A + tau)) <= ((1 + u53) * (1 + g) - 1) * (M + mu)).
  { replace (a' - (A + tau)) with ((a' - (a + t)) + ((a + t) - (A + tau))) by lra.
    apply Rle_trans with (1 := Rabs_triang _ _). lra. }
  split; [exact HAt|]. split; [exact Hmain|].
  replace a' with ((A + tau) + (a' - (A + tau))) by lra.
  apply Rle_trans with (1 := Rabs_triang _ _). lra.
Qed.

(** ** Rounding errors of the two operations *)

(** any rounding (used for the products): relative error [2^-53] with respect to
    [|x| + 2^-1022]; covers underflow *)
Lemma mul_err : forall x, Rabs (rnd x - x) <= u53 * (Rabs x + om1022).
Proof.
  intros x. apply Rle_trans with (1 := div_err x).
  rewrite Rmult_plus_distr_l, u53_om1022. lra.
Qed.

(** a sum of two binary64 numbers: purely relative error, also when the sum is
    subnormal *)
Lemma add_rel : forall x y, fmt x -> fmt y ->
  Rabs (rnd (x + y) - (x + y)) <= u53 * Rabs (x + y).
Proof.
  intros x y Hx Hy.
  destruct (FLT_plus_error_N_ex radix2 (SpecFloat.emin prec emax) prec
              (fun n => negb (Z.even n)) x y Hx Hy) as [e [He Heq]].
  change (round radix2 (FLT_exp (SpecFloat.emin prec emax) prec)
            (Znearest (fun n => negb (Z.even n))) (x + y)) with (rnd (x + y)) in Heq.
  assert (Hu : u_ro radix2 prec = u53).
  { unfold u_ro. rewrite half_bpow. reflexivity. }
  rewrite Hu in He.
  assert (Hup := u53_pos).
  assert (He' : Rabs e <= u53).
  { apply Rle_trans with (1 := He).
    apply Rmult_le_reg_r with (1 + u53); [lra|].
    unfold Rdiv. rewrite Rmult_assoc, Rinv_l by lra. nra. }
  rewrite Heq.
  replace ((x + y) * (1 + e) - (x + y)) with ((x + y) * e) by lra.
  rewrite Rabs_mult, Rmult_comm.
  apply Rmult_le_compat_r; [apply Rabs_pos | exact He'].
Qed.

Lemma fin01_one : fin01 1%float.
Proof. split; [apply Ffin_one | rewrite FR_one; lra]. Qed.

Lemma mul_reach : forall p r : float, fin01 p -> fin01 r ->
  fin01 (p * r)%float /\ FR (p * r)%float = rnd (FR p * FR r).
Proof.
  intros p r [Hpf [Hp0 Hp1]] [Hrf [Hr0 Hr1]].
  assert (H0 : 0 <= FR p * FR r) by (apply Rmult_le_pos; assumption).
  assert (H1 : FR p * FR r <= 1) by nra.
  assert (Hr0' : 0 <= rnd (FR p * FR r)) by (apply rnd_ge_fmt; [apply fmt_0 | exact H0]).
  assert (Hr1' : rnd (FR p * FR r) <= 1) by (apply rnd_le_fmt; [apply fmt_1 | exact H1]).
  assert (Hb : Rabs (rnd (FR p * FR r)) < Omax).
  { rewrite Rabs_pos_eq by exact Hr0'. apply Rle_lt_trans with (1 := Hr1'). apply one_lt_Omax. }
  destruct (mul_ok p r Hpf Hrf Hb) as [Hf He].
  split; [|exact He]. split; [exact Hf|]. rewrite He. split; assumption.
Qed.

Lemma mul_leaf : forall r x : float, fin01 r -> Ffin x ->
  (Ffin (r * x)%float /\ FR (r * x)%float = rnd (FR r * FR x)) /\
  (Ffin (x * r)%float /\ FR (x * r)%float = rnd (FR r * FR x)).
Proof.
  intros r x [Hrf [Hr0 Hr1]] Hxf.
  assert (Ha : Rabs (FR r * FR x) <= Rabs (FR x)).
  { rewrite Rabs_mult, (Rabs_pos_eq _ Hr0). assert (H := Rabs_pos (FR x)). nra. }
  assert (Hfa : fmt (Rabs (FR x))) by (apply generic_format_abs; apply fmt_FR).
  assert (Hb : Rabs (rnd (FR r * FR x)) < Omax).
  { apply Rle_lt_trans with (2 := FR_lt_Omax x).
    unfold rnd. apply abs_round_le_generic; auto with typeclass_instances. }
  split; [exact (mul_ok r x Hrf Hxf Hb)|].
  rewrite (Rmult_comm (FR r)) in Hb |- *. exact (mul_ok x r Hxf Hrf Hb).
Qed.


Fixpoint depth (n : node) : nat :=
  match n with
  | Term _ => O
  | Chance _ kids => S (list_max (map depth kids))
  | Player _ _ kids => S (list_max (map depth kids))
  end.

Fixpoint nleaves (n : node) : nat :=
  match n with
  | Term _ => 1%nat
  | Chance _ kids => list_sum (map nleaves kids)
  | Player _ _ kids => list_sum (map nleaves kids)
  end.

Inductive PayOK (B : R) : node -> Prop :=
| PayOK_Term : forall x, Ffin x -> Rabs (FR x) <= B -> PayOK B (@Term FNum x)
| PayOK_Chance : forall ci kids, Forall (PayOK B) kids -> PayOK B (@Chance FNum ci kids)
| PayOK_Player : forall pl i kids, Forall (PayOK B) kids -> PayOK B (@Player FNum pl i kids).

Lemma PayOK_ind' : forall (B : R) (P : node -> Prop),
  (forall x, Ffin x -> Rabs (FR x) <= B -> P (@Term FNum x)) ->
  (forall ci kids, Forall (PayOK B) kids -> Forall P kids -> P (@Chance FNum ci kids)) ->
  (forall pl i kids, Forall (PayOK B) kids -> Forall P kids -> P (@Player FNum pl i kids)) ->
  forall n, PayOK B n -> P n.
Proof.
  intros B P HT HC HP.
  induction n as [x|ci kids IH|pl i kids IH] using node_ind'; intros Hp; inversion Hp; subst.
  - apply HT; assumption.
  - apply HC; [assumption | apply (Forall_mp _ _ _ IH); assumption].
  - apply HP; [assumption | apply (Forall_mp _ _ _ IH); assumption].
Qed.

(** ** The exact quantities, over the reals, on the same binary64 data *)

Section WSum.
  Context (v : node -> R).
  Fixpoint wsum (ps : list float) (ks : list node) {struct ks} : R :=
    match ps, ks with
    | p :: ps', k :: ks' => FR p * v k + wsum ps' ks'
    | _, _ => 0
    end.
End WSum.

Section Exact.
  Context (chance s1 s2 : list (list float)).

  (** exact expected payoff of player one *)
  Fixpoint uR (n : node) : R :=
    match n with
    | Term x => FR x
    | Chance ci kids => wsum uR (@row FNum chance ci) kids
    | Player pl i kids => wsum uR (@row FNum (if pl then s1 else s2) i) kids
    end.

  (** exact expected absolute payoff: sum over the leaves of reach * |payoff| *)
  Fixpoint aR (n : node) : R :=
    match n with
    | Term x => Rabs (FR x)
    | Chance ci kids => wsum aR (@row FNum chance ci) kids
    | Player pl i kids => wsum aR (@row FNum (if pl then s1 else s2) i) kids
    end.
End Exact.

(** ** The loops over the children, as top-level functions, polymorphic in the accumulator

    The model's traversals run these loops as local [fix]es inside their own [Fixpoint]
    (the guard condition wants that); the lemmas induct on the top-level copies, and one
    unfolding equation per node kind, by [reflexivity], connects the two.  [tst] is the test
    "visit this child": always true at chance nodes, [0 < p] at player nodes; [ogo] is the
    loop at an own decision node of [collect], which visits every child with the same reach. *)
Section Loops.
  Context {A : Type} (f : node -> float -> A -> A) (tst : float -> bool) (reach : float).
  Fixpoint pgo (ps : list float) (ks : list node) (acc : A) {struct ks} : A :=
    match ps, ks with
    | p :: ps', k :: ks' =>
        if tst p then f k (p * reach)%float (pgo ps' ks' acc) else pgo ps' ks' acc
    | _, _ => acc
    end.
  Fixpoint ogo (ks : list node) (acc : A) {struct ks} : A :=
    match ks with
    | [] => acc
    | k :: r => f k reach (ogo r acc)
    end.
End Loops.

Lemma exp_acc_Term : forall chance s1 s2 x reach acc,
  @exp_acc FNum chance s1 s2 (Term x) reach acc = (acc + reach * x)%float.
Proof. reflexivity. Qed.

Lemma exp_acc_Chance : forall chance s1 s2 ci kids reach acc,
  @exp_acc FNum chance s1 s2 (Chance ci kids) reach acc =
  pgo (@exp_acc FNum chance s1 s2) (fun _ => true) reach (@row FNum chance ci) kids acc.
Proof. reflexivity. Qed.

Lemma exp_acc_Player : forall chance s1 s2 pl i kids reach acc,
  @exp_acc FNum chance s1 s2 (Player pl i kids) reach acc =
  pgo (@exp_acc FNum chance s1 s2) (fun p => PrimFloat.ltb 0 p) reach
      (@row FNum (if pl then s1 else s2) i) kids acc.
Proof. reflexivity. Qed.

Definition reachOK (r : float) (rho : R) (j : nat) : Prop :=
  fin01 r /\ 0 <= rho /\ Rabs (FR r - rho) <= (G j - 1) * (rho + om1022).

(** the computed accumulator [a] against the exact partial sum [A]; [M] bounds the
    absolute mass accumulated so far, [m] counts roundings *)
Definition accOK (a : float) (A M : R) (m : nat) : Prop :=
  Ffin a /\ Rabs A <= M /\ Rabs (FR a - A) <= (G m - 1) * M.

Lemma accOK_mass_nonneg : forall a A M m, accOK a A M m -> 0 <= M.
Proof. intros a A M m [_ [HA _]]. apply Rle_trans with (2 := HA). apply Rabs_pos. Qed.

Lemma accOK_weaken : forall a A M m A2 M2 m2,
  accOK a A M m -> A = A2 -> M <= M2 -> (m <= m2)%nat -> accOK a A2 M2 m2.
Proof.
  intros a A M m A2 M2 m2 Ha <- HM Hm. assert (HM0 := accOK_mass_nonneg _ _ _ _ Ha).
  destruct Ha as [Hf [HA He]]. split; [exact Hf|]. split; [lra|].
  apply Rle_trans with (1 := He). apply Gm1_mono; [exact Hm | lra].
Qed.

Lemma accOK_bound : forall a A M m, accOK a A M m -> Rabs (FR a) <= G m * M.
Proof.
  intros a A M m [_ [HA He]].
  replace (FR a) with (A + (FR a - A)) by lra.
  apply Rle_trans with (1 := Rabs_triang _ _). lra.
Qed.

Lemma reachOK_one : reachOK 1%float 1 0.
Proof.
  split; [exact fin01_one|]. split; [lra|].
  rewrite FR_one, G_0. replace (1 - 1) with 0 by lra. rewrite Rabs_R0. lra.
Qed.

Lemma accOK_zero_any : forall H m, 0 <= H -> accOK 0%float 0 H m.
Proof.
  intros H m HH. split; [apply Ffin_zero|]. rewrite FR_zero, Rabs_R0. split; [exact HH|].
  replace (0 - 0) with 0 by lra. rewrite Rabs_R0.
  apply Rmult_le_pos; [generalize (G_ge_1 m); lra | exact HH].
Qed.

Lemma accOK_zero : accOK 0%float 0 0 0.
Proof. apply accOK_zero_any. lra. Qed.

Lemma reachOK_step : forall p r rho j,
  fin01 p -> reachOK r rho j -> reachOK (p * r)%float (FR p * rho) (S j).
Proof.
  intros p r rho j Hp [Hr [Hrho He]].
  destruct (mul_reach p r Hp Hr) as [Hf Heq].
  destruct Hp as [_ Hp01]. destruct Hr as [_ [Hr0 _]].
  split; [exact Hf|]. split; [apply Rmult_le_pos; lra|].
  rewrite Heq, G_S.
  assert (Hg : 0 <= G j - 1) by (generalize (G_ge_1 j); lra).
  replace ((1 + u53) * G j - 1) with ((1 + u53) * (1 + (G j - 1)) - 1) by lra.
  apply (reach_step_R (FR p) (FR r) rho _ (G j - 1) Hp01 Hrho Hr0 Hg He).
  assert (Hm := mul_err (FR p * FR r)).
  rewrite (Rabs_pos_eq (FR p * FR r)) in Hm by (apply Rmult_le_pos; lra).
  exact Hm.
Qed.

(** ** One leaf: the accumulator plus or minus a product [tt] of the reach with [xr] *)

Lemma leaf_core : forall B r rho j a A M m (xr tt : R),
  1 <= B -> Rabs xr <= B -> reachOK r rho j -> accOK a A M m ->
  Rabs (tt - FR r * xr) <= u53 * (Rabs (FR r * xr) + om1022) ->
  fmt tt ->
  let m' := (Nat.max m (j + 1) + 1)%nat in
  let M' := M + rho * Rabs xr + om1022 * B in
  Rabs (A + rho * xr) <= M' /\
  Rabs (rnd (FR a + tt) - (A + rho * xr)) <= (G m' - 1) * M' /\
  Rabs (rnd (FR a + tt)) <= G m' * M'.
Proof.
  intros B r rho j a A M m xr tt HB HxB [Hr [Hrho He]] Ha Hd Hft m' M'.
  assert (HM0 := accOK_mass_nonneg _ _ _ _ Ha). destruct Ha as [Haf [HA Hea]].
  destruct Hr as [_ [Hr0 _]].
  set (K := Nat.max m (j + 1)) in *.
  set (g := G K - 1).
  assert (Hg : 0 <= g) by (unfold g; generalize (G_ge_1 K); lra).
  assert (Hw := om1022_pos).
  assert (Hgm : G m - 1 <= g).
  { unfold g. generalize (G_mono m K (Nat.le_max_l _ _)). lra. }
  assert (Hgj : (1 + u53) * (1 + (G j - 1)) - 1 <= g).
  { unfold g. generalize (G_mono (S j) K ltac:(unfold K; lia)). rewrite G_S. lra. }
  set (mu := rho * Rabs xr + om1022 * B).
  assert (Hmu0 : 0 <= mu).
  { unfold mu. apply Rplus_le_le_0_compat; apply Rmult_le_pos; try lra. apply Rabs_pos. }
  assert (Ht : Rabs (tt - rho * xr) <= g * mu).
  { apply Rle_trans with (((1 + u53) * (1 + (G j - 1)) - 1) * mu).
    - apply (leaf_step_R (FR r) rho xr tt (G j - 1) B Hrho Hr0); try assumption.
      generalize (G_ge_1 j); lra.
    - apply Rmult_le_compat_r; assumption. }
  assert (Htau : Rabs (rho * xr) <= mu).
  { unfold mu. rewrite Rabs_mult, (Rabs_pos_eq rho Hrho).
    assert (0 <= om1022 * B) by (apply Rmult_le_pos; lra). lra. }
  assert (Hea' : Rabs (FR a - A) <= g * M).
  { apply Rle_trans with (1 := Hea). apply Rmult_le_compat_r; assumption. }
  assert (Hadd := add_rel (FR a) tt (fmt_FR _) Hft).
  destruct (acc_step_R (FR a) A M tt (rho * xr) mu (rnd (FR a + tt)) g Hg HA Htau Hea' Ht Hadd)
    as [R1 [R2 R3]].
  assert (HGm' : G m' = (1 + u53) * (1 + g)).
  { unfold m', g. fold K. rewrite Nat.add_1_r, G_S. lra. }
  assert (HM' : M' = M + mu) by (unfold M', mu; lra).
  rewrite HGm', HM'. split; [exact R1|]. split; [exact R2 | exact R3].
Qed.

Lemma leaf_acc_add : forall B r rho j a A M m (t : float) (xr : R),
  1 <= B -> Rabs xr <= B -> reachOK r rho j -> accOK a A M m ->
  Ffin t -> FR t = rnd (FR r * xr) ->
  let m' := (Nat.max m (j + 1) + 1)%nat in
  let M' := M + rho * Rabs xr + om1022 * B in
  G m' * M' < Omax ->
  accOK (a + t)%float (A + rho * xr) M' m'.
Proof.
  intros B r rho j a A M m t xr HB HxB Hr Ha Htf Hte m' M' Hov.
  pose proof (leaf_core B r rho j a A M m xr (FR t) HB HxB Hr Ha) as HC. cbv zeta in HC.
  destruct HC as [R1 [R2 R3]]; [rewrite Hte; apply mul_err | apply fmt_FR |].
  destruct (add_ok a t (proj1 Ha) Htf (Rle_lt_trans _ _ _ R3 Hov)) as [Hf He].
  split; [exact Hf|]. rewrite He. split; assumption.
Qed.

Lemma leaf_acc_sub : forall B r rho j a A M m (t : float) (xr : R),
  1 <= B -> Rabs xr <= B -> reachOK r rho j -> accOK a A M m ->
  Ffin t -> FR t = rnd (FR r * xr) ->
  let m' := (Nat.max m (j + 1) + 1)%nat in
  let M' := M + rho * Rabs xr + om1022 * B in
  G m' * M' < Omax ->
  accOK (a - t)%float (A + rho * - xr) M' m'.
Proof.
  intros B r rho j a A M m t xr HB HxB Hr Ha Htf Hte m' M' Hov.
  pose proof (leaf_core B r rho j a A M m (- xr) (- FR t) HB) as HC. cbv zeta in HC.
  rewrite Rabs_Ropp in HC.
  destruct HC as [R1 [R2 R3]]; try assumption.
  - replace (- FR t - FR r * - xr) with (- (FR t - FR r * xr)) by lra.
    replace (FR r * - xr) with (- (FR r * xr)) by lra.
    rewrite !Rabs_Ropp, Hte. apply mul_err.
  - apply generic_format_opp, fmt_FR.
  - destruct (sub_ok a t (proj1 Ha) Htf (Rle_lt_trans _ _ _ R3 Hov)) as [Hf He].
    split; [exact Hf|]. rewrite He. split; assumption.
Qed.


Definition TblOK (t : list (list float)) : Prop := Forall (Forall fin01) t.

Lemma nth_Forall : forall (A : Type) (P : A -> Prop) (l : list A) (d : A) (j : nat),
  Forall P l -> P d -> P (nth j l d).
Proof.
  intros A P l d j Hl Hd. revert j. induction Hl as [|x l Hx _ IH]; intros [|j]; cbn [nth]; auto.
Qed.

Lemma Forall2_nth : forall (A B : Type) (P : A -> B -> Prop) l l' d d' j,
  Forall2 P l l' -> P d d' -> P (nth j l d) (nth j l' d').
Proof.
  intros A B P l l' d d' j H Hd. revert j.
  induction H as [|x y l l' Hx _ IH]; intros [|j]; cbn [nth]; auto.
Qed.

Lemma row_fin01 : forall t i, TblOK t -> Forall fin01 (@row FNum t i).
Proof. intros t i Ht. unfold row. apply nth_Forall; [exact Ht | constructor]. Qed.

Lemma wsum_nonneg : forall (v : node -> R) ks ps,
  Forall (fun k => 0 <= v k) ks -> Forall fin01 ps -> 0 <= wsum v ps ks.
Proof.
  intros v ks ps Hk. revert ps.
  induction Hk as [|k ks Hk _ IH]; intros [|p ps] Hps; cbn [wsum]; try lra.
  inversion Hps as [|? ? [_ [Hp0 _]] Hps']; subst.
  apply Rplus_le_le_0_compat; [apply Rmult_le_pos; assumption | apply IH; exact Hps'].
Qed.

Lemma wsum_Rabs_le : forall (v w : node -> R) ks ps, Forall fin01 ps ->
  Forall (fun k => Rabs (v k) <= w k) ks -> Rabs (wsum v ps ks) <= wsum w ps ks.
Proof.
  intros v w ks ps Hps Hks. revert ps Hps.
  induction Hks as [|k ks Hk _ IH]; intros [|p ps] Hps; cbn [wsum];
    try (rewrite Rabs_R0; lra).
  inversion Hps as [|? ? [_ [Hp0 _]] Hps']; subst.
  apply Rle_trans with (1 := Rabs_triang _ _).
  rewrite Rabs_mult, (Rabs_pos_eq _ Hp0).
  apply Rplus_le_compat; [apply Rmult_le_compat_l; assumption | apply IH; exact Hps'].
Qed.

(** ** A traversal with one accumulator: specification, leaves, inner nodes

    [v] / [av]: exact value and exact absolute mass of a subtree; [dep] / [nl]: depth and
    number of leaves of the traversed part; [c0]: underflow allowance per leaf. *)
Definition GSp (v av : node -> R) (dep nl : node -> nat) (c0 : R)
    (f : node -> float -> float -> float) (k : node) : Prop :=
  forall r rho j a A M m,
    reachOK r rho j -> accOK a A M m ->
    let m' := (Nat.max m (j + dep k + 1) + nl k)%nat in
    let M' := M + rho * av k + INR (nl k) * c0 in
    G m' * M' < Omax ->
    accOK (f k r a) (A + rho * v k) M' m'.

Section GLoop.
  Context (v av : node -> R) (dep nl : node -> nat) (B : R).
  Context (Hav : forall k, 0 <= av k) (HB : 1 <= B).
  Local Notation Sp := (GSp v av dep nl (om1022 * B)).

  Lemma GSp_leaf : forall f n (xr : R) (t : float -> float),
    dep n = 0%nat -> nl n = 1%nat -> v n = xr -> av n = Rabs xr -> Rabs xr <= B ->
    (forall r, fin01 r -> Ffin (t r) /\ FR (t r) = rnd (FR r * xr)) ->
    (forall r a, f n r a = (a + t r)%float) ->
    Sp f n.
  Proof.
    intros f n xr t Hd Hn Hv Ha HxB Ht Hf r rho j a A M m Hr Hacc.
    rewrite Hd, Hn, Hv, Ha, Hf.
    replace (j + 0 + 1)%nat with (j + 1)%nat by lia.
    replace (INR 1 * (om1022 * B)) with (om1022 * B) by (cbn [INR]; lra).
    destruct (Ht r (proj1 Hr)) as [Htf Hte].
    exact (leaf_acc_add B r rho j a A M m (t r) xr HB HxB Hr Hacc Htf Hte).
  Qed.

  Lemma GSp_leaf_sub : forall f n (xr : R) (t : float -> float),
    dep n = 0%nat -> nl n = 1%nat -> v n = - xr -> av n = Rabs xr -> Rabs xr <= B ->
    (forall r, fin01 r -> Ffin (t r) /\ FR (t r) = rnd (FR r * xr)) ->
    (forall r a, f n r a = (a - t r)%float) ->
    Sp f n.
  Proof.
    intros f n xr t Hd Hn Hv Ha HxB Ht Hf r rho j a A M m Hr Hacc.
    rewrite Hd, Hn, Hv, Ha, Hf.
    replace (j + 0 + 1)%nat with (j + 1)%nat by lia.
    replace (INR 1 * (om1022 * B)) with (om1022 * B) by (cbn [INR]; lra).
    destruct (Ht r (proj1 Hr)) as [Htf Hte].
    exact (leaf_acc_sub B r rho j a A M m (t r) xr HB HxB Hr Hacc Htf Hte).
  Qed.

  Lemma pgo_spec : forall f (tst : float -> bool),
    (forall p, fin01 p -> tst p = false -> FR p = 0) ->
    forall ks, Forall (Sp f) ks ->
    forall ps, Forall fin01 ps ->
    forall r rho j a A M m,
      reachOK r rho j -> accOK a A M m ->
      let D := list_max (map dep ks) in
      let Ls := list_sum (map nl ks) in
      let m' := (Nat.max m (j + S D + 1) + Ls)%nat in
      let M' := M + rho * wsum av ps ks + INR Ls * (om1022 * B) in
      G m' * M' < Omax ->
      accOK (pgo f tst r ps ks a) (A + rho * wsum v ps ks) M' m'.
  Proof.
    intros f tst Htst ks Hks.
    assert (Hc0 : 0 <= om1022 * B) by (apply Rmult_le_pos; [left; apply om1022_pos | lra]).
    assert (Hstop : forall a A M m rho (L m' : nat), accOK a A M m -> (m <= m')%nat ->
              accOK a (A + rho * 0) (M + rho * 0 + INR L * (om1022 * B)) m').
    { intros a A M m rho L m' Ha Hm. apply (accOK_weaken a A M m); [exact Ha | lra | | exact Hm].
      assert (0 <= INR L * (om1022 * B)) by (apply Rmult_le_pos; [apply pos_INR | exact Hc0]).
      lra. }
    induction Hks as [|k ks Hk Hks IH]; intros ps Hps r rho j a A M m Hr Ha D Ls m' M' Hov.
    - destruct ps; unfold M'; apply (Hstop a A M m); [exact Ha | unfold m'; lia | exact Ha | unfold m'; lia].
    - destruct ps as [|p ps]; [unfold M'; apply (Hstop a A M m); [exact Ha | unfold m'; lia]|].
      inversion Hps as [|? ? Hp Hps']; subst.
      assert (HM0 := accOK_mass_nonneg _ _ _ _ Ha).
      assert (Hrho : 0 <= rho) by (destruct Hr as [_ [H _]]; exact H).
      assert (Hp0 : 0 <= FR p) by (destruct Hp as [_ [H _]]; exact H).
      set (D1 := list_max (map dep ks)). set (L1 := list_sum (map nl ks)).
      assert (ED : D = Nat.max (dep k) D1) by reflexivity.
      assert (EL : Ls = (nl k + L1)%nat) by reflexivity.
      set (W1 := wsum av ps ks).
      (* what the tail and the head add to the mass *)
      assert (Htl : 0 <= rho * W1 + INR L1 * (om1022 * B)).
      { apply Rplus_le_le_0_compat; apply Rmult_le_pos; try assumption; [|apply pos_INR].
        apply wsum_nonneg; [|exact Hps']. apply Forall_forall. intros q _. apply Hav. }
      assert (Hhd : 0 <= FR p * rho * av k + INR (nl k) * (om1022 * B)).
      { apply Rplus_le_le_0_compat; apply Rmult_le_pos; try assumption; [|apply Hav|apply pos_INR].
        apply Rmult_le_pos; assumption. }
      set (m1 := (Nat.max m (j + S D1 + 1) + L1)%nat).
      set (M1 := M + rho * W1 + INR L1 * (om1022 * B)).
      assert (EM : M' = M1 + FR p * rho * av k + INR (nl k) * (om1022 * B)).
      { unfold M', M1, W1. rewrite EL, plus_INR. cbn [wsum]. lra. }
      assert (Hm1 : (m1 <= m')%nat) by (unfold m1, m'; rewrite ED, EL; clear; lia).
      assert (Hov1 : G m1 * M1 < Omax).
      { apply (ov_mono m1 m' M1 M'); [exact Hm1 | unfold M1 in *; lra | exact Hov]. }
      assert (Ha1 : accOK (pgo f tst r ps ks a) (A + rho * wsum v ps ks) M1 m1)
        by exact (IH ps Hps' r rho j a A M m Hr Ha Hov1).
      cbn [pgo wsum].
      destruct (tst p) eqn:Et.
      + set (m2 := (Nat.max m1 (S j + dep k + 1) + nl k)%nat).
        assert (Hm2 : (m2 <= m')%nat) by (unfold m2, m1, m'; rewrite ED, EL; clear; lia).
        assert (Hov2 : G m2 * (M1 + FR p * rho * av k + INR (nl k) * (om1022 * B)) < Omax).
        { rewrite <- EM. apply (ov_mono m2 m' M' M'); [exact Hm2 | unfold M1 in *; lra | exact Hov]. }
        assert (Ha2 := Hk (p * r)%float (FR p * rho) (S j) _ _ M1 m1
                          (reachOK_step p r rho j Hp Hr) Ha1 Hov2).
        apply (accOK_weaken _ _ _ _ _ M' m' Ha2); [lra | lra | exact Hm2].
      + (* the child is skipped: its probability is zero *)
        apply (accOK_weaken _ _ _ _ _ M' m' Ha1); [rewrite (Htst p Hp Et); lra | lra | exact Hm1].
  Qed.

  Lemma GSp_node : forall f (tst : float -> bool) ps ks n,
    (forall p, fin01 p -> tst p = false -> FR p = 0) ->
    Forall (Sp f) ks -> Forall fin01 ps ->
    dep n = S (list_max (map dep ks)) -> nl n = list_sum (map nl ks) ->
    v n = wsum v ps ks -> av n = wsum av ps ks ->
    (forall r a, f n r a = pgo f tst r ps ks a) -> Sp f n.
  Proof.
    intros f tst ps ks n Htst Hks Hps Hd Hn Hv Ha Hf r rho j a A M m Hr Hacc.
    rewrite Hd, Hn, Hv, Ha, Hf. apply pgo_spec; assumption.
  Qed.
End GLoop.

Section Analysis.
  Context (chance s1 s2 : list (list float)) (B : R).
  Context (Hchance : TblOK chance) (Hs1 : TblOK s1) (Hs2 : TblOK s2) (HB : 1 <= B).

  Local Notation uR := (uR chance s1 s2).
  Local Notation aR := (aR chance s1 s2).

  Lemma aR_nonneg : forall n, 0 <= aR n.
  Proof.
    induction n as [x|ci kids IH|pl i kids IH] using node_ind'; cbn [EvalFloat.aR].
    - apply Rabs_pos.
    - apply wsum_nonneg; [exact IH | apply row_fin01; exact Hchance].
    - apply wsum_nonneg; [exact IH|]. apply row_fin01. destruct pl; assumption.
  Qed.

  Theorem exp_acc_spec : forall n, PayOK B n ->
    GSp uR aR depth nleaves (om1022 * B) (@exp_acc FNum chance s1 s2) n.
  Proof.
    apply PayOK_ind'.
    - intros x Hxf HxB.
      apply (GSp_leaf uR aR depth nleaves B HB _ _ (FR x) (fun r => (r * x)%float));
        try reflexivity; [exact HxB|].
      intros r Hr. exact (proj1 (mul_leaf r x Hr Hxf)).
    - intros ci kids _ IH.
      apply (GSp_node uR aR depth nleaves B aR_nonneg HB _ (fun _ => true) (@row FNum chance ci) kids);
        try reflexivity; [intros p _ E; discriminate E | exact IH | apply row_fin01; exact Hchance].
    - intros pl i kids _ IH.
      apply (GSp_node uR aR depth nleaves B aR_nonneg HB _ (fun p => PrimFloat.ltb 0 p)
               (@row FNum (if pl then s1 else s2) i) kids);
        try reflexivity; [exact ltb0_false_zero | exact IH|].
      apply row_fin01. destruct pl; assumption.
  Qed.
End Analysis.

Lemma wsum_le : forall (v : node -> R) (c : R) ks ps, 0 <= c ->
  Forall (fun k => v k <= INR (nleaves k) * c) ks -> Forall fin01 ps ->
  wsum v ps ks <= INR (list_sum (map nleaves ks)) * c.
Proof.
  intros v c ks ps Hc Hk. revert ps.
  induction Hk as [|k ks Hk _ IH]; intros ps Hps.
  - destruct ps; cbn; lra.
  - change (list_sum (map nleaves (k :: ks))) with (nleaves k + list_sum (map nleaves ks))%nat.
    rewrite plus_INR, Rmult_plus_distr_r.
    assert (0 <= INR (nleaves k) * c) by (apply Rmult_le_pos; [apply pos_INR | exact Hc]).
    assert (0 <= INR (list_sum (map nleaves ks)) * c)
      by (apply Rmult_le_pos; [apply pos_INR | exact Hc]).
    inversion Hps as [|p ps' [_ [Hp0 Hp1]] Hps']; subst; cbn [wsum]; [lra|].
    specialize (IH ps' Hps').
    assert (FR p * v k <= INR (nleaves k) * c) by nra.
    lra.
Qed.

Lemma aR_le : forall chance s1 s2 B,
  TblOK chance -> TblOK s1 -> TblOK s2 -> 0 <= B ->
  forall n, PayOK B n -> aR chance s1 s2 n <= INR (nleaves n) * B.
Proof.
  intros chance s1 s2 B Hc H1 H2 HB. apply PayOK_ind'.
  - intros x _ HxB. cbn [aR nleaves INR]. lra.
  - intros ci kids _ IH. cbn [aR nleaves].
    apply wsum_le; [exact HB | exact IH | apply row_fin01; exact Hc].
  - intros pl i kids _ IH. cbn [aR nleaves].
    apply wsum_le; [exact HB | exact IH | apply row_fin01; destruct pl; assumption].
Qed.

Lemma uR_le_aR : forall chance s1 s2,
  TblOK chance -> TblOK s1 -> TblOK s2 ->
  forall n, Rabs (uR chance s1 s2 n) <= aR chance s1 s2 n.
Proof.
  intros chance s1 s2 Hc H1 H2.
  induction n as [x|ci kids IH|pl i kids IH] using node_ind'; cbn [uR aR].
  - lra.
  - apply wsum_Rabs_le; [apply row_fin01; exact Hc | exact IH].
  - apply wsum_Rabs_le; [apply row_fin01; destruct pl; assumption | exact IH].
Qed.


Definition U_exact (g : game) (s1 s2 : list (list float)) : R :=
  uR (g_chance g) s1 s2 (g_root g).
Definition S_abs (g : game) (s1 s2 : list (list float)) : R :=
  aR (g_chance g) s1 s2 (g_root g).
Definition n_leaves (g : game) : nat := nleaves (g_root g).
Definition k_ops (g : game) : nat := (depth (g_root g) + 1 + nleaves (g_root g))%nat.

(** the mass against which the error is relative: [S] plus the underflow allowance *)
Definition mass (g : game) (s1 s2 : list (list float)) (B : R) : R :=
  S_abs g s1 s2 + INR (n_leaves g) * B * bpow radix2 (-1022).

(** General form: finiteness needs only that the bound itself stays below [2^1024]. *)
Theorem expected_float_general : forall (g : game) (s1 s2 : list (list float)) (B : R),
  TblOK (g_chance g) -> TblOK s1 -> TblOK s2 ->
  1 <= B -> PayOK B (g_root g) ->
  (1 + bpow radix2 (-53)) ^ k_ops g * mass g s1 s2 B < bpow radix2 emax ->
  let uF := @expected FNum g s1 s2 in
  Ffin uF /\
  Rabs (FR uF - U_exact g s1 s2) <= ((1 + bpow radix2 (-53)) ^ k_ops g - 1) * mass g s1 s2 B /\
  Rabs (FR uF) <= (1 + bpow radix2 (-53)) ^ k_ops g * mass g s1 s2 B /\
  Rabs (U_exact g s1 s2) <= S_abs g s1 s2.
Proof.
  intros g s1 s2 B Hc H1 H2 HB Hpay Hov uF.
  change (bpow radix2 (-53)) with u53 in Hov |- *. fold (G (k_ops g)) in Hov |- *.
  assert (Hspec := exp_acc_spec (g_chance g) s1 s2 B Hc H1 H2 HB (g_root g) Hpay
                     1%float 1 0%nat 0%float 0 0 0%nat reachOK_one accOK_zero).
  cbv zeta in Hspec.
  assert (Em : (Nat.max 0 (0 + depth (g_root g) + 1) + nleaves (g_root g))%nat = k_ops g)
    by (unfold k_ops; lia).
  assert (EM : 0 + 1 * aR (g_chance g) s1 s2 (g_root g)
               + INR (nleaves (g_root g)) * (om1022 * B) = mass g s1 s2 B).
  { unfold mass, S_abs, n_leaves, om1022. lra. }
  rewrite Em, EM in Hspec. specialize (Hspec Hov).
  assert (EA : 0 + 1 * uR (g_chance g) s1 s2 (g_root g) = U_exact g s1 s2)
    by (unfold U_exact; lra).
  rewrite EA in Hspec.
  change (@expected FNum g s1 s2) with
    (@exp_acc FNum (g_chance g) s1 s2 (g_root g) 1%float 0%float) in uF.
  fold uF in Hspec.
  assert (Hb := accOK_bound _ _ _ _ Hspec).
  destruct Hspec as [Hf [HA He]].
  split; [exact Hf|]. split; [exact He|]. split; [exact Hb|].
  apply uR_le_aR; assumption.
Qed.

(** Simple sufficient conditions: [k * 2^-53 <= 1/2] and [L * B <= 2^1000]. *)
Theorem expected_float_bound : forall (g : game) (s1 s2 : list (list float)) (B : R),
  TblOK (g_chance g) -> TblOK s1 -> TblOK s2 ->
  1 <= B -> PayOK B (g_root g) ->
  INR (k_ops g) * bpow radix2 (-53) <= / 2 ->
  INR (n_leaves g) * B <= bpow radix2 1000 ->
  let uF := @expected FNum g s1 s2 in
  Ffin uF /\
  Rabs (FR uF - U_exact g s1 s2) <= ((1 + bpow radix2 (-53)) ^ k_ops g - 1) * mass g s1 s2 B /\
  Rabs (FR uF - U_exact g s1 s2) <= INR (k_ops g) * bpow radix2 (-52) * mass g s1 s2 B /\
  Rabs (FR uF) <= 2 * mass g s1 s2 B /\
  mass g s1 s2 B <= 2 * (INR (n_leaves g) * B).
Proof.
  intros g s1 s2 B Hc H1 H2 HB Hpay Hk HL uF.
  change (bpow radix2 (-53)) with u53 in Hk |- *. fold (G (k_ops g)).
  destruct (G_small (k_ops g) Hk) as [HG2 _]. assert (HG1 := G_ge_1 (k_ops g)).
  assert (HS0 : 0 <= S_abs g s1 s2) by (apply aR_nonneg; assumption).
  assert (HSL : S_abs g s1 s2 <= INR (n_leaves g) * B) by (apply aR_le; try assumption; lra).
  assert (Hw := om1022_le_1). assert (Hw0 := om1022_pos).
  assert (HLB0 : 0 <= INR (n_leaves g) * B) by (apply Rmult_le_pos; [apply pos_INR | lra]).
  assert (HLw : 0 <= INR (n_leaves g) * B * om1022 <= INR (n_leaves g) * B).
  { split; [apply Rmult_le_pos; lra|].
    apply Rle_trans with (INR (n_leaves g) * B * 1); [apply Rmult_le_compat_l; lra | lra]. }
  assert (Hmass : 0 <= mass g s1 s2 B <= 2 * (INR (n_leaves g) * B)).
  { unfold mass. fold om1022. lra. }
  assert (Hov : G (k_ops g) * mass g s1 s2 B < Omax).
  { apply Rle_lt_trans with (bpow radix2 1002); [|apply bp_lt_Omax; reflexivity].
    replace (bpow radix2 1002) with (2 * (2 * bpow radix2 1000))
      by (rewrite <- !(bpow_plus_1 radix2); reflexivity).
    apply Rmult_le_compat; lra. }
  destruct (expected_float_general g s1 s2 B Hc H1 H2 HB Hpay Hov) as [Hf [He [Hb _]]].
  fold uF in Hf, He, Hb.
  change (bpow radix2 (-53)) with u53 in He, Hb. fold (G (k_ops g)) in He, Hb.
  split; [exact Hf|]. split; [exact He|]. split; [|split; [|exact (proj2 Hmass)]].
  - apply Rle_trans with (1 := He).
    apply Rmult_le_compat_r; [exact (proj1 Hmass) | apply G_lin; exact Hk].
  - apply Rle_trans with (1 := Hb). apply Rmult_le_compat_r; [exact (proj1 Hmass) | exact HG2].
Qed.

(** ** [U_exact] is the real-number model on the [FR]-image of the game

    [U_exact] was defined by its own recursion; it is the specification [EvalSpec.u]
    (hence, by [EvalProofs.expected_exact], the model [@expected RNum], and by
    [EvalProofs.u_leaves] the sum over the leaves of reach times payoff) of the game
    whose probabilities and payoffs are the real values of the binary64 ones. *)

Fixpoint nodeR (n : node) : @Tree.node RNum :=
  match n with
  | Term x => @Term RNum (FR x)
  | Chance ci kids => @Chance RNum ci (map nodeR kids)
  | Player pl i kids => @Player RNum pl i (map nodeR kids)
  end.

Definition tblR (t : list (list float)) : list (list R) := map (map FR) t.

Definition gameR (g : game) : @Tree.game RNum :=
  @mkGame RNum (tblR (g_chance g)) (g_infos1 g) (g_infos2 g) (g_singles1 g) (g_singles2 g)
          (nodeR (g_root g)).

Lemma rowR_tblR : forall t i, rowR (tblR t) i = map FR (@row FNum t i).
Proof.
  intros t i. unfold rowR, tblR, row.
  change (@nil R) with (map FR (@nil float)). apply map_nth.
Qed.

Lemma dot_wsum : forall (v : @Tree.node RNum -> R) ks ps,
  dot (map FR ps) (map v (map nodeR ks)) = wsum (fun k => v (nodeR k)) ps ks.
Proof.
  intros v ks. unfold dot.
  induction ks as [|k ks IH]; intros [|p ps]; cbn [map combine RInst.Rsum wsum fst snd];
    try reflexivity.
  rewrite IH. reflexivity.
Qed.

Lemma wsum_ext : forall (v w : node -> R) ks ps,
  Forall (fun k => v k = w k) ks -> wsum v ps ks = wsum w ps ks.
Proof.
  intros v w ks ps Hk. revert ps.
  induction Hk as [|k ks Hk _ IH]; intros [|p ps]; cbn [wsum]; try reflexivity.
  rewrite Hk, IH. reflexivity.
Qed.

Lemma uR_u : forall chance s1 s2 n,
  uR chance s1 s2 n = u (tblR chance) (tblR s1) (tblR s2) (nodeR n).
Proof.
  intros chance s1 s2.
  induction n as [x|ci kids IH|pl i kids IH] using node_ind'.
  - reflexivity.
  - cbn [uR nodeR u]. rewrite rowR_tblR, dot_wsum. apply wsum_ext. exact IH.
  - cbn [uR nodeR u].
    replace (rowR (if pl then tblR s1 else tblR s2) i)
      with (map FR (@row FNum (if pl then s1 else s2) i))
      by (destruct pl; symmetry; apply rowR_tblR).
    rewrite dot_wsum. apply wsum_ext. exact IH.
Qed.

Lemma TblOK_NonnegRows : forall t, TblOK t -> NonnegRows (tblR t).
Proof.
  intros t Ht. unfold NonnegRows, tblR.
  apply Forall_forall. intros r Hr. apply in_map_iff in Hr. destruct Hr as [r0 [<- Hr0]].
  apply Forall_forall. intros x Hx. apply in_map_iff in Hx. destruct Hx as [x0 [<- Hx0]].
  unfold TblOK in Ht. rewrite Forall_forall in Ht. specialize (Ht r0 Hr0).
  rewrite Forall_forall in Ht. destruct (Ht x0 Hx0) as [_ [H0 _]]. exact H0.
Qed.

Theorem U_exact_spec : forall (g : game) (s1 s2 : list (list float)),
  U_exact g s1 s2 = u_game (gameR g) (tblR s1) (tblR s2).
Proof. intros g s1 s2. unfold U_exact, u_game. apply uR_u. Qed.

Theorem U_exact_model : forall (g : game) (s1 s2 : list (list float)),
  TblOK s1 -> TblOK s2 ->
  U_exact g s1 s2 = @expected RNum (gameR g) (tblR s1) (tblR s2).
Proof.
  intros g s1 s2 H1 H2. rewrite U_exact_spec. symmetry.
  apply expected_exact; apply TblOK_NonnegRows; assumption.
Qed.

Theorem U_exact_leaves : forall (g : game) (s1 s2 : list (list float)),
  U_exact g s1 s2 =
  lsum (leaves (tblR (g_chance g)) (tblR s1) (tblR s2) (nodeR (g_root g))).
Proof. intros g s1 s2. rewrite U_exact_spec. unfold u_game. apply u_leaves. Qed.

(** The headline statement: the binary64 evaluator against the real-number model
    run on the same data. *)
Corollary expected_float_vs_real : forall (g : game) (s1 s2 : list (list float)) (B : R),
  TblOK (g_chance g) -> TblOK s1 -> TblOK s2 ->
  1 <= B -> PayOK B (g_root g) ->
  INR (k_ops g) * bpow radix2 (-53) <= / 2 ->
  INR (n_leaves g) * B <= bpow radix2 1000 ->
  Ffin (@expected FNum g s1 s2) /\
  Rabs (FR (@expected FNum g s1 s2) - @expected RNum (gameR g) (tblR s1) (tblR s2))
  <= INR (k_ops g) * bpow radix2 (-52) * mass g s1 s2 B.
Proof.
  intros g s1 s2 B Hc H1 H2 HB Hpay Hk HL.
  destruct (expected_float_bound g s1 s2 B Hc H1 H2 HB Hpay Hk HL) as [Hf [_ [He _]]].
  rewrite <- U_exact_model by assumption. split; assumption.
Qed.

(** ** The reported utility: [Strategies::get_info] *)

Lemma TblOK_split_by : forall (ars : list nat) (flat : list float),
  Forall fin01 flat -> TblOK (split_by flat ars).
Proof.
  induction ars as [|n ars IH]; intros flat Hf; cbn [split_by]; [constructor|].
  constructor; [apply Forall_firstn'; exact Hf | apply IH; apply Forall_skipn'; exact Hf].
Qed.

Corollary info_util_float_bound : forall (g : game) (prof : list float * list float) (B : R),
  TblOK (g_chance g) -> Forall fin01 (fst prof) -> Forall fin01 (snd prof) ->
  1 <= B -> PayOK B (g_root g) ->
  INR (k_ops g) * bpow radix2 (-53) <= / 2 ->
  INR (n_leaves g) * B <= bpow radix2 1000 ->
  let s1 := split_by (fst prof) (arities g true) in
  let s2 := split_by (snd prof) (arities g false) in
  let uF := si_util (@info FNum g prof) in
  Ffin uF /\
  Rabs (FR uF - U_exact g s1 s2) <= INR (k_ops g) * bpow radix2 (-52) * mass g s1 s2 B.
Proof.
  intros g prof B Hc Hp1 Hp2 HB Hpay Hk HL s1 s2 uF.
  assert (H1 : TblOK s1) by (apply TblOK_split_by; exact Hp1).
  assert (H2 : TblOK s2) by (apply TblOK_split_by; exact Hp2).
  destruct (expected_float_bound g s1 s2 B Hc H1 H2 HB Hpay Hk HL) as [Hf [_ [He _]]].
  change uF with (@expected FNum g s1 s2). split; assumption.
Qed.

Definition labs (l : list (R * R)) : R := Rsum (map (fun rx => fst rx * Rabs (snd rx)) l).

Lemma labs_app : forall a b, labs (a ++ b) = labs a + labs b.
Proof. intros a b. unfold labs. rewrite map_app, Rsum_app. reflexivity. Qed.

Lemma labs_scale : forall p l, labs (scale_leaves p l) = p * labs l.
Proof.
  intros p l. unfold labs, scale_leaves.
  induction l as [|x l IH]; cbn [map RInst.Rsum fst snd]; [lra|].
  rewrite IH. lra.
Qed.

Lemma aR_leaves : forall chance s1 s2 n,
  aR chance s1 s2 n = labs (leaves (tblR chance) (tblR s1) (tblR s2) (nodeR n)).
Proof.
  intros chance s1 s2.
  set (lv := leaves (tblR chance) (tblR s1) (tblR s2)).
  assert (Hw : forall ks ps,
            Forall (fun k => aR chance s1 s2 k = labs (lv (nodeR k))) ks ->
            wsum (aR chance s1 s2) ps ks =
            labs (concat (map (fun pl => scale_leaves (fst pl) (snd pl))
                              (combine (map FR ps) (map lv (map nodeR ks)))))).
  { intros ks ps Hks. revert ps.
    induction Hks as [|k ks Hk _ IH]; intros [|p ps]; cbn [wsum map combine concat];
      try reflexivity.
    cbn [fst snd]. rewrite labs_app, labs_scale, <- IH, Hk. reflexivity. }
  induction n as [x|ci kids IH|pl i kids IH] using node_ind'.
  - unfold lv, labs. cbn. lra.
  - unfold lv at 1. cbn [aR nodeR leaves]. fold lv. rewrite rowR_tblR. apply Hw. exact IH.
  - unfold lv at 1. cbn [aR nodeR leaves]. fold lv.
    replace (rowR (if pl then tblR s1 else tblR s2) i)
      with (map FR (@row FNum (if pl then s1 else s2) i))
      by (destruct pl; symmetry; apply rowR_tblR).
    apply Hw. exact IH.
Qed.

Theorem S_abs_leaves : forall (g : game) (s1 s2 : list (list float)),
  S_abs g s1 s2 =
  labs (leaves (tblR (g_chance g)) (tblR s1) (tblR s2) (nodeR (g_root g))).
Proof. intros g s1 s2. unfold S_abs. apply aR_leaves. Qed.

(** ** A purely relative bound

    When the absolute mass [S] is not astronomically small compared with [L * B]
    (a factor [2^-969]), the underflow allowance is absorbed by one more rounding
    factor: the error is relative to [S] alone. *)
Theorem expected_float_relative : forall (g : game) (s1 s2 : list (list float)) (B : R),
  TblOK (g_chance g) -> TblOK s1 -> TblOK s2 ->
  1 <= B -> PayOK B (g_root g) ->
  INR (S (k_ops g)) * bpow radix2 (-53) <= / 2 ->
  INR (n_leaves g) * B <= bpow radix2 1000 ->
  INR (n_leaves g) * B * bpow radix2 (-969) <= S_abs g s1 s2 ->
  let uF := @expected FNum g s1 s2 in
  Ffin uF /\
  Rabs (FR uF - U_exact g s1 s2) <= ((1 + bpow radix2 (-53)) ^ S (k_ops g) - 1) * S_abs g s1 s2 /\
  Rabs (FR uF - U_exact g s1 s2) <= INR (S (k_ops g)) * bpow radix2 (-52) * S_abs g s1 s2.
Proof.
  intros g s1 s2 B Hc H1 H2 HB Hpay Hk HL HS uF.
  assert (Hu := u53_pos).
  change (bpow radix2 (-53)) with u53 in Hk |- *.
  assert (Hk' : INR (k_ops g) * u53 <= / 2).
  { rewrite S_INR in Hk. lra. }
  destruct (expected_float_bound g s1 s2 B Hc H1 H2 HB Hpay Hk' HL) as [Hf [He _]].
  fold uF in Hf, He.
  change (bpow radix2 (-53)) with u53 in He. fold (G (k_ops g)) in He.
  fold (G (S (k_ops g))).
  assert (HS0 : 0 <= S_abs g s1 s2) by (apply aR_nonneg; assumption).
  assert (Hmass : mass g s1 s2 B <= (1 + u53) * S_abs g s1 s2).
  { unfold mass.
    replace (bpow radix2 (-1022)) with (bpow radix2 (-969) * u53)
      by (unfold u53; rewrite <- bpow_plus; reflexivity).
    rewrite <- Rmult_assoc.
    assert (INR (n_leaves g) * B * bpow radix2 (-969) * u53 <= S_abs g s1 s2 * u53)
      by (apply Rmult_le_compat_r; lra).
    lra. }
  assert (HG := G_ge_1 (k_ops g)).
  assert (Hmain : Rabs (FR uF - U_exact g s1 s2) <= (G (S (k_ops g)) - 1) * S_abs g s1 s2).
  { apply Rle_trans with (1 := He).
    apply Rle_trans with ((G (k_ops g) - 1) * ((1 + u53) * S_abs g s1 s2)).
    - apply Rmult_le_compat_l; lra.
    - rewrite G_S, <- Rmult_assoc. apply Rmult_le_compat_r; [exact HS0|]. lra. }
  split; [exact Hf|]. split; [exact Hmain|].
  apply Rle_trans with (1 := Hmain).
  apply Rmult_le_compat_r; [exact HS0 | apply G_lin; exact Hk].
Qed.


Definition tblokb (t : list (list float)) : bool := forallb (forallb fin01b) t.

Lemma tblokb_spec : forall t, tblokb t = true -> TblOK t.
Proof.
  intros t H. unfold tblokb in H. rewrite forallb_forall in H.
  apply Forall_forall. intros r Hr. apply forallb_fin01b. apply H. exact Hr.
Qed.

Fixpoint payokb (b : float) (n : node) : bool :=
  match n with
  | Term x => f_is_fin x && PrimFloat.leb (PrimFloat.abs x) b
  | Chance _ kids => forallb (payokb b) kids
  | Player _ _ kids => forallb (payokb b) kids
  end.

Lemma leb_true_R : forall x y, Ffin x -> Ffin y -> PrimFloat.leb x y = true -> FR x <= FR y.
Proof.
  intros x y Hx Hy H. rewrite (leb_fin x y Hx Hy) in H.
  destruct (Rle_bool_spec (FR x) (FR y)); [assumption | discriminate].
Qed.

Lemma payokb_spec : forall b, Ffin b -> forall n, payokb b n = true -> PayOK (FR b) n.
Proof.
  intros b Hb.
  induction n as [x|ci kids IH|pl i kids IH] using node_ind'; cbn [payokb]; intros H.
  - apply andb_true_iff in H. destruct H as [Hf Hle].
    apply NormFloat.f_is_fin_true in Hf.
    apply (leb_true_R _ _ (Ffin_abs x Hf) Hb) in Hle. rewrite FR_abs in Hle.
    constructor; assumption.
  - constructor. apply (Forall_mp _ _ _ IH). apply Forall_forall, forallb_forall, H.
  - constructor. apply (Forall_mp _ _ _ IH). apply Forall_forall, forallb_forall, H.
Qed.

(** ** Example

    chance (1/2, 1/2); player one plays (0.3, 0.7) to payoffs 1 and -2; player two plays
    (0.6, 0.4) to payoffs 3 and 0.1.  Exact value with decimal data: 0.37. *)
Definition ex_root : node :=
  @Chance FNum 0
    [ @Player FNum true 0 [ @Term FNum 1%float; @Term FNum (-2)%float ];
      @Player FNum false 0 [ @Term FNum 3%float; @Term FNum 0x1.999999999999ap-4%float ] ].
Definition ex_g : game := @mkGame FNum [[0.5; 0.5]%float] [] [] [] [] ex_root.
Definition ex_s1 : list (list float) := [[0x1.3333333333333p-2; 0x1.6666666666666p-1]%float].
Definition ex_s2 : list (list float) := [[0x1.3333333333333p-1; 0x1.999999999999ap-2]%float].

(** what the evaluator returns: the binary64 number nearest to 0.37 *)
Example ex_expected_value : @expected FNum ex_g ex_s1 ex_s2 = 0x1.7ae147ae147aep-2%float.
Proof. vm_compute. reflexivity. Qed.

Example ex_shape : k_ops ex_g = 7%nat /\ n_leaves ex_g = 4%nat.
Proof. split; reflexivity. Qed.

Lemma FR_three : Ffin 3%float /\ FR 3%float = 3.
Proof.
  replace 3%float with (f_of_N (N.of_nat 3)) by (vm_compute; reflexivity).
  destruct (of_N_ok 3 ltac:(cbv; reflexivity)) as [Hf He].
  split; [exact Hf|]. rewrite He. cbn [INR]. lra.
Qed.

(** the hypotheses hold with [B = 3], and the bound reads
    [|result - U| <= 7 * 2^-52 * (S + 4 * 3 * 2^-1022)] *)
Example ex_bound :
  let uF := @expected FNum ex_g ex_s1 ex_s2 in
  Ffin uF /\
  Rabs (FR uF - U_exact ex_g ex_s1 ex_s2)
  <= 7 * bpow radix2 (-52) * (S_abs ex_g ex_s1 ex_s2 + 4 * 3 * bpow radix2 (-1022)).
Proof.
  destruct FR_three as [H3f H3].
  assert (Hc : TblOK (g_chance ex_g)) by (apply tblokb_spec; vm_compute; reflexivity).
  assert (H1 : TblOK ex_s1) by (apply tblokb_spec; vm_compute; reflexivity).
  assert (H2 : TblOK ex_s2) by (apply tblokb_spec; vm_compute; reflexivity).
  assert (Hpay : PayOK 3 (g_root ex_g)).
  { rewrite <- H3. apply payokb_spec; [exact H3f | vm_compute; reflexivity]. }
  assert (Hu : bpow radix2 (-53) <= / 16).
  { apply Rle_trans with (bpow radix2 (-4)); [apply bpow_le; lia|].
    right. change (bpow radix2 (-4)) with (/ IZR (Z.pow_pos 2 4)).
    f_equal. }
  assert (Hk : INR (k_ops ex_g) * bpow radix2 (-53) <= / 2).
  { change (k_ops ex_g) with 7%nat. cbn [INR]. lra. }
  assert (HL : INR (n_leaves ex_g) * 3 <= bpow radix2 1000).
  { change (n_leaves ex_g) with 4%nat. cbn [INR].
    apply Rle_trans with (bpow radix2 4); [|apply bpow_le; lia].
    change (bpow radix2 4) with (IZR (Z.pow_pos 2 4)).
    replace (IZR (Z.pow_pos 2 4)) with 16 by (cbv; reflexivity). lra. }
  destruct (expected_float_bound ex_g ex_s1 ex_s2 3 Hc H1 H2 ltac:(lra) Hpay Hk HL)
    as [Hf [_ [He _]]].
  cbv zeta. split; [exact Hf|].
  unfold mass in He. change (n_leaves ex_g) with 4%nat in He.
  change (k_ops ex_g) with 7%nat in He. cbn [INR] in He.
  replace (1 + 1 + 1 + 1 + 1 + 1 + 1) with 7 in He by lra.
  replace ((1 + 1 + 1 + 1) * 3) with (4 * 3) in He by lra.
  exact He.
Qed.
