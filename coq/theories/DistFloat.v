(** * DistFloat: [Strategies::distance] at binary64 itself (instance [FNum]).

    Exact (bit for bit) symmetry and exact zero for every exponent, and the
    range "finite, non-negative, never NaN, bounded by the real bound up to an
    explicit rounding factor" for the exponents 1 and 2. *)
From Coq Require Import List ZArith NArith Reals Floats Bool Lia Lra.
From Flocq Require Import Core IEEE754.BinarySingleNaN IEEE754.PrimFloat Plus_error Relative.
From Cfr.theories Require Import Num FInst Tree Strat TruncFloat.
Import ListNotations.

Local Existing Instance Flocq.IEEE754.PrimFloat.Hprec.
Local Existing Instance Flocq.IEEE754.PrimFloat.Hmax.

Local Open Scope R_scope.
Local Notation float := PrimFloat.float.
Local Notation Hp := Flocq.IEEE754.PrimFloat.Hprec.
Local Notation Hm := Flocq.IEEE754.PrimFloat.Hmax.

Local Instance fexp_valid' : Valid_exp (SpecFloat.fexp prec emax) := fexp_correct prec emax Hp.

Lemma rnd_opp : forall x, rnd (- x) = - rnd x.
Proof. intros x. unfold rnd. apply round_NE_opp. Qed.

Lemma Babs_Bminus_sym : forall x y : binary_float prec emax,
  Babs (Bminus mode_NE x y) = Babs (Bminus mode_NE y x).
Proof.
  intros x y.
  destruct (is_finite x) eqn:Fx; destruct (is_finite y) eqn:Fy.
  (* an operand is not finite: by cases on both *)
  2-4: destruct x as [sx|sx| |sx mx ex Hx], y as [sy|sy| |sy my ey Hy];
    try discriminate Fx; try discriminate Fy; try reflexivity; destruct sx, sy; reflexivity.
  - generalize (Bminus_correct prec emax Hp Hm mode_NE x y Fx Fy)
               (Bminus_correct prec emax Hp Hm mode_NE y x Fy Fx).
    change (round_mode mode_NE) with ZnearestE.
    fold (rnd (B2R x - B2R y)). fold (rnd (B2R y - B2R x)).
    replace (B2R y - B2R x) with (- (B2R x - B2R y)) by lra.
    rewrite rnd_opp, Rabs_Ropp.
    destruct (Rlt_bool (Rabs (rnd (B2R x - B2R y))) (bpow radix2 emax)).
    + intros [R1 [F1 _]] [R2 [F2 _]].
      apply B2R_Bsign_inj.
      * rewrite is_finite_Babs. exact F1.
      * rewrite is_finite_Babs. exact F2.
      * rewrite !B2R_Babs, R1, R2, Rabs_Ropp. reflexivity.
      * rewrite !Bsign_Babs. reflexivity.
    + intros [O1 _] [O2 _].
      destruct (Bminus mode_NE x y) as [s1|s1| |s1 m1 e1 H1];
        try discriminate O1;
        destruct (Bminus mode_NE y x) as [s2|s2| |s2 m2 e2 H2];
        try discriminate O2; reflexivity.
Qed.

Theorem abs_sub_sym : forall a b : float,
  PrimFloat.abs (a - b)%float = PrimFloat.abs (b - a)%float.
Proof.
  intros a b. apply Prim2B_inj. rewrite !abs_equiv, !sub_equiv.
  apply Babs_Bminus_sym.
Qed.

Lemma dist_sum_FNum : forall (p : float) (l r : list float),
  @dist_sum FNum p l r =
  fold_left (fun d lr => (d + fpow (PrimFloat.abs (fst lr - snd lr)) p)%float)
            (combine l r) 0%float.
Proof. reflexivity. Qed.

Lemma dist_fold_sym : forall (p : float) (l r : list float) (acc : float),
  fold_left (fun d lr => (d + fpow (PrimFloat.abs (fst lr - snd lr)) p)%float)
            (combine l r) acc =
  fold_left (fun d lr => (d + fpow (PrimFloat.abs (fst lr - snd lr)) p)%float)
            (combine r l) acc.
Proof.
  intros p. induction l as [|a l IH]; intros r acc.
  - destruct r; reflexivity.
  - destruct r as [|b r]; [reflexivity|].
    cbn [combine fold_left fst snd].
    rewrite (abs_sub_sym a b). apply IH.
Qed.

(** Bit-for-bit symmetry, for every exponent (NaN included), for all lists of
    floats (no finiteness, no equal-length assumption). *)
Theorem dist_sum_float_sym : forall (p : float) (l r : list float),
  @dist_sum FNum p l r = @dist_sum FNum p r l.
Proof. intros p l r. rewrite !dist_sum_FNum. apply dist_fold_sym. Qed.

Theorem distance_player_float_sym : forall (p : float) (n : nat) (l r : list float),
  @distance_player FNum p n l r = @distance_player FNum p n r l.
Proof.
  intros p n l r. unfold distance_player. destruct n as [|n]; [reflexivity|].
  rewrite (dist_sum_float_sym p l r). reflexivity.
Qed.

Theorem distance_float_sym : forall (g : @game FNum) (p : float) (a b : list float * list float),
  @distance FNum g p a b = @distance FNum g p b a.
Proof.
  intros g p a b. unfold distance.
  destruct (ltb FNum (zero FNum) p); [|reflexivity].
  rewrite (distance_player_float_sym p _ (fst a) (fst b)).
  rewrite (distance_player_float_sym p _ (snd a) (snd b)). reflexivity.
Qed.

(** [a - a] is [+0] for every finite [a] (round to nearest: the sign of an exact
    zero difference is [+]). *)
Lemma sub_self : forall a : float, Ffin a -> (a - a)%float = 0%float.
Proof.
  intros a Ha. apply Prim2B_inj. rewrite sub_equiv, Prim2B_zero.
  generalize (Bminus_correct prec emax Hp Hm mode_NE (Prim2B a) (Prim2B a) Ha Ha).
  change (round_mode mode_NE) with ZnearestE.
  replace (B2R (Prim2B a) - B2R (Prim2B a)) with 0 by lra.
  rewrite round_0 by auto with typeclass_instances.
  rewrite Rabs_R0, Rlt_bool_true by apply bpow_gt_0.
  rewrite Rcompare_Eq by reflexivity.
  intros [R1 [F1 S1]].
  apply B2R_Bsign_inj; [exact F1 | reflexivity | exact R1 |].
  rewrite S1. destruct (Bsign (Prim2B a)); reflexivity.
Qed.

Lemma ltb_0_facts : forall p : float, PrimFloat.ltb 0 p = true ->
  PrimFloat.eqb p 0 = false /\ PrimFloat.eqb p p = true.
Proof.
  intros p H. rewrite ltb_equiv, Prim2B_zero in H.
  rewrite !eqb_equiv, Prim2B_zero, Beqb_refl.
  destruct (Prim2B p) as [s|s| |s m e He]; try discriminate H.
  - destruct s; [discriminate H|]. split; reflexivity.
  - destruct s; [discriminate H|]. split; reflexivity.
Qed.

Lemma fpow_unfold : forall x y : float,
  fpow x y =
  if PrimFloat.eqb y 0 then 1%float
  else if PrimFloat.eqb x 1 then 1%float
  else if f_is_nan x || f_is_nan y then nan
  else if PrimFloat.eqb x 0 then (if PrimFloat.ltb 0 y then 0%float else infinity)
  else if PrimFloat.ltb x 0 then nan
  else if PrimFloat.eqb y 1 then x
  else if PrimFloat.eqb y 2 then (x * x)%float
  else if PrimFloat.eqb y 0x1p-1 then PrimFloat.sqrt x
  else fexp (y * fln x)%float.
Proof. reflexivity. Qed.

Lemma fpow_zero_pos : forall p : float, PrimFloat.ltb 0 p = true -> fpow 0 p = 0%float.
Proof.
  intros p H. destruct (ltb_0_facts p H) as [E1 E2].
  rewrite fpow_unfold, E1. unfold f_is_nan. rewrite E2, H. reflexivity.
Qed.

Lemma dist_fold_self : forall (p : float) (l : list float),
  PrimFloat.ltb 0 p = true -> Forall Ffin l ->
  fold_left (fun d lr => (d + fpow (PrimFloat.abs (fst lr - snd lr)) p)%float)
            (combine l l) 0%float = 0%float.
Proof.
  intros p l Hp Hl. induction Hl as [|a l Ha Hl IH]; [reflexivity|].
  cbn [combine fold_left fst snd].
  rewrite (sub_self a Ha).
  change (PrimFloat.abs 0) with 0%float.
  rewrite (fpow_zero_pos p Hp).
  change (0 + 0)%float with 0%float. exact IH.
Qed.

(** The distance of a profile to itself is exactly [+0], for every exponent
    [p > 0] ([+inf] included), for every list of finite floats. *)
Theorem dist_sum_float_self : forall (p : float) (l : list float),
  ltb FNum (zero FNum) p = true -> Forall Ffin l ->
  @dist_sum FNum p l l = 0%float.
Proof. intros p l Hp Hl. rewrite dist_sum_FNum. apply dist_fold_self; assumption. Qed.

Lemma FR_two : Ffin 2%float /\ FR 2%float = 2.
Proof.
  change 2%float with (1 + 1)%float.
  assert (Hr : rnd (FR 1%float + FR 1%float) = 2).
  { rewrite FR_one. change (1 + 1) with (IZR 2). apply rnd_fmt, fmt_IZR. reflexivity. }
  destruct (add_ok 1%float 1%float Ffin_one Ffin_one) as [H1 H2].
  { rewrite Hr. apply (nonneg_lt_emax _ 2); [lra | lia]. }
  split; [exact H1 | rewrite H2; exact Hr].
Qed.

Lemma denom_ok : forall n : nat, (Z.of_nat n < 2 ^ 52)%Z ->
  let d := mul FNum (@two FNum) (of_N FNum (N.of_nat n)) in
  Ffin d /\ FR d = 2 * INR n.
Proof.
  intros n Hn.
  change (mul FNum (@two FNum) (of_N FNum (N.of_nat n)))
    with (2 * f_of_N (N.of_nat n))%float.
  destruct (of_N_ok n ltac:(lia)) as [Hf He].
  destruct FR_two as [H2f H2e].
  assert (Hr : rnd (FR 2%float * FR (f_of_N (N.of_nat n))) = IZR (2 * Z.of_nat n)).
  { rewrite H2e, He, INR_IZR_INZ, <- mult_IZR. apply rnd_fmt, fmt_IZR. lia. }
  destruct (mul_ok _ _ H2f Hf) as [G1 G2].
  { rewrite Hr. apply (nonneg_lt_emax _ (2 * Z.of_nat n)); [split; [apply IZR_le; lia | lra] | lia]. }
  cbv zeta. split; [exact G1|]. rewrite G2, Hr, mult_IZR, <- INR_IZR_INZ. reflexivity.
Qed.

Lemma abs_cases : forall y : float,
  let x := PrimFloat.abs y in
  x = nan \/ x = infinity \/ x = 0%float \/
  (Ffin x /\ 0 < FR x).
Proof.
  intros y x.
  assert (E : Prim2B x = Babs (Prim2B y)) by apply abs_equiv.
  destruct (Prim2B y) as [s|s| |s m e He]; cbn [Babs] in E.
  - right. right. left. apply Prim2B_inj. rewrite E, Prim2B_zero. reflexivity.
  - right. left. apply Prim2B_inj. rewrite E, infinity_equiv, Prim2B_B2Prim. reflexivity.
  - left. apply Prim2B_inj. rewrite E, nan_equiv, Prim2B_B2Prim. reflexivity.
  - right. right. right. unfold Ffin, FR. rewrite E.
    split; [reflexivity|]. cbn [B2R]. apply F2R_gt_0. cbn. lia.
Qed.

Lemma pos_tests : forall x : float, Ffin x -> 0 < FR x ->
  f_is_nan x = false /\ PrimFloat.eqb x 0 = false /\ PrimFloat.ltb x 0 = false /\
  (PrimFloat.eqb x 1 = true -> FR x = 1).
Proof.
  intros x Hx Hpos. unfold f_is_nan.
  rewrite !eqb_equiv, ltb_equiv, Beqb_refl, Prim2B_zero, Prim2B_one.
  rewrite (Beqb_correct prec emax (Prim2B x) (B754_zero false) Hx eq_refl).
  rewrite (Beqb_correct prec emax (Prim2B x) Bone Hx (is_finite_Bone prec emax Hp Hm)).
  rewrite (Bltb_correct prec emax (Prim2B x) (B754_zero false) Hx eq_refl).
  rewrite Bone_correct. fold (FR x). cbn [B2R].
  split.
  { unfold Ffin in Hx. destruct (Prim2B x); try discriminate Hx; reflexivity. }
  split; [apply Req_bool_false; lra|].
  split; [apply Rlt_bool_false; lra|].
  intros H. destruct (Req_bool_spec (FR x) 1) as [H1|H1]; [exact H1 | discriminate H].
Qed.

Lemma fpow_abs_1 : forall y : float, fpow (PrimFloat.abs y) 1 = PrimFloat.abs y.
Proof.
  intros y. destruct (abs_cases y) as [E|[E|[E|[Hf Hpos]]]];
    try (rewrite E; vm_compute; reflexivity).
  set (x := PrimFloat.abs y) in *.
  destruct (pos_tests x Hf Hpos) as [T1 [T2 [T3 T4]]].
  rewrite fpow_unfold.
  change (PrimFloat.eqb 1 0) with false. cbv iota.
  destruct (PrimFloat.eqb x 1) eqn:E1.
  - symmetry. apply FR_one_inv; auto.
  - rewrite T1, T2, T3. reflexivity.
Qed.

Lemma fpow_abs_2 : forall y : float,
  fpow (PrimFloat.abs y) 2 = (PrimFloat.abs y * PrimFloat.abs y)%float.
Proof.
  intros y. destruct (abs_cases y) as [E|[E|[E|[Hf Hpos]]]];
    try (rewrite E; vm_compute; reflexivity).
  set (x := PrimFloat.abs y) in *.
  destruct (pos_tests x Hf Hpos) as [T1 [T2 [T3 T4]]].
  rewrite fpow_unfold.
  change (PrimFloat.eqb 2 0) with false. cbv iota.
  destruct (PrimFloat.eqb x 1) eqn:E1.
  - rewrite (FR_one_inv x Hf (T4 eq_refl)). vm_compute. reflexivity.
  - rewrite T1, T2, T3. reflexivity.
Qed.

Lemma fold_left_map_add : forall (A : Type) (f : A -> float) (l : list A) (acc : float),
  fold_left (fun d x => (d + f x)%float) l acc = fold_left PrimFloat.add (map f l) acc.
Proof.
  intros A f l. induction l as [|x l IH]; intros acc; [reflexivity|].
  cbn [fold_left map]. apply IH.
Qed.

(** The terms of the sum; [tf] is what [fpow _ p] does to an absolute value
    (the identity for [p = 1], the square for [p = 2]). *)
Definition terms (tf : float -> float) (l r : list float) : list float :=
  map (fun lr => tf (PrimFloat.abs (fst lr - snd lr)%float)) (combine l r).

Lemma dist_sum_terms : forall (p : float) (tf : float -> float),
  (forall y, fpow (PrimFloat.abs y) p = tf (PrimFloat.abs y)) ->
  forall l r : list float,
  @dist_sum FNum p l r = fold_left PrimFloat.add (terms tf l r) 0%float.
Proof.
  intros p tf Htf l r. rewrite dist_sum_FNum. unfold terms.
  rewrite <- fold_left_map_add.
  generalize 0%float. induction (combine l r) as [|x c IH]; intros acc; [reflexivity|].
  cbn [fold_left]. rewrite Htf. apply IH.
Qed.

Lemma term1_ok : forall a b : float, fin01 a -> fin01 b ->
  let x := PrimFloat.abs (a - b)%float in
  fin01 x /\ FR x = Rabs (rnd (FR a - FR b)) /\ FR x <= FR a + FR b.
Proof.
  intros a b [Ha [Ha0 Ha1]] [Hb [Hb0 Hb1]] x.
  assert (Hup : rnd (FR a - FR b) <= FR a) by (apply rnd_le_fmt; [apply fmt_FR | lra]).
  assert (Hlo : - FR b <= rnd (FR a - FR b)).
  { apply rnd_ge_fmt; [|lra]. apply generic_format_opp. apply fmt_FR. }
  assert (Habs : Rabs (rnd (FR a - FR b)) <= FR a + FR b) by (apply Rabs_le; lra).
  assert (Habs1 : Rabs (rnd (FR a - FR b)) <= 1) by (apply Rabs_le; lra).
  assert (Hbd : Rabs (rnd (FR a - FR b)) < bpow radix2 emax).
  { apply small_lt_emax. apply Rle_trans with (1 := Habs1). apply IZR_le. lia. }
  destruct (sub_ok a b Ha Hb Hbd) as [Hf He].
  assert (Hx : FR x = Rabs (rnd (FR a - FR b))) by (unfold x; rewrite FR_abs, He; reflexivity).
  split; [|split; [exact Hx | rewrite Hx; exact Habs]].
  split; [apply Ffin_abs; exact Hf|].
  rewrite Hx. split; [apply Rabs_pos | exact Habs1].
Qed.

Lemma sqr_ok : forall x : float, fin01 x -> fin01 (x * x)%float /\ FR (x * x)%float <= FR x.
Proof.
  intros x [Hx [H0 H1]].
  assert (Hs0 : 0 <= FR x * FR x) by (apply Rmult_le_pos; assumption).
  assert (Hs1 : FR x * FR x <= FR x * 1) by (apply Rmult_le_compat_l; assumption).
  rewrite Rmult_1_r in Hs1.
  assert (Hr := rnd_between 0 (FR x) _ fmt_0 (fmt_FR x) (conj Hs0 Hs1)).
  destruct (mul_ok x x Hx Hx) as [Hf He].
  { apply (nonneg_lt_emax _ 1); [lra | lia]. }
  rewrite He. split; [split; [exact Hf | lra] | lra].
Qed.

Lemma RS_nonneg : forall l : list float, Forall fin01 l -> 0 <= RS l.
Proof.
  intros l H. induction H as [|x l [_ [Hx _]] Hl IH]; [rewrite RS_nil; lra|].
  rewrite RS_cons. lra.
Qed.

Lemma terms_ok : forall tf : float -> float,
  (forall x, fin01 x -> fin01 (tf x) /\ FR (tf x) <= FR x) ->
  forall l r : list float, Forall fin01 l -> Forall fin01 r ->
  Forall fin01 (terms tf l r) /\ RS (terms tf l r) <= RS l + RS r.
Proof.
  intros tf Htf. unfold terms.
  induction l as [|a l IH]; intros r Hl Hr.
  - cbn [combine map]. split; [constructor|]. rewrite !RS_nil.
    assert (H := RS_nonneg r Hr). lra.
  - destruct r as [|b r].
    + cbn [combine map]. split; [constructor|]. rewrite !RS_nil.
      assert (H := RS_nonneg (a :: l) Hl). lra.
    + inversion Hl as [|a' l' Ha Hl']; subst. inversion Hr as [|b' r' Hb Hr']; subst.
      destruct (IH r Hl' Hr') as [I1 I2].
      destruct (term1_ok a b Ha Hb) as [T1 [_ T3]]. destruct (Htf _ T1) as [U1 U2].
      cbn [combine map fst snd]. split; [constructor; assumption|].
      rewrite !RS_cons. lra.
Qed.

Lemma terms_length : forall tf (l r : list float), (length (terms tf l r) <= length l)%nat.
Proof.
  intros tf l r. unfold terms. rewrite map_length, combine_length. apply Nat.le_min_l.
Qed.

Lemma rnd_rel_ge1 : forall x, 1 <= x -> rnd x <= x * (1 + u53).
Proof.
  intros x Hx.
  assert (H := relative_error_N_FLT radix2 (SpecFloat.emin prec emax) prec eq_refl
                 (fun n => negb (Z.even n)) x).
  change (round radix2 (FLT_exp (SpecFloat.emin prec emax) prec)
            (Znearest (fun n => negb (Z.even n))) x) with (rnd x) in H.
  rewrite half_bpow in H.
  change (bpow radix2 (- prec + 1 - 1)) with u53 in H.
  rewrite (Rabs_pos_eq x) in H by lra.
  assert (Hb : bpow radix2 (SpecFloat.emin prec emax + prec - 1) <= x).
  { apply Rle_trans with (2 := Hx). change 1 with (bpow radix2 0). apply bpow_le.
    cbv. discriminate. }
  specialize (H Hb). apply Rabs_le_inv in H. lra.
Qed.

(** the explicit rounding factor: [m] additions and one division *)
Definition dist_eps (m : nat) : R := (2 * INR m + 2) * bpow radix2 (-53).

Lemma dist_eps_pos : forall a : nat, 0 < dist_eps a.
Proof.
  intros a. unfold dist_eps. apply Rmult_lt_0_compat; [|apply bpow_gt_0].
  assert (H := pos_INR a). lra.
Qed.

(** The real arithmetic: [x] is a quotient computed from a sum of at most [m]
    terms, so [x (1 - m 2^-53)] is below the exact quotient [B]; rounding [x]
    once more stays below [B (1 + (2m+2) 2^-53)]. *)
Lemma dist_bound : forall x B m : R,
  0 <= x -> 0 <= m -> m * u53 <= / 2 -> x * (1 - m * u53) <= B ->
  rnd x <= B * (1 + (2 * m + 2) * u53) + eta1075 /\
  (B <= 1 -> rnd x <= 1 + (2 * m + 2) * u53).
Proof.
  intros x B m Hx0 Hm0 Hw HBx.
  assert (Hu := u53_pos). assert (Heta := eta_pos).
  set (w := m * u53) in *.
  assert (Hw0 : 0 <= w) by (apply Rmult_le_pos; lra).
  assert (HB0 : 0 <= B) by (apply Rle_trans with (2 := HBx), Rmult_le_pos; lra).
  assert (Hxw : x <= B * (1 + 2 * w)).
  { assert (H1 : x * (1 - w) * (1 + 2 * w) <= B * (1 + 2 * w))
      by (apply Rmult_le_compat_r; lra).
    assert (H2 : 0 <= x * (w * (1 - 2 * w))).
    { apply Rmult_le_pos; [exact Hx0|]. apply Rmult_le_pos; lra. }
    lra. }
  assert (Hxu : x * (1 + u53) <= B * (1 + (2 * m + 2) * u53)).
  { apply Rle_trans with (B * (1 + 2 * w) * (1 + u53)).
    - apply Rmult_le_compat_r; lra.
    - replace (B * (1 + 2 * w) * (1 + u53)) with (B * (1 + 2 * w + u53 + 2 * w * u53)) by lra.
      apply Rmult_le_compat_l; [exact HB0|].
      assert (H3 : 2 * w * u53 <= 1 * u53) by (apply Rmult_le_compat_r; lra).
      unfold w in *. lra. }
  split.
  - assert (Hd := div_err x). rewrite (Rabs_pos_eq x Hx0) in Hd.
    apply Rabs_le_inv in Hd. lra.
  - intros HB1.
    assert (H2 : B * (1 + (2 * m + 2) * u53) <= 1 * (1 + (2 * m + 2) * u53))
      by (apply Rmult_le_compat_r; [apply Rplus_le_le_0_compat, Rmult_le_pos|]; lra).
    destruct (Rle_or_lt x 1) as [Hx1|Hx1].
    + assert (H1 : rnd x <= 1) by (apply rnd_le_fmt; [apply fmt_1 | exact Hx1]).
      assert (0 <= (2 * m + 2) * u53) by (apply Rmult_le_pos; lra). lra.
    + assert (H1 := rnd_rel_ge1 x ltac:(lra)). lra.
Qed.

Lemma dist_from_terms : forall (ts l r : list float) (n : nat),
  Forall fin01 ts -> (length ts <= length l)%nat -> RS ts <= RS l + RS r ->
  (Z.of_nat (length l) < 2 ^ 52)%Z -> (1 <= n)%nat -> (Z.of_nat n < 2 ^ 52)%Z ->
  let S := fold_left PrimFloat.add ts 0%float in
  let d := (S / mul FNum (@two FNum) (of_N FNum (N.of_nat n)))%float in
  Ffin S /\ 0 <= FR S <= INR (length l) /\
  Ffin d /\ 0 <= FR d /\
  FR d = rnd (FR S / (2 * INR n)) /\
  FR d <= (RS l + RS r) / (2 * INR n) * (1 + dist_eps (length l)) + bpow radix2 (-1075) /\
  (RS l + RS r <= 2 * INR n -> FR d <= 1 + dist_eps (length l)).
Proof.
  intros ts l r n Hts Hlen HRS Hl Hn1 Hn S d.
  destruct (denom_ok n Hn) as [Hdf Hde]. cbv zeta in Hdf, Hde.
  set (dn := mul FNum (@two FNum) (of_N FNum (N.of_nat n))) in *.
  destruct (sum_fin01 ts Hts ltac:(lia)) as [G1 [[G2 G3] _]].
  assert (HE := sum_err ts (fin01_nonneg ts Hts) G1).
  rewrite sum_FNum in G1, G2, G3, HE. fold S in G1, G2, G3, HE.
  assert (Hu := u53_pos).
  assert (Hml : INR (length ts) <= INR (length l)) by (apply le_INR, Hlen).
  set (m := INR (length l)) in *.
  assert (Hm52 : m <= IZR (2 ^ 52)) by (unfold m; rewrite INR_IZR_INZ; apply IZR_le; lia).
  assert (Hmu : m * u53 <= / 2).
  { apply Rle_trans with (IZR (2 ^ 52) * u53); [apply Rmult_le_compat_r; lra|].
    change (IZR (2 ^ 52)) with (bpow radix2 52). unfold u53.
    rewrite <- bpow_plus. right. reflexivity. }
  assert (Hn2 : 1 <= INR n) by (change 1 with (INR 1); apply le_INR; exact Hn1).
  set (N := 2 * INR n) in *.
  assert (HN : 2 <= N) by (unfold N; lra).
  assert (HNi : 0 < / N) by (apply Rinv_0_lt_compat; lra).
  assert (HNi1 : / N <= / 2) by (apply Rinv_le_contravar; lra).
  set (x := FR S / N).
  assert (Hx0 : 0 <= x) by (unfold x, Rdiv; apply Rmult_le_pos; lra).
  assert (HxS : FR S * / N <= FR S * 1) by (apply Rmult_le_compat_l; lra).
  rewrite Rmult_1_r in HxS. fold (FR S / N) in HxS. fold x in HxS.
  assert (Hr : 0 <= rnd x <= IZR (2 ^ 52)).
  { apply rnd_between; [apply fmt_0 | apply fmt_IZR; lia | lra]. }
  destruct (div_ok S dn G1 ltac:(rewrite Hde; lra)) as [Hf He].
  { rewrite Hde. apply (nonneg_lt_emax _ (2 ^ 52) Hr). lia. }
  rewrite Hde in He. fold x in He. fold d in Hf, He.
  (* the float sum is within [m 2^-53] (relative) of the exact sum of the terms *)
  assert (HBx : x * (1 - m * u53) <= (RS l + RS r) / N).
  { apply Rabs_le_inv in HE.
    assert (INR (length ts) * u53 * FR S <= m * u53 * FR S)
      by (apply Rmult_le_compat_r; [lra | apply Rmult_le_compat_r; lra]).
    unfold x, Rdiv. rewrite Rmult_assoc, (Rmult_comm (/ N)), <- Rmult_assoc.
    apply Rmult_le_compat_r; lra. }
  destruct (dist_bound x _ m Hx0 (pos_INR _) Hmu HBx) as [D1 D2].
  rewrite He. unfold dist_eps. change (bpow radix2 (-53)) with u53.
  change (bpow radix2 (-1075)) with eta1075.
  split; [exact G1|]. split; [split; lra|]. split; [exact Hf|]. split; [lra|].
  split; [reflexivity|]. split; [exact D1|].
  intros H. apply D2. apply Rmult_le_reg_r with N; [lra|].
  unfold Rdiv. rewrite Rmult_assoc, Rinv_l, Rmult_1_r, Rmult_1_l by lra. exact H.
Qed.

Lemma distance_player_float_gen : forall (p : float) (tf : float -> float),
  (forall y, fpow (PrimFloat.abs y) p = tf (PrimFloat.abs y)) ->
  (forall x, fin01 x -> fin01 (tf x) /\ FR (tf x) <= FR x) ->
  forall (n : nat) (l r : list float),
  Forall fin01 l -> Forall fin01 r ->
  (Z.of_nat (length l) < 2 ^ 52)%Z -> (1 <= n)%nat -> (Z.of_nat n < 2 ^ 52)%Z ->
  let S := @dist_sum FNum p l r in
  let d := @distance_player FNum p n l r in
  Ffin S /\ 0 <= FR S <= INR (length l) /\
  Ffin d /\ 0 <= FR d /\
  FR d = rnd (FR S / (2 * INR n)) /\
  FR d <= (RS l + RS r) / (2 * INR n) * (1 + dist_eps (length l)) + bpow radix2 (-1075) /\
  (RS l + RS r <= 2 * INR n -> FR d <= 1 + dist_eps (length l)).
Proof.
  intros p tf Hpow Htf n l r Hl Hr Hlen Hn1 Hn S d.
  destruct (terms_ok tf Htf l r Hl Hr) as [T1 T2].
  assert (Hd : d = (S / mul FNum (@two FNum) (of_N FNum (N.of_nat n)))%float).
  { unfold d, distance_player. destruct n as [|n']; [lia | reflexivity]. }
  rewrite Hd. unfold S. rewrite (dist_sum_terms p tf Hpow).
  apply (dist_from_terms (terms tf l r) l r n T1 (terms_length tf l r) T2 Hlen Hn1 Hn).
Qed.

Lemma exponent_1_2 : forall p : float, p = 1%float \/ p = 2%float ->
  exists tf : float -> float,
    (forall y, fpow (PrimFloat.abs y) p = tf (PrimFloat.abs y)) /\
    (forall x, fin01 x -> fin01 (tf x) /\ FR (tf x) <= FR x).
Proof.
  intros p [->| ->].
  - exists (fun x => x). split; [exact fpow_abs_1 | intros x H; split; [exact H | lra]].
  - exists (fun x => (x * x)%float). split; [exact fpow_abs_2 | exact sqr_ok].
Qed.

Theorem distance_player_float_1 : forall (n : nat) (l r : list float),
  Forall fin01 l -> Forall fin01 r ->
  (Z.of_nat (length l) < 2 ^ 52)%Z -> (1 <= n)%nat -> (Z.of_nat n < 2 ^ 52)%Z ->
  let S := @dist_sum FNum 1%float l r in
  let d := @distance_player FNum 1%float n l r in
  Ffin S /\ 0 <= FR S <= INR (length l) /\
  Ffin d /\ 0 <= FR d /\
  FR d = rnd (FR S / (2 * INR n)) /\
  FR d <= (RS l + RS r) / (2 * INR n) * (1 + dist_eps (length l)) + bpow radix2 (-1075) /\
  (RS l + RS r <= 2 * INR n -> FR d <= 1 + dist_eps (length l)).
Proof.
  apply (distance_player_float_gen 1%float (fun x => x) fpow_abs_1).
  intros x H. split; [exact H | lra].
Qed.

Theorem distance_player_float_2 : forall (n : nat) (l r : list float),
  Forall fin01 l -> Forall fin01 r ->
  (Z.of_nat (length l) < 2 ^ 52)%Z -> (1 <= n)%nat -> (Z.of_nat n < 2 ^ 52)%Z ->
  let S := @dist_sum FNum 2%float l r in
  let d := @distance_player FNum 2%float n l r in
  Ffin S /\ 0 <= FR S <= INR (length l) /\
  Ffin d /\ 0 <= FR d /\
  FR d = rnd (FR S / (2 * INR n)) /\
  FR d <= (RS l + RS r) / (2 * INR n) * (1 + dist_eps (length l)) + bpow radix2 (-1075) /\
  (RS l + RS r <= 2 * INR n -> FR d <= 1 + dist_eps (length l)).
Proof. exact (distance_player_float_gen 2%float (fun x => (x * x)%float) fpow_abs_2 sqr_ok). Qed.

(** Profiles whose rows sum to one within a relative [delta] (e.g. the
    [(2 * length + 2) * 2^-53] of [truncate_row_float_sum]): the exact sum of a profile
    over [n] infosets is at most [n * (1 + delta)]. *)
Corollary distance_player_float_le : forall (p : float) (n : nat) (l r : list float) (delta : R),
  p = 1%float \/ p = 2%float ->
  Forall fin01 l -> Forall fin01 r ->
  (Z.of_nat (length l) < 2 ^ 52)%Z -> (1 <= n)%nat -> (Z.of_nat n < 2 ^ 52)%Z ->
  0 <= delta ->
  RS l <= INR n * (1 + delta) -> RS r <= INR n * (1 + delta) ->
  let d := @distance_player FNum p n l r in
  Ffin d /\ 0 <= FR d /\
  FR d <= (1 + delta) * (1 + dist_eps (length l)) + bpow radix2 (-1075).
Proof.
  intros p n l r delta Hp Hl Hr Hlen Hn1 Hn Hdl HRl HRr d.
  destruct (exponent_1_2 p Hp) as [tf [Hpow Htf]].
  destruct (distance_player_float_gen p tf Hpow Htf n l r Hl Hr Hlen Hn1 Hn)
    as [_ [_ [A [B [_ [C _]]]]]].
  split; [exact A|]. split; [exact B|].
  apply Rle_trans with (1 := C). apply Rplus_le_compat_r.
  assert (Hp0 := dist_eps_pos (length l)).
  apply Rmult_le_compat_r; [lra|].
  assert (Hn2 : 1 <= INR n) by (change 1 with (INR 1); apply le_INR; exact Hn1).
  unfold Rdiv. apply Rmult_le_reg_r with (2 * INR n); [lra|].
  rewrite Rmult_assoc, Rinv_l, Rmult_1_r by lra. lra.
Qed.

(** The API function: for the exponents 1 and 2 both components are finite and
    non-negative (no NaN), whatever the number of infosets (0 included). *)
Theorem distance_float_valid : forall (g : @game FNum) (p : float) (a b : list float * list float),
  p = 1%float \/ p = 2%float ->
  Forall fin01 (fst a) -> Forall fin01 (fst b) -> Forall fin01 (snd a) -> Forall fin01 (snd b) ->
  (Z.of_nat (length (fst a)) < 2 ^ 52)%Z -> (Z.of_nat (length (snd a)) < 2 ^ 52)%Z ->
  (Z.of_nat (length (g_infos1 g)) < 2 ^ 52)%Z -> (Z.of_nat (length (g_infos2 g)) < 2 ^ 52)%Z ->
  exists d1 d2, @distance FNum g p a b = Some (d1, d2) /\
    Ffin d1 /\ 0 <= FR d1 /\ Ffin d2 /\ 0 <= FR d2.
Proof.
  intros g p a b Hp A1 B1 A2 B2 L1 L2 N1 N2.
  destruct (exponent_1_2 p Hp) as [tf [Hpow Htf]].
  assert (Hcore : forall n l r, Forall fin01 l -> Forall fin01 r ->
            (Z.of_nat (length l) < 2 ^ 52)%Z -> (Z.of_nat n < 2 ^ 52)%Z ->
            Ffin (@distance_player FNum p n l r) /\ 0 <= FR (@distance_player FNum p n l r)).
  { intros n l r Hl Hr Hlen Hn. destruct n as [|n'].
    - cbn [distance_player zero FNum]. split; [apply Ffin_zero | rewrite FR_zero; lra].
    - destruct (distance_player_float_gen p tf Hpow Htf (S n') l r Hl Hr Hlen ltac:(lia) Hn)
        as [_ [_ [A [B _]]]]. split; assumption. }
  unfold distance.
  assert (Hlt : ltb FNum (zero FNum) p = true) by (destruct Hp; subst p; vm_compute; reflexivity).
  rewrite Hlt.
  destruct (Hcore (length (g_infos1 g)) (fst a) (fst b) A1 B1 L1 N1) as [F1 P1].
  destruct (Hcore (length (g_infos2 g)) (snd a) (snd b) A2 B2 L2 N2) as [F2 P2].
  eexists. eexists. split; [reflexivity|]. exact (conj F1 (conj P1 (conj F2 P2))).
Qed.

Theorem distance_player_float_self : forall (p : float) (n : nat) (l : list float),
  ltb FNum (zero FNum) p = true -> Forall Ffin l -> (Z.of_nat n < 2 ^ 52)%Z ->
  @distance_player FNum p n l l = 0%float.
Proof.
  intros p n l Hp Hl Hn. unfold distance_player. destruct n as [|n']; [reflexivity|].
  rewrite (dist_sum_float_self p l Hp Hl).
  destruct (denom_ok (S n') Hn) as [Hf He]. cbv zeta in Hf, He.
  apply div_pzero_pos; [exact Hf|]. rewrite He.
  assert (H : 1 <= INR (S n')) by (change 1 with (INR 1); apply le_INR; lia). lra.
Qed.

Definition ex_pure_a : list float := [1; 0; 1; 0]%float.
Definition ex_pure_b : list float := [0; 1; 0; 1]%float.
Definition ex_mixed : list float := [0.5; 0.5; 0.25; 0.75]%float.

Example ex_pure_a_fin01 : Forall fin01 ex_pure_a.
Proof. apply forallb_fin01b. vm_compute. reflexivity. Qed.
Example ex_pure_b_fin01 : Forall fin01 ex_pure_b.
Proof. apply forallb_fin01b. vm_compute. reflexivity. Qed.
Example ex_mixed_fin01 : Forall fin01 ex_mixed.
Proof. apply forallb_fin01b. vm_compute. reflexivity. Qed.

(** disjoint pure rows over two infosets: distance exactly 1, both exponents *)
Example ex_dist_disjoint_1 : @distance_player FNum 1%float 2 ex_pure_a ex_pure_b = 1%float.
Proof. vm_compute. reflexivity. Qed.
Example ex_dist_disjoint_2 : @distance_player FNum 2%float 2 ex_pure_a ex_pure_b = 1%float.
Proof. vm_compute. reflexivity. Qed.

(** equal profiles: exactly 0 (also for an exponent that goes through exp/ln) *)
Example ex_dist_equal_1 : @distance_player FNum 1%float 2 ex_mixed ex_mixed = 0%float.
Proof. vm_compute. reflexivity. Qed.
Example ex_dist_equal_2 : @distance_player FNum 2%float 2 ex_mixed ex_mixed = 0%float.
Proof. vm_compute. reflexivity. Qed.
Example ex_dist_equal_3 : @distance_player FNum 3%float 2 ex_mixed ex_mixed = 0%float.
Proof. vm_compute. reflexivity. Qed.

(** a mixed case, symmetric bit for bit *)
Example ex_dist_mixed :
  @distance_player FNum 1%float 2 ex_pure_a ex_mixed = 0.625%float /\
  @distance_player FNum 1%float 2 ex_mixed ex_pure_a = 0.625%float /\
  @distance_player FNum 2%float 2 ex_pure_a ex_mixed = 0x1.ap-2%float.
Proof. vm_compute. repeat split; reflexivity. Qed.

(** non-finite entries: inf - inf is NaN, the self-distance is NaN, so
    [Forall Ffin] cannot be dropped from [dist_sum_float_self]; symmetry still
    holds *)
Example ex_dist_inf : PrimFloat.is_nan (@dist_sum FNum 1%float [infinity] [infinity]) = true.
Proof. vm_compute. reflexivity. Qed.

Example ex_valid_instance_1 :
  let d := @distance_player FNum 1%float 2 ex_pure_a ex_mixed in Ffin d /\ 0 <= FR d.
Proof.
  destruct (distance_player_float_1 2 ex_pure_a ex_mixed ex_pure_a_fin01 ex_mixed_fin01)
    as [_ [_ [A [B _]]]]; try (vm_compute; reflexivity); try lia.
  split; assumption.
Qed.
