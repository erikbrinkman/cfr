(** * MiscFloat: two unrelated functions at binary64 itself (instance [FNum]).

    The categorical sampler ([Multinomial::sample], [@categorical FNum]): range,
    the exact characterisation through the chain of float residuals [r_0 = u],
    [r_(j+1) = r_j - p_j] (float subtraction), its reading in the reals for finite
    non-negative weights, the link with the real-number sampler of C10 when the
    subtractions are exact (e.g. weights and variate on the grid 2^-53), and
    monotonicity in the variate.

    The clip decision of the binary ([@cli_choose FNum]): the printed profile is
    the solved one or its truncation, chosen by the strict float comparison of
    the two regrets; either way all its entries are finite binary64 numbers in
    [0,1], for every clip threshold (NaN, infinities included). *)
From Coq Require Import List ZArith NArith Reals Floats Bool Lia Lra.
From Flocq Require Import Core IEEE754.BinarySingleNaN IEEE754.PrimFloat.
From Cfr.theories Require Import Num FInst RInst Tree Strat Eval Solve Cli
     TruncFloat StratIterProofs SolveValidProofs.
Import ListNotations.

Local Existing Instance Flocq.IEEE754.PrimFloat.Hprec.
Local Existing Instance Flocq.IEEE754.PrimFloat.Hmax.

Local Open Scope R_scope.
Local Notation float := PrimFloat.float.
Local Notation Hp := Flocq.IEEE754.PrimFloat.Hprec.
Local Notation Hm := Flocq.IEEE754.PrimFloat.Hmax.

Local Instance fexp_valid'' : Valid_exp (SpecFloat.fexp prec emax) := fexp_correct prec emax Hp.

Section Generic.
  Context {NN : Num}.
  Local Notation T := (T NN).

  Lemma cat_loop_range_gen (init : list T) (rem : T) (res : nat) :
    (res <= cat_loop init rem res <= res + length init)%nat.
  Proof.
    revert rem res; induction init as [|v r IH]; intros rem res; cbn [cat_loop length]; [lia|].
    destruct (ltb NN v rem); [|lia]. specialize (IH (sub NN rem v) (S res)). lia.
  Qed.

  Theorem categorical_range_gen (probs : list T) (u : T) :
    probs <> [] -> (categorical probs u < length probs)%nat.
  Proof.
    intros Hne. unfold categorical.
    pose proof (cat_loop_range_gen (removelast probs) u 0) as H.
    rewrite removelast_length in H.
    destruct probs as [|x l]; [congruence|]. cbn [length] in *. lia.
  Qed.

  (** the chain of residuals: [resid probs u j = ((u - p_0) - p_1) - ... - p_(j-1)] *)
  Definition resid (probs : list T) (u : T) (j : nat) : T :=
    fold_left (sub NN) (firstn j probs) u.

  Lemma resid_0 (probs : list T) (u : T) : resid probs u 0 = u.
  Proof. reflexivity. Qed.

  Lemma resid_cons (v : T) (l : list T) (u : T) (j : nat) :
    resid (v :: l) u (S j) = resid l (sub NN u v) j.
  Proof. reflexivity. Qed.

  Lemma resid_S (probs : list T) (u : T) (j : nat) (d : T) :
    (j < length probs)%nat ->
    resid probs u (S j) = sub NN (resid probs u j) (nth j probs d).
  Proof.
    revert u j; induction probs as [|v l IH]; intros u j Hj; cbn [length] in Hj; [lia|].
    destruct j as [|j].
    - reflexivity.
    - rewrite resid_cons, (resid_cons v l u j). cbn [nth]. apply IH. lia.
  Qed.

  (** the loop stops at the first position where [p_j < r_j] fails *)
  Lemma cat_loop_spec_gen (d : T) (init : list T) (r : T) (res k : nat) :
    cat_loop init r res = (res + k)%nat <->
    (k <= length init)%nat /\
    (forall j, (j < k)%nat -> ltb NN (nth j init d) (resid init r j) = true) /\
    (k = length init \/ ltb NN (nth k init d) (resid init r k) = false).
  Proof.
    revert r res k; induction init as [|v l IH]; intros r res k.
    - cbn [cat_loop length]. split.
      + intros H. assert (k = 0)%nat by lia. subst k.
        split; [lia|]. split; [intros j Hj; lia | left; reflexivity].
      + intros [H _]. lia.
    - cbn [cat_loop length]. destruct (ltb NN v r) eqn:E.
      + destruct k as [|k].
        * split.
          -- intros H. pose proof (cat_loop_range_gen l (sub NN r v) (S res)). lia.
          -- intros [_ [_ [H|H]]]; [discriminate H|].
             cbn [nth] in H. rewrite resid_0 in H. congruence.
        * replace (res + S k)%nat with (S res + k)%nat by lia.
          rewrite (IH (sub NN r v) (S res) k). split.
          -- intros [H1 [H2 H3]]. split; [lia|]. split.
             ++ intros [|j] Hj; [exact E|]. cbn [nth]. rewrite resid_cons. apply H2. lia.
             ++ destruct H3 as [H3|H3]; [left; lia|right]. cbn [nth]. rewrite resid_cons. exact H3.
          -- intros [H1 [H2 H3]]. split; [lia|]. split.
             ++ intros j Hj. specialize (H2 (S j) ltac:(lia)). cbn [nth] in H2.
                rewrite resid_cons in H2. exact H2.
             ++ destruct H3 as [H3|H3]; [left; lia|right]. cbn [nth] in H3.
                rewrite resid_cons in H3. exact H3.
      + split.
        * intros H. assert (k = 0)%nat by lia. subst k.
          split; [lia|]. split; [intros j Hj; lia|right]. exact E.
        * intros [_ [H2 _]]. destruct k as [|k]; [lia|].
          specialize (H2 0%nat ltac:(lia)). cbn [nth] in H2. rewrite resid_0 in H2. congruence.
  Qed.

  Lemma nth_removelast {A} (l : list A) (j : nat) (d : A) :
    (S j < length l)%nat -> nth j (removelast l) d = nth j l d.
  Proof.
    revert j; induction l as [|x l IH]; intros j Hj; cbn [length] in Hj; [lia|].
    destruct l as [|y l]; [cbn [length] in Hj; lia|].
    change (removelast (x :: y :: l)) with (x :: removelast (y :: l)).
    destruct j as [|j]; [reflexivity|]. cbn [nth]. apply IH. cbn [length] in *. lia.
  Qed.

  (** the result is the first [k < n-1] at which the strict test
      [p_k < r_k] fails, or [n-1] *)
  Theorem categorical_resid_spec_gen (d : T) (probs : list T) (u : T) (k : nat) :
    probs <> [] ->
    (categorical probs u = k <->
     (k <= length probs - 1)%nat /\
     (forall j, (j < k)%nat -> ltb NN (nth j probs d) (resid probs u j) = true) /\
     (k = (length probs - 1)%nat \/ ltb NN (nth k probs d) (resid probs u k) = false)).
  Proof.
    intros Hne. unfold categorical.
    assert (Hlen : (0 < length probs)%nat).
    { destruct probs; [congruence|cbn [length]; lia]. }
    rewrite (cat_loop_spec_gen d (removelast probs) u 0 k). rewrite removelast_length.
    unfold resid. split.
    - intros [H1 [H2 H3]]. split; [exact H1|]. split.
      + intros j Hj. specialize (H2 j Hj).
        rewrite nth_removelast, firstn_removelast in H2 by lia. exact H2.
      + destruct H3 as [H3|H3]; [left; exact H3|].
        destruct (Nat.eq_dec k (length probs - 1)) as [Hk|Hk]; [left; exact Hk|right].
        rewrite nth_removelast, firstn_removelast in H3 by lia. exact H3.
    - intros [H1 [H2 H3]]. split; [exact H1|]. split.
      + intros j Hj. rewrite nth_removelast, firstn_removelast by lia. apply H2. exact Hj.
      + destruct H3 as [H3|H3]; [left; exact H3|].
        destruct (Nat.eq_dec k (length probs - 1)) as [Hk|Hk]; [left; exact Hk|right].
        rewrite nth_removelast, firstn_removelast by lia. exact H3.
  Qed.
End Generic.

Lemma cat_loop_FNum_cons : forall (v : float) (l : list float) (r : float) (res : nat),
  @cat_loop FNum (v :: l) r res =
  if PrimFloat.ltb v r then @cat_loop FNum l (PrimFloat.sub r v) (S res) else res.
Proof. reflexivity. Qed.

Lemma cat_loop_float_range : forall (init : list float) (r : float) (res : nat),
  (res <= @cat_loop FNum init r res <= res + @length float init)%nat.
Proof. intros init r res. apply (@cat_loop_range_gen FNum). Qed.

Theorem categorical_float_range : forall (probs : list float) (u : float),
  probs <> [] -> (@categorical FNum probs u < length probs)%nat.
Proof. intros probs u. apply (@categorical_range_gen FNum). Qed.

(** [fresid probs u j] is [r_j]: [r_0 = u], [r_(j+1) = r_j - p_j] in binary64 *)
Definition fresid (probs : list float) (u : float) (j : nat) : float :=
  fold_left PrimFloat.sub (firstn j probs) u.

Lemma fresid_is_resid : forall probs u j, fresid probs u j = @resid FNum probs u j.
Proof. reflexivity. Qed.

Lemma fresid_S : forall probs u j, (j < length probs)%nat ->
  fresid probs u (S j) = PrimFloat.sub (fresid probs u j) (nth j probs 0%float).
Proof. intros probs u j Hj. apply (@resid_S FNum probs u j 0%float Hj). Qed.

(** For all inputs whatsoever (NaN, infinities, negative weights): the index is the first
    [k < n-1] at which the strict float test [p_k <? r_k] is false, or [n-1].  (For finite
    operands "[p_k <? r_k] is false" reads [r_k <= p_k]; a NaN residual also stops the walk.) *)
Theorem categorical_float_resid_spec : forall (probs : list float) (u : float) (k : nat),
  probs <> [] ->
  (@categorical FNum probs u = k <->
   (k <= length probs - 1)%nat /\
   (forall j, (j < k)%nat -> PrimFloat.ltb (nth j probs 0%float) (fresid probs u j) = true) /\
   (k = (length probs - 1)%nat \/
    PrimFloat.ltb (nth k probs 0%float) (fresid probs u k) = false)).
Proof. intros probs u k. apply (@categorical_resid_spec_gen FNum 0%float). Qed.

(** a finite non-negative binary64 number (a weight; it need not be at most 1) *)
Definition fnn (x : float) : Prop := Ffin x /\ 0 <= FR x.

Lemma fin01_fnn : forall x, fin01 x -> fnn x.
Proof. intros x [H1 [H2 _]]. split; assumption. Qed.

Lemma Forall_fin01_fnn : forall l, Forall fin01 l -> Forall fnn l.
Proof. intros l H. eapply Forall_impl; [|exact H]. exact fin01_fnn. Qed.

Lemma FR_lt_emax : forall x, Rabs (FR x) < bpow radix2 emax.
Proof. intros x. unfold FR. apply abs_B2R_lt_emax. Qed.

(** one step of the walk: subtracting a smaller non-negative weight from a finite residual
    is a correctly rounded subtraction that stays in [0, r] *)
Lemma sub_step : forall r p : float,
  Ffin r -> fnn p -> FR p <= FR r ->
  Ffin (r - p)%float /\ FR (r - p)%float = rnd (FR r - FR p) /\
  0 <= FR (r - p)%float <= FR r.
Proof.
  intros r p Hr [Hpf Hp0] Hpr.
  assert (H0 : 0 <= rnd (FR r - FR p)) by (apply rnd_ge_fmt; [apply fmt_0 | lra]).
  assert (H1 : rnd (FR r - FR p) <= FR r) by (apply rnd_le_fmt; [apply fmt_FR | lra]).
  assert (Hb : Rabs (rnd (FR r - FR p)) < bpow radix2 emax).
  { rewrite Rabs_pos_eq by exact H0. apply Rle_lt_trans with (1 := H1).
    apply Rle_lt_trans with (2 := FR_lt_emax r). apply Rle_abs. }
  destruct (sub_ok r p Hr Hpf Hb) as [Hf He].
  split; [exact Hf|]. split; [exact He|]. rewrite He. split; assumption.
Qed.

Lemma ltb_true_fin : forall x y, Ffin x -> Ffin y ->
  (PrimFloat.ltb x y = true <-> FR x < FR y).
Proof.
  intros x y Hx Hy. rewrite (ltb_fin x y Hx Hy).
  destruct (Rlt_bool_spec (FR x) (FR y)) as [H|H]; split; intro H'; try reflexivity;
    try assumption; try discriminate; lra.
Qed.

Lemma ltb_false_fin : forall x y, Ffin x -> Ffin y ->
  (PrimFloat.ltb x y = false <-> FR y <= FR x).
Proof.
  intros x y Hx Hy. rewrite (ltb_fin x y Hx Hy).
  destruct (Rlt_bool_spec (FR x) (FR y)) as [H|H]; split; intro H'; try reflexivity;
    try assumption; try discriminate; lra.
Qed.

Lemma fnn_nth : forall (l : list float) (j : nat), Forall fnn l -> fnn (nth j l 0%float).
Proof.
  intros l j Hl. destruct (Nat.lt_ge_cases j (length l)) as [H|H].
  - apply Forall_nth; assumption.
  - rewrite nth_overflow by exact H. split; [apply Ffin_zero | rewrite FR_zero; lra].
Qed.

(** as long as every weight met so far was below its residual (the hypothesis
    only speaks of finite residuals), the residuals are finite, non-negative
    after the first step, and never above the variate: no NaN, no infinity can
    appear in the walk *)
Lemma walk_fin : forall (probs : list float) (u : float) (k : nat),
  Forall fnn probs -> Ffin u -> (k <= length probs)%nat ->
  (forall j, (j < k)%nat -> Ffin (fresid probs u j) ->
     FR (nth j probs 0%float) < FR (fresid probs u j)) ->
  forall j, (j <= k)%nat ->
  Ffin (fresid probs u j) /\ FR (fresid probs u j) <= FR u /\
  ((1 <= j)%nat -> 0 <= FR (fresid probs u j)).
Proof.
  intros probs u k Hp Hu Hk Hlt. induction j as [|j IH]; intros Hj.
  - change (fresid probs u 0) with u. split; [exact Hu|]. split; [lra | lia].
  - destruct (IH ltac:(lia)) as [Hf [Hle _]].
    rewrite fresid_S by lia.
    destruct (sub_step _ _ Hf (fnn_nth probs j Hp)) as [G1 [_ [G2 G3]]];
      [left; apply Hlt; [lia | exact Hf]|].
    split; [exact G1|]. split; [lra | intros _; exact G2].
Qed.

(** in the reals: for finite non-negative weights and a finite variate the index is
    the first [k < n-1] with [r_k <= p_k] (values of the float residuals), or [n-1] *)
Theorem categorical_float_real_spec : forall (probs : list float) (u : float) (k : nat),
  probs <> [] -> Forall fnn probs -> Ffin u ->
  (@categorical FNum probs u = k <->
   (k <= length probs - 1)%nat /\
   (forall j, (j < k)%nat -> FR (nth j probs 0%float) < FR (fresid probs u j)) /\
   (k = (length probs - 1)%nat \/ FR (fresid probs u k) <= FR (nth k probs 0%float))).
Proof.
  intros probs u k Hne Hp Hu. rewrite (categorical_float_resid_spec probs u k Hne).
  assert (Hn : forall j, Ffin (nth j probs 0%float)) by (intros j; apply (fnn_nth probs j Hp)).
  (* either way the residuals up to [k] are finite, so the float tests read in the reals *)
  split; intros [H1 [H2 H3]].
  - assert (Hfin := walk_fin probs u k Hp Hu ltac:(lia)
                      (fun j Hj Hf => proj1 (ltb_true_fin _ _ (Hn j) Hf) (H2 j Hj))).
    split; [exact H1|]. split.
    + intros j Hj. apply (ltb_true_fin _ _ (Hn j) (proj1 (Hfin j ltac:(lia)))), H2, Hj.
    + destruct H3 as [H3|H3]; [left; exact H3 | right].
      apply (ltb_false_fin _ _ (Hn k) (proj1 (Hfin k (le_n k)))), H3.
  - assert (Hfin := walk_fin probs u k Hp Hu ltac:(lia) (fun j Hj _ => H2 j Hj)).
    split; [exact H1|]. split.
    + intros j Hj. apply (ltb_true_fin _ _ (Hn j) (proj1 (Hfin j ltac:(lia)))), H2, Hj.
    + destruct H3 as [H3|H3]; [left; exact H3 | right].
      apply (ltb_false_fin _ _ (Hn k) (proj1 (Hfin k (le_n k)))), H3.
Qed.

Theorem categorical_float_residuals : forall (probs : list float) (u : float) (j : nat),
  probs <> [] -> Forall fnn probs -> Ffin u ->
  (j <= @categorical FNum probs u)%nat ->
  Ffin (fresid probs u j) /\ FR (fresid probs u j) <= FR u /\
  ((1 <= j)%nat -> 0 <= FR (fresid probs u j)) /\
  ((j < @categorical FNum probs u)%nat ->
     FR (fresid probs u (S j)) = rnd (FR (fresid probs u j) - FR (nth j probs 0%float))).
Proof.
  intros probs u j Hne Hp Hu Hj. set (k := @categorical FNum probs u) in *.
  destruct (proj1 (categorical_float_real_spec probs u k Hne Hp Hu) eq_refl) as [H1 [H2 _]].
  assert (Hk : (k <= length probs)%nat) by lia.
  destruct (walk_fin probs u k Hp Hu Hk (fun i Hi _ => H2 i Hi) j Hj) as [G1 [G2 G3]].
  split; [exact G1|]. split; [exact G2|]. split; [exact G3|].
  intros Hlt. specialize (H2 j Hlt). rewrite fresid_S by lia.
  apply (sub_step _ _ G1 (fnn_nth probs j Hp)). lra.
Qed.

Lemma Forall_removelast : forall (A : Type) (P : A -> Prop) (l : list A),
  Forall P l -> Forall P (removelast l).
Proof.
  intros A P l H. rewrite removelast_firstn_len. apply Forall_firstn'. exact H.
Qed.

Lemma ltb_nan_r : forall p h : float, PrimFloat.is_nan h = true -> PrimFloat.ltb p h = false.
Proof.
  intros p h Hh. rewrite is_nan_equiv in Hh. rewrite ltb_equiv.
  destruct (Prim2B h) as [s|s| |s m e He]; try discriminate Hh.
  destruct (Prim2B p) as [s'|s'| |s' m' e' He']; reflexivity.
Qed.

Theorem categorical_float_nan : forall (probs : list float) (u : float),
  PrimFloat.is_nan u = true -> @categorical FNum probs u = 0%nat.
Proof.
  intros probs u Hu. unfold categorical.
  match goal with |- context [cat_loop ?x _ _] => destruct x as [|v l] end; [reflexivity|].
  rewrite cat_loop_FNum_cons, (ltb_nan_r v u Hu). reflexivity.
Qed.

(** When no subtraction rounds, the binary64 sampler is the real-number sampler
    of C10 on the values of its arguments, hence reads through the cumulative sums *)

Lemma Rltb_Rlt_bool : forall a b, Rltb a b = Rlt_bool a b.
Proof.
  intros a b. destruct (Rlt_bool_spec a b) as [H|H].
  - apply Rltb_true. exact H.
  - apply Rltb_false. exact H.
Qed.

(** exactness is only needed while the walk goes on: as long as the exact residual
    [u - (p_0 + ... + p_j)] is positive it must be a binary64 number *)
Lemma cat_loop_exact : forall (init : list float) (r : float) (res : nat),
  Forall fnn init -> Ffin r ->
  (forall j, (j < length init)%nat ->
     Rsum (firstn (S j) (map FR init)) < FR r ->
     fmt (FR r - Rsum (firstn (S j) (map FR init)))) ->
  @cat_loop FNum init r res = @cat_loop RNum (map FR init) (FR r) res.
Proof.
  induction init as [|v l IH]; intros r res Hl Hr Hex; [reflexivity|].
  inversion Hl as [|v' l' Hv Hl']; subst. destruct Hv as [Hvf Hv0].
  rewrite cat_loop_FNum_cons. cbn [map cat_loop].
  change (ltb RNum (FR v) (FR r)) with (Rltb (FR v) (FR r)).
  change (sub RNum (FR r) (FR v)) with (FR r - FR v).
  destruct (PrimFloat.ltb v r) eqn:E.
  - apply (ltb_true_fin v r Hvf Hr) in E.
    rewrite (proj2 (Rltb_true _ _) E).
    destruct (sub_step r v Hr (conj Hvf Hv0) ltac:(lra)) as [Hf [He _]].
    assert (Hx : FR (r - v)%float = FR r - FR v).
    { rewrite He. apply rnd_fmt.
      specialize (Hex 0%nat ltac:(cbn [length]; lia)).
      cbn [map firstn Rsum] in Hex. rewrite Rplus_0_r in Hex. apply Hex. exact E. }
    rewrite <- Hx. apply IH; [exact Hl' | exact Hf |].
    intros j Hj Hlt. rewrite Hx in *.
    specialize (Hex (S j) ltac:(cbn [length]; lia)).
    change (firstn (S (S j)) (map FR (v :: l)))
      with (FR v :: firstn (S j) (map FR l)) in Hex.
    cbn [Rsum] in Hex.
    replace (FR r - FR v - Rsum (firstn (S j) (map FR l)))
      with (FR r - (FR v + Rsum (firstn (S j) (map FR l)))) by lra.
    apply Hex. lra.
  - apply (ltb_false_fin v r Hvf Hr) in E.
    rewrite (proj2 (Rltb_false _ _) E). reflexivity.
Qed.

Lemma map_removelast : forall (A B : Type) (f : A -> B) (l : list A),
  map f (removelast l) = removelast (map f l).
Proof.
  intros A B f l. induction l as [|x l IH]; [reflexivity|].
  destruct l as [|y l]; [reflexivity|].
  change (removelast (x :: y :: l)) with (x :: removelast (y :: l)).
  change (map f (x :: y :: l)) with (f x :: f y :: map f l).
  change (removelast (f x :: f y :: map f l)) with (f x :: removelast (f y :: map f l)).
  cbn [map]. apply f_equal. exact IH.
Qed.

Theorem categorical_float_exact : forall (probs : list float) (u : float),
  probs <> [] -> Forall fnn probs -> Ffin u ->
  (forall j, (S j < length probs)%nat ->
     cumul (map FR probs) (S j) < FR u -> fmt (FR u - cumul (map FR probs) (S j))) ->
  @categorical FNum probs u = @categorical RNum (map FR probs) (FR u).
Proof.
  intros probs u Hne Hp Hu Hex. unfold categorical.
  assert (Hlen : (0 < length probs)%nat).
  { destruct probs; [congruence|cbn [length]; lia]. }
  change (T RNum) with R. rewrite <- map_removelast.
  apply cat_loop_exact; [apply Forall_removelast; exact Hp | exact Hu |].
  intros j Hj. rewrite removelast_length in Hj.
  rewrite map_removelast, firstn_removelast by (rewrite map_length; lia).
  apply Hex. lia.
Qed.

Lemma Forall_FR_nonneg : forall l, Forall fnn l -> Forall (fun x => 0 <= x) (map FR l).
Proof.
  intros l H. induction H as [|x l [_ Hx] Hl IH]; cbn [map]; constructor; assumption.
Qed.

(** ... and then index [k] is returned exactly when [cum_k < u <= cum_(k+1)] in the reals
    (first interval without lower end, last without upper end, as in C10) *)
Theorem categorical_float_exact_interval : forall (probs : list float) (u : float) (k : nat),
  probs <> [] -> Forall fnn probs -> Ffin u ->
  (forall j, (S j < length probs)%nat ->
     cumul (map FR probs) (S j) < FR u -> fmt (FR u - cumul (map FR probs) (S j))) ->
  (@categorical FNum probs u = k <->
   (k <= length probs - 1)%nat /\
   (k = 0%nat \/ cumul (map FR probs) k < FR u) /\
   (k = (length probs - 1)%nat \/ FR u <= cumul (map FR probs) (S k))).
Proof.
  intros probs u k Hne Hp Hu Hex.
  rewrite (categorical_float_exact probs u Hne Hp Hu Hex).
  assert (Hne' : map FR probs <> []) by (destruct probs; [congruence | discriminate]).
  rewrite (categorical_spec (map FR probs) (FR u) k Hne' (Forall_FR_nonneg probs Hp)).
  rewrite map_length. reflexivity.
Qed.

(** A sufficient condition ("dyadic probabilities"): weights and variate are integer
    multiples of 2^-53 and the variate is at most 1.  That grid is exactly the range of
    [rng.gen::<f64>()] (rand 0.8, [Standard]: a 53-bit integer times 2^-53, in [0,1)). *)
Definition gridR (x : R) : Prop := exists m : Z, x = IZR m * bpow radix2 (-53).
Definition grid53 (x : float) : Prop := gridR (FR x).

Lemma gridR_0 : gridR 0.
Proof. exists 0%Z. rewrite Rmult_0_l. reflexivity. Qed.

Lemma gridR_plus : forall x y, gridR x -> gridR y -> gridR (x + y).
Proof. intros x y [m ->] [n ->]. exists (m + n)%Z. rewrite plus_IZR. lra. Qed.

Lemma gridR_minus : forall x y, gridR x -> gridR y -> gridR (x - y).
Proof. intros x y [m ->] [n ->]. exists (m - n)%Z. rewrite minus_IZR. lra. Qed.

Lemma gridR_Rsum : forall l, Forall gridR l -> gridR (Rsum l).
Proof.
  intros l H. induction H as [|x l Hx Hl IH]; cbn [Rsum]; [apply gridR_0|].
  apply gridR_plus; assumption.
Qed.

Lemma gridR_fmt : forall x, gridR x -> 0 <= x <= 1 -> fmt x.
Proof.
  intros x [m ->] [H0 H1].
  assert (Hinv : bpow radix2 53 * bpow radix2 (-53) = 1).
  { rewrite <- bpow_plus. reflexivity. }
  assert (Hm0 : (0 <= m)%Z).
  { apply le_IZR. apply Rmult_le_reg_r with (bpow radix2 (-53)); [apply bpow_gt_0|].
    rewrite Rmult_0_l. exact H0. }
  assert (Hm1 : (m <= 2 ^ 53)%Z).
  { apply le_IZR. change (IZR (2 ^ 53)) with (bpow radix2 53).
    apply Rmult_le_reg_r with (bpow radix2 (-53)); [apply bpow_gt_0|].
    rewrite Hinv. exact H1. }
  destruct (Z.eq_dec m (2 ^ 53)) as [->|Hne].
  - change (IZR (2 ^ 53)) with (bpow radix2 53). rewrite Hinv. apply fmt_1.
  - unfold fmt.
    apply (generic_format_FLT radix2 (SpecFloat.emin prec emax) prec).
    apply (FLT_spec radix2 (SpecFloat.emin prec emax) prec _ (Float radix2 m (-53))).
    + reflexivity.
    + cbn [Fnum]. change (radix2 ^ prec)%Z with (2 ^ 53)%Z. lia.
    + cbv. discriminate.
Qed.

Theorem categorical_float_dyadic : forall (probs : list float) (u : float) (k : nat),
  probs <> [] -> Forall fnn probs -> Forall grid53 probs ->
  Ffin u -> FR u <= 1 -> grid53 u ->
  @categorical FNum probs u = @categorical RNum (map FR probs) (FR u) /\
  (@categorical FNum probs u = k <->
   (k <= length probs - 1)%nat /\
   (k = 0%nat \/ cumul (map FR probs) k < FR u) /\
   (k = (length probs - 1)%nat \/ FR u <= cumul (map FR probs) (S k))).
Proof.
  intros probs u k Hne Hp Hg Hu Hu1 Hgu.
  assert (Hex : forall j, (S j < length probs)%nat ->
     cumul (map FR probs) (S j) < FR u -> fmt (FR u - cumul (map FR probs) (S j))).
  { intros j Hj Hlt. apply gridR_fmt.
    - apply gridR_minus; [exact Hgu|]. unfold cumul. apply gridR_Rsum.
      apply Forall_firstn'. clear -Hg.
      induction Hg as [|x l Hx Hl IH]; cbn [map]; constructor; assumption.
    - assert (H0 : 0 <= cumul (map FR probs) (S j)).
      { unfold cumul. apply Rsum_nonneg. apply Forall_firstn'.
        apply Forall_FR_nonneg. exact Hp. }
      lra. }
  split.
  - apply categorical_float_exact; assumption.
  - apply categorical_float_exact_interval; assumption.
Qed.

(** Monotonicity in the variate: it holds for float subtraction chains, because
    correctly rounded subtraction is monotone and the test is the same at every step *)

Lemma cat_loop_mono : forall (init : list float) (r r' : float) (res : nat),
  Forall fnn init -> Ffin r -> Ffin r' -> FR r <= FR r' ->
  (@cat_loop FNum init r res <= @cat_loop FNum init r' res)%nat.
Proof.
  induction init as [|v l IH]; intros r r' res Hl Hr Hr' Hle; [cbn [cat_loop]; lia|].
  inversion Hl as [|v' l' Hv Hl']; subst. destruct Hv as [Hvf Hv0].
  rewrite !cat_loop_FNum_cons.
  destruct (PrimFloat.ltb v r) eqn:E.
  - apply (ltb_true_fin v r Hvf Hr) in E.
    assert (E' : PrimFloat.ltb v r' = true) by (apply (ltb_true_fin v r' Hvf Hr'); lra).
    rewrite E'.
    destruct (sub_step r v Hr (conj Hvf Hv0) ltac:(lra)) as [Hf [He _]].
    destruct (sub_step r' v Hr' (conj Hvf Hv0) ltac:(lra)) as [Hf' [He' _]].
    apply IH; [exact Hl' | exact Hf | exact Hf' |].
    rewrite He, He'. apply rnd_le. lra.
  - destruct (PrimFloat.ltb v r'); [|lia].
    pose proof (@cat_loop_range_gen FNum l (r' - v)%float (S res)). lia.
Qed.

Lemma cat_loop_pinf : forall (init : list float) (r : float) (res : nat),
  Forall fnn init -> Prim2B r = B754_infinity false ->
  @cat_loop FNum init r res = (res + length init)%nat.
Proof.
  induction init as [|v l IH]; intros r res Hl Hr; [cbn [cat_loop length]; lia|].
  inversion Hl as [|v' l' Hv Hl']; subst. destruct Hv as [Hvf _].
  rewrite cat_loop_FNum_cons. unfold Ffin in Hvf.
  assert (E : PrimFloat.ltb v r = true).
  { rewrite ltb_equiv, Hr.
    destruct (Prim2B v) as [s|s| |s m e He]; try discriminate Hvf; reflexivity. }
  assert (E2 : Prim2B (r - v)%float = B754_infinity false).
  { rewrite sub_equiv, Hr.
    destruct (Prim2B v) as [s|s| |s m e He]; try discriminate Hvf; reflexivity. }
  rewrite E, (IH (r - v)%float (S res) Hl' E2). cbn [length]. lia.
Qed.

Lemma cat_loop_ninf : forall (init : list float) (r : float) (res : nat),
  Prim2B r = B754_infinity true -> @cat_loop FNum init r res = res.
Proof.
  intros [|v l] r res Hr; [reflexivity|].
  rewrite cat_loop_FNum_cons.
  assert (E : PrimFloat.ltb v r = false).
  { rewrite ltb_equiv, Hr.
    destruct (Prim2B v) as [s|s| |s m e He]; try reflexivity; destruct s; reflexivity. }
  rewrite E. reflexivity.
Qed.

Lemma Bleb_not_fin : forall x y : binary_float prec emax,
  Bleb x y = true -> is_finite x && is_finite y = false ->
  x = B754_infinity true \/ y = B754_infinity false.
Proof.
  intros [s|[|]| |s m e He] [s'|[|]| |s' m' e' He'] H F;
    try discriminate H; try discriminate F; auto.
Qed.

Lemma leb_cases : forall u u' : float, PrimFloat.leb u u' = true ->
  (Ffin u /\ Ffin u' /\ FR u <= FR u') \/
  Prim2B u = B754_infinity true \/ Prim2B u' = B754_infinity false.
Proof.
  intros u u' H. unfold Ffin.
  destruct (is_finite (Prim2B u) && is_finite (Prim2B u')) eqn:F.
  - apply andb_prop in F. destruct F as [Fu Fu']. left.
    rewrite (leb_fin u u' Fu Fu') in H.
    destruct (Rle_bool_spec (FR u) (FR u')) as [Hle|Hle]; [auto | discriminate H].
  - right. rewrite leb_equiv in H. exact (Bleb_not_fin _ _ H F).
Qed.

(** for every pair of variates ordered by the float comparison [<=?] (so: neither is NaN;
    infinities allowed), finite non-negative weights *)
Theorem categorical_float_mono : forall (probs : list float) (u u' : float),
  Forall fnn probs -> PrimFloat.leb u u' = true ->
  (@categorical FNum probs u <= @categorical FNum probs u')%nat.
Proof.
  intros probs u u' Hp Hle.
  change (@cat_loop FNum (removelast probs) u 0 <= @cat_loop FNum (removelast probs) u' 0)%nat.
  assert (Hi := Forall_removelast _ _ _ Hp).
  destruct (leb_cases u u' Hle) as [[Fu [Fu' H]]|[E|E]].
  - apply cat_loop_mono; assumption.
  - rewrite (cat_loop_ninf _ u 0 E). lia.
  - rewrite (cat_loop_pinf _ u' 0 Hi E).
    pose proof (cat_loop_float_range (removelast probs) u 0). lia.
Qed.

Corollary categorical_float_mono_fin : forall (probs : list float) (u u' : float),
  Forall fnn probs -> Ffin u -> Ffin u' -> FR u <= FR u' ->
  (@categorical FNum probs u <= @categorical FNum probs u')%nat.
Proof.
  intros probs u u' Hp Hu Hu' Hle. apply categorical_float_mono; [exact Hp|].
  rewrite (leb_fin u u' Hu Hu'). apply Rle_bool_true. exact Hle.
Qed.

(** the two regrets that are compared: of the solved profile and of its truncation *)
Definition regret_orig (g : @game FNum) (prof : list float * list float) : float :=
  @si_regret FNum (@info FNum g prof).
Definition regret_trunc (g : @game FNum) (clip : float) (prof : list float * list float) : float :=
  @si_regret FNum (@info FNum g (@truncate FNum g clip prof)).

(** [pruned] is the strict float comparison of the two regrets, nothing else *)
Theorem cli_float_pruned :
  forall (g : @game FNum) (sum clip : float) (prof : list float * list float),
  o_pruned (@cli_choose FNum g sum clip prof)
  = PrimFloat.ltb (regret_trunc g clip prof) (regret_orig g prof).
Proof. reflexivity. Qed.

Theorem cli_float_pruned_iff :
  forall (g : @game FNum) (sum clip : float) (prof : list float * list float),
  o_pruned (@cli_choose FNum g sum clip prof) = true <->
  PrimFloat.ltb (@si_regret FNum (@info FNum g (@truncate FNum g clip prof)))
                (@si_regret FNum (@info FNum g prof)) = true.
Proof. intros g sum clip prof. rewrite cli_float_pruned. reflexivity. Qed.

Theorem cli_float_prof :
  forall (g : @game FNum) (sum clip : float) (prof : list float * list float),
  o_prof (@cli_choose FNum g sum clip prof)
  = if PrimFloat.ltb (regret_trunc g clip prof) (regret_orig g prof)
    then @truncate FNum g clip prof else prof.
Proof. reflexivity. Qed.

Theorem cli_float_cases :
  forall (g : @game FNum) (sum clip : float) (prof : list float * list float),
  let out := @cli_choose FNum g sum clip prof in
  (PrimFloat.ltb (regret_trunc g clip prof) (regret_orig g prof) = true /\
   o_pruned out = true /\ o_prof out = @truncate FNum g clip prof) \/
  (PrimFloat.ltb (regret_trunc g clip prof) (regret_orig g prof) = false /\
   o_pruned out = false /\ o_prof out = prof).
Proof.
  intros g sum clip prof out. unfold out.
  rewrite cli_float_pruned, cli_float_prof.
  destruct (PrimFloat.ltb (regret_trunc g clip prof) (regret_orig g prof));
    [left | right]; repeat split; reflexivity.
Qed.

Theorem cli_float_nan_regret :
  forall (g : @game FNum) (sum clip : float) (prof : list float * list float),
  PrimFloat.is_nan (regret_trunc g clip prof) = true \/
  PrimFloat.is_nan (regret_orig g prof) = true ->
  o_pruned (@cli_choose FNum g sum clip prof) = false /\
  o_prof (@cli_choose FNum g sum clip prof) = prof.
Proof.
  intros g sum clip prof H.
  rewrite cli_float_pruned, cli_float_prof.
  assert (E : PrimFloat.ltb (regret_trunc g clip prof) (regret_orig g prof) = false).
  { destruct H as [H|H]; [apply ltb_nan_l | apply ltb_nan_r]; exact H. }
  rewrite E. split; reflexivity.
Qed.

(** all the printed numbers are those of the evaluation [info] of the printed profile *)
Theorem cli_float_output_is_info_of_printed :
  forall (g : @game FNum) (sum clip : float) (prof : list float * list float),
  let out := @cli_choose FNum g sum clip prof in
  let i := @info FNum g (o_prof out) in
  o_regret out = @si_regret FNum i /\ o_reg1 out = si_reg1 i /\ o_reg2 out = si_reg2 i /\
  o_util1 out = PrimFloat.add (si_util i) sum /\
  o_util2 out = PrimFloat.add (PrimFloat.opp (si_util i)) sum.
Proof.
  intros g sum clip prof out i. unfold i, out, cli_choose. cbv zeta.
  destruct (ltb FNum _ _); cbn [o_regret o_reg1 o_reg2 o_util1 o_util2 o_prof];
    repeat split; reflexivity.
Qed.

(** C16, last sentence, at binary64: what is printed is always a profile of finite
    binary64 numbers in [0,1] -- for every clip threshold, NaN and infinities included,
    and whatever the two regrets are (NaN included) *)
Theorem cli_float_printed_valid :
  forall (g : @game FNum) (sum clip : float) (prof : list float * list float),
  Forall fin01 (fst prof) -> Forall fin01 (snd prof) ->
  (Z.of_nat (length (fst prof)) < 2 ^ 53)%Z ->
  (Z.of_nat (length (snd prof)) < 2 ^ 53)%Z ->
  Forall fin01 (fst (o_prof (@cli_choose FNum g sum clip prof))) /\
  Forall fin01 (snd (o_prof (@cli_choose FNum g sum clip prof))).
Proof.
  intros g sum clip prof H1 H2 L1 L2. rewrite cli_float_prof.
  destruct (PrimFloat.ltb (regret_trunc g clip prof) (regret_orig g prof)).
  - apply truncate_float_valid; assumption.
  - split; assumption.
Qed.

(** what is printed for one player ([printed_strategy]: the named view without the
    zero-probability actions): every printed probability is an entry of the printed
    profile (or the constant 1 of a single-action infoset), hence a finite binary64
    number in (0,1] *)
Lemma In_split_by : forall (A : Type) (ars : list nat) (flat row : list A) (x : A),
  In row (split_by flat ars) -> In x row -> In x flat.
Proof.
  intros A ars. induction ars as [|n ars IH]; intros flat row x Hr Hx; cbn [split_by] in Hr.
  - destruct Hr.
  - destruct Hr as [Hr|Hr].
    + subst row. rewrite <- (firstn_skipn n flat). apply in_or_app. left. exact Hx.
    + rewrite <- (firstn_skipn n flat). apply in_or_app. right. apply (IH _ _ _ Hr Hx).
Qed.

Theorem printed_float_valid :
  forall (g : @game FNum) (pl : bool) (prof : list float * list float),
  Forall fin01 (if pl then fst prof else snd prof) ->
  forall (name : N) (l : list (N * float)),
    In (name, l) (@printed_strategy FNum g pl prof) ->
    forall (a : N) (p : float), In (a, p) l -> fin01 p /\ 0 < FR p.
Proof.
  intros g pl prof Hv name l Hin a p Hap.
  unfold printed_strategy in Hin. apply in_map_iff in Hin.
  destruct Hin as [e [He Hin]]. inversion He; subst name l; clear He.
  apply filter_In in Hap. destruct Hap as [Hap Hpos]. cbn [snd] in Hpos.
  change (ltb FNum (zero FNum) p) with (PrimFloat.ltb 0 p) in Hpos.
  assert (Hf : fin01 p).
  { rewrite as_named_items in Hin. apply in_app_or in Hin. destruct Hin as [Hin|Hin].
    - apply in_map_iff in Hin. destruct Hin as [pr [He Hin]]. subst e.
      unfold multi_item in Hap. cbn [snd] in Hap.
      apply filter_In in Hap. destruct Hap as [Hap _].
      apply in_combine_r in Hap. destruct pr as [pi row]. apply in_combine_r in Hin.
      cbn [snd] in Hap. rewrite Forall_forall in Hv. apply Hv.
      apply (In_split_by _ _ _ _ _ Hin Hap).
    - apply in_map_iff in Hin. destruct Hin as [sa [He Hin]]. subst e.
      unfold single_item in Hap. cbn [snd] in Hap.
      destruct Hap as [Hap|[]]. inversion Hap; subst.
      split; [apply Ffin_one|]. change (one FNum) with 1%float. rewrite FR_one. lra. }
  split; [exact Hf|]. destruct Hf as [Hfin _].
  apply (ltb_zero_pos p Hfin). exact Hpos.
Qed.

Corollary cli_float_printed_strategy_valid :
  forall (g : @game FNum) (sum clip : float) (prof : list float * list float) (pl : bool),
  Forall fin01 (fst prof) -> Forall fin01 (snd prof) ->
  (Z.of_nat (length (fst prof)) < 2 ^ 53)%Z ->
  (Z.of_nat (length (snd prof)) < 2 ^ 53)%Z ->
  forall (name : N) (l : list (N * float)),
    In (name, l) (@printed_strategy FNum g pl (o_prof (@cli_choose FNum g sum clip prof))) ->
    forall (a : N) (p : float), In (a, p) l -> fin01 p /\ 0 < FR p.
Proof.
  intros g sum clip prof pl H1 H2 L1 L2.
  destruct (cli_float_printed_valid g sum clip prof H1 H2 L1 L2) as [V1 V2].
  apply printed_float_valid. destruct pl; assumption.
Qed.

Lemma FR_SF : forall x, FR x = SF2R radix2 (Prim2SF x).
Proof. intros x. unfold FR, Prim2B. apply B2R_SF2B. Qed.

Lemma FR_scaled : forall (x : float) (k : Z) (m : positive) (e : Z),
  Prim2SF x = S754_finite false m e -> (k <= e)%Z ->
  FR x = IZR (Z.pos m * 2 ^ (e - k)) * bpow radix2 k.
Proof.
  intros x k m e H Hk. rewrite FR_SF, H. cbn [SF2R cond_Zopp].
  rewrite (F2R_change_exp radix2 k _ e Hk). reflexivity.
Qed.

Definition grid53b (x : float) : bool :=
  match Prim2SF x with
  | S754_zero _ => true
  | S754_finite _ m e =>
      if (-53 <=? e)%Z then true else (Z.pos m mod 2 ^ (-53 - e) =? 0)%Z
  | _ => false
  end.

Lemma gridR_F2R : forall z e : Z, (-53 <= e)%Z -> gridR (F2R (Float radix2 z e)).
Proof.
  intros z e He. exists (z * radix2 ^ (e - -53))%Z.
  rewrite (F2R_change_exp radix2 (-53) z e He). reflexivity.
Qed.

Lemma grid53b_spec : forall x, grid53b x = true -> grid53 x.
Proof.
  intros x H. unfold grid53. rewrite FR_SF. unfold grid53b in H.
  destruct (Prim2SF x) as [s|s| |s m e]; try discriminate H.
  - apply gridR_0.
  - cbn [SF2R]. destruct (Z.leb_spec (-53) e) as [He|He].
    + apply gridR_F2R. exact He.
    + apply Z.eqb_eq in H.
      apply Z.mod_divide in H; [|apply Z.pow_nonzero; lia].
      destruct H as [q Hq].
      assert (Hc : cond_Zopp s (Z.pos m) = (cond_Zopp s q * radix2 ^ (-53 - e))%Z).
      { rewrite Hq. change (radix2 ^ (-53 - e))%Z with (2 ^ (-53 - e))%Z.
        destruct s; cbn [cond_Zopp]; ring. }
      rewrite Hc. rewrite <- (F2R_change_exp radix2 e (cond_Zopp s q) (-53)) by lia.
      apply gridR_F2R. lia.
Qed.

Lemma forallb_grid53b : forall l, forallb grid53b l = true -> Forall grid53 l.
Proof.
  intros l H. apply Forall_forall. intros x Hx. apply grid53b_spec.
  rewrite forallb_forall in H. apply H. exact Hx.
Qed.

Definition cat_row : list float := [0.5; 0.25; 0.25]%float.

Example cat_row_fnn : Forall fnn cat_row.
Proof. apply Forall_fin01_fnn. apply forallb_fin01b. vm_compute. reflexivity. Qed.

Example cat_row_grid : Forall grid53 cat_row.
Proof. apply forallb_grid53b. vm_compute. reflexivity. Qed.

(** the intervals of (1/2, 1/4, 1/4): [.., 1/2], (1/2, 3/4], (3/4, ..) *)
Example ex_cat_values :
  map (@categorical FNum cat_row) [0; 0.25; 0.5; 0x1.0000000000001p-1; 0.625; 0.75;
                                   0x1.8000000000001p-1; 0x1.fffffffffffffp-1]%float
  = [0; 0; 0; 1; 1; 1; 2; 2]%nat.
Proof. vm_compute. reflexivity. Qed.

(** NaN, the infinities, a negative variate *)
Example ex_cat_special :
  map (@categorical FNum cat_row) [nan; infinity; neg_infinity; (-1); 2]%float
  = [0; 2; 0; 0; 2]%nat.
Proof. vm_compute. reflexivity. Qed.

(** the dyadic theorem applies to this row and the variate 0.625 = 5/8 *)
Example ex_cat_dyadic_instance :
  @categorical FNum cat_row 0.625%float = @categorical RNum (map FR cat_row) (FR 0.625%float).
Proof.
  assert (H : fin01 0.625%float) by (apply fin01b_spec; vm_compute; reflexivity).
  destruct H as [Hf [_ H1]].
  apply (categorical_float_dyadic cat_row 0.625%float 0%nat).
  - discriminate.
  - exact cat_row_fnn.
  - exact cat_row_grid.
  - exact Hf.
  - exact H1.
  - apply grid53b_spec. vm_compute. reflexivity.
Qed.

(** Rounding matters.  The row (0.2, 0.75, 0.05) as binary64 numbers and the variate
    u = 0x1.e666666666667p-1 (a multiple of 2^-53, so a possible output of the generator):
    exactly, p_0 + p_1 < u, so the real-number sampler of C10 returns index 2 on these very
    numbers; in binary64 u - p_0 rounds down to exactly p_1, the strict test fails and the
    code returns index 1.  (Only this direction is possible: a float residual can round
    onto the weight from above, never past it.) *)
Definition rnd_row : list float :=
  [0x1.999999999999ap-3; 0.75; 0x1.99999999999ap-5]%float.
Definition rnd_u : float := 0x1.e666666666667p-1%float.

(** valid weights, a variate on the generator's grid; only the weights are off the grid *)
Example ex_cat_rounding_hyps :
  Forall fin01 rnd_row /\ fin01 rnd_u /\ grid53 rnd_u /\ forallb grid53b rnd_row = false.
Proof.
  split; [apply forallb_fin01b; vm_compute; reflexivity|].
  split; [apply fin01b_spec; vm_compute; reflexivity|].
  split; [apply grid53b_spec; vm_compute; reflexivity | vm_compute; reflexivity].
Qed.

Example ex_cat_rounding :
  @categorical FNum rnd_row rnd_u = 1%nat /\
  @categorical RNum (map FR rnd_row) (FR rnd_u) = 2%nat.
Proof.
  split; [vm_compute; reflexivity|].
  unfold categorical, rnd_row, rnd_u. cbn [map removelast].
  set (b := bpow radix2 (-55)).
  assert (Hb : 0 < b) by apply bpow_gt_0.
  assert (E0 : FR 0x1.999999999999ap-3%float = IZR 7205759403792794 * b).
  { apply (FR_scaled _ (-55) 7205759403792794%positive (-55)); [vm_compute; reflexivity | lia]. }
  assert (E1 : FR 0.75%float = IZR 27021597764222976 * b).
  { apply (FR_scaled _ (-55) 6755399441055744%positive (-53)); [vm_compute; reflexivity | lia]. }
  assert (Eu : FR 0x1.e666666666667p-1%float = IZR 34227357168015772 * b).
  { apply (FR_scaled _ (-55) 8556839292003943%positive (-53)); [vm_compute; reflexivity | lia]. }
  rewrite E0, E1, Eu.
  rewrite cat_step_lt by lra. rewrite cat_step_lt by lra. apply cat_step_nil.
Qed.

Example ex_cat_mono_run :
  map (@categorical FNum rnd_row)
      [0; 0.125; 0x1.999999999999ap-3; 0.25; 0.5; 0x1.e666666666666p-1; rnd_u;
       0x1.e666666666668p-1; 0x1.fffffffffffffp-1]%float
  = [0; 0; 0; 1; 1; 1; 1; 2; 2]%nat.
Proof. vm_compute. reflexivity. Qed.

(** the clip decision on a concrete game: player one has three actions, the third is
    bad for him (-10 whatever player two does), the first two are matching pennies *)
Definition ex_g : @game FNum :=
  @mkGame FNum [] [mkPinfo 1 [1; 2; 3]%N None] [mkPinfo 2 [1; 2]%N None] [] []
    (@Player FNum true 0
       [@Player FNum false 0 [@Term FNum 1%float; @Term FNum (-1)%float];
        @Player FNum false 0 [@Term FNum (-1)%float; @Term FNum 1%float];
        @Player FNum false 0 [@Term FNum (-10)%float; @Term FNum (-10)%float]]).
Definition ex_prof : list float * list float :=
  ([0.5; 0.4375; 0.0625]%float, [0.5; 0.5]%float).

Example ex_prof_fin01 : Forall fin01 (fst ex_prof) /\ Forall fin01 (snd ex_prof).
Proof. split; apply forallb_fin01b; vm_compute; reflexivity. Qed.

(** clipping at 1/8 removes the bad action: regret 0.0666... < 0.625, the truncation is
    printed *)
Example ex_cli_pruned :
  let out := @cli_choose FNum ex_g 0%float 0.125%float ex_prof in
  o_pruned out = true /\
  o_prof out = @truncate FNum ex_g 0.125%float ex_prof /\
  o_prof out = ([0x1.1111111111111p-1; 0x1.ddddddddddddep-2; 0]%float, [0.5; 0.5]%float) /\
  regret_orig ex_g ex_prof = 0.625%float /\
  regret_trunc ex_g 0.125%float ex_prof = 0x1.1111111111110p-4%float.
Proof. vm_compute. repeat split; reflexivity. Qed.

(** clipping at 15/32 leaves a pure strategy with regret 1 > 0.625: the solved profile is
    printed; so it is for a NaN clip, for +infinity and for -infinity (nothing removed,
    equal regrets, and the comparison is strict) *)
Example ex_cli_not_pruned :
  map (fun clip => let out := @cli_choose FNum ex_g 0%float clip ex_prof in
                   (o_pruned out, o_prof out))
      [0.46875; nan; infinity; neg_infinity]%float
  = [(false, ex_prof); (false, ex_prof); (false, ex_prof); (false, ex_prof)].
Proof. vm_compute. reflexivity. Qed.

Example ex_cli_regrets :
  (regret_trunc ex_g 0.46875%float ex_prof, regret_trunc ex_g nan ex_prof)
  = (1%float, 0.625%float).
Proof. vm_compute. reflexivity. Qed.

(** what is printed for player one after the clip at 1/8: the zero entry is omitted *)
Example ex_cli_printed :
  @printed_strategy FNum ex_g true (o_prof (@cli_choose FNum ex_g 0%float 0.125%float ex_prof))
  = [(1%N, [(1%N, 0x1.1111111111111p-1%float); (2%N, 0x1.ddddddddddddep-2%float)])].
Proof. vm_compute. reflexivity. Qed.

Example ex_cli_valid_instance : forall clip : float,
  Forall fin01 (fst (o_prof (@cli_choose FNum ex_g 0%float clip ex_prof))) /\
  Forall fin01 (snd (o_prof (@cli_choose FNum ex_g 0%float clip ex_prof))).
Proof.
  intros clip. destruct ex_prof_fin01 as [H1 H2].
  apply cli_float_printed_valid; try assumption; vm_compute; reflexivity.
Qed.
