(** * C09F — Early termination is exactly a shorter unthresholded run, for EVERY
    number type ([C09_generic_*], closed under the global context), in particular
    for the executed binary64 instance ([C09F_*], resting on Floats.FloatAxioms
    [ltb_spec], [eqb_spec], [SF2Prim_Prim2SF] for the NaN facts only).

    Statements only; proofs are in [theories/LoopCore.v] and [theories/LoopGeneric.v].  [NN : Num] is
    arbitrary (no law of arithmetic or order is assumed), [stop : T NN -> bool] is an
    arbitrary test on the total bound [fmax NN b1 b2].

    Vocabulary (LoopGeneric.v; the [RNum] instances coincide with LoopProofs.v, see
    [C09_generic_agrees_with_real]):
    - [Gnever := fun _ => false];
    - [Gbound_at g m draw p t] is [fmax NN b1 b2] for the bounds returned by
      [solve_single g m draw p t Gnever] ([None] for [t = 0]);
    - [Gfires stop ob] is [stop b] when [ob = Some b], [false] when [ob = None];
    - [Gtstar g m draw p stop N] is the least [t] in [1..N] such that [stop] fires
      on the bound after [t] unthresholded iterations, or [N]. *)
From Coq Require Import List NArith Bool Lia Floats.
From Cfr.theories Require Import Num FInst Tree Strat Eval Solve LoopGeneric.
From Cfr.theories Require RInst LoopProofs.
Import ListNotations.

Theorem C09_generic_bound_at_def :
  forall (NN : Num) g m draw p t,
    @Gbound_at NN g m draw p t =
    match snd (fst (@solve_single NN g m draw p t Gnever)) with
    | Some (b1, b2) => Some (fmax NN b1 b2)
    | None => None
    end.
Proof. reflexivity. Qed.

Theorem C09_generic_fires_def :
  forall (NN : Num) (stop : T NN -> bool),
    Gfires stop None = false /\ forall b, Gfires stop (Some b) = stop b.
Proof. intros; split; reflexivity. Qed.

Theorem C09_generic_tstar_spec :
  forall (NN : Num) g m draw p (stop : T NN -> bool) N,
    let k := Gtstar g m draw p stop N in
    (k <= N)%nat /\ ((1 <= N)%nat -> (1 <= k)%nat) /\
    (forall j, (1 <= j < k)%nat -> Gfires stop (Gbound_at g m draw p j) = false) /\
    ((k < N)%nat -> Gfires stop (Gbound_at g m draw p k) = true).
Proof. exact @Gtstar_spec. Qed.

Theorem C09_generic_tstar_least :
  forall (NN : Num) g m draw p (stop : T NN -> bool) N j,
    (1 <= j <= N)%nat -> Gfires stop (Gbound_at g m draw p j) = true ->
    (Gtstar g m draw p stop N <= j)%nat /\
    Gfires stop (Gbound_at g m draw p (Gtstar g m draw p stop N)) = true.
Proof. exact @Gtstar_least. Qed.

Theorem C09_generic_tstar_none :
  forall (NN : Num) g m draw p (stop : T NN -> bool) N,
    (forall j, (1 <= j <= N)%nat -> Gfires stop (Gbound_at g m draw p j) = false) ->
    Gtstar g m draw p stop N = N.
Proof. exact @Gtstar_none. Qed.

(** ** 1. thresholded run = unthresholded run of budget [Gtstar] *)
Theorem C09_generic_early_stop_exact :
  forall (NN : Num) g m draw p (stop : T NN -> bool) N,
    @solve_single NN g m draw p N stop =
    @solve_single NN g m draw p (Gtstar g m draw p stop N) Gnever.
Proof. exact @Gearly_stop_exact. Qed.

Theorem C09_generic_iterations_run :
  forall (NN : Num) g m draw p (stop : T NN -> bool) N,
    snd (@solve_single NN g m draw p N stop) = N.of_nat (Gtstar g m draw p stop N) /\
    snd (@solve_single NN g m draw p (Gtstar g m draw p stop N) Gnever) =
    N.of_nat (Gtstar g m draw p stop N).
Proof. exact @Giterations_run. Qed.

Theorem C09_generic_loop_prefix :
  forall (NN : Num) g m draw p (stop : T NN -> bool) rem it st regs ran,
    @solve_loop NN g m draw p stop rem it st regs ran =
    @solve_loop NN g m draw p Gnever
      (Gfirst_fire (fun k => Gfires stop (Gbound_from g m draw p it st k)) rem 0) it st regs ran.
Proof. exact @Gloop_stop_never. Qed.

(** ** 2. budget *)
Theorem C09_generic_budget_never_exceeded :
  forall (NN : Num) g m draw p (stop : T NN -> bool) N strats regs ran,
    @solve_single NN g m draw p N stop = (strats, regs, ran) ->
    (ran <= N.of_nat N)%N /\
    ((1 <= N)%nat -> (1 <= ran)%N /\ exists b1 b2, regs = Some (b1, b2)) /\
    ((ran < N.of_nat N)%N ->
     exists b1 b2, regs = Some (b1, b2) /\ stop (fmax NN b1 b2) = true).
Proof. exact @Gbudget_never_exceeded. Qed.

Theorem C09_generic_below_threshold_when_short :
  forall (NN : Num) g m draw p (stop : T NN -> bool) N strats regs ran,
    @solve_single NN g m draw p N stop = (strats, regs, ran) ->
    (ran < N.of_nat N)%N ->
    exists b1 b2, regs = Some (b1, b2) /\ stop (fmax NN b1 b2) = true.
Proof. exact @Gbelow_threshold_when_short. Qed.

Theorem C09_generic_below_threshold_when_short_at :
  forall (NN : Num) g m draw p (r : T NN) N strats regs ran,
    @solve_single NN g m draw p N (@stop_at NN r) = (strats, regs, ran) ->
    (ran < N.of_nat N)%N ->
    exists b1 b2, regs = Some (b1, b2) /\ ltb NN (fmax NN b1 b2) r = true.
Proof. exact @Gbelow_threshold_when_short_at. Qed.

(** ** 3. a test that never fires never shortens a run *)
Theorem C09_generic_never_stops :
  forall (NN : Num) g m draw p (stop : T NN -> bool) N,
    (forall b, stop b = false) ->
    @solve_single NN g m draw p N stop = @solve_single NN g m draw p N Gnever.
Proof. exact @Gnever_stops. Qed.

Theorem C09_generic_never_fires_never_stops :
  forall (NN : Num) g m draw p (stop : T NN -> bool) N,
    (forall j, (1 <= j <= N)%nat -> Gfires stop (Gbound_at g m draw p j) = false) ->
    @solve_single NN g m draw p N stop = @solve_single NN g m draw p N Gnever.
Proof. exact @Gnever_fires_never_stops. Qed.

Theorem C09_generic_never_runs_full_budget :
  forall (NN : Num) g m draw p N, snd (@solve_single NN g m draw p N Gnever) = N.of_nat N.
Proof. exact @Gsolve_single_never_ran. Qed.

Theorem C09_generic_test_extensional :
  forall (NN : Num) g m draw p (stop stop' : T NN -> bool) N,
    (forall b, stop b = stop' b) ->
    @solve_single NN g m draw p N stop = @solve_single NN g m draw p N stop'.
Proof. exact @Gsolve_single_ext. Qed.

(** the generic vocabulary at [RNum] is the vocabulary of C09.v *)
Theorem C09_generic_agrees_with_real :
  @Gnever RInst.RNum = LoopProofs.never /\
  @Gfires RInst.RNum = LoopProofs.fires /\
  (forall g m draw p t, @Gbound_at RInst.RNum g m draw p t = LoopProofs.bound_at g m draw p t) /\
  (forall g m draw p stop N, @Gtstar RInst.RNum g m draw p stop N = LoopProofs.tstar g m draw p stop N).
Proof.
  split; [exact Gnever_RNum|]. split; [exact Gfires_RNum|].
  split; [exact Gbound_at_RNum|exact Gtstar_RNum].
Qed.

(** ** binary64: the executed instance, test [max(b1,b2) < r] *)
Theorem C09F_stop_at_is_ltb :
  forall r : float, @stop_at FNum r = (fun b => PrimFloat.ltb b r) /\ fmax FNum = f_max.
Proof. intros; split; reflexivity. Qed.

Theorem C09F_early_stop_exact :
  forall (g : @game FNum) m draw p (r : float) N,
    @solve_single FNum g m draw p N (fun b => PrimFloat.ltb b r) =
    @solve_single FNum g m draw p (Gtstar g m draw p (fun b => PrimFloat.ltb b r) N) Gnever.
Proof. exact F_early_stop_exact. Qed.

Theorem C09F_iterations_run :
  forall (g : @game FNum) m draw p (r : float) N,
    snd (@solve_single FNum g m draw p N (fun b => PrimFloat.ltb b r)) =
    N.of_nat (Gtstar g m draw p (fun b => PrimFloat.ltb b r) N).
Proof. exact F_iterations_run. Qed.

Theorem C09F_tstar_spec :
  forall (g : @game FNum) m draw p (r : float) N,
    let k := Gtstar g m draw p (fun b => PrimFloat.ltb b r) N in
    (k <= N)%nat /\ ((1 <= N)%nat -> (1 <= k)%nat) /\
    (forall j, (1 <= j < k)%nat ->
               @Gfires FNum (fun b => PrimFloat.ltb b r) (Gbound_at g m draw p j) = false) /\
    ((k < N)%nat -> @Gfires FNum (fun b => PrimFloat.ltb b r) (Gbound_at g m draw p k) = true).
Proof. exact F_tstar_spec. Qed.

Theorem C09F_budget_never_exceeded :
  forall (g : @game FNum) m draw p (r : float) N strats regs ran,
    @solve_single FNum g m draw p N (fun b => PrimFloat.ltb b r) = (strats, regs, ran) ->
    (ran <= N.of_nat N)%N /\
    ((1 <= N)%nat -> (1 <= ran)%N /\ exists b1 b2, regs = Some (b1, b2)) /\
    ((ran < N.of_nat N)%N ->
     exists b1 b2, regs = Some (b1, b2) /\ PrimFloat.ltb (f_max b1 b2) r = true).
Proof. exact F_budget_never_exceeded. Qed.

Theorem C09F_below_threshold_when_short :
  forall (g : @game FNum) m draw p (r : float) N strats regs ran,
    @solve_single FNum g m draw p N (fun b => PrimFloat.ltb b r) = (strats, regs, ran) ->
    (ran < N.of_nat N)%N ->
    exists b1 b2, regs = Some (b1, b2) /\ PrimFloat.ltb (f_max b1 b2) r = true /\
                  f_is_nan (f_max b1 b2) = false /\ f_is_nan r = false.
Proof. exact F_below_threshold_when_short. Qed.

Theorem C09F_ltb_nan :
  forall b : float, PrimFloat.ltb b nan = false.
Proof. exact F_ltb_nan_r. Qed.

Theorem C09F_is_nan_spec :
  forall r : float, f_is_nan r = true <-> r = nan.
Proof. exact F_is_nan_spec. Qed.

Theorem C09F_nan_threshold_never_stops :
  forall (g : @game FNum) m draw p N,
    @solve_single FNum g m draw p N (fun b => PrimFloat.ltb b nan) =
    @solve_single FNum g m draw p N Gnever.
Proof. exact F_nan_threshold_never_stops. Qed.

Theorem C09F_is_nan_threshold_never_stops :
  forall (g : @game FNum) m draw p (r : float) N,
    f_is_nan r = true ->
    @solve_single FNum g m draw p N (fun b => PrimFloat.ltb b r) =
    @solve_single FNum g m draw p N Gnever /\
    snd (@solve_single FNum g m draw p N (fun b => PrimFloat.ltb b r)) = N.of_nat N /\
    Gtstar g m draw p (fun b => PrimFloat.ltb b r) N = N.
Proof. exact F_is_nan_threshold_never_stops. Qed.

Theorem C09F_nan_bound_does_not_fire :
  forall r b : float,
    f_is_nan b = true -> @Gfires FNum (fun x => PrimFloat.ltb x r) (Some b) = false.
Proof. exact F_nan_bound_does_not_fire. Qed.

Print Assumptions C09_generic_bound_at_def.
Print Assumptions C09_generic_fires_def.
Print Assumptions C09_generic_tstar_spec.
Print Assumptions C09_generic_tstar_least.
Print Assumptions C09_generic_tstar_none.
Print Assumptions C09_generic_early_stop_exact.
Print Assumptions C09_generic_iterations_run.
Print Assumptions C09_generic_loop_prefix.
Print Assumptions C09_generic_budget_never_exceeded.
Print Assumptions C09_generic_below_threshold_when_short.
Print Assumptions C09_generic_below_threshold_when_short_at.
Print Assumptions C09_generic_never_stops.
Print Assumptions C09_generic_never_fires_never_stops.
Print Assumptions C09_generic_never_runs_full_budget.
Print Assumptions C09_generic_test_extensional.
Print Assumptions C09_generic_agrees_with_real.
Print Assumptions C09F_stop_at_is_ltb.
Print Assumptions C09F_early_stop_exact.
Print Assumptions C09F_iterations_run.
Print Assumptions C09F_tstar_spec.
Print Assumptions C09F_budget_never_exceeded.
Print Assumptions C09F_below_threshold_when_short.
Print Assumptions C09F_ltb_nan.
Print Assumptions C09F_is_nan_spec.
Print Assumptions C09F_nan_threshold_never_stops.
Print Assumptions C09F_is_nan_threshold_never_stops.
Print Assumptions C09F_nan_bound_does_not_fire.
