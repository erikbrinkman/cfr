(** * C09 — Early termination is exactly a shorter unthresholded run.

    Statements only; proofs are in [theories/LoopCore.v] (the loop theory for every number type)
    and [theories/LoopProofs.v] (its reading at the reals, and what needs their order).  The model functions are
    [Solve.solve_loop] / [Solve.solve_single] (the single-threaded loops of
    [solve/vanilla.rs] and [solve/external.rs]) read at the real-number instance.

    The early-termination test [max(b1,b2) < max_reg] is an arbitrary predicate
    [stop : R -> bool] applied to [Rmax b1 b2]: a real threshold [r] is
    [stop_at r = fun b => b <? r]; a NaN threshold is [never] (every comparison with
    NaN is false); [+inf] is constantly true, [-inf] is [never].  Every statement is
    for an arbitrary game, method, sampling oracle and parameter tuple; no
    well-formedness is needed.

    Vocabulary (defined in LoopProofs.v):
    - [never := fun _ => false];
    - [bound_at g m draw p t : option R] is [Rmax b1 b2] for the bounds returned by
      [solve_single g m draw p t never] ([None] for [t = 0]);
    - [fires stop ob] is [stop b] when [ob = Some b] and [false] when [ob = None];
    - [tstar g m draw p stop N] is the least [t] in [1..N] such that [stop] fires on
      the bound after [t] unthresholded iterations, or [N] if there is none
      ([C09_tstar_spec], [C09_tstar_least], [C09_tstar_none] characterise it
      independently of how it is computed). *)
From Coq Require Import Reals List NArith Bool Lra Lia.
From Cfr.theories Require Import Num RInst Tree Strat Eval Solve LoopProofs.
Import ListNotations.
Open Scope R_scope.

(** ** [tstar] is what the text says it is *)
Theorem C09_bound_at_def :
  forall g m draw p t,
    bound_at g m draw p t =
    match snd (fst (@solve_single RNum g m draw p t never)) with
    | Some (b1, b2) => Some (Rmax b1 b2)
    | None => None
    end.
Proof. reflexivity. Qed.

Theorem C09_fires_def :
  forall stop : R -> bool, fires stop None = false /\ forall b, fires stop (Some b) = stop b.
Proof. intros; split; reflexivity. Qed.

Theorem C09_tstar_spec :
  forall g m draw p (stop : R -> bool) N,
    let k := tstar g m draw p stop N in
    (k <= N)%nat /\ ((1 <= N)%nat -> (1 <= k)%nat) /\
    (forall j, (1 <= j < k)%nat -> fires stop (bound_at g m draw p j) = false) /\
    ((k < N)%nat -> fires stop (bound_at g m draw p k) = true).
Proof. exact tstar_spec. Qed.

Theorem C09_tstar_least :
  forall g m draw p (stop : R -> bool) N j,
    (1 <= j <= N)%nat -> fires stop (bound_at g m draw p j) = true ->
    (tstar g m draw p stop N <= j)%nat /\
    fires stop (bound_at g m draw p (tstar g m draw p stop N)) = true.
Proof. exact tstar_least. Qed.

Theorem C09_tstar_none :
  forall g m draw p (stop : R -> bool) N,
    (forall j, (1 <= j <= N)%nat -> fires stop (bound_at g m draw p j) = false) ->
    tstar g m draw p stop N = N.
Proof. exact tstar_none. Qed.

(** ** 1. A solve with test [stop] and budget [N] returns exactly (strategies, bounds
       AND iteration count) what the unthresholded solve returns with budget [tstar];
       the iteration count is [tstar]. *)
Theorem C09_early_stop_exact :
  forall g m draw p (stop : R -> bool) N,
    @solve_single RNum g m draw p N stop =
    @solve_single RNum g m draw p (tstar g m draw p stop N) never.
Proof. exact early_stop_exact. Qed.

Theorem C09_iterations_run :
  forall g m draw p (stop : R -> bool) N,
    snd (@solve_single RNum g m draw p N stop) = N.of_nat (tstar g m draw p stop N) /\
    snd (@solve_single RNum g m draw p (tstar g m draw p stop N) never) =
    N.of_nat (tstar g m draw p stop N).
Proof. intros; split; [apply early_stop_ran|apply solve_single_never_ran]. Qed.

(** the underlying statement about the loop from an arbitrary state *)
Theorem C09_loop_prefix :
  forall g m draw p (stop : R -> bool) rem it st regs ran,
    @solve_loop RNum g m draw p stop rem it st regs ran =
    @solve_loop RNum g m draw p never
      (first_fire (fun k => fires stop (bound_from g m draw p it st k)) rem 0) it st regs ran.
Proof. exact loop_stop_never. Qed.

(** ** 2. The budget is never exceeded; at least one iteration runs when [N >= 1];
       and whenever fewer than [N] iterations ran the returned bound passes the test
       (for [stop_at r]: it is strictly below [r]). *)
Theorem C09_budget_never_exceeded :
  forall g m draw p (stop : R -> bool) N strats regs ran,
    @solve_single RNum g m draw p N stop = (strats, regs, ran) ->
    (ran <= N.of_nat N)%N /\
    ((1 <= N)%nat -> (1 <= ran)%N /\ exists b1 b2, regs = Some (b1, b2)) /\
    ((ran < N.of_nat N)%N ->
     exists b1 b2, regs = Some (b1, b2) /\ stop (Rmax b1 b2) = true).
Proof. exact budget_never_exceeded. Qed.

Theorem C09_below_threshold_when_short :
  forall g m draw p (r : R) N strats regs ran,
    @solve_single RNum g m draw p N (@stop_at RNum r) = (strats, regs, ran) ->
    (ran < N.of_nat N)%N ->
    exists b1 b2, regs = Some (b1, b2) /\ Rmax b1 b2 < r.
Proof. exact below_threshold_when_short. Qed.

(** ** 3. Every returned bound is non-negative, hence a threshold that is zero,
       negative or NaN never shortens a run. *)
Theorem C09_iteration_bounds_nonneg :
  forall g m draw p it st st' r1 r2,
    (1 <= it)%N -> @one_iter RNum g m draw p it st = (st', (r1, r2)) -> 0 <= r1 /\ 0 <= r2.
Proof. exact one_iter_nonneg. Qed.

Theorem C09_bounds_nonneg :
  forall g m draw p (stop : R -> bool) N strats b1 b2 ran,
    @solve_single RNum g m draw p N stop = (strats, Some (b1, b2), ran) -> 0 <= b1 /\ 0 <= b2.
Proof. exact bounds_nonneg. Qed.

Theorem C09_nonpositive_threshold_never_stops :
  forall g m draw p (r : R) N,
    r <= 0 ->
    @solve_single RNum g m draw p N (@stop_at RNum r) = @solve_single RNum g m draw p N never.
Proof. exact nonpositive_threshold. Qed.

(** more generally: any test that is false on the non-negative numbers; the NaN
    threshold is [never] itself *)
Theorem C09_test_false_on_nonneg_never_stops :
  forall g m draw p (stop : R -> bool) N,
    (forall b, 0 <= b -> stop b = false) ->
    @solve_single RNum g m draw p N stop = @solve_single RNum g m draw p N never.
Proof. exact nonstop_on_nonneg. Qed.

Theorem C09_never_runs_full_budget :
  forall g m draw p N, snd (@solve_single RNum g m draw p N never) = N.of_nat N.
Proof. exact solve_single_never_ran. Qed.

(** ** Non-vacuity: one decision node of player one with payoffs 1 and 0, vanilla
    CFR, unsampled.  The bound after iterations 1 and 2 is 1 and 1/2, so with
    threshold 3/4 and budget 5 the run stops after iteration 2: [1 < tstar < N]. *)
Example C09_example :
  bound_at ex_game Full ex_draw p_vanilla 1 = Some 1 /\
  bound_at ex_game Full ex_draw p_vanilla 2 = Some (/ 2) /\
  tstar ex_game Full ex_draw p_vanilla (@stop_at RNum (3 / 4)) 5 = 2%nat /\
  snd (@solve_single RNum ex_game Full ex_draw p_vanilla 5 (@stop_at RNum (3 / 4))) = 2%N.
Proof. exact example_run. Qed.

Print Assumptions C09_bound_at_def.
Print Assumptions C09_fires_def.
Print Assumptions C09_tstar_spec.
Print Assumptions C09_tstar_least.
Print Assumptions C09_tstar_none.
Print Assumptions C09_early_stop_exact.
Print Assumptions C09_iterations_run.
Print Assumptions C09_loop_prefix.
Print Assumptions C09_budget_never_exceeded.
Print Assumptions C09_below_threshold_when_short.
Print Assumptions C09_iteration_bounds_nonneg.
Print Assumptions C09_bounds_nonneg.
Print Assumptions C09_nonpositive_threshold_never_stops.
Print Assumptions C09_test_false_on_nonneg_never_stops.
Print Assumptions C09_never_runs_full_budget.
Print Assumptions C09_example.
