(** * C02 — The regret bound of an unsampled vanilla solve dominates the true regret.

    Statements only; proofs are in [theories/CfrSpec.v] and [theories/LcfrSpec.v] (trajectory of
    the solver, cumulative regrets and strategies as sums over iterations), [theories/Decomposition.v]
    (the external regret against any pure strategy decomposes over the reachable infosets
    into the *model's own* cumulative counterfactual regrets), [theories/AvgRealisation.v]
    (the returned average strategy realises the average of the iterates against every
    opponent strategy, by perfect recall), [theories/BoundDominates.v] (on the best-response theorems of C01) and
    [theories/BoundDominatesClosed.v].

    For every accepted game (hypotheses = what [from_root] guarantees, C11), every budget,
    every early-termination predicate — hence every threshold — and, by C06, every thread
    count and schedule: the total bound is never smaller than the true total regret of the
    returned profile; both player bounds are non-negative; a run that stopped early returns
    a profile whose true regret is below the threshold.  With C03 this also gives the
    true-regret rate for vanilla parameters (clause 2 of C03). *)
From Coq Require Import Reals List Bool NArith Lra.
From Cfr.theories Require Import Num RInst Tree GameWF Valid Strat Eval Solve SolveValidProofs LoopProofs
     EvalSpec CfrSpec Decomposition AvgRealisation BoundDominates BoundDominatesClosed CfMass CfrRate.
Import ListNotations.
Open Scope R_scope.

(** 1. the bound dominates the true regret; the per-player bounds are non-negative *)
Theorem C02_bound_dominates :
  forall (g : @game RNum) (draw : @oracle RNum) budget (stop : R -> bool) strats b1 b2 ran,
    WFgame g -> PerfectRecall g -> ChanceOK g ->
    @solve_single RNum g Full draw (@p_vanilla RNum) budget stop = (strats, Some (b1, b2), ran) ->
    @si_regret RNum (@info RNum g strats) <= Rmax b1 b2 /\ 0 <= b1 /\ 0 <= b2.
Proof. exact bound_dominates_closed. Qed.

Theorem C02_each_player :
  forall (g : @game RNum) (draw : @oracle RNum) budget (stop : R -> bool) strats b1 b2 ran,
    WFgame g -> PerfectRecall g -> ChanceOK g ->
    @solve_single RNum g Full draw (@p_vanilla RNum) budget stop = (strats, Some (b1, b2), ran) ->
    0 <= si_reg1 (@info RNum g strats) <= Rmax b1 b2 /\
    0 <= si_reg2 (@info RNum g strats) <= Rmax b1 b2.
Proof. exact bound_dominates_each_closed. Qed.

(** 2. early termination is sound: fewer than [budget] iterations => true regret below [r] *)
Theorem C02_early_stop_sound :
  forall (g : @game RNum) (draw : @oracle RNum) budget (r : R) strats b1 b2 ran,
    WFgame g -> PerfectRecall g -> ChanceOK g ->
    @solve_single RNum g Full draw (@p_vanilla RNum) budget (@stop_at RNum r) = (strats, Some (b1, b2), ran) ->
    (ran < N.of_nat budget)%N ->
    @si_regret RNum (@info RNum g strats) < r.
Proof. exact early_stop_sound_closed. Qed.

(** 3. with C03: the true regret of the returned profile obeys the CFR rate (vanilla) *)
Theorem C02_true_regret_rate_vanilla :
  forall (g : @game RNum) draw (lo hi : R) (A : nat) budget (stop : R -> bool) strats b1 b2 ran,
    WFgame g -> PerfectRecall g -> ChanceOK g -> PayoffsIn lo hi (g_root g) ->
    (forall pl, Forall (fun a => (a <= A)%nat) (arities g pl)) ->
    @solve_single RNum g Full draw (@p_vanilla RNum) budget stop = (strats, Some (b1, b2), ran) ->
    @si_regret RNum (@info RNum g strats) <=
    2 * (hi - lo) * INR (num_infosets g) * sqrt (INR A) / sqrt (INR (N.to_nat ran)).
Proof.
  intros g draw lo hi A budget stop strats b1 b2 ran H1 H2 H3 H4 H5 E.
  destruct (bound_dominates_closed g draw budget stop strats b1 b2 ran H1 H2 H3 E) as (Hd & _ & _).
  destruct (bound_rate_vanilla_div g draw lo hi A budget stop strats b1 b2 ran H1 H2 H3 H4 H5 E) as [Hb1 Hb2].
  eapply Rle_trans; [exact Hd|]. apply Rmax_lub; assumption.
Qed.

(** 4. the factor 2 in the reported bound cannot be dropped: a game on which half the
       returned bound is strictly below the true regret (while the bound itself dominates) *)
Theorem C02_factor_two_needed :
  forall draw : @oracle RNum,
  exists (g : @game RNum) (budget : nat) (stop : R -> bool) (strats : list R * list R) (b1 b2 : R) (ran : N),
    WFgame g /\ PerfectRecall g /\ ChanceOK g /\
    @solve_single RNum g Full draw (@p_vanilla RNum) budget stop = (strats, Some (b1, b2), ran) /\
    Rmax b1 b2 / 2 < @si_regret RNum (@info RNum g strats) /\
    @si_regret RNum (@info RNum g strats) <= Rmax b1 b2.
Proof. exact halved_bound_refuted_closed. Qed.

(** Non-vacuity: matching pennies. *)
Example C02_example :
  forall (draw : @oracle RNum) (budget : nat) (stop : R -> bool),
    (1 <= budget)%nat ->
    exists strats b1 b2 ran,
      @solve_single RNum SolveValidProofs.mp_game Full draw (@p_vanilla RNum) budget stop =
        (strats, Some (b1, b2), ran) /\
      @si_regret RNum (@info RNum SolveValidProofs.mp_game strats) <= Rmax b1 b2 /\ 0 <= b1 /\ 0 <= b2.
Proof. exact mp_bound_dominates_closed. Qed.

Print Assumptions C02_bound_dominates.
Print Assumptions C02_each_player.
Print Assumptions C02_early_stop_sound.
Print Assumptions C02_true_regret_rate_vanilla.
Print Assumptions C02_factor_two_needed.
Print Assumptions C02_example.
