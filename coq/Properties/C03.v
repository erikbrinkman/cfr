(** * C03 — The unsampled solver converges to equilibrium at the CFR rate on every game.

    Statements only; proofs are in [theories/IterChar.v] (what one iteration does to the
    state), [theories/RmPotential.v] (regret-matching potential), [theories/CfMass.v]
    (counterfactual reaches of an infoset sum to at most one under perfect recall;
    counterfactual regret increments are bounded by the payoff range) and
    [theories/CfrRate.v].

    Clause 1 (the CFR theorem for the returned bound) is proved for **every** parameter
    set, not only vanilla: with payoffs in [[lo, hi]] (D = hi - lo), N infosets and at
    most A actions per infoset, after [ran] iterations of the unsampled method each
    player's returned bound is at most [2 * D * N * sqrt A / sqrt ran] — for every
    early-termination predicate and every prefix of the run.

    Clause 2 (the *true* regret of the returned profile obeys
    [6 * D * N * (sqrt A + 1 / sqrt T) / sqrt T]) is proved for **every documented preset**:
    vanilla ([Properties/C02.v], [C02_true_regret_rate_vanilla]), lcfr
    ([C03_true_regret_rate_lcfr]: regrets and average carry the same weights t) and
    cfr_plus, dcfr, dcfr_prune ([C03_true_regret_rate_presets]: summation by parts over the
    discounted regrets, lower bounds on the discounted cumulative regrets, weighted
    decomposition and average realisation — [theories/Decomposition.v],
    [theories/AvgRealisation.v], [theories/BoundDominates.v], [theories/DiscountedBound.v]), for every early-termination predicate.  Side results: for
    lcfr only [b1 + b2] (not [max b1 b2]) dominates the true regret (witness); for cfr_plus
    [3/2 * (b1 + b2)] does. *)
From Coq Require Import Reals List Bool NArith.
From Cfr.theories Require Import Num RInst Tree GameWF Valid Strat Eval Solve SolveValidProofs LoopProofs Incr
     IterChar RmPotential CfMass CfrRate LcfrBound DiscountedBound.
Import ListNotations.
Open Scope R_scope.

(** 1. the regret-matching potential step, per infoset, for every parameter set:
       adding an increment orthogonal to the played strategy and then discounting raises
       the sum of squared positive regrets by at most the squared increment *)
Theorem C03_rm_potential :
  forall (p q : @params RNum) it (Rg r : list R),
    length Rg = length r -> dot (@regret_match RNum p Rg) r = 0 ->
    sqpos (@discount_cum_regret RNum q it (vadd Rg r)) <= sqpos Rg + sqsum r.
Proof. exact rm_potential_discounted. Qed.

(** 2. the increment the traversal adds is orthogonal to the played strategy ... *)
Theorem C03_increment_orthogonal :
  forall chance sg pl i n pc p1 p2,
    Rsum (sg pl i) = 1 -> dot (sg pl i) (cfr_incs chance sg pl i n pc p1 p2) = 0.
Proof. exact cfr_inc_orthogonal. Qed.

(** ... and bounded by the payoff range (perfect recall: the counterfactual reaches of the
    nodes of one infoset sum to at most one) *)
Theorem C03_cf_mass_le_1 :
  forall (g : @game RNum) (st : @pstate RNum) pl i,
    PerfectRecall g -> ChanceOK g -> Inv st ->
    cf_mass (g_chance g) (strat_view st) pl i (g_root g) 1 1 1 <= 1.
Proof. exact cf_mass_le_1. Qed.

Theorem C03_increment_bounded :
  forall (g : @game RNum) (st : @pstate RNum) (lo hi : R) pl i a,
    WFgame g -> PerfectRecall g -> ChanceOK g ->
    InvA (arities g true) (arities g false) st -> PayoffsIn lo hi (g_root g) ->
    (a < length (strat_view st pl i))%nat ->
    Rabs (cfr_inc (g_chance g) (strat_view st) pl i a (g_root g) 1 1 1) <= hi - lo.
Proof. exact cfr_inc_bounded. Qed.

(** 3. the rate of the returned bounds: every parameter set, oracle, budget, stop predicate *)
Theorem C03_bound_rate :
  forall (g : @game RNum) draw (p : @params RNum) (lo hi : R) (A : nat),
    WFgame g -> PerfectRecall g -> ChanceOK g -> PayoffsIn lo hi (g_root g) ->
    (forall pl, Forall (fun a => (a <= A)%nat) (arities g pl)) ->
    forall budget (stop : R -> bool) strats b1 b2 ran,
      @solve_single RNum g Full draw p budget stop = (strats, Some (b1, b2), ran) ->
      (1 <= ran)%N /\
      b1 <= 2 * (hi - lo) * INR (num_infosets g) * sqrt (INR A) / sqrt (INR (N.to_nat ran)) /\
      b2 <= 2 * (hi - lo) * INR (num_infosets g) * sqrt (INR A) / sqrt (INR (N.to_nat ran)).
Proof.
  intros g draw p lo hi A H1 H2 H3 H4 H5 budget stop strats b1 b2 ran E.
  split.
  - exact (proj1 (bound_rate_all_params g draw p lo hi A H1 H2 H3 H4 H5 budget stop strats b1 b2 ran E)).
  - exact (bound_rate_div g draw p lo hi A H1 H2 H3 H4 H5 budget stop strats b1 b2 ran E).
Qed.

(** the property's clause, literally: vanilla parameters *)
Theorem C03_bound_rate_vanilla :
  forall (g : @game RNum) draw (lo hi : R) (A : nat) budget (stop : R -> bool) strats b1 b2 ran,
    WFgame g -> PerfectRecall g -> ChanceOK g -> PayoffsIn lo hi (g_root g) ->
    (forall pl, Forall (fun a => (a <= A)%nat) (arities g pl)) ->
    @solve_single RNum g Full draw (@p_vanilla RNum) budget stop = (strats, Some (b1, b2), ran) ->
    b1 <= 2 * (hi - lo) * INR (num_infosets g) * sqrt (INR A) / sqrt (INR (N.to_nat ran)) /\
    b2 <= 2 * (hi - lo) * INR (num_infosets g) * sqrt (INR A) / sqrt (INR (N.to_nat ran)).
Proof. exact bound_rate_vanilla_div. Qed.

(** every prefix of the unthresholded run: the bound after [t] iterations; it tends to zero *)
Theorem C03_bound_at_rate :
  forall (g : @game RNum) draw (p : @params RNum) (lo hi : R) (A : nat),
    WFgame g -> PerfectRecall g -> ChanceOK g -> PayoffsIn lo hi (g_root g) ->
    (forall pl, Forall (fun a => (a <= A)%nat) (arities g pl)) ->
    forall t b, bound_at g Full draw p t = Some b ->
                b * sqrt (INR t) <= 2 * (hi - lo) * INR (num_infosets g) * sqrt (INR A).
Proof. exact bound_at_rate. Qed.

(** 4. clause 2 for the LCFR preset: regrets and average strategy are weighted by the same
       weights t, so the decomposition / realisation argument of C02 goes through with weights:
       true regret <= b1 + b2, hence the rate (every stop predicate) *)
Theorem C03_true_regret_rate_lcfr :
  forall (g : @game RNum) draw (lo hi : R) (A : nat),
    WFgame g -> PerfectRecall g -> ChanceOK g -> PayoffsIn lo hi (g_root g) ->
    (forall pl, Forall (fun a => (a <= A)%nat) (arities g pl)) ->
    forall budget (stop : R -> bool) strats b1 b2 ran,
      @solve_single RNum g Full draw (@p_lcfr RNum) budget stop = (strats, Some (b1, b2), ran) ->
      let T := INR (N.to_nat ran) in
      @si_regret RNum (@info RNum g strats) <=
      6 * (hi - lo) * INR (num_infosets g) * (sqrt (INR A) + 1 / sqrt T) / sqrt T.
Proof. exact lcfr_true_regret_rate_C03. Qed.

Theorem C03_lcfr_bound_dominates_sum :
  forall (g : @game RNum) draw budget (stop : R -> bool) strats b1 b2 ran,
    WFgame g -> PerfectRecall g -> ChanceOK g ->
    @solve_single RNum g Full draw (@p_lcfr RNum) budget stop = (strats, Some (b1, b2), ran) ->
    @si_regret RNum (@info RNum g strats) <= 1 * (b1 + b2) /\ 0 <= b1 /\ 0 <= b2.
Proof. exact lcfr_bound_dominates. Qed.

(** for LCFR the *maximum* of the two bounds does not dominate the true regret (which is why
    C02 is stated for vanilla parameters only): a witness *)
Theorem C03_lcfr_max_bound_refuted :
  forall draw : @oracle RNum,
  exists (g : @game RNum) (budget : nat) (stop : R -> bool) (strats : list R * list R) (b1 b2 : R) (ran : N),
    WFgame g /\ PerfectRecall g /\ ChanceOK g /\
    @solve_single RNum g Full draw (@p_lcfr RNum) budget stop = (strats, Some (b1, b2), ran) /\
    Rmax b1 b2 < @si_regret RNum (@info RNum g strats) /\
    @si_regret RNum (@info RNum g strats) <= b1 + b2.
Proof. exact lcfr_max_bound_refuted. Qed.

(** 5. clause 2 for the three presets whose regret discount and averaging weights differ
       (cfr_plus, dcfr, dcfr_prune): summation by parts over the discounted regrets
       ([abel_weighted]), lower bounds on the discounted cumulative regrets, the weighted
       decomposition and average realisation ([theories/Decomposition.v],
       [theories/AvgRealisation.v], [theories/DiscountedBound.v]); every stop predicate *)
Definition C03_true_regret_rate_presets_statement : Prop :=
  forall (g : @game RNum) draw (p : @params RNum) (lo hi : R) (A : nat) budget strats b1 b2 ran,
    In p [@p_cfr_plus RNum; @p_dcfr RNum; @p_dcfr_prune RNum] ->
    WFgame g -> PerfectRecall g -> ChanceOK g -> PayoffsIn lo hi (g_root g) ->
    (forall pl, Forall (fun a => (a <= A)%nat) (arities g pl)) ->
    @solve_single RNum g Full draw p budget (fun _ => false) = (strats, Some (b1, b2), ran) ->
    let T := INR (N.to_nat ran) in
    @si_regret RNum (@info RNum g strats) <=
    6 * (hi - lo) * INR (num_infosets g) * (sqrt (INR A) + 1 / sqrt T) / sqrt T.

Theorem C03_true_regret_rate_presets : C03_true_regret_rate_presets_statement.
Proof. exact C03_true_regret_rate_presets_proved. Qed.

(** how far the returned bounds are from the true regret for these presets *)
Theorem C03_cfr_plus_bound_dominates :
  forall (g : @game RNum) draw budget (stop : R -> bool) strats b1 b2 ran,
    WFgame g -> PerfectRecall g -> ChanceOK g ->
    @solve_single RNum g Full draw (@p_cfr_plus RNum) budget stop = (strats, Some (b1, b2), ran) ->
    @si_regret RNum (@info RNum g strats) <= 3 / 2 * (b1 + b2) /\ 0 <= b1 /\ 0 <= b2.
Proof. intros g draw budget stop strats b1 b2 ran H1 H2 H3 E. exact (cfr_plus_bound_dominates g H1 draw budget stop strats b1 b2 ran H2 H3 E). Qed.

(** Non-vacuity: matching pennies (D = 2, one infoset per player, two actions). *)
Example C03_example :
  forall draw budget (stop : R -> bool),
    budget <> 0%nat ->
    exists strats b1 b2 ran,
      @solve_single RNum mp_game Full draw (@p_vanilla RNum) budget stop = (strats, Some (b1, b2), ran) /\
      b1 * sqrt (INR (N.to_nat ran)) <= 4 * sqrt 2 /\ b2 * sqrt (INR (N.to_nat ran)) <= 4 * sqrt 2.
Proof. exact mp_rate_exists. Qed.

Print Assumptions C03_rm_potential.
Print Assumptions C03_increment_orthogonal.
Print Assumptions C03_cf_mass_le_1.
Print Assumptions C03_increment_bounded.
Print Assumptions C03_bound_rate.
Print Assumptions C03_bound_rate_vanilla.
Print Assumptions C03_bound_at_rate.
Print Assumptions C03_true_regret_rate_lcfr.
Print Assumptions C03_lcfr_bound_dominates_sum.
Print Assumptions C03_lcfr_max_bound_refuted.
Print Assumptions C03_true_regret_rate_presets.
Print Assumptions C03_cfr_plus_bound_dominates.
Print Assumptions C03_example.
